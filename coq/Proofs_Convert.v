(* Proofs_Convert.v — C09: the conversion functions of ncx.c AS BUILT (Gen_ncx.ncx_table, interpreted
   by Convert.conv1/convn) against the mathematical specification Convert.spec_conv.

   Method.  A source value is placed on one integer axis: sc v = value * 2^1074 (exact for every
   integer and every finite float/double).  On that axis a C comparison of the table is an integer
   comparison (vcmp_sc), truncation is Z.quot by 2^1074 (ftrunc_sc), the destination range is an
   interval [dst_lo, dst_hi].  `run_tests_generic` evaluates an arbitrary decision list
   symbolically; `entry_chk` is a boolean static check of one table entry whose soundness
   (`entry_sound`) gives  model = specification  for EVERY source value outside the computed
   exclusion set `exclb` (values the code accepts although they are out of range, NaN into integer
   types, missing infinity tests).  The checks are then evaluated on the whole generated table by
   vm_compute (a finite domain: 308 functions), in a form that compares constants by the model's own
   vcmp instead of building the scaled numbers (`entry_chkc`, equal to `entry_chk` by `entry_chk_c`); the quantification over source values
   is never sampled.  If ncx.m4 changes a bound, `table_chk`/`table_noexcl` stop computing to true. *)
From Coq Require Import ZArith List Bool Lia ZifyBool.
From Pnc Require Import Gen_ncx Convert.
Import ListNotations.
Local Open Scope Z_scope.
(* ZifyBool installs a hook that splits on every boolean of a goal; with it the lia certificates of
   run_tests_generic take coqchk ten seconds instead of a few hundredths *)
Ltac Zify.zify_post_hook ::= idtac.

(* integer wrap *)
Lemma wrap_id : forall t z, is_float t = false -> imin t <= z <= imax t -> wrap t z = z.
Proof.
  intros t z _ H. unfold wrap, imin, imax in *.
  assert (Hb : 1 <= ibits t) by (destruct t; cbn; lia).
  set (h := 2 ^ (ibits t - 1)) in *.
  assert (Hh : 0 < h) by (apply Z.pow_pos_nonneg; lia).
  replace (2 ^ ibits t) with (h * 2) in * by (unfold h; rewrite Z.mul_comm, <- Z.pow_succ_r by lia; f_equal; lia).
  cbv zeta. rewrite Z.div_mul by lia.
  destruct (isigned t); cbn [andb]; [destruct (Z.neg_nonneg_cases z) |].
  - (* negative: the residue is z + 2h, in the upper half *)
    replace (z mod (h * 2)) with (z + h * 2)
      by (rewrite <- (Z.mod_add z 1 (h * 2)), Z.mul_1_l by lia; symmetry; apply Z.mod_small; lia).
    replace (h <=? z + h * 2) with true by lia. lia.
  - rewrite Z.mod_small by lia. replace (h <=? z) with false by lia. reflexivity.
  - rewrite Z.mod_small by lia. reflexivity.
Qed.
Local Arguments Z.pow : simpl never.

Lemma forallb_In : forall A (p : A -> bool) l x, forallb p l = true -> In x l -> p x = true.
Proof. intros A p l x H. apply forallb_forall. exact H. Qed.
Lemma forallb_ext : forall A (p q : A -> bool) l, (forall x, p x = q x) -> forallb p l = forallb q l.
Proof. intros A p q l H. induction l as [| x l IH]; cbn; [| rewrite H, IH]; reflexivity. Qed.
Lemma map_eq_In : forall A B (g h : A -> B) l x, map g l = map h l -> In x l -> g x = h x.
Proof.
  induction l as [| y l IH]; cbn; intros x E H; [contradiction|].
  injection E as E1 E2. destruct H as [<- | H]; auto.
Qed.
Lemma nth_in_range : forall A (l : list A) i, 0 <= i < Z.of_nat (length l) ->
  exists x, nth_error l (Z.to_nat i) = Some x.
Proof.
  intros A l i H. destruct (nth_error l (Z.to_nat i)) eqn:E; [eauto|]. apply nth_error_None in E. lia.
Qed.

Definition K : Z := 2 ^ 1074.
Lemma K_pos : 0 < K. Proof. unfold K. apply Z.pow_pos_nonneg; lia. Qed.

Definition sc (v : val) : Z :=
  match v with VI z => z * K | VF n m e => smant n m * 2 ^ (e + 1074) | _ => 0 end.

Lemma dy_cmp_sc : forall m1 e1 m2 e2, -1074 <= e1 -> -1074 <= e2 ->
  dy_cmp m1 e1 m2 e2 = (m1 * 2 ^ (e1 + 1074) ?= m2 * 2 ^ (e2 + 1074)).
Proof.
  intros m1 e1 m2 e2 H1 H2. unfold dy_cmp.
  set (e0 := Z.min e1 e2).
  assert (He0 : -1074 <= e0 /\ e0 <= e1 /\ e0 <= e2) by (unfold e0; lia).
  replace (e1 + 1074) with ((e1 - e0) + (e0 + 1074)) by lia.
  replace (e2 + 1074) with ((e2 - e0) + (e0 + 1074)) by lia.
  rewrite (Z.pow_add_r 2 (e1 - e0)) by lia. rewrite (Z.pow_add_r 2 (e2 - e0)) by lia. rewrite !Z.mul_assoc.
  apply Zmult_compare_compat_r. apply Z.lt_gt. apply Z.pow_pos_nonneg; lia.
Qed.

Lemma ftrunc_sc : forall n m e, 0 <= m -> -1074 <= e ->
  ftrunc n m e = Z.quot (smant n m * 2 ^ (e + 1074)) K.
Proof.
  intros n m e Hm He. unfold ftrunc, K.
  destruct (0 <=? e) eqn:E.
  - apply Z.leb_le in E.
    rewrite Z.pow_add_r by lia. rewrite Z.mul_assoc.
    rewrite Z.quot_mul by (apply Z.pow_nonzero; lia).
    destruct n; unfold smant; ring.
  - apply Z.leb_gt in E.
    replace (2 ^ 1074) with (2 ^ ((- e) + (e + 1074))) by (f_equal; lia).
    rewrite (Z.pow_add_r 2 (- e) (e + 1074)) by lia.
    assert (HA : 0 < 2 ^ (e + 1074)) by (apply Z.pow_pos_nonneg; lia).
    assert (HB : 0 < 2 ^ (- e)) by (apply Z.pow_pos_nonneg; lia).
    rewrite Z.quot_mul_cancel_r by lia.
    destruct n; unfold smant.
    + rewrite Z.quot_opp_l by lia. rewrite Z.quot_div_nonneg by lia. reflexivity.
    + rewrite Z.quot_div_nonneg by lia. reflexivity.
Qed.

Lemma quot_range : forall a b X, a * K <= X <= b * K -> a <= Z.quot X K <= b.
Proof.
  intros a b X [H1 H2]. pose proof K_pos as HK.
  split.
  - rewrite <- (Z.quot_mul a K) by lia. apply Z.quot_le_mono; lia.
  - rewrite <- (Z.quot_mul b K) by lia. apply Z.quot_le_mono; lia.
Qed.

(* scaled values *)
Definition okv (v : val) : Prop :=
  match v with VI _ => True | VF _ m e => 0 <= m /\ -1074 <= e | _ => False end.
Definition okk (k : kconst) : bool :=
  match k with KI _ => true | KF _ m e => (0 <=? m) && (-1074 <=? e) end.
Definition sck (k : kconst) : Z := sc (kval k).

Lemma okk_okv : forall k, okk k = true -> okv (kval k).
Proof. intros [z | n m e] H; cbn in *; [exact I | lia]. Qed.

Lemma sc_VI_pow : forall z, z * K = z * 2 ^ (0 + 1074).
Proof. intros; reflexivity. Qed.

Lemma vcmp_sc : forall a b, okv a -> okv b -> vcmp a b = Some (sc a ?= sc b).
Proof.
  intros [x | n1 m1 e1 | | ] [y | n2 m2 e2 | | ] Ha Hb; cbn in Ha, Hb; try contradiction; cbn [vcmp sc].
  1: f_equal; apply Zmult_compare_compat_r; pose proof K_pos; lia.
  all: rewrite dy_cmp_sc by lia; reflexivity.
Qed.

Lemma wf_VF : forall t n m e, wf_val t (VF n m e) = true ->
  is_float t = true /\ 0 <= m < 2 ^ fprec t /\ femin t <= e <= femax t.
Proof. intros t n m e H. cbn in H. destruct (is_float t); [lia | discriminate]. Qed.

Lemma fmt_le : forall t, 0 < fprec t <= 53 /\ -1074 <= femin t /\ -1074 <= femax t <= 971.
Proof. destruct t; cbn; lia. Qed.

Lemma wf_okv : forall t v, wf_val t v = true -> (match v with VInf _ | VNaN => False | _ => True end) -> okv v.
Proof.
  intros t [z | n m e | n | ] H Hf; try contradiction; [exact I |].
  apply wf_VF in H. pose proof (fmt_le t). cbn. lia.
Qed.

(* the powers stay atoms for lia: a numeral of 2000 bits in a certificate is dear to check *)
Lemma scaled_le : forall n m e M E, 0 <= m <= M -> -1074 <= e <= E ->
  - (M * 2 ^ (E + 1074)) <= smant n m * 2 ^ (e + 1074) <= M * 2 ^ (E + 1074).
Proof.
  intros n m e M E Hm He.
  assert (0 < 2 ^ (e + 1074) <= 2 ^ (E + 1074))
    by (split; [apply Z.pow_pos_nonneg | apply Z.pow_le_mono_r]; lia).
  assert (0 <= m * 2 ^ (e + 1074) <= M * 2 ^ (E + 1074))
    by (split; [apply Z.mul_nonneg_nonneg | apply Z.mul_le_mono_nonneg]; lia).
  destruct n; unfold smant; lia.
Qed.

(* conversion chains that keep every source value *)
Fixpoint chain_pres (lo hi : Z) (ch : list cty) : bool :=
  match ch with
  | [] => true
  | t :: r => negb (is_float t) && (imin t <=? lo) && (hi <=? imax t) && chain_pres lo hi r
  end.
Definition chain_id (S : cty) (ch : list cty) : bool :=
  if is_float S then forallb (fun t => cty_eqb t Double) ch else chain_pres (imin S) (imax S) ch.

Lemma cty_eqb_eq : forall a b, cty_eqb a b = true -> a = b.
Proof. destruct a, b; cbn; congruence. Qed.

Lemma chain_pres_ok : forall ch lo hi z, chain_pres lo hi ch = true -> lo <= z <= hi ->
  cchain ch (VI z) = Some (VI z).
Proof.
  induction ch as [| t r IH]; intros lo hi z H Hz; cbn in *; [reflexivity|].
  apply andb_prop in H as [H H4]. apply andb_prop in H as [H H3]. apply andb_prop in H as [H1 H2].
  apply negb_true_iff in H1. rewrite H1. rewrite wrap_id by (auto; lia). eauto.
Qed.

Lemma chain_id_ok : forall S ch v, chain_id S ch = true -> wf_val S v = true -> cchain ch v = Some v.
Proof.
  intros S ch v H Hw. unfold chain_id in H. destruct (is_float S) eqn:Ef.
  - revert H. induction ch as [| t r IH]; cbn; intros H; [reflexivity|].
    apply andb_prop in H as [H1 H2]. apply cty_eqb_eq in H1. subst t.
    destruct v as [z | n m e | n | ]; cbn in Hw |- *; [rewrite Ef in Hw; discriminate | auto ..].
  - destruct v as [z | n m e | n | ]; cbn in Hw; rewrite Ef in Hw; cbn in Hw; try discriminate.
    eapply chain_pres_ok; eauto. lia.
Qed.

(* the fill action *)
Definition val_eqb (a b : val) : bool :=
  match a, b with
  | VI x, VI y => x =? y
  | VF n1 m1 e1, VF n2 m2 e2 => Bool.eqb n1 n2 && (m1 =? m2) && (e1 =? e2)
  | VInf a, VInf b => Bool.eqb a b
  | VNaN, VNaN => true
  | _, _ => false
  end.
Lemma val_eqb_eq : forall a b, val_eqb a b = true -> a = b.
Proof.
  intros [x | n1 m1 e1 | n1 | ] [y | n2 m2 e2 | n2 | ]; cbn; intros H; try discriminate; auto.
  - f_equal; lia.
  - apply andb_prop in H as [H H3]. apply andb_prop in H as [H1 H2]. apply eqb_prop in H1. f_equal; lia || auto.
  - apply eqb_prop in H. congruence.
Qed.

Definition is_none {A} (o : option A) : bool := match o with None => true | _ => false end.

Definition act_fill_ok (d : cdir) (D : cty) (needp : bool) (a : cact) : bool :=
  match a, d with
  | AFill true (Some k), Put => val_eqb (kval k) (fill_of_cty D)
  | AFill true None, Put => negb needp
  | AFill false (Some k), Get => val_eqb (kval k) (fill_of_cty D)
  | _, _ => false
  end.
Lemma act_fill_ok_sound : forall d D fillp a, act_fill_ok d D (is_none fillp) a = true ->
  do_act a fillp = RRange (Some (spec_fill d D fillp)).
Proof.
  intros d D fillp [p [k|] | k] H; destruct d; cbn in H; try discriminate; destruct p; try discriminate.
  - apply val_eqb_eq in H. destruct fillp; cbn; rewrite ?H; reflexivity.
  - apply val_eqb_eq in H. cbn. rewrite H. destruct fillp; reflexivity.
  - destruct fillp; cbn in *; [reflexivity | discriminate].
Qed.

(* decision lists over the scaled source value *)
Lemma test_op_cmp : forall op x y, test_op op (Some (x ?= y)) =
  match op with
  | OGt => y <? x | OLt => x <? y | OGe => y <=? x | OLe => x <=? y | OEq => x =? y | ONe => negb (x =? y)
  end.
Proof. intros op x y. destruct (Z.compare_spec x y), op; cbn [test_op]; lia. Qed.

Section Tests.
  Variables (S : cty) (d : cdir) (D : cty) (needp dint : bool) (dstlo dsthi : Z).

  Definition test_ok (t : ctest) : bool :=
    cty_eqb (chain_ty S (t_chain t)) (t_cmp t) && chain_id S (t_chain t) && okk (t_k t) &&
    match t_op t, t_act t with
    | OGt, AFill _ _ => act_fill_ok d D needp (t_act t) && (dsthi <=? sck (t_k t))
    | OGe, AFill _ _ => act_fill_ok d D needp (t_act t) && (dsthi <? sck (t_k t))
    | OLt, AFill _ _ => act_fill_ok d D needp (t_act t) && (sck (t_k t) <=? dstlo)
    | OLe, AFill _ _ => act_fill_ok d D needp (t_act t) && (sck (t_k t) <? dstlo)
    | OEq, AStore (KI s) =>
        dint && (((dstlo <=? sck (t_k t)) && (sck (t_k t) <=? dsthi) && (s =? Z.quot (sck (t_k t)) K))
                 || (sck (t_k t) <? dstlo) || (dsthi <? sck (t_k t)))
    | _, _ => false
    end.

  Fixpoint bounds (ts : list ctest) (lo hi : Z) : Z * Z :=
    match ts with
    | [] => (lo, hi)
    | t :: r => match t_op t with
                | OGt => bounds r lo (Z.min hi (sck (t_k t)))
                | OGe => bounds r lo (Z.min hi (sck (t_k t) - 1))
                | OLt => bounds r (Z.max lo (sck (t_k t))) hi
                | OLe => bounds r (Z.max lo (sck (t_k t) + 1)) hi
                | _ => bounds r lo hi
                end
    end.
  (* Eq tests whose constant is outside the destination range *)
  Fixpoint eq_harm (ts : list ctest) : list Z :=
    match ts with
    | [] => []
    | t :: r => match t_op t with
                | OEq => if (dstlo <=? sck (t_k t)) && (sck (t_k t) <=? dsthi) then eq_harm r
                         else sck (t_k t) :: eq_harm r
                | _ => eq_harm r
                end
    end.
  (* values the code accepts although they are outside the destination range *)
  Definition gapb (ts : list ctest) (lo hi X : Z) : bool :=
    let '(lo', hi') := bounds ts lo hi in
    ((dsthi <? X) && (X <=? hi')) || ((lo' <=? X) && (X <? dstlo)) || existsb (Z.eqb X) (eq_harm ts).

  Lemma run_tests_cons_ok : forall t r fillp v dflt, test_ok t = true -> wf_val S v = true ->
    run_tests S (t :: r) fillp v dflt =
      if test_op (t_op t) (vcmp v (kval (t_k t))) then do_act (t_act t) fillp else run_tests S r fillp v dflt.
  Proof.
    intros t r fillp v dflt Ht Hw. unfold test_ok in Ht.
    apply andb_prop in Ht as [Ht _]. apply andb_prop in Ht as [Ht _]. apply andb_prop in Ht as [Hty Hch].
    cbn [run_tests]. rewrite Hty, (chain_id_ok _ _ _ Hch Hw). reflexivity.
  Qed.

  Lemma fill_fires : forall fillp a dflt X, act_fill_ok d D (is_none fillp) a = true ->
    ~ dstlo <= X <= dsthi ->
    do_act a fillp = if (dstlo <=? X) && (X <=? dsthi) then dflt else RRange (Some (spec_fill d D fillp)).
  Proof.
    intros fillp a dflt X Ha HX. rewrite (act_fill_ok_sound _ _ _ _ Ha).
    destruct ((dstlo <=? X) && (X <=? dsthi)) eqn:E; [exfalso; lia | reflexivity].
  Qed.

  Lemma run_tests_generic : forall fillp v dflt, is_none fillp = needp -> wf_val S v = true -> okv v ->
    forall ts lo hi, forallb test_ok ts = true -> lo <= sc v <= hi -> gapb ts lo hi (sc v) = false ->
    (dint = true -> dstlo <= sc v <= dsthi -> dflt = ROk (VI (Z.quot (sc v) K))) ->
    run_tests S ts fillp v dflt =
      if (dstlo <=? sc v) && (sc v <=? dsthi) then dflt else RRange (Some (spec_fill d D fillp)).
  Proof.
    intros fillp v dflt Hnp Hw Hv. set (X := sc v).
    induction ts as [| t r IH]; intros lo hi Hok HX Hgap Hd.
    - cbn. unfold gapb in Hgap. cbn in Hgap.
      destruct ((dstlo <=? X) && (X <=? dsthi)) eqn:E; [reflexivity | exfalso; lia].
    - cbn [forallb] in Hok. apply andb_prop in Hok as [Ht Hr]. rewrite (run_tests_cons_ok _ _ _ _ _ Ht Hw).
      unfold test_ok in Ht. apply andb_prop in Ht as [Ht Hact]. apply andb_prop in Ht as [_ Hk].
      rewrite (vcmp_sc _ _ Hv (okk_okv _ Hk)), test_op_cmp.
      fold X. fold (sck (t_k t)).
      unfold gapb in Hgap. cbn [bounds eq_harm] in Hgap.
      destruct (t_op t) eqn:Eop; try discriminate Hact;
        destruct (t_act t) as [p dk | ks] eqn:Eact; try discriminate Hact; cbv iota in Hgap |- *.
      (* the four fill tests: the test holds only outside the destination range (test_ok), and a value it
         lets pass is inside the narrowed bounds *)
      1-4: apply andb_prop in Hact as [Ha Hb]; rewrite <- Eact, <- Hnp in Ha;
        match goal with |- (if ?c then _ else _) = _ => destruct c eqn:T end;
        [ rewrite <- Eact; apply fill_fires; [exact Ha | lia]
        | eapply IH; [exact Hr | | exact Hgap | exact Hd]; lia ].
      destruct ks as [s | ? ? ?]; try discriminate Hact.
      apply andb_prop in Hact as [Hdi Hb].
      destruct (X =? sck (t_k t)) eqn:T.
      + apply Z.eqb_eq in T.
        destruct ((dstlo <=? sck (t_k t)) && (sck (t_k t) <=? dsthi)) eqn:Ein.
        * cbn [do_act kval].
          assert (Hs : s = Z.quot (sck (t_k t)) K) by lia.
          rewrite T. rewrite Ein. rewrite Hs.
          symmetry. rewrite <- T. apply Hd; [exact Hdi | lia].
        * exfalso. cbn [existsb] in Hgap. rewrite <- T in Hgap. rewrite Z.eqb_refl in Hgap.
          destruct (bounds r lo hi). rewrite orb_true_l, orb_true_r in Hgap. discriminate.
      + apply (IH lo hi); auto.
        destruct ((dstlo <=? sck (t_k t)) && (sck (t_k t) <=? dsthi)); auto.
        cbn [existsb] in Hgap. unfold gapb. destruct (bounds r lo hi) as [lo' hi'].
        apply orb_false_iff in Hgap as [Hg1 Hg3]. apply orb_false_iff in Hg3 as [_ Hg3]. rewrite Hg1, Hg3. reflexivity.
  Qed.
End Tests.

Arguments test_ok S d D needp dint dstlo dsthi t : assert.

(* the flag only matters for a fill action without a default constant *)
Lemma tests_ok_null : forall S d D needp dint lo hi ts,
  forallb (fun t => match t_act t with AFill _ None => false | _ => true end) ts = true ->
  forallb (test_ok S d D needp dint lo hi) ts = forallb (test_ok S d D false dint lo hi) ts.
Proof.
  induction ts as [| t r IH]; cbn [forallb]; intros H; [reflexivity|].
  apply andb_prop in H as [Ht Hr]. rewrite (IH Hr). unfold test_ok, act_fill_ok.
  destruct (t_act t) as [[|] [k|] | k]; try discriminate Ht; reflexivity.
Qed.

(* NaN and infinities *)
Definition is_upper (t : ctest) : bool := match t_op t with OGt | OGe => true | _ => false end.
Definition is_lower (t : ctest) : bool := match t_op t with OLt | OLe => true | _ => false end.

(* values without a place on the scaled axis: NaN passes every test, an infinity meets the tests of its side *)
Lemma run_tests_nonfinite : forall S d D needp dint lo hi fillp dflt v ts, is_float S = true ->
  match v with VInf _ => is_none fillp = needp | VNaN => True | _ => False end ->
  forallb (test_ok S d D needp dint lo hi) ts = true ->
  run_tests S ts fillp v dflt =
    match v with
    | VInf n => if existsb (if n then is_lower else is_upper) ts then RRange (Some (spec_fill d D fillp)) else dflt
    | _ => dflt
    end.
Proof.
  intros S d D needp dint lo hi fillp dflt v ts HS Hv.
  assert (Hw : wf_val S v = true) by (destruct v; try contradiction; exact HS).
  induction ts as [| t r IH]; intros Hok; [destruct v as [| | [|] |]; reflexivity |].
  cbn [forallb] in Hok. apply andb_prop in Hok as [Ht Hr].
  rewrite (run_tests_cons_ok _ _ _ _ _ _ _ _ _ _ _ _ Ht Hw), (IH Hr).
  unfold test_ok in Ht. apply andb_prop in Ht as [_ Hact].
  destruct v as [z | n0 m e | n | ]; try contradiction.
  - assert (Hc : vcmp (VInf n) (kval (t_k t)) = Some (if n then Lt else Gt)) by (destruct (t_k t); reflexivity).
    rewrite Hc. cbn [existsb].
    destruct (t_op t) eqn:Eop; try discriminate Hact;
      destruct (t_act t) as [p dk | ks] eqn:Eact; try discriminate Hact;
      try (apply andb_prop in Hact as [Ha _]; rewrite <- Eact, <- Hv in Ha; apply act_fill_ok_sound in Ha;
           rewrite Eact in Ha);
      destruct n; unfold is_lower, is_upper; rewrite Eop; cbn [test_op orb]; auto.
  - cbn [vcmp]. destruct (t_op t); try discriminate Hact; reflexivity.
Qed.

(* the destination range on the scaled axis *)
Definition fmaxsc (D : cty) : Z := fmax_m D * 2 ^ (femax D + 1074).
Definition dst_lo (D : cty) : Z := if is_float D then - fmaxsc D else imin D * K.
Definition dst_hi (D : cty) : Z := if is_float D then fmaxsc D else imax D * K.

Lemma leb_scale : forall a b, (a <=? b) = (a * K <=? b * K).
Proof.
  intros a b. pose proof K_pos as HK. generalize dependent K. intros k HK.
  destruct (Z.leb_spec a b), (Z.leb_spec (a * k) (b * k)); try reflexivity; exfalso; nia.
Qed.

Lemma cmp_ge_leb : forall X lo, (match X ?= lo with Lt => false | _ => true end) = (lo <=? X).
Proof. intros. apply Z.geb_leb. Qed.
Lemma cmp_le_leb : forall X hi, (match X ?= hi with Gt => false | _ => true end) = (X <=? hi).
Proof. reflexivity. Qed.

Lemma spec_in_range_sc : forall D v, okv v ->
  (match v with VI _ => is_float D = false | _ => True end) ->
  spec_in_range D v = (dst_lo D <=? sc v) && (sc v <=? dst_hi D).
Proof.
  intros D [z | n m e | | ] Hv Hc; cbn in Hv; try contradiction.
  - cbn [spec_in_range sc]. unfold dst_lo, dst_hi. rewrite Hc. rewrite <- !leb_scale. reflexivity.
  - cbn [spec_in_range sc]. unfold dst_lo, dst_hi. pose proof (fmt_le D).
    destruct (is_float D).
    + rewrite !dy_cmp_sc by lia. unfold fmaxsc.
      rewrite cmp_ge_leb, cmp_le_leb. f_equal. f_equal. ring.
    + rewrite !dy_cmp_sc by lia. change (2 ^ (0 + 1074)) with K.
      rewrite cmp_ge_leb, cmp_le_leb. reflexivity.
Qed.

(* the in-range path *)
Definition casts_ok (S D : cty) (casts : list cty) : bool :=
  cty_eqb (chain_ty S casts) D &&
  (if is_float D then (match casts with [t] => cty_eqb t D | _ => false end)
   else if is_float S then
     (match casts with
      | t1 :: r => negb (is_float t1) && (imin t1 <=? imin D) && (imax D <=? imax t1) &&
                   chain_pres (imin D) (imax D) r
      | [] => false
      end)
   else chain_pres (Z.max (imin S) (imin D)) (Z.min (imax S) (imax D)) casts).

Lemma casts_ok_sound : forall S D casts v, casts_ok S D casts = true -> wf_val S v = true ->
  spec_in_range D v = true -> cchain casts v = Some (spec_value D v).
Proof.
  intros S D casts v H Hw Hr. unfold casts_ok in H. apply andb_prop in H as [_ H].
  destruct (is_float D) eqn:ED.
  - destruct casts as [| t [| ? ?]]; try discriminate H. apply cty_eqb_eq in H. subst t.
    destruct v as [z | n m e | n | ]; cbn [cchain cconv spec_value]; rewrite ?ED.
    + reflexivity.
    + destruct D; try discriminate ED; reflexivity.
    + cbn in Hr. discriminate.
    + reflexivity.
  - destruct (is_float S) eqn:ES.
    + destruct casts as [| t1 r]; try discriminate H.
      apply andb_prop in H as [H H4]. apply andb_prop in H as [H H3]. apply andb_prop in H as [H1 H2].
      apply negb_true_iff in H1.
      destruct v as [z | n m e | n | ]; cbn in Hw; rewrite ?ES in Hw; try discriminate Hw;
        try (cbn in Hr; rewrite ?ED in Hr; discriminate Hr).
      assert (Hv : okv (VF n m e)) by (cbn; destruct S; cbn in Hw; try discriminate; lia).
      rewrite spec_in_range_sc in Hr by (auto; exact I).
      unfold dst_lo, dst_hi in Hr. rewrite ED in Hr. cbn [sc] in Hr.
      assert (Hq : imin D <= ftrunc n m e <= imax D).
      { cbn in Hv. rewrite ftrunc_sc by lia. apply quot_range. lia. }
      cbn [cchain cconv spec_value]. rewrite H1, ED.
      replace ((imin t1 <=? ftrunc n m e) && (ftrunc n m e <=? imax t1)) with true by (symmetry; lia).
      eapply chain_pres_ok; eauto.
    + destruct v as [z | n m e | n | ]; cbn in Hw; rewrite ?ES in Hw; cbn in Hw; try discriminate Hw.
      cbn in Hr. rewrite ED in Hr. cbn [spec_value]. rewrite ED.
      eapply chain_pres_ok; eauto. lia.
Qed.

(* the source range on the scaled axis *)
Definition BIG : Z := 2 ^ 53 * 2 ^ (971 + 1074).
Definition src_lo (S : cty) : Z := if is_float S then - BIG else imin S * K.
Definition src_hi (S : cty) : Z := if is_float S then BIG else imax S * K.

Lemma sc_bounds : forall S v, wf_val S v = true -> okv v -> src_lo S <= sc v <= src_hi S.
Proof.
  intros S [z | n m e | | ] Hw Hv; try contradiction; unfold src_lo, src_hi.
  - cbn in Hw. destruct (is_float S); cbn in Hw; [discriminate|]. cbn [sc]. pose proof K_pos. nia.
  - destruct (wf_VF _ _ _ _ Hw) as (ES & Hm & He). rewrite ES. pose proof (fmt_le S).
    assert (2 ^ fprec S <= 2 ^ 53) by (apply Z.pow_le_mono_r; lia).
    apply scaled_le; lia.
Qed.

(* bytes written by hand *)
Fixpoint zrange (lo : Z) (n : nat) : list Z := match n with O => [] | Datatypes.S k => lo :: zrange (lo + 1) k end.
Lemma zrange_in : forall n lo z, lo <= z < lo + Z.of_nat n -> In z (zrange lo n).
Proof.
  induction n as [| k IH]; intros lo z H; [lia|]. cbn [zrange].
  destruct (Z.eq_dec z lo); [left; auto | right; apply IH; lia].
Qed.
Definition res_eqb (a b : res) : bool :=
  match a, b with
  | ROk x, ROk y => val_eqb x y
  | _, _ => false
  end.
Definition ext_ok (sext : bool) (S D : cty) : bool :=
  forallb (fun z => implb ((imin S <=? z) && (z <=? imax S) && (imin D <=? z) && (z <=? imax D))
                          (res_eqb (ext_bytes sext D (VI z)) (ROk (VI z)))) (zrange (-128) 384).
Lemma ext_ok_sound : forall sext S D z, ext_ok sext S D = true ->
  -128 <= imin S -> imax S <= 255 -> imin S <= z <= imax S -> imin D <= z <= imax D ->
  ext_bytes sext D (VI z) = ROk (VI z).
Proof.
  intros sext S D z H H1 H2 H3 H4.
  apply (forallb_In _ _ _ z) in H; [| apply zrange_in; change (Z.of_nat 384) with 384; lia]. cbv beta in H.
  replace ((imin S <=? z) && (z <=? imax S) && (imin D <=? z) && (z <=? imax D)) with true in H by (symmetry; lia).
  cbn [implb] in H. destruct (ext_bytes sext D (VI z)); cbn in H; try discriminate.
  apply val_eqb_eq in H. congruence.
Qed.

(* static check of one table entry *)
Definition small_int (S : cty) : bool := match S with Schar | Uchar => true | _ => false end.

Definition entry_chk (needp : bool) (f : cfun) : bool :=
  let S := src_ty f in
  let D := dst_ty f in
  let tests_ok ts := forallb (test_ok S (f_dir f) D needp (negb (is_float D)) (dst_lo D) (dst_hi D)) ts in
  match f_body f with
  | BIdent => same_repr S D
  | BTests ts casts =>
      if same_repr S D then (match ts with [] => true | _ => false end) && chain_id S casts &&
                            cty_eqb (chain_ty S casts) D
      else if is_float D && negb (is_float S) then (match ts with [] => true | _ => false end) && casts_ok S D casts
      else tests_ok ts && casts_ok S D casts
  | BSext ts => negb (same_repr S D) && small_int S && negb (is_float D) && tests_ok ts && ext_ok true S D
  | BZext ts => negb (same_repr S D) && small_int S && negb (is_float D) && tests_ok ts && ext_ok false S D
  | BUnrec => false
  end.

(* source values at which the code deviates from the specification (computed from the entry) *)
Definition exclb (f : cfun) (v : val) : bool :=
  let S := src_ty f in
  let D := dst_ty f in
  if same_repr S D then false
  else if is_float D && negb (is_float S) then false
  else match f_body f with
       | BTests ts _ | BSext ts | BZext ts =>
           match v with
           | VNaN => negb (is_float D)
           | VInf n => negb (existsb (if n then is_lower else is_upper) ts)
           | _ => gapb (dst_lo D) (dst_hi D) ts (src_lo S) (src_hi S) (sc v)
           end
       | _ => false
       end.

(* what exclb says of one value, given the tests of the entry *)
Definition exclv (S D : cty) (ts : list ctest) (v : val) : bool :=
  match v with
  | VNaN => negb (is_float D)
  | VInf n => negb (existsb (if n then is_lower else is_upper) ts)
  | _ => gapb (dst_lo D) (dst_hi D) ts (src_lo S) (src_hi S) (sc v)
  end.

Lemma spec_conv_not_same : forall d S D fillp v, same_repr S D = false ->
  spec_conv d S D fillp v =
    if spec_in_range D v then ROk (spec_value D v) else RRange (Some (spec_fill d D fillp)).
Proof. intros. unfold spec_conv. rewrite H. reflexivity. Qed.

Lemma spec_value_quot : forall D v, okv v -> is_float D = false -> spec_value D v = VI (Z.quot (sc v) K).
Proof.
  intros D [z | n m e | | ] Hv HD; try contradiction; cbn [spec_value sc]; rewrite HD.
  - rewrite Z.quot_mul by (pose proof K_pos; lia). reflexivity.
  - cbn in Hv. rewrite ftrunc_sc by lia. reflexivity.
Qed.

Lemma tests_path : forall f needp ts fillp v dflt,
  let S := src_ty f in let D := dst_ty f in
  same_repr S D = false -> (is_float D && negb (is_float S)) = false ->
  forallb (test_ok S (f_dir f) D needp (negb (is_float D)) (dst_lo D) (dst_hi D)) ts = true ->
  is_none fillp = needp -> wf_val S v = true ->
  exclv S D ts v = false ->
  (spec_in_range D v = true -> dflt = ROk (spec_value D v)) ->
  run_tests S ts fillp v dflt = spec_conv (f_dir f) S D fillp v.
Proof.
  intros f needp ts fillp v dflt S D Hsame Hif Hok Hnp Hw Hex Hd.
  rewrite spec_conv_not_same by exact Hsame.
  assert (Fin : okv v -> match v with VI _ => is_float D = false | _ => True end ->
                gapb (dst_lo D) (dst_hi D) ts (src_lo S) (src_hi S) (sc v) = false ->
                run_tests S ts fillp v dflt =
                if spec_in_range D v then ROk (spec_value D v) else RRange (Some (spec_fill (f_dir f) D fillp))).
  { intros Hv Hc Hg. rewrite spec_in_range_sc by assumption.
    erewrite run_tests_generic; eauto.
    - destruct ((dst_lo D <=? sc v) && (sc v <=? dst_hi D)) eqn:E; [| reflexivity].
      apply Hd. rewrite spec_in_range_sc by assumption. exact E.
    - apply sc_bounds; auto.
    - intros He Hr. rewrite Hd by (rewrite spec_in_range_sc by assumption; lia).
      apply negb_true_iff in He.
      rewrite spec_value_quot by assumption. reflexivity. }
  destruct v as [z | n m e | n | ].
  - apply Fin; [exact I | | exact Hex].
    cbn in Hw. destruct (is_float S); [discriminate|]. rewrite andb_true_r in Hif. exact Hif.
  - apply Fin; [apply (wf_okv S _ Hw I) | exact I | exact Hex].
  - assert (HS : is_float S = true) by (cbn in Hw; exact Hw).
    erewrite run_tests_nonfinite; eauto.
    apply negb_false_iff in Hex. rewrite Hex. reflexivity.
  - assert (HS : is_float S = true) by (cbn in Hw; exact Hw).
    erewrite run_tests_nonfinite; eauto.
    apply negb_false_iff in Hex. cbn [spec_in_range]. rewrite Hex. apply Hd. cbn. exact Hex.
Qed.

Lemma exclb_eq : forall f v, exclb f v =
  if same_repr (src_ty f) (dst_ty f) then false
  else if is_float (dst_ty f) && negb (is_float (src_ty f)) then false
  else match f_body f with
       | BTests ts _ | BSext ts | BZext ts => exclv (src_ty f) (dst_ty f) ts v
       | _ => false
       end.
Proof. reflexivity. Qed.

Lemma ext_path : forall sext needp f ts fillp v,
  let S := src_ty f in let D := dst_ty f in
  negb (same_repr S D) && small_int S && negb (is_float D) &&
    forallb (test_ok S (f_dir f) D needp (negb (is_float D)) (dst_lo D) (dst_hi D)) ts && ext_ok sext S D = true ->
  is_none fillp = needp -> wf_val S v = true ->
  (if same_repr S D then false else if is_float D && negb (is_float S) then false else exclv S D ts v) = false ->
  run_tests S ts fillp v (ext_bytes sext D v) = spec_conv (f_dir f) S D fillp v.
Proof.
  intros sext needp f ts fillp v. cbv zeta. intros Hchk Hnp Hw Hex.
  apply andb_prop in Hchk as [Hchk Hext]. apply andb_prop in Hchk as [Hchk Hts].
  apply andb_prop in Hchk as [Hchk HD]. apply andb_prop in Hchk as [Hsame Hsm].
  apply negb_true_iff in Hsame, HD. rewrite Hsame, HD in Hex. cbn [andb] in Hex.
  eapply tests_path; eauto; [rewrite HD; reflexivity |].
  intros Hr.
  assert (ES : is_float (src_ty f) = false) by (destruct (src_ty f); try discriminate Hsm; reflexivity).
  destruct v as [z | n m e | n | ]; cbn in Hw; rewrite ?ES in Hw; cbn in Hw; try discriminate Hw.
  cbn in Hr. rewrite HD in Hr. cbn [spec_value]. rewrite HD.
  eapply ext_ok_sound; eauto; try lia; destruct (src_ty f); try discriminate Hsm; cbn; lia.
Qed.

Theorem entry_sound : forall needp f, entry_chk needp f = true ->
  forall fillp v, is_none fillp = needp -> wf_val (src_ty f) v = true -> exclb f v = false ->
  conv1 f fillp v = spec_conv (f_dir f) (src_ty f) (dst_ty f) fillp v.
Proof.
  intros needp f Hchk fillp v Hnp Hw Hex.
  unfold entry_chk in Hchk. unfold conv1. rewrite exclb_eq in Hex.
  destruct (f_body f) as [| ts casts | ts | ts | ]; try discriminate Hchk.
  - unfold spec_conv. rewrite Hchk. reflexivity.
  - destruct (same_repr (src_ty f) (dst_ty f)) eqn:Esame.
    + apply andb_prop in Hchk as [Hchk Hty]. apply andb_prop in Hchk as [Hts Hch].
      destruct ts; try discriminate Hts. rewrite Hty. cbn [negb run_tests].
      rewrite (chain_id_ok _ _ _ Hch Hw). unfold spec_conv. rewrite Esame. reflexivity.
    + destruct (is_float (dst_ty f) && negb (is_float (src_ty f))) eqn:Eif.
      * apply andb_prop in Hchk as [Hts Hc]. destruct ts; try discriminate Hts.
        pose proof Hc as Hc'. unfold casts_ok in Hc'. apply andb_prop in Hc' as [Hty _]. rewrite Hty.
        cbn [negb run_tests].
        apply andb_prop in Eif as [ED ES]. apply negb_true_iff in ES.
        destruct v as [z | n m e | n | ]; cbn in Hw; rewrite ?ES in Hw; cbn in Hw; try discriminate Hw.
        assert (Hr : spec_in_range (dst_ty f) (VI z) = true) by (cbn; rewrite ED; reflexivity).
        rewrite (casts_ok_sound _ _ _ (VI z) Hc) by (auto; cbn; rewrite ES; cbn; exact Hw).
        rewrite spec_conv_not_same by exact Esame. rewrite Hr. reflexivity.
      * apply andb_prop in Hchk as [Hts Hc].
        pose proof Hc as Hc'. unfold casts_ok in Hc'. apply andb_prop in Hc' as [Hty _]. rewrite Hty.
        cbn [negb].
        eapply tests_path; eauto.
        intros Hr. rewrite (casts_ok_sound _ _ _ v Hc); auto.
  - eapply ext_path; eauto.
  - eapply ext_path; eauto.
Qed.

(* the checks without the scale *)
(* The scaled numbers have 1075 bits and more, and evaluating the checks of the table on them takes the
   kernel's evaluator (no machine integers) many seconds.  The same checks on constants: a bound of a range
   is a constant like those of the table, two constants are compared by the model's vcmp (numbers of the
   size the C compiler saw), and vcmp_sc says that this is the comparison on the scaled axis. *)
Definition kdlo (D : cty) : kconst := if is_float D then KF true (fmax_m D) (femax D) else KI (imin D).
Definition kdhi (D : cty) : kconst := if is_float D then KF false (fmax_m D) (femax D) else KI (imax D).
Definition kslo (S : cty) : kconst := if is_float S then KF true (2 ^ 53) 971 else KI (imin S).
Definition kshi (S : cty) : kconst := if is_float S then KF false (2 ^ 53) 971 else KI (imax S).
(* false when a constant is not well formed, so that a true answer needs no side condition *)
Definition kle (a b : kconst) : bool := okk a && okk b && test_op OLe (vcmp (kval a) (kval b)).
Definition ktrunc (k : kconst) : Z := match k with KI z => z | KF n m e => ftrunc n m e end.

Lemma sck_kdlo : forall D, sck (kdlo D) = dst_lo D.
Proof. intros. unfold kdlo, dst_lo. destruct (is_float D); [apply Z.mul_opp_l | reflexivity]. Qed.
Lemma sck_kdhi : forall D, sck (kdhi D) = dst_hi D.
Proof. intros. unfold kdhi, dst_hi. destruct (is_float D); reflexivity. Qed.
Lemma sck_kslo : forall S, sck (kslo S) = src_lo S.
Proof. intros. unfold kslo, src_lo. destruct (is_float S); [apply Z.mul_opp_l | reflexivity]. Qed.
Lemma sck_kshi : forall S, sck (kshi S) = src_hi S.
Proof. intros. unfold kshi, src_hi. destruct (is_float S); reflexivity. Qed.
Lemma okk_ranges : forall T,
  okk (kdlo T) = true /\ okk (kdhi T) = true /\ okk (kslo T) = true /\ okk (kshi T) = true.
Proof. destruct T; repeat split. Qed.

Lemma kle_sck : forall a b, okk a = true -> okk b = true -> kle a b = (sck a <=? sck b).
Proof.
  intros a b Ha Hb. unfold kle, sck, Z.leb. rewrite Ha, Hb, vcmp_sc by (apply okk_okv; assumption).
  destruct (sc (kval a) ?= sc (kval b)); reflexivity.
Qed.
Lemma kle_le : forall a b, kle a b = true -> sck a <= sck b.
Proof.
  intros a b H. pose proof H as H'. apply andb_prop in H' as [H' _]. apply andb_prop in H' as [Ha Hb].
  rewrite kle_sck in H by assumption. lia.
Qed.
Lemma ktrunc_sck : forall k, okk k = true -> Z.quot (sck k) K = ktrunc k.
Proof.
  intros [z | n m e] H; cbn in H |- *.
  - apply Z.quot_mul. pose proof K_pos. lia.
  - symmetry. apply ftrunc_sc; lia.
Qed.

Definition test_okc (S : cty) (d : cdir) (D : cty) (needp : bool) (t : ctest) : bool :=
  let k := t_k t in
  cty_eqb (chain_ty S (t_chain t)) (t_cmp t) && chain_id S (t_chain t) && okk k &&
  match t_op t, t_act t with
  | OGt, AFill _ _ => act_fill_ok d D needp (t_act t) && kle (kdhi D) k
  | OGe, AFill _ _ => act_fill_ok d D needp (t_act t) && negb (kle k (kdhi D))
  | OLt, AFill _ _ => act_fill_ok d D needp (t_act t) && kle k (kdlo D)
  | OLe, AFill _ _ => act_fill_ok d D needp (t_act t) && negb (kle (kdlo D) k)
  | OEq, AStore (KI s) =>
      negb (is_float D) && ((kle (kdlo D) k && kle k (kdhi D) && (s =? ktrunc k))
                            || negb (kle (kdlo D) k) || negb (kle k (kdhi D)))
  | _, _ => false
  end.

Lemma test_ok_c : forall S d D needp t,
  test_ok S d D needp (negb (is_float D)) (dst_lo D) (dst_hi D) t = test_okc S d D needp t.
Proof.
  intros. unfold test_ok, test_okc. cbv zeta.
  destruct (okk (t_k t)) eqn:Hk; [| rewrite !andb_false_r; reflexivity].
  destruct (okk_ranges D) as (Hlo & Hhi & _).
  rewrite !kle_sck, sck_kdlo, sck_kdhi, <- !Z.ltb_antisym, <- (ktrunc_sck _ Hk) by assumption. reflexivity.
Qed.

Definition entry_chkc (needp : bool) (f : cfun) : bool :=
  let S := src_ty f in
  let D := dst_ty f in
  let tests_ok ts := forallb (test_okc S (f_dir f) D needp) ts in
  match f_body f with
  | BIdent => same_repr S D
  | BTests ts casts =>
      if same_repr S D then (match ts with [] => true | _ => false end) && chain_id S casts &&
                            cty_eqb (chain_ty S casts) D
      else if is_float D && negb (is_float S) then (match ts with [] => true | _ => false end) && casts_ok S D casts
      else tests_ok ts && casts_ok S D casts
  | BSext ts => negb (same_repr S D) && small_int S && negb (is_float D) && tests_ok ts && ext_ok true S D
  | BZext ts => negb (same_repr S D) && small_int S && negb (is_float D) && tests_ok ts && ext_ok false S D
  | BUnrec => false
  end.
Lemma entry_chk_c : forall needp f, entry_chk needp f = entry_chkc needp f.
Proof.
  intros. unfold entry_chk, entry_chkc. cbv zeta beta.
  destruct (f_body f); rewrite ?(forallb_ext _ _ _ _ (test_ok_c _ _ _ _)); reflexivity.
Qed.

(* entries without excluded values *)
Definition body_ts (b : cbody) : list ctest :=
  match b with BTests ts _ | BSext ts | BZext ts => ts | _ => [] end.

(* a test on the upper side with a constant inside the range (or a source type that ends there) leaves
   nothing accepted above the range; likewise below *)
Lemma bounds_close : forall dlo dhi (qh ql : ctest -> bool),
  (forall t, qh t = true -> sck (t_k t) <= dhi) -> (forall t, ql t = true -> dlo <= sck (t_k t)) ->
  forall ts lo hi,
  ((hi <=? dhi) || existsb (fun t => is_upper t && qh t) ts = true -> snd (bounds ts lo hi) <= dhi) /\
  ((dlo <=? lo) || existsb (fun t => is_lower t && ql t) ts = true -> dlo <= fst (bounds ts lo hi)).
Proof.
  intros dlo dhi qh ql Hh Hl. induction ts as [| t r IH]; intros lo hi; cbn [bounds existsb].
  - cbn. lia.
  - specialize (Hh t). specialize (Hl t). unfold is_upper at 1, is_lower at 1.
    destruct (t_op t), (qh t), (ql t); (split; intros H; apply IH; clear IH; destruct (existsb _ r); lia).
Qed.

Definition eq_inside (D : cty) (t : ctest) : bool :=
  match t_op t with
  | OEq => kle (kdlo D) (t_k t) && kle (t_k t) (kdhi D)
  | _ => true
  end.
Lemma eq_harm_nil : forall D ts,
  forallb (eq_inside D) ts = true ->
  eq_harm (dst_lo D) (dst_hi D) ts = [].
Proof.
  intros D ts. destruct (okk_ranges D) as (Hlo & Hhi & _).
  induction ts as [| t r IH]; cbn [forallb eq_harm]; intros H; [reflexivity|].
  apply andb_prop in H as [Ht Hr]. unfold eq_inside in Ht. destruct (t_op t); auto.
  apply andb_prop in Ht as [H1 H2]. apply kle_le in H1, H2. rewrite sck_kdlo in H1. rewrite sck_kdhi in H2.
  replace ((dst_lo D <=? sck (t_k t)) && (sck (t_k t) <=? dst_hi D)) with true by (symmetry; lia). auto.
Qed.

(* every value, NaN apart, is treated as specified: no constant of an equality test lies outside the
   destination range, each side of it is closed, and the infinities meet a test *)
Definition noexcl (f : cfun) : bool :=
  let S := src_ty f in
  let D := dst_ty f in
  let ts := body_ts (f_body f) in
  same_repr S D || (is_float D && negb (is_float S)) ||
  forallb (eq_inside D) ts &&
  (kle (kshi S) (kdhi D) || existsb (fun t => is_upper t && kle (t_k t) (kdhi D)) ts) &&
  (kle (kdlo D) (kslo S) || existsb (fun t => is_lower t && kle (kdlo D) (t_k t)) ts) &&
  (negb (is_float S) || (existsb is_upper ts && existsb is_lower ts)).

Definition fi_pair (f : cfun) : bool := is_float (src_ty f) && negb (is_float (dst_ty f)).

Lemma noexcl_sound : forall f v, noexcl f = true -> wf_val (src_ty f) v = true ->
  (v = VNaN -> fi_pair f = false) -> exclb f v = false.
Proof.
  intros f v H Hw Hn. unfold noexcl in H. unfold exclb. unfold fi_pair in Hn. cbv zeta in *.
  set (S := src_ty f) in *. set (D := dst_ty f) in *. set (ts := body_ts (f_body f)) in *.
  destruct (same_repr S D); [reflexivity|].
  destruct (is_float D && negb (is_float S)); [reflexivity|]. cbn [orb] in H.
  apply andb_prop in H as [H Hinf]. apply andb_prop in H as [H Hlow]. apply andb_prop in H as [Heq Hup].
  destruct (okk_ranges D) as (Kdl & Kdh & _). destruct (okk_ranges S) as (_ & _ & Ksl & Ksh).
  assert (Gap : forall X, gapb (dst_lo D) (dst_hi D) ts (src_lo S) (src_hi S) X = false).
  { intros X. unfold gapb.
    destruct (bounds_close (sck (kdlo D)) (sck (kdhi D)) _ _
                (fun t => kle_le _ _) (fun t => kle_le _ _) ts (src_lo S) (src_hi S)) as [B1 B2].
    rewrite kle_sck, sck_kshi in Hup by assumption. rewrite kle_sck, sck_kslo in Hlow by assumption.
    apply B1 in Hup. apply B2 in Hlow. rewrite sck_kdhi in Hup. rewrite sck_kdlo in Hlow.
    destruct (bounds ts (src_lo S) (src_hi S)) as [lo' hi']. rewrite (eq_harm_nil _ _ Heq).
    cbn [fst snd existsb] in *. lia. }
  assert (G : exclv S D ts v = false).
  { destruct v as [z | n m e | n | ]; cbn [exclv]; [apply Gap | apply Gap | |].
    - cbn in Hw. fold S in Hw. rewrite Hw in Hinf. apply andb_prop in Hinf as [Iu Il].
      destruct n; [rewrite Il | rewrite Iu]; reflexivity.
    - cbn in Hw. fold S in Hw. rewrite Hw in Hn. destruct (is_float D); [reflexivity | discriminate (Hn eq_refl)]. }
  subst ts. destruct (f_body f); try reflexivity; exact G.
Qed.

(* a NULL fill pointer is tolerated by the functions that have a default constant on every fill path *)
Definition fill_dflt_ok (f : cfun) : bool :=
  forallb (fun t => match t_act t with AFill _ None => false | _ => true end) (body_ts (f_body f)).

(* the table *)
Lemma table_chk : forallb (entry_chk false) ncx_table = true.
Proof. rewrite (forallb_ext _ _ _ _ (entry_chk_c false)). vm_compute. reflexivity. Qed.
Lemma entry_chk_null : forall needp f, fill_dflt_ok f = true -> entry_chk needp f = entry_chk false f.
Proof.
  intros needp f H. unfold fill_dflt_ok in H. unfold entry_chk. cbv beta zeta.
  destruct (f_body f); cbn [body_ts] in H; rewrite ?(tests_ok_null _ _ _ needp) by exact H; reflexivity.
Qed.

Definition is_put (f : cfun) : bool := match f_dir f with Put => true | Get => false end.
Definition get_float_double (f : cfun) : bool :=
  negb (is_put f) && xty_eqb (f_x f) XFLOAT && cty_eqb (f_i f) Double.

Lemma table_noexcl :
  forallb (fun f => implb (if fi_pair f then ibits (dst_ty f) <=? 32 else negb (get_float_double f))
                          (noexcl f)) ncx_table = true.
Proof. vm_compute. reflexivity. Qed.

(* core: model = specification outside the computed exclusion set, for every function of the table *)
Theorem conv_exact_outside_excl : forall f, In f ncx_table ->
  forall fillp v, (fillp = None -> fill_dflt_ok f = true) ->
  wf_val (src_ty f) v = true -> exclb f v = false ->
  conv1 f fillp v = spec_conv (f_dir f) (src_ty f) (dst_ty f) fillp v.
Proof.
  intros f Hin fillp v Hnull Hw Hex.
  apply (entry_sound (is_none fillp)); auto.
  destruct fillp; [| rewrite entry_chk_null by auto]; exact (forallb_In _ _ _ _ table_chk Hin).
Qed.

Definition the (o : option cfun) : cfun :=
  match o with Some f => f | None => mkF Put false XBYTE Schar LUnrec BUnrec end.
Lemma lookup_in : forall d p x i f, lookup d p x i = Some f -> In f ncx_table.
Proof. intros d p x i f H. unfold lookup in H. apply find_some in H. tauto. Qed.
Lemma the_lookup_in : forall d p x i, lookup d p x i <> None -> In (the (lookup d p x i)) ncx_table.
Proof.
  intros d p x i H. destruct (lookup d p x i) eqn:E; [| congruence]. eapply lookup_in; eauto.
Qed.

(* C09 conv_put_exact / conv_get_exact at full strength are false.
   witness: double 2^63 written to NC_INT64 passes `> (double)X_INT64_MAX` and is cast (undefined) *)
Theorem conv_put_exact_refuted_stmt :
  ~ (forall f, In f ncx_table -> f_dir f = Put ->
     forall fillp v, (fillp = None -> fill_dflt_ok f = true) -> wf_val (src_ty f) v = true ->
     conv1 f fillp v = spec_conv Put (src_ty f) (dst_ty f) fillp v).
Proof.
  intros H.
  specialize (H (the (lookup Put false XINT64 Double)) ltac:(apply the_lookup_in; vm_compute; discriminate) eq_refl
                (Some (VI 0)) (VF false 1 63) ltac:(discriminate) eq_refl).
  vm_compute in H. discriminate H.
Qed.
(* witness: NC_DOUBLE 2^63 read as long long returns LLONG_MAX with NC_NOERR *)
Theorem conv_get_exact_refuted_stmt :
  ~ (forall f, In f ncx_table -> f_dir f = Get ->
     forall fillp v, wf_val (src_ty f) v = true ->
     conv1 f fillp v = spec_conv Get (src_ty f) (dst_ty f) fillp v).
Proof.
  intros H.
  specialize (H (the (lookup Get false XDOUBLE Longlong)) ltac:(apply the_lookup_in; vm_compute; discriminate) eq_refl
                None (VF false 1 63) eq_refl).
  vm_compute in H. discriminate H.
Qed.

Theorem conv_put_exact_partial : forall f, In f ncx_table -> f_dir f = Put ->
  forall fillp v, (fillp = None -> fill_dflt_ok f = true) -> wf_val (src_ty f) v = true ->
  exclb f v = false ->
  conv1 f fillp v = spec_conv Put (src_ty f) (dst_ty f) fillp v.
Proof. intros f Hin Hd fillp v Hn Hw He. rewrite <- Hd. apply conv_exact_outside_excl; auto. Qed.
Theorem conv_get_exact_partial : forall f, In f ncx_table -> f_dir f = Get ->
  forall fillp v, (fillp = None -> fill_dflt_ok f = true) -> wf_val (src_ty f) v = true ->
  exclb f v = false ->
  conv1 f fillp v = spec_conv Get (src_ty f) (dst_ty f) fillp v.
Proof. intros f Hin Hd fillp v Hn Hw He. rewrite <- Hd. apply conv_exact_outside_excl; auto. Qed.

(* every value is converted as specified by the functions of the two classes that table_noexcl names:
   float/double -> integer of at most 32 bits (NaN apart), and all other pairs but NC_FLOAT read as double *)
Theorem conv_exact_noexcl : forall f, In f ncx_table ->
  (if fi_pair f then ibits (dst_ty f) <=? 32 else negb (get_float_double f)) = true ->
  forall fillp v, (fillp = None -> fill_dflt_ok f = true) -> wf_val (src_ty f) v = true ->
  (v = VNaN -> fi_pair f = false) ->
  conv1 f fillp v = spec_conv (f_dir f) (src_ty f) (dst_ty f) fillp v.
Proof.
  intros f Hin Hc fillp v Hn Hw Hnan. apply conv_exact_outside_excl; auto. apply noexcl_sound; auto.
  pose proof (forallb_In _ _ _ _ table_noexcl Hin) as T. cbv beta in T. rewrite Hc in T. exact T.
Qed.

Theorem conv_put_exact : forall f, In f ncx_table -> f_dir f = Put -> fi_pair f = false ->
  forall fillp v, (fillp = None -> fill_dflt_ok f = true) -> wf_val (src_ty f) v = true ->
  conv1 f fillp v = spec_conv Put (src_ty f) (dst_ty f) fillp v.
Proof.
  intros f Hin Hd Hfi fillp v Hn Hw. rewrite <- Hd. apply conv_exact_noexcl; auto.
  rewrite Hfi. unfold get_float_double, is_put. rewrite Hd. reflexivity.
Qed.
Theorem conv_get_exact : forall f, In f ncx_table -> f_dir f = Get -> fi_pair f = false ->
  get_float_double f = false ->
  forall fillp v, (fillp = None -> fill_dflt_ok f = true) -> wf_val (src_ty f) v = true ->
  conv1 f fillp v = spec_conv Get (src_ty f) (dst_ty f) fillp v.
Proof.
  intros f Hin Hd Hfi Hfd fillp v Hn Hw. rewrite <- Hd. apply conv_exact_noexcl; auto.
  rewrite Hfi, Hfd. reflexivity.
Qed.
Theorem conv_float_to_int32_exact : forall f, In f ncx_table -> fi_pair f = true ->
  ibits (dst_ty f) <= 32 ->
  forall fillp v, (fillp = None -> fill_dflt_ok f = true) -> wf_val (src_ty f) v = true -> v <> VNaN ->
  conv1 f fillp v = spec_conv (f_dir f) (src_ty f) (dst_ty f) fillp v.
Proof.
  intros f Hin Hfi Hb fillp v Hn Hw Hnan. apply conv_exact_noexcl; auto; [| contradiction].
  rewrite Hfi. apply Z.leb_le. exact Hb.
Qed.

(* NaN: no float/double -> integer function tests for it *)
Definition res_is_range (r : res) : bool := match r with RRange _ => true | _ => false end.
Lemma spec_conv_range : forall d S D fillp v,
  res_is_range (spec_conv d S D fillp v) = spec_erange S D v.
Proof.
  intros. unfold spec_conv, spec_erange. destruct (same_repr S D); [reflexivity|].
  destruct (spec_in_range D v); reflexivity.
Qed.

(* the tests of such a function compare: NaN passes them all (run_tests_nonfinite), and the first cast of the
   in-range path goes to an integer type *)
Theorem conv_nan_to_int_unchecked : forall f, In f ncx_table -> fi_pair f = true ->
  forall fillp, conv1 f fillp VNaN = RUndef /\
                res_is_range (spec_conv (f_dir f) (src_ty f) (dst_ty f) fillp VNaN) = true.
Proof.
  intros f Hin Hfi fillp. apply andb_prop in Hfi as [HS HD]. apply negb_true_iff in HD.
  assert (Hsame : same_repr (src_ty f) (dst_ty f) = false).
  { unfold same_repr. rewrite HS. cbn [orb].
    destruct (cty_eqb (src_ty f) (dst_ty f)) eqn:E; [apply cty_eqb_eq in E; congruence | reflexivity]. }
  split.
  - pose proof (forallb_In _ _ _ _ table_chk Hin) as C. unfold entry_chk in C. cbv zeta in C. unfold conv1.
    rewrite Hsame, HS, HD in C. cbn [andb negb] in C.
    destruct (f_body f) as [| ts casts | ts | ts | ]; try discriminate C;
      try (destruct (src_ty f); try discriminate HS; discriminate C).
    apply andb_prop in C as [Hts Hc]. unfold casts_ok in Hc. rewrite HS, HD in Hc.
    apply andb_prop in Hc as [Hty Hc]. rewrite Hty. cbn [negb].
    rewrite (run_tests_nonfinite _ _ _ _ _ _ _ fillp _ VNaN _ HS I Hts).
    destruct casts as [| t1 r]; [discriminate Hc|]. apply andb_prop in Hc as [Hc _].
    apply andb_prop in Hc as [Hc _]. apply andb_prop in Hc as [Hc _]. apply negb_true_iff in Hc.
    cbn [cchain cconv]. rewrite Hc. reflexivity.
  - rewrite spec_conv_range. unfold spec_erange. rewrite Hsame. cbn. rewrite HD. reflexivity.
Qed.

(* n elements *)
Definition loop_ok (f : cfun) : bool :=
  match f_loop f with
  | LSwap | LMemcpy => match f_body f with BIdent => true | _ => false end
  | LCall | LInline => true
  | LUnrec => false
  end.
Lemma table_loops : forallb loop_ok ncx_table = true.
Proof. vm_compute. reflexivity. Qed.

Lemma loop_status_call : forall rs st,
  fold_left (fun st r => if st =? NC_NOERR then status1 r else st) rs st =
  if st =? NC_NOERR then (if existsb res_is_range rs then NC_ERANGE else NC_NOERR) else st.
Proof.
  induction rs as [| r rs IH]; intros st; cbn [fold_left existsb].
  - destruct (st =? NC_NOERR) eqn:E; [apply Z.eqb_eq in E; auto | reflexivity].
  - rewrite IH. destruct (st =? NC_NOERR) eqn:E.
    + destruct r; cbn [status1 res_is_range orb]; try reflexivity.
    + rewrite E. reflexivity.
Qed.
Lemma loop_status_inline : forall rs st, (st = NC_NOERR \/ st = NC_ERANGE) ->
  fold_left (fun st r => match r with RRange _ => NC_ERANGE | _ => st end) rs st =
  if (st =? NC_ERANGE) || existsb res_is_range rs then NC_ERANGE else NC_NOERR.
Proof.
  induction rs as [| r rs IH]; intros st Hst; cbn [fold_left existsb].
  - destruct Hst; subst; reflexivity.
  - destruct r; cbn [res_is_range orb]; try (apply IH; assumption).
    rewrite IH by (right; reflexivity). cbn. rewrite orb_true_r. reflexivity.
Qed.

(* the status of the n-element functions is NC_ERANGE iff some element is out of range, every
   element is converted by the element rule (no early exit, no dependence on neighbours) *)
Theorem convn_elementwise : forall f, In f ncx_table -> forall fillp vs,
  convn f fillp vs =
    ((if existsb res_is_range (map (conv1 f fillp) vs) then NC_ERANGE else NC_NOERR),
     map (conv1 f fillp) vs).
Proof.
  intros f Hin fillp vs. pose proof table_loops as T. rewrite forallb_forall in T. specialize (T f Hin).
  unfold convn, loop_ok in *. destruct (f_loop f) eqn:El; try discriminate T; f_equal; unfold loop_status.
  - unfold conv1. destruct (f_body f); try discriminate T.
    induction vs; cbn; auto.
  - unfold conv1. destruct (f_body f); try discriminate T.
    induction vs; cbn; auto.
  - rewrite loop_status_call. reflexivity.
  - rewrite loop_status_inline by (left; reflexivity). reflexivity.
Qed.

Theorem putn_elementwise : forall f, In f ncx_table -> forall fillp vs,
  (fillp = None -> fill_dflt_ok f = true) ->
  (forall v, In v vs -> wf_val (src_ty f) v = true /\ exclb f v = false) ->
  convn f fillp vs = spec_convn (f_dir f) (src_ty f) (dst_ty f) fillp vs.
Proof.
  intros f Hin fillp vs Hn Hvs. rewrite convn_elementwise by exact Hin. unfold spec_convn.
  assert (E : map (conv1 f fillp) vs = map (spec_conv (f_dir f) (src_ty f) (dst_ty f) fillp) vs).
  { apply map_ext_in. intros v Hv. destruct (Hvs v Hv). apply conv_exact_outside_excl; auto. }
  rewrite E. f_equal.
  replace (existsb res_is_range (map (spec_conv (f_dir f) (src_ty f) (dst_ty f) fillp) vs))
    with (existsb (spec_erange (src_ty f) (dst_ty f)) vs); [reflexivity|].
  clear. induction vs as [| v vs IH]; cbn; [reflexivity|]. rewrite spec_conv_range, IH. reflexivity.
Qed.

(* offending positions receive the fill value, all other elements are exact, whatever the position *)
Corollary putn_positions : forall f, In f ncx_table -> forall fillp vs k v,
  (fillp = None -> fill_dflt_ok f = true) ->
  (forall v, In v vs -> wf_val (src_ty f) v = true /\ exclb f v = false) ->
  nth_error vs k = Some v ->
  nth_error (snd (convn f fillp vs)) k =
    Some (if spec_erange (src_ty f) (dst_ty f) v then RRange (Some (spec_fill (f_dir f) (dst_ty f) fillp))
          else if same_repr (src_ty f) (dst_ty f) then ROk v else ROk (spec_value (dst_ty f) v)).
Proof.
  intros f Hin fillp vs k v Hn Hvs Hk. rewrite putn_elementwise by auto. unfold spec_convn. cbn [snd].
  rewrite nth_error_map, Hk. cbn. f_equal. unfold spec_conv, spec_erange.
  destruct (same_repr (src_ty f) (dst_ty f)); [reflexivity|]. destruct (spec_in_range (dst_ty f) v); reflexivity.
Qed.

(* text and numbers never convert *)
Definition is_nchar (x : nct) : bool := match x with NChar => true | _ => false end.
Definition is_mtext (m : mty) : bool := match m with MText => true | _ => false end.

Theorem text_never_numeric : forall fmt d x m fill vs, is_nchar x <> is_mtext m ->
  api_var fmt d x m fill vs = (NC_ECHAR, []) /\ api_att fmt d x m vs = (NC_ECHAR, []).
Proof. intros fmt d [| x] [| t] fill vs H; cbn in H; try congruence; split; reflexivity. Qed.
(* attributes use the same element rule as variables *)
(* both sides are computed and are the same list: no decision procedure for cbody is needed *)
Lemma table_pad_same :
  map (fun f => option_map f_body (lookup (f_dir f) false (f_x f) (f_i f))) (filter f_pad ncx_table) =
  map (fun f => Some (f_body f)) (filter f_pad ncx_table).
Proof. vm_compute. reflexivity. Qed.

Lemma xty_eqb_eq : forall a b, xty_eqb a b = true -> a = b.
Proof. destruct a, b; cbn; congruence. Qed.

Lemma lookup_key : forall d p x i f, lookup d p x i = Some f ->
  f_dir f = d /\ f_pad f = p /\ f_x f = x /\ f_i f = i.
Proof.
  intros d p x i f H. unfold lookup in H. apply find_some in H as [_ H]. unfold key_eqb in H.
  apply andb_prop in H as [H H4]. apply andb_prop in H as [H H3]. apply andb_prop in H as [H1 H2].
  repeat split.
  - destruct (f_dir f), d; cbn in H1; congruence.
  - apply eqb_prop in H2. exact H2.
  - apply xty_eqb_eq. exact H3.
  - apply cty_eqb_eq. exact H4.
Qed.

(* the padding variants used for attributes (1- and 2-byte types) convert exactly like the functions
   used for variables; the other types use the very same functions *)
Theorem att_same_rules : forall d x i f g,
  lookup d true x i = Some f -> lookup d false x i = Some g ->
  forall fillp v, conv1 f fillp v = conv1 g fillp v.
Proof.
  intros d x i f g Hf Hg fillp v.
  destruct (lookup_key _ _ _ _ _ Hf) as (F1 & F2 & F3 & F4).
  destruct (lookup_key _ _ _ _ _ Hg) as (G1 & G2 & G3 & G4).
  assert (E : Some (f_body g) = Some (f_body f)).
  { rewrite <- (map_eq_In _ _ _ _ _ f table_pad_same) by (apply filter_In; eauto using lookup_in).
    rewrite F1, F3, F4, Hg. reflexivity. }
  injection E as E.
  unfold conv1, src_ty, dst_ty. rewrite E, F1, F3, F4, G1, G3, G4. reflexivity.
Qed.

(* API level *)
Lemma reinterpret_same : forall S D v, same_repr S D = true -> wf_val S v = true -> reinterpret D v = v.
Proof.
  intros S D [z | n m e | n | ] H Hw; cbn in *; try reflexivity.
  unfold same_repr in H. destruct (is_float S) eqn:ES; cbn in Hw; [discriminate|]. cbn [orb] in H.
  destruct (is_float D) eqn:ED; [destruct S, D; cbn in *; discriminate|].
  apply andb_prop in H as [H1 H2]. apply Z.eqb_eq in H1. apply eqb_prop in H2.
  rewrite wrap_id; [reflexivity | exact ED |]. unfold imin, imax in *. rewrite <- H1, <- H2. lia.
Qed.
Lemma spec_conv_get_fill : forall S D fa fb v, spec_conv Get S D fa v = spec_conv Get S D fb v.
Proof. intros. unfold spec_conv, spec_fill. destruct fa, fb; reflexivity. Qed.

Lemma same_type_repr : forall d x t, same_type x t = true ->
  same_repr (api_src d x t) (api_dst d x t) = true.
Proof. intros d x t H. destruct x, t; try discriminate H; destruct d; reflexivity. Qed.

(* variables: the typed/flexible put/get API = the specification, for all element lists whose
   elements are outside the exclusion set of the conversion function the call is routed to *)
Definition routed (isatt : bool) (fmt : Z) (d : cdir) (x : xty) (t : cty) : option cfun :=
  match (if isatt then route_att fmt d (NNum x) (MNum t) else route_var fmt d (NNum x) (MNum t)) with
  | RtEntry o => o
  | _ => None
  end.
Definition api_excl (isatt : bool) (fmt : Z) (d : cdir) (x : xty) (t : cty) (v : val) : bool :=
  match routed isatt fmt d x t with Some f => exclb f v | None => false end.

Lemma table_complete :
  forallb (fun d => forallb (fun x => forallb (fun i =>
     negb (is_none (lookup d false x i)) && negb (is_none (lookup d (att_pad x) x i))) all_i) all_x)
    [Put; Get] = true.
Proof. vm_compute. reflexivity. Qed.

Lemma lookup_total : forall d x t, In x all_x -> In t all_i ->
  lookup d false x t <> None /\ lookup d (att_pad x) x t <> None.
Proof.
  intros d x t Hx Ht. assert (Hd : In d [Put; Get]) by (destruct d; cbn; auto).
  pose proof (forallb_In _ _ _ _ (forallb_In _ _ _ _ (forallb_In _ _ _ _ table_complete Hd) Hx) Ht) as T.
  cbv beta in T. apply andb_prop in T as [T1 T2]. split; intros E; rewrite E in *; discriminate.
Qed.

Lemma convn_routed_exact : forall d p x t f fv vs, lookup d p x t = Some f ->
  (forall v, In v vs -> wf_val (api_src d x t) v = true /\ exclb f v = false) ->
  convn f (Some fv) vs = spec_convn d (api_src d x t) (api_dst d x t) (Some fv) vs.
Proof.
  intros d p x t f fv vs Hf Hvs. destruct (lookup_key _ _ _ _ _ Hf) as (F1 & F2 & F3 & F4).
  assert (HS : src_ty f = api_src d x t) by (unfold src_ty, api_src; rewrite F1, F3, F4; reflexivity).
  assert (HD : dst_ty f = api_dst d x t) by (unfold dst_ty, api_dst; rewrite F1, F3, F4; reflexivity).
  rewrite putn_elementwise; [rewrite F1, HS, HD; reflexivity | eapply lookup_in; eauto | discriminate |].
  rewrite HS. exact Hvs.
Qed.

Theorem api_var_exact : forall fmt d x t fill vs, In x all_x -> In t all_i ->
  (forall v, In v vs -> wf_val (api_src d x t) v = true /\ api_excl false fmt d x t v = false) ->
  api_var fmt d (NNum x) (MNum t) fill vs = spec_api fmt d (NNum x) (MNum t) fill vs.
Proof.
  intros fmt d x t fill vs Hx Ht Hvs. unfold api_var, spec_api, route_var, exempt.
  destruct ((fmt <? 5) && xty_eqb x XBYTE && cty_eqb t Uchar) eqn:Eex; [reflexivity|].
  destruct (same_type x t) eqn:Est.
  - pose proof (same_type_repr d _ _ Est) as Hs.
    transitivity (NC_NOERR, map (fun v => ROk (reinterpret (api_dst d x t) v)) vs);
      [destruct (xsize x =? 1); reflexivity |].
    unfold spec_convn, spec_erange, spec_conv. rewrite Hs. cbn [negb andb]. f_equal.
    + clear. induction vs; cbn; auto.
    + apply map_ext_in. intros v Hv. rewrite (reinterpret_same _ _ _ Hs (proj1 (Hvs v Hv))). reflexivity.
  - destruct (lookup d false x t) as [f |] eqn:Hf; [| destruct (lookup_total d x t Hx Ht); congruence].
    cbn [run_route]. rewrite (convn_routed_exact _ _ _ _ _ _ _ Hf).
    + unfold spec_convn. destruct d; reflexivity.
    + intros v Hv. destruct (Hvs v Hv) as [Hw He]. split; [exact Hw|].
      unfold api_excl, routed, route_var in He. rewrite Eex, Est, Hf in He. exact He.
Qed.

(* the CDF-1/2 exemption: NC_BYTE accessed as unsigned char is transferred without range check *)
(* the NC_UBYTE functions see the low 8 bits, and these are what the caller's type keeps *)
Lemma reinterpret_via_uchar : forall d v,
  reinterpret (api_dst d XBYTE Uchar) (reinterpret Uchar v) = reinterpret (api_dst d XBYTE Uchar) v.
Proof.
  intros [|] [z | | | ]; try reflexivity; cbn [api_dst xcty reinterpret is_float]; f_equal;
    unfold wrap; cbn [ibits isigned andb]; cbv zeta; rewrite Z.mod_mod by (apply Z.pow_nonzero; lia);
    reflexivity.
Qed.

Theorem byte_uchar_exemption : forall fmt d fill vs, fmt < 5 ->
  (forall v, In v vs -> wf_val (api_src d XBYTE Uchar) v = true) ->
  api_var fmt d (NNum XBYTE) (MNum Uchar) fill vs = spec_api fmt d (NNum XBYTE) (MNum Uchar) fill vs /\
  api_att fmt d (NNum XBYTE) (MNum Uchar) vs = spec_api fmt d (NNum XBYTE) (MNum Uchar) fill vs /\
  fst (spec_api fmt d (NNum XBYTE) (MNum Uchar) fill vs) = NC_NOERR.
Proof.
  intros fmt d fill vs Hfmt Hvs.
  assert (E : (fmt <? 5) = true) by lia.
  split; [| split].
  - unfold api_var, spec_api, route_var, exempt. rewrite E. reflexivity.
  - unfold api_att, spec_api, exempt, route_att. rewrite E. cbn [xty_eqb cty_eqb andb att_pad].
    replace (lookup d true XUBYTE Uchar) with (Some (mkF d true XUBYTE Uchar LMemcpy BIdent))
      by (destruct d; reflexivity).
    cbn [run_route]. unfold convn, conv1. cbn [f_loop f_body loop_status]. rewrite !map_map.
    f_equal. apply map_ext. intros v. cbn [map_ok]. f_equal. apply reinterpret_via_uchar.
  - unfold spec_api, exempt. rewrite E. reflexivity.
Qed.

(* where exactly the 64-bit functions deviate *)
(* a finite double strictly above 2^63 - 1 and at most 2^63 is 2^63 *)
Lemma double_gap_is_2p63 : forall t n m e, is_float t = true -> wf_val t (VF n m e) = true ->
  (2 ^ 63 - 1) * K < sc (VF n m e) <= 2 ^ 63 * K -> sc (VF n m e) = 2 ^ 63 * K.
Proof.
  intros t n m e Ht Hw H. cbn [sc] in *.
  apply wf_VF in Hw as (_ & Hm & Hexp). pose proof (fmt_le t).
  assert (2 ^ fprec t <= 2 ^ 53) by (apply Z.pow_le_mono_r; lia).
  pose proof K_pos as HK.
  assert (H63 : 2 ^ 53 < 2 ^ 63 - 1) by (vm_compute; reflexivity).
  destruct n; unfold smant in *.
  - assert (0 < 2 ^ (e + 1074)) by (apply Z.pow_pos_nonneg; lia). assert (0 < 2 ^ 63 - 1) by lia. nia.
  - destruct (Z.le_gt_cases 0 e) as [He | He].
    + unfold K in *.
      rewrite Z.pow_add_r in * by lia. fold K in *.
      assert (HA : (2 ^ 63 - 1) < m * 2 ^ e <= 2 ^ 63) by nia.
      assert (m * 2 ^ e = 2 ^ 63) by lia. nia.
    + exfalso. assert (2 ^ (e + 1074) < K) by (unfold K; apply Z.pow_lt_mono_r; lia).
      assert (0 < 2 ^ (e + 1074)) by (apply Z.pow_pos_nonneg; lia). nia.
Qed.

(* attributes: same rule; `long` buffers are handled as `long long` (dispatcher), there is no
   _FillValue for attributes (default fill of the external type) *)
Theorem api_att_long_is_longlong : forall fmt d x vs,
  api_att fmt d (NNum x) (MNum Long) vs = api_att fmt d (NNum x) (MNum Longlong) vs.
Proof.
  intros. unfold api_att, exempt, route_att. cbn [cty_eqb]. rewrite !andb_false_r.
  destruct d; reflexivity.
Qed.

Theorem api_att_exact : forall fmt d x t vs, In x all_x -> In t all_i -> t <> Long ->
  (forall v, In v vs -> wf_val (api_src d x t) v = true /\ api_excl true fmt d x t v = false) ->
  exempt fmt x t = false ->
  api_att fmt d (NNum x) (MNum t) vs = spec_api fmt d (NNum x) (MNum t) None vs.
Proof.
  intros fmt d x t vs Hx Ht Hlong Hvs Hex. unfold api_att, spec_api. rewrite Hex.
  assert (Hr : route_att fmt d (NNum x) (MNum t) = RtEntry (lookup d (att_pad x) x t)).
  { unfold route_att. replace (match t with Long => Longlong | _ => t end) with t by (destruct t; congruence).
    unfold exempt in Hex. rewrite Hex. reflexivity. }
  rewrite Hr.
  destruct (lookup d (att_pad x) x t) as [f |] eqn:Hf; [| destruct (lookup_total d x t Hx Ht); congruence].
  cbn [run_route]. rewrite (convn_routed_exact _ _ _ _ _ _ _ Hf).
  - unfold spec_convn. destruct d; reflexivity.
  - intros v Hv. destruct (Hvs v Hv) as [Hw He]. split; [exact Hw|].
    unfold api_excl, routed in He. rewrite Hr in He. exact He.
Qed.

(* the hypotheses are satisfiable; the theorems speak about the real table *)
Example ex_put_short_int :
  let f := the (lookup Put false XSHORT Int) in
  In f ncx_table /\ fi_pair f = false /\
  conv1 f (Some (VI (-5))) (VI 32767) = ROk (VI 32767) /\
  conv1 f (Some (VI (-5))) (VI 32768) = RRange (Some (VI (-5))) /\
  conv1 f None (VI (-32769)) = RRange (Some (VI (-32767))) /\
  spec_conv Put Int Short None (VI (-32769)) = RRange (Some (VI (-32767))).
Proof. cbn zeta. split; [apply the_lookup_in; vm_compute; discriminate | vm_compute; repeat split]. Qed.

Example ex_get_double_float :
  let f := the (lookup Get false XDOUBLE Float) in
  In f ncx_table /\ fi_pair f = false /\ get_float_double f = false /\
  wf_val (src_ty f) (VF false 1 128) = true /\
  conv1 f None (VF false 1 128) = RRange (Some (VF false 15728640 99)) /\
  conv1 f None (VF false 16777217 0) = ROk (VF false 8388608 1) /\
  conv1 f None VNaN = ROk VNaN.
Proof. cbn zeta. split; [apply the_lookup_in; vm_compute; discriminate | vm_compute; repeat split]. Qed.

Example ex_put_double_int :
  let f := the (lookup Put false XINT Double) in
  In f ncx_table /\ fi_pair f = true /\ ibits (dst_ty f) <= 32 /\
  wf_val (src_ty f) (VF true 5 (-1)) = true /\
  conv1 f None (VF true 5 (-1)) = ROk (VI (-2)) /\
  conv1 f None (VF false 4294967295 (-1)) = RRange (Some (VI (-2147483647))) /\
  exclb f (VF false 4294967295 (-1)) = false /\ exclb f VNaN = true.
Proof. cbn zeta. split; [apply the_lookup_in; vm_compute; discriminate | vm_compute; repeat split; discriminate]. Qed.

Example ex_excl_int64 :
  let f := the (lookup Put false XINT64 Double) in
  exclb f (VF false 1 63) = true /\ exclb f (VF false 9007199254740991 10) = false /\
  exclb f (VF true 1 63) = false /\ conv1 f None (VF true 1 63) = ROk (VI (- 2 ^ 63)) /\
  conv1 f None (VF false 9007199254740991 10) = ROk (VI 9223372036854774784).
Proof. vm_compute. repeat split. Qed.

Example ex_putn_positions :
  let f := the (lookup Put false XUSHORT Int) in
  convn f (Some (VI 7)) [VI (-1); VI 1; VI 65535; VI 65536; VI 2] =
    (NC_ERANGE, [RRange (Some (VI 7)); ROk (VI 1); ROk (VI 65535); RRange (Some (VI 7)); ROk (VI 2)]) /\
  convn f (Some (VI 7)) [VI 0; VI 1] = (NC_NOERR, [ROk (VI 0); ROk (VI 1)]).
Proof. vm_compute. split; reflexivity. Qed.

Example ex_api :
  api_var 2 Put (NNum XBYTE) (MNum Uchar) None [VI 200] = (NC_NOERR, [ROk (VI (-56))]) /\
  api_var 5 Put (NNum XBYTE) (MNum Uchar) None [VI 200] = (NC_ERANGE, [RRange (Some (VI (-127)))]) /\
  api_att 2 Get (NNum XBYTE) (MNum Uchar) [VI (-56)] = (NC_NOERR, [ROk (VI 200)]) /\
  api_var 5 Get (NNum XINT64) (MNum Long) None [VI (-9)] = (NC_NOERR, [ROk (VI (-9))]) /\
  api_var 5 Put NChar (MNum Int) None [VI 1] = (NC_ECHAR, []).
Proof. vm_compute. repeat split. Qed.

(* the other known deviation: NC_FLOAT +-Inf read into double is not reported (the write direction
   float -> NC_DOUBLE does report it) *)
Theorem conv_get_float_double_inf :
  let f := the (lookup Get false XFLOAT Double) in
  In f ncx_table /\ src_ty f = Float /\ dst_ty f = Double /\
  conv1 f None (VInf false) = ROk (VInf false) /\
  spec_conv Get Float Double None (VInf false) = RRange (Some (VF false 8444249301319680 70)) /\
  (forall fillp v, wf_val (src_ty f) v = true -> v <> VInf false -> v <> VInf true ->
     conv1 f fillp v = spec_conv (f_dir f) (src_ty f) (dst_ty f) fillp v).
Proof.
  cbn zeta. set (f := the (lookup Get false XFLOAT Double)).
  assert (Hin : In f ncx_table) by (apply the_lookup_in; vm_compute; discriminate).
  assert (HS : src_ty f = Float) by reflexivity.
  assert (HD : dst_ty f = Double) by reflexivity.
  assert (HB : f_body f = BTests [] [Double]) by reflexivity.
  repeat split; auto.
  intros fillp v Hw H1 H2.
  apply conv_exact_outside_excl; [exact Hin | intros _; vm_compute; reflexivity | exact Hw |].
  - unfold exclb. rewrite HS, HD, HB. cbn [same_repr is_float orb cty_eqb andb negb].
    destruct v as [z | n m e | [|] | ]; try congruence; try reflexivity.
    + rewrite HS in Hw. cbn in Hw. discriminate Hw.
    + (* finite: a float is far below DBL_MAX *)
      rewrite HS in Hw. apply wf_VF in Hw as (_ & Hm & He). cbn in Hm, He.
      unfold gapb. cbn [bounds eq_harm existsb].
      assert (Hs : - dst_hi Double <= sc (VF n m e) <= dst_hi Double) by (apply (scaled_le n m e (2 ^ 53 - 1) 971); lia).
      assert (dst_lo Double = - dst_hi Double) by reflexivity. lia.
Qed.
(* rounding: a value of the format is returned unchanged (in value) *)
Theorem rne_exact : forall t n m e, is_float t = true ->
  0 <= m < 2 ^ fprec t -> femin t <= e <= femax t ->
  exists m' e', rne t n m e = VF n m' e' /\ 0 <= m' < 2 ^ fprec t /\ femin t <= e' <= femax t /\
                m' * 2 ^ (e' + 1074) = m * 2 ^ (e + 1074).
Proof.
  intros t n m e Ht Hm He. unfold rne.
  pose proof (fmt_le t) as (Hp & Hmin & _).
  destruct (m =? 0) eqn:E0.
  - apply Z.eqb_eq in E0. subst m. exists 0, (femin t). repeat split; try lia.
  - apply Z.eqb_neq in E0.
    assert (Hl : Z.log2 m < fprec t) by (apply Z.log2_lt_pow2; lia).
    cbv zeta.
    set (e' := Z.max (e + (Z.log2 m + 1) - fprec t) (femin t)).
    assert (He' : femin t <= e' <= e) by (unfold e'; lia).
    replace (e' <=? e) with true by (symmetry; lia).
    replace (femax t <? e') with false by (symmetry; lia).
    exists (m * 2 ^ (e - e')), e'.
    assert (Hpow : 0 < 2 ^ (e - e')) by (apply Z.pow_pos_nonneg; lia).
    split; [reflexivity|]. split; [| split; [lia|]].
    + split; [nia|].
      (* m * 2^(e-e') < 2^p : m < 2^(log2 m + 1) and log2 m + 1 + (e - e') <= p *)
      assert (Hm2 : m < 2 ^ (Z.log2 m + 1)) by (apply Z.log2_spec; lia).
      assert (H2 : 2 ^ (Z.log2 m + 1) * 2 ^ (e - e') <= 2 ^ fprec t).
      { rewrite <- Z.pow_add_r by (pose proof (Z.log2_nonneg m); lia).
        apply Z.pow_le_mono_r; [lia|]. unfold e'. lia. }
      nia.
    + rewrite <- Z.mul_assoc. f_equal. rewrite <- Z.pow_add_r by lia. f_equal. lia.
Qed.

(* request level: status assignment of req_commit for completed GET requests *)
Fixpoint first_err (errs : list Z) : Z :=
  match errs with [] => NC_NOERR | e :: r => if e =? NC_NOERR then first_err r else e end.

Lemma commit_get_own : forall errs st,
  commit_get GateOwn st errs = ((if st =? NC_NOERR then first_err errs else st), errs).
Proof.
  induction errs as [| e r IH]; intros st; cbn [commit_get gate_step first_err].
  - destruct (st =? NC_NOERR) eqn:E; [apply Z.eqb_eq in E; subst |]; reflexivity.
  - destruct (e =? NC_NOERR) eqn:Ee.
    + rewrite IH. apply Z.eqb_eq in Ee. subst e. reflexivity.
    + change (NC_NOERR =? NC_NOERR) with true. cbv iota. rewrite IH.
      destruct (st =? NC_NOERR) eqn:Es; [rewrite Ee | rewrite Es]; reflexivity.
Qed.

(* every batch: the status word of request i is the conversion status of request i, the return value
   of wait/wait_all is the first error in queue order (uses the gating AS TRANSLATED from ncmpio_wait.c) *)
Theorem req_status_local : forall errs,
  commit_get req_gate NC_NOERR errs = (first_err errs, errs).
Proof. intros. unfold req_gate. rewrite commit_get_own. reflexivity. Qed.

Theorem req_status_independent : forall errs1 errs2 i,
  nth_error errs1 i = nth_error errs2 i ->
  nth_error (snd (commit_get req_gate NC_NOERR errs1)) i =
  nth_error (snd (commit_get req_gate NC_NOERR errs2)) i.
Proof. intros. rewrite !req_status_local. exact H. Qed.

(* the variant that gates the status word on the function-wide first error loses the status of every
   later request: 2-request witness *)
Theorem req_status_global_gate_refuted :
  ~ (forall errs1 errs2 i, nth_error errs1 i = nth_error errs2 i ->
       nth_error (snd (commit_get GateGlobal NC_NOERR errs1)) i =
       nth_error (snd (commit_get GateGlobal NC_NOERR errs2)) i).
Proof.
  intros H. specialize (H [NC_ERANGE; NC_ERANGE] [NC_NOERR; NC_ERANGE] 1%nat eq_refl).
  vm_compute in H. discriminate H.
Qed.
Example ex_global_gate_drops_status :
  commit_get GateGlobal NC_NOERR [NC_ERANGE; NC_ERANGE] = (NC_ERANGE, [NC_ERANGE; NC_NOERR]) /\
  commit_get req_gate NC_NOERR [NC_ERANGE; NC_NOERR; NC_ERANGE] = (NC_ERANGE, [NC_ERANGE; NC_NOERR; NC_ERANGE]).
Proof. split; vm_compute; reflexivity. Qed.

(* a batch of nonblocking requests: what is reported for request i is a function of request i alone *)
Definition nb_req1 (fmt : Z) (r : nbreq) : Z * Z * list (Z * Z) :=
  let c := nb_conv fmt r in
  if nb_is_put r then (fst c, NC_NOERR, snd c) else (NC_NOERR, fst c, snd c).

Lemma nb_assign_local : forall fmt reqs,
  nb_assign reqs (map (nb_conv fmt) reqs) (nb_geterrs fmt reqs) = map (nb_req1 fmt) reqs.
Proof.
  intros fmt. induction reqs as [| r rs IH]; [reflexivity|].
  unfold nb_geterrs in *. cbn [map nb_assign filter]. unfold nb_req1 at 1.
  destruct (nb_is_put r) eqn:E; cbn [negb map]; rewrite IH; reflexivity.
Qed.

Theorem nb_model_local : forall fmt reqs,
  nb_model fmt reqs = (first_err (nb_geterrs fmt reqs), map (nb_req1 fmt) reqs).
Proof.
  intros. unfold nb_model. rewrite req_status_local. rewrite nb_assign_local. reflexivity.
Qed.

(* blocking put_varn and mput: the posted requests are completed *)
Definition put_conv (fmt xi ii : Z) (cs : list Z) : Z * list (Z * Z) := api_model false true fmt xi ii false 0 cs.
Definition st_ok (st : Z) : Prop := st = NC_NOERR \/ st = NC_ERANGE.

(* ncmpio_put_varn as built (`varn_gate` is translated from ncmpio_varn.c): in collective and in independent
   mode the request is completed (nothing pending, close succeeds), every element is transferred by the
   element rule and the call returns the conversion status *)
Theorem varn_repaired_complete : forall indep fmt xi ii cs,
  varn_model_g VarnEarlyFatal indep fmt xi ii cs =
    (fst (put_conv fmt xi ii cs), 0, NC_NOERR, snd (put_conv fmt xi ii cs)).
Proof.
  intros. unfold varn_model_g, put_conv. destruct (api_model false true fmt xi ii false 0 cs). reflexivity.
Qed.
Theorem varn_complete : forall indep fmt xi ii cs,
  varn_model indep fmt xi ii cs = (fst (put_conv fmt xi ii cs), 0, NC_NOERR, snd (put_conv fmt xi ii cs)).
Proof. intros. unfold varn_model, varn_gate. apply varn_repaired_complete. Qed.
(* the form before the repair (return as soon as the posting reports NC_ERANGE in independent mode):
   witness ncmpi_put_varn_int to NC_SHORT with -32769: request left pending, nothing written *)
Theorem varn_early_any_refuted :
  ~ (forall indep fmt xi ii cs,
       varn_model_g VarnEarlyAny indep fmt xi ii cs =
         (fst (put_conv fmt xi ii cs), 0, NC_NOERR, snd (put_conv fmt xi ii cs))).
Proof. intros H. specialize (H true 5 2 4 [-32769; -126]). vm_compute in H. discriminate H. Qed.
Example ex_varn_early_any :
  varn_model_g VarnEarlyAny true 5 2 4 [-32769; -126] = (NC_ERANGE, 1, NC_EPENDING, [(2, 0); (2, 0)]) /\
  varn_model_g VarnEarlyAny false 5 2 4 [-32769; -126] = (NC_ERANGE, 0, NC_NOERR, [(1, -32767); (0, -126)]) /\
  varn_model true 5 2 4 [-32769; -126] = (NC_ERANGE, 0, NC_NOERR, [(1, -32767); (0, -126)]).
Proof. vm_compute. repeat split. Qed.

Lemma api_var_status : forall fmt d x t fill vs, st_ok (fst (api_var fmt d (NNum x) (MNum t) fill vs)).
Proof.
  intros. unfold api_var, route_var.
  destruct ((fmt <? 5) && xty_eqb x XBYTE && cty_eqb t Uchar); [left; reflexivity|].
  destruct (same_type x t); [destruct (xsize x =? 1); left; reflexivity|].
  destruct (lookup d false x t) as [f |] eqn:Hf; cbn [run_route]; [| left; reflexivity].
  rewrite convn_elementwise by (eapply lookup_in; eauto). cbn [fst].
  destruct (existsb _ _); [right | left]; reflexivity.
Qed.

Lemma put_conv_status : forall fmt xi ii cs, 0 <= xi < 10 -> 0 <= ii < 11 -> st_ok (fst (put_conv fmt xi ii cs)).
Proof.
  intros fmt xi ii cs Hx Hi. unfold put_conv, api_model, nct_of, mty_of.
  destruct (nth_in_range _ all_x xi Hx) as [x Ex]. destruct (nth_in_range _ all_i ii Hi) as [t Et].
  rewrite Ex, Et. cbn [api_types].
  pose proof (api_var_status fmt Put x t None (map (val_of_code (api_src Put x t)) cs)) as S.
  destruct (api_var _ _ _ _ _ _) as [st rs]. exact S.
Qed.

Lemma mput_cont_loop_spec : forall fmt xi ii vars er,
  (forall cs, In cs vars -> st_ok (fst (put_conv fmt xi ii cs))) ->
  mput_cont_loop fmt xi ii vars er =
    (NC_NOERR,
     (if existsb (fun cs => fst (put_conv fmt xi ii cs) =? NC_ERANGE) vars then NC_ERANGE else er),
     flat_map (fun cs => snd (put_conv fmt xi ii cs)) vars).
Proof.
  intros fmt xi ii. induction vars as [| cs r IH]; intros er H; [reflexivity|].
  cbn [mput_cont_loop existsb flat_map]. unfold put_conv in *.
  pose proof (H cs (or_introl eq_refl)) as Hc.
  assert (Hr : forall c, In c r -> st_ok (fst (api_model false true fmt xi ii false 0 c))) by (intros; apply H; right; auto).
  destruct (api_model false true fmt xi ii false 0 cs) as [st rs] eqn:E. cbn [fst snd] in *.
  destruct Hc as [Hc | Hc]; subst st.
  - change (NC_NOERR =? NC_ERANGE) with false. change (NC_NOERR =? NC_NOERR) with true. cbv iota.
    rewrite (IH er Hr). reflexivity.
  - change (NC_ERANGE =? NC_ERANGE) with true. cbv iota. rewrite (IH NC_ERANGE Hr). cbn [orb].
    destruct (existsb _ r); reflexivity.
Qed.

(* ncmpi_mput_var_<T>[_all] as built (`mput_gate` is translated from dispatchers/var_getput.c): every variable is
   posted and completed, every element of every variable is transferred by the element rule, and the call
   returns NC_ERANGE iff some variable has an element that is out of range *)
Theorem mput_complete : forall fmt xi ii vars, 0 <= xi < 10 -> 0 <= ii < 11 ->
  mput_model fmt xi ii vars =
    ((if existsb (fun cs => fst (put_conv fmt xi ii cs) =? NC_ERANGE) vars then NC_ERANGE else NC_NOERR),
     0, NC_NOERR, flat_map (fun cs => snd (put_conv fmt xi ii cs)) vars).
Proof.
  intros fmt xi ii vars Hx Hi. unfold mput_model, mput_gate, mput_model_g.
  rewrite mput_cont_loop_spec by (intros; apply put_conv_status; assumption).
  change (NC_NOERR =? NC_NOERR) with true. reflexivity.
Qed.
(* the loop before the repair (left at the first status <> NC_NOERR): witness 3 NC_SHORT variables written
   from int, the second holds 70000: its request stays pending, the third variable is never written *)
Theorem mput_break_any_refuted :
  ~ (forall fmt xi ii vars, 0 <= xi < 10 -> 0 <= ii < 11 ->
       mput_model_g MputBreakAny fmt xi ii vars =
         ((if existsb (fun cs => fst (put_conv fmt xi ii cs) =? NC_ERANGE) vars then NC_ERANGE else NC_NOERR),
          0, NC_NOERR, flat_map (fun cs => snd (put_conv fmt xi ii cs)) vars)).
Proof.
  intros H. specialize (H 5 2 4 [[1]; [70000]; [2]] ltac:(lia) ltac:(lia)). vm_compute in H. discriminate H.
Qed.
Example ex_mput :
  mput_model_g MputBreakAny 5 2 4 [[1]; [70000]; [2]] = (NC_ERANGE, 1, NC_EPENDING, [(0, 1); (2, 0); (2, 0)]) /\
  mput_model 5 2 4 [[1]; [70000]; [2]] = (NC_ERANGE, 0, NC_NOERR, [(0, 1); (1, -32767); (0, 2)]) /\
  mput_model 5 2 4 [[1]; [7]; [2]] = (NC_NOERR, 0, NC_NOERR, [(0, 1); (0, 7); (0, 2)]).
Proof. vm_compute. repeat split. Qed.
