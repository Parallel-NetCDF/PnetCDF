(* Proofs_GenContig.v — the tie between ncmpio_filetype.c:is_request_contiguous as built and Access.is_contig:

     Gen_contig.is_request_contiguous_c isRecVar numRecVars ndims shape start count
       = FVal (b2z (Access.is_contig (z2b isRecVar) numRecVars shape count))

   for all shapes and counts of equal length (ndims = that length, fitting an int); start is not read by
   the C function.  Gen_contig.v is regenerated on every run by tools/tr_contig.py (tools/tr_cfun.py, target
   contig); combinators: CSub.v.  FVal: no array index outside [0, ndims), no overflow of the int loop
   counters, the three loops (one nested, two counting down, one left by `break`) end within their fuel. *)
From Pnc Require Import Base Access CSub Gen_contig Proofs_Lists Proofs_CSub.
Require Import String.
Require Import Lia ZArith ZifyBool List Bool.
Import ListNotations.
Local Open Scope Z_scope.

(* ---------- lists by index ---------- *)
Lemma gc_nth_skipn : forall A (l : list A) m t d, nth t (skipn m l) d = nth (m + t) l d.
Proof.
  induction l as [|a l IH]; intros m t d.
  - rewrite skipn_nil. destruct t, m; reflexivity.
  - destruct m as [|m]; [reflexivity|]. cbn [skipn Nat.add nth]. apply IH.
Qed.

Lemma gc_tl_skipn : forall A (l : list A) m, tl (skipn m l) = skipn (S m) l.
Proof.
  induction l as [|a l IH]; intros m; [destruct m; reflexivity|].
  destruct m as [|m]; [reflexivity|]. cbn [skipn]. rewrite IH. destruct l; reflexivity.
Qed.

Lemma gc_firstn_S : forall A (l : list A) p d, (p < length l)%nat ->
  firstn (S p) l = firstn p l ++ [nth p l d].
Proof.
  induction l as [|a l IH]; intros p d H; [cbn in H; lia|].
  destruct p as [|p]; [reflexivity|]. cbn [length] in H.
  change (firstn (S (S p)) (a :: l)) with (a :: firstn (S p) l).
  change (firstn (S p) (a :: l)) with (a :: firstn p l).
  change (nth (S p) (a :: l) d) with (nth p l d).
  rewrite (IH p d) by lia. reflexivity.
Qed.

Lemma gc_all_le1_snoc : forall l x, all_le1 (l ++ [x]) = all_le1 l && (x <=? 1).
Proof.
  induction l as [|a l IH]; intros x; cbn [app all_le1].
  - rewrite andb_true_r. reflexivity.
  - rewrite IH, andb_assoc. reflexivity.
Qed.

Ltac ctg_st :=
  unfold set_is_request_contiguous__i, set_is_request_contiguous__j, set_is_request_contiguous__most_sig_dim;
  cbn [is_request_contiguous__i is_request_contiguous__j is_request_contiguous__most_sig_dim].

Section Contig.
Variables (isr nrv : Z) (shape count : list Z) (pstart : c_ptr Z).
Hypothesis Hlen : length count = length shape.
Hypothesis Hn : Zlen shape <= 2147483647.
Let nd := Zlen shape.

Definition cst (i j m : Z) : st_is_request_contiguous :=
  {| is_request_contiguous__i := i; is_request_contiguous__j := j; is_request_contiguous__most_sig_dim := m |}.

(* the loop counters stay within -1 .. ndims *)
Lemma gc_i32 : forall z, -1 <= z <= nd -> in_i32 z = true.
Proof. clear Hlen. intros z Hz. apply in_i32_iff. lia. Qed.

(* loop 1: a zero count anywhere makes the request (trivially) contiguous *)
Lemma gc_loop1 : forall r k fuel jv mv,
  (k + r = length count)%nat -> (r < fuel)%nat ->
  c_loop fuel (is_request_contiguous_loop1_cdef isr nrv nd (Some (shape, 0)) pstart (Some (count, 0)))
              (is_request_contiguous_loop1_cond isr nrv nd (Some (shape, 0)) pstart (Some (count, 0)))
              (is_request_contiguous_loop1_body isr nrv nd (Some (shape, 0)) pstart (Some (count, 0)))
              (is_request_contiguous_loop1_inc isr nrv nd (Some (shape, 0)) pstart (Some (count, 0)))
              (cst (Z.of_nat k) jv mv)
  = if existsb (fun c => c =? 0) (skipn k count) then CRet 1 else CNorm (cst nd jv mv).
Proof.
  induction r as [|r IH]; intros k fuel jv mv Hk Hf.
  - destruct fuel as [|f]; [lia|].
    rewrite c_loop_exit;
      [ | reflexivity | unfold is_request_contiguous_loop1_cond, cst; ctg_st; unfold nd, Zlen; lia ].
    rewrite skipn_all2 by lia. cbn [existsb]. unfold cst, nd, Zlen. f_equal. f_equal. lia.
  - destruct fuel as [|f]; [lia|].
    rewrite (cs_skipn_nth_cons _ count k 0) by lia. cbn [existsb].
    rewrite c_loop_iter;
      [ | reflexivity | unfold is_request_contiguous_loop1_cond, cst; ctg_st; unfold nd, Zlen; lia ].
    unfold is_request_contiguous_loop1_body at 1. unfold cst. ctg_st.
    rewrite p_ok_nat by lia. rewrite p_get_nat. cbn [c_chk].
    destruct (nth k count 0 =? 0) eqn:E; cbn [orb]; [reflexivity|].
    unfold is_request_contiguous_loop1_inc at 1. ctg_st.
    rewrite gc_i32 by (unfold nd, Zlen; lia). cbn [c_chk c_bind]. ctg_st.
    replace (Z.of_nat k + 1) with (Z.of_nat (S k)) by lia.
    apply (IH (S k) f jv mv); lia.
Qed.

(* loop 3 (inner): count[j] <= 1 for j = m + q - 1 down to m *)
Lemma gc_loop3 : forall q fuel iv (m : nat),
  (m + q <= length count)%nat -> (q < fuel)%nat ->
  c_loop fuel (is_request_contiguous_loop3_cdef isr nrv nd (Some (shape, 0)) pstart (Some (count, 0)))
              (is_request_contiguous_loop3_cond isr nrv nd (Some (shape, 0)) pstart (Some (count, 0)))
              (is_request_contiguous_loop3_body isr nrv nd (Some (shape, 0)) pstart (Some (count, 0)))
              (is_request_contiguous_loop3_inc isr nrv nd (Some (shape, 0)) pstart (Some (count, 0)))
              (cst iv (Z.of_nat m + Z.of_nat q - 1) (Z.of_nat m))
  = if all_le1 (firstn q (skipn m count)) then CNorm (cst iv (Z.of_nat m - 1) (Z.of_nat m)) else CRet 0.
Proof.
  induction q as [|q IH]; intros fuel iv m Hq Hf.
  - destruct fuel as [|f]; [lia|].
    rewrite c_loop_exit;
      [ | reflexivity | unfold is_request_contiguous_loop3_cond, cst; ctg_st; lia ].
    cbn [firstn all_le1]. unfold cst. f_equal. f_equal. lia.
  - destruct fuel as [|f]; [lia|].
    assert (Hql : (q < length (skipn m count))%nat) by (rewrite skipn_length; lia).
    rewrite (gc_firstn_S _ (skipn m count) q 0 Hql), gc_all_le1_snoc, gc_nth_skipn.
    rewrite c_loop_iter;
      [ | reflexivity | unfold is_request_contiguous_loop3_cond, cst; ctg_st; lia ].
    unfold is_request_contiguous_loop3_body at 1. unfold cst. ctg_st.
    replace (Z.of_nat m + Z.of_nat (S q) - 1) with (Z.of_nat (m + q)) by lia.
    rewrite p_ok_nat by lia. rewrite p_get_nat. cbn [c_chk].
    match goal with |- context [if ?b then CRet 0 else CNorm _] => destruct b eqn:E end.
    + replace (nth (m + q) count 0 <=? 1) with false by lia. rewrite andb_false_r. reflexivity.
    + replace (nth (m + q) count 0 <=? 1) with true by lia. rewrite andb_true_r.
      unfold is_request_contiguous_loop3_inc at 1. ctg_st.
      rewrite gc_i32 by (unfold nd, Zlen; lia). cbn [c_chk c_bind]. ctg_st.
      replace (Z.of_nat (m + q) - 1) with (Z.of_nat m + Z.of_nat q - 1) by lia.
      apply (IH f iv m); lia.
Qed.

(* the model's scan, by the number p of dimensions above most_sig that are still to be looked at *)
Definition scan_p (m p : nat) : bool :=
  contig_scan (rev (zip (firstn p (skipn (S m) count)) (firstn p (skipn (S m) shape))))
              (firstn p (skipn m count)).

Lemma scan_p_S : forall m p, (S (m + p) < length count)%nat ->
  scan_p m (S p) =
  if nth (S (m + p)) count 0 <? nth (S (m + p)) shape 0
  then all_le1 (firstn (S p) (skipn m count)) else scan_p m p.
Proof.
  intros m p Hp. unfold scan_p.
  assert (Hc : (p < length (skipn (S m) count))%nat) by (rewrite skipn_length; lia).
  assert (Hs : (p < length (skipn (S m) shape))%nat) by (rewrite skipn_length; lia).
  rewrite (gc_firstn_S _ (skipn (S m) count) p 0 Hc), (gc_firstn_S _ (skipn (S m) shape) p 0 Hs).
  rewrite zip_app by (rewrite !firstn_length; lia). cbn [zip].
  rewrite rev_unit. cbn [contig_scan].
  rewrite !gc_nth_skipn.
  replace (S m + p)%nat with (S (m + p)) by lia.
  destruct (nth (S (m + p)) count 0 <? nth (S (m + p)) shape 0); [reflexivity|].
  f_equal.
  assert (Hq : (p < length (skipn m count))%nat) by (rewrite skipn_length; lia).
  rewrite (gc_firstn_S _ (skipn m count) p 0 Hq). apply removelast_last.
Qed.

(* loop 2 (outer), followed by `return 1` *)
Lemma gc_loop2 : forall p fuel jv (m : nat),
  (m + p < length count)%nat -> (p < fuel)%nat ->
  c_bind (c_loop fuel (is_request_contiguous_loop2_cdef isr nrv nd (Some (shape, 0)) pstart (Some (count, 0)))
              (is_request_contiguous_loop2_cond isr nrv nd (Some (shape, 0)) pstart (Some (count, 0)))
              (is_request_contiguous_loop2_body isr nrv nd (Some (shape, 0)) pstart (Some (count, 0)))
              (is_request_contiguous_loop2_inc isr nrv nd (Some (shape, 0)) pstart (Some (count, 0)))
              (cst (Z.of_nat m + Z.of_nat p) jv (Z.of_nat m)))
         (fun _ => CRet 1)
  = CRet (b2z (scan_p m p)).
Proof.
  induction p as [|p IH]; intros fuel jv m Hp Hf.
  - destruct fuel as [|f]; [lia|].
    rewrite c_loop_exit;
      [ | reflexivity | unfold is_request_contiguous_loop2_cond, cst; ctg_st; lia ].
    reflexivity.
  - destruct fuel as [|f]; [lia|].
    rewrite scan_p_S by lia.
    rewrite c_loop_iter;
      [ | reflexivity | unfold is_request_contiguous_loop2_cond, cst; ctg_st; lia ].
    unfold is_request_contiguous_loop2_body at 1. unfold cst. ctg_st.
    replace (Z.of_nat m + Z.of_nat (S p)) with (Z.of_nat (S (m + p))) by lia.
    rewrite !p_ok_nat by lia. rewrite !p_get_nat. cbn [andb c_chk].
    destruct (nth (S (m + p)) count 0 <? nth (S (m + p)) shape 0) eqn:E.
    + rewrite gc_i32 by (unfold nd, Zlen; lia). cbn [c_chk c_bind]. ctg_st.
      replace (Z.of_nat (S (m + p)) - 1) with (Z.of_nat m + Z.of_nat (S p) - 1) by lia.
      pose proof (gc_loop3 (S p)
                   (is_request_contiguous_loop3_fuel isr nrv nd (Some (shape, 0)) pstart (Some (count, 0))
                      (cst (Z.of_nat (S (m + p))) (Z.of_nat m + Z.of_nat (S p) - 1) (Z.of_nat m)))
                   (Z.of_nat (S (m + p))) m) as H3.
      unfold cst in H3. rewrite H3; clear H3.
      * destruct (all_le1 (firstn (S p) (skipn m count))); reflexivity.
      * lia.
      * unfold is_request_contiguous_loop3_fuel, c_fuel_ge. ctg_st. lia.
    + unfold is_request_contiguous_loop2_inc at 1. ctg_st.
      rewrite gc_i32 by (unfold nd, Zlen; lia). cbn [c_chk c_bind]. ctg_st.
      replace (Z.of_nat (S (m + p)) - 1) with (Z.of_nat m + Z.of_nat p) by lia.
      apply (IH f jv m); lia.
Qed.
Lemma scan_p_all : forall m, (m < length count)%nat ->
  scan_p m (length count - 1 - m) =
  contig_scan (rev (zip (tl (skipn m count)) (tl (skipn m shape)))) (removelast (skipn m count)).
Proof.
  intros m Hm. unfold scan_p. set (p := (length count - 1 - m)%nat). rewrite !gc_tl_skipn.
  rewrite (firstn_all2 (n := p) (skipn (S m) count)) by (rewrite skipn_length; unfold p; lia).
  rewrite (firstn_all2 (n := p) (skipn (S m) shape)) by (rewrite skipn_length, <- Hlen; unfold p; lia).
  rewrite (removelast_firstn_len (skipn m count)), skipn_length.
  replace (Nat.pred (length count - m)) with p by (unfold p; lia). reflexivity.
Qed.

(* from `i = ndims - 1` to the end of the function, most_sig_dim being m; m = length count = 1 is a record
   variable of a single dimension among several record variables: nothing above most_sig, loop 2 does not run *)
Lemma gc_tail : forall (m : nat) jv, (m <= 1)%nat -> (1 <= length count)%nat ->
  c_bind (c_loop (is_request_contiguous_loop2_fuel isr nrv nd (Some (shape, 0)) pstart (Some (count, 0))
                    (cst (nd - 1) jv (Z.of_nat m)))
              (is_request_contiguous_loop2_cdef isr nrv nd (Some (shape, 0)) pstart (Some (count, 0)))
              (is_request_contiguous_loop2_cond isr nrv nd (Some (shape, 0)) pstart (Some (count, 0)))
              (is_request_contiguous_loop2_body isr nrv nd (Some (shape, 0)) pstart (Some (count, 0)))
              (is_request_contiguous_loop2_inc isr nrv nd (Some (shape, 0)) pstart (Some (count, 0)))
              (cst (nd - 1) jv (Z.of_nat m)))
         (fun _ => CRet 1)
  = CRet (b2z (contig_scan (rev (zip (tl (skipn m count)) (tl (skipn m shape)))) (removelast (skipn m count)))).
Proof.
  intros m jv Hm H1. destruct (Nat.lt_ge_cases m (length count)) as [Hlt|Hge].
  - rewrite <- scan_p_all by exact Hlt.
    replace (nd - 1) with (Z.of_nat m + Z.of_nat (length count - 1 - m)) by (unfold nd, Zlen; lia).
    apply gc_loop2; [lia|]. unfold is_request_contiguous_loop2_fuel, c_fuel_gt, cst. ctg_st. lia.
  - unfold is_request_contiguous_loop2_fuel, c_fuel_gt.
    rewrite c_loop_exit;
      [ | reflexivity | unfold is_request_contiguous_loop2_cond, cst; ctg_st; unfold nd, Zlen; lia ].
    rewrite (skipn_all2 (n:=m) count) by lia. rewrite (skipn_all2 (n:=m) shape) by lia. reflexivity.
Qed.
End Contig.

Theorem gen_is_contig_eq : forall isr nrv shape count pstart,
  length count = length shape -> Zlen shape <= 2147483647 ->
  is_request_contiguous_c isr nrv (Zlen shape) (Some (shape, 0)) pstart (Some (count, 0))
  = FVal (b2z (is_contig (z2b isr) nrv shape count)).
Proof.
  intros isr nrv shape count pstart Hlen Hn.
  unfold is_request_contiguous_c, is_request_contiguous_body, st_is_request_contiguous_init.
  destruct shape as [|sh0 shr]; [reflexivity|].
  destruct count as [|c0 cr]; [discriminate|].
  set (shape := sh0 :: shr) in *. set (count := c0 :: cr) in *.
  assert (Hn1 : 1 <= Zlen shape) by (unfold shape; rewrite Zlen_cons; pose proof (Zlen_nonneg shr); lia).
  replace (Zlen shape =? 0) with false by lia. cbn [c_bind]. ctg_st.
  (* loop 1 *)
  rewrite (gc_loop1 isr nrv shape count pstart Hlen Hn (length count) 0 _ 0 0);
    [ | lia | unfold is_request_contiguous_loop1_fuel, c_fuel_lt; ctg_st; unfold Zlen; lia ].
  cbn [skipn]. unfold is_contig. fold shape.
  change (match shape with [] => true | _ :: _ => ?x end) with x.
  destruct (existsb (fun c : Z => c =? 0) count) eqn:Ez; cbn [c_bind]; [reflexivity|]. unfold cst. ctg_st.
  set (rc := z2b isr && (nrv >? 1)).
  set (m := if rc then 1%nat else 0%nat).
  match goal with |- c_fun (c_bind ?X _) = _ =>
    assert (H1 : X = if rc && (hd 0 count >? 1) then CRet 0 else CNorm (cst (Zlen shape) 0 (Z.of_nat m))) end.
  { unfold rc, m, cst, count. cbn [hd]. rewrite p_ok_cons0, p_get_some. cbn [Z.add znth Z.eqb c_chk].
    destruct (z2b isr); cbn [andb]; [|reflexivity].
    destruct (nrv >? 1); cbn [andb]; [|reflexivity].
    destruct (c0 >? 1); reflexivity. }
  rewrite H1. clear H1.
  destruct (rc && (hd 0 count >? 1)) eqn:Erc; cbn [c_bind]; [reflexivity|]. unfold cst. ctg_st.
  rewrite (gc_i32 shape Hn) by lia. cbn [c_chk c_bind]. ctg_st.
  assert (Hm : (m <= 1)%nat) by (unfold m; destruct rc; lia).
  assert (Hl : (1 <= length count)%nat) by (unfold count; cbn [length]; lia).
  exact (f_equal c_fun (gc_tail isr nrv shape count pstart Hlen Hn m 0 Hm Hl)).
Qed.

Theorem gen_contig_subset_complete : tr_cfun_unsupported = [].
Proof. reflexivity. Qed.

Example gen_is_contig_ex :
  let shape := [0; 4; 6] in
  (length [1; 2; 6] = length shape /\ Zlen shape <= 2147483647) /\
  is_request_contiguous_c 1 1 3 (Some (shape, 0)) None (Some ([1; 2; 6], 0)) = FVal 1 /\
  is_request_contiguous_c 1 1 3 (Some (shape, 0)) None (Some ([2; 2; 6], 0)) = FVal 0 /\
  is_request_contiguous_c 1 2 3 (Some (shape, 0)) None (Some ([2; 4; 6], 0)) = FVal 0 /\
  is_request_contiguous_c 1 1 3 (Some (shape, 0)) None (Some ([2; 4; 6], 0)) = FVal 1 /\
  is_request_contiguous_c 0 0 3 (Some ([3; 4; 6], 0)) None (Some ([1; 1; 3], 0)) = FVal 1 /\
  is_request_contiguous_c 0 0 3 (Some ([3; 4; 6], 0)) None (Some ([1; 2; 3], 0)) = FVal 0.
Proof. cbv zeta. split; [split; [reflexivity | cbn; lia] | repeat split]. Qed.

Print Assumptions gen_is_contig_eq.
Print Assumptions gen_contig_subset_complete.
