(* Proofs_Fault.v -- proofs for property C11 about the model Fault.v instantiated with the generated
   Gen_iosites.v.  Part 1 (general lemmas) is hand-written; part 2 (the verdict of each I/O site and
   of the chains of the propagation table, each a one-line instance of a lemma of part 1) is produced
   by `python3 -m checks.C11 --regen` from the current verdicts of the model and then kept as static
   text: when /repo changes the behaviour of a site, the corresponding lemma stops checking and the
   check reports it. *)
From Coq Require Export ZArith String List Bool Lia.
From Pnc Require Export Gen_consts Fault Gen_iosites.
Export ListNotations.
Open Scope string_scope.
Open Scope Z_scope.

(* closes a goal `x = y` (y a value) by one VM conversion, performed when the proof term is checked *)
Ltac by_vm := match goal with |- _ = ?y => vm_cast_no_check (eq_refl y) end.

(** * 1. Error classes and mpi2nc *)

(* class_name has a left inverse: look the name up in all_classes *)
Lemma class_of_name c :
  find (fun d => String.eqb (class_name d) (class_name c)) all_classes = Some c.
Proof. destruct c; reflexivity. Qed.

Lemma all_classes_complete : forall c : errclass, In c all_classes.
Proof. intros c. exact (proj1 (find_some _ _ (class_of_name c))). Qed.

Lemma class_name_inj : forall a b, class_name a = class_name b -> a = b.
Proof.
  intros a b E. pose proof (class_of_name a) as H. rewrite E, class_of_name in H. congruence.
Qed.

Definition class_mem (c : errclass) (D : list errclass) : bool :=
  existsb (fun d => String.eqb (class_name d) (class_name c)) D.

Lemma class_mem_In c D : class_mem c D = true -> In c D.
Proof.
  unfold class_mem. intros H. apply existsb_exists in H. destruct H as [d [Hd E]].
  apply String.eqb_eq in E. apply class_name_inj in E. subst. exact Hd.
Qed.

Lemma In_class_mem c D : In c D -> class_mem c D = true.
Proof.
  intros H. unfold class_mem. apply existsb_exists. exists c. split; [exact H | apply String.eqb_refl].
Qed.

Lemma forall_classes (P : errclass -> bool) :
  forallb P all_classes = true -> forall c, P c = true.
Proof.
  intros H c. rewrite forallb_forall in H. apply H. apply all_classes_complete.
Qed.

(* ncmpii_error_mpi2nc never yields NC_NOERR, always a negative code *)
Lemma mpi2nc_negative : forall c, mpi2nc c < 0.
Proof.
  intros c. apply Z.ltb_lt. revert c. apply forall_classes. vm_compute. reflexivity.
Qed.

Lemma mpi2nc_never_noerr : forall c, mpi2nc c <> NC_NOERR.
Proof. intros c. pose proof (mpi2nc_negative c). unfold NC_NOERR. lia. Qed.

(* ncmpii_error_mpi2nc has ten values, and a site sees the class of a failure through it only *)
Definition mpi2nc_codes : list Z := nodup Z.eq_dec (map mpi2nc all_classes).

Lemma mpi2nc_in_codes c : In (mpi2nc c) mpi2nc_codes.
Proof. apply nodup_In, in_map, all_classes_complete. Qed.

(* tie of the hand-written mpi2nc to the table the translator extracts from error_mpi2nc.c *)
Fixpoint table_lookup (k : string) (t : list (string * Z)) (d : Z) : Z :=
  match t with
  | [] => d
  | (k', v) :: r => if String.eqb k k' then v else table_lookup k r d
  end.

Lemma mpi2nc_matches_source :
  forall c, mpi2nc c = table_lookup (class_name c) mpi2nc_table mpi2nc_default.
Proof.
  intros c. apply Z.eqb_eq. revert c. apply forall_classes. vm_compute. reflexivity.
Qed.

(* every class the source tests for is one of the modelled classes *)
Lemma mpi2nc_table_classes_known :
  forall k v, In (k, v) mpi2nc_table -> exists c, class_name c = k.
Proof.
  assert (H : forallb (fun kv => existsb (fun c => String.eqb (class_name c) (fst kv)) all_classes)
                      mpi2nc_table = true) by by_vm.
  intros k v Hin. rewrite forallb_forall in H. specialize (H _ Hin). cbn [fst] in H.
  apply existsb_exists in H. destruct H as [c [_ Hc]]. exists c. apply String.eqb_eq. exact Hc.
Qed.

Lemma mpi2nc_default_is_EFILE : mpi2nc_default = NC_EFILE.
Proof. by_vm. Qed.

(* the assumption "status codes are never positive": every NC constant that occurs in the generated
   continuations is <= 0, and NC_NOERR is the only zero *)
Lemma nc_codes_negative :
  forall z n, In (z, n) nc_codes -> z < 0 \/ (z = 0 /\ n = "NC_NOERR").
Proof.
  assert (H : forallb (fun zn => Z.ltb (fst zn) 0 || (Z.eqb (fst zn) 0 && String.eqb (snd zn) "NC_NOERR"))
                      nc_codes = true) by by_vm.
  intros z n Hin. rewrite forallb_forall in H. specialize (H _ Hin). cbn [fst snd] in H.
  apply orb_true_iff in H. destruct H as [H | H].
  - left. apply Z.ltb_lt. exact H.
  - right. apply andb_true_iff in H. destruct H as [H1 H2].
    split; [apply Z.eqb_eq; exact H1 | apply String.eqb_eq; exact H2].
Qed.

(* the translator's own completeness checks (textual census of the calls against the AST walk) *)
Lemma translator_census_complete : translator_problems = [].
Proof. by_vm. Qed.

(** * 2. Equality tests are exact *)

Lemma aval_eqb_eq a b : aval_eqb a b = true <-> a = b.
Proof. destruct a, b; cbn; rewrite ?Z.eqb_eq; split; congruence. Qed.

Lemma vars_eqb_eq : forall a b, vars_eqb a b = true <-> a = b.
Proof.
  induction a as [| [k x] s IH]; intros [| [l y] t]; cbn; try (split; congruence).
  rewrite !andb_true_iff, String.eqb_eq, aval_eqb_eq, IH. split; [intros [[-> ->] ->] | intros E; injection E]; auto.
Qed.

Lemma state_eqb_eq a b : state_eqb a b = true <-> a = b.
Proof.
  destruct a as [va ra], b as [vb rb]. unfold state_eqb. cbn. rewrite andb_true_iff, vars_eqb_eq.
  destruct ra as [[|] |], rb as [[|] |]; cbn; (split; [intros [-> E] | intros E; split]); congruence.
Qed.

Lemma smem_In s l : smem s l = true <-> In s l.
Proof.
  induction l as [| h t IH]; cbn; [split; [discriminate | contradiction] |].
  rewrite orb_true_iff, state_eqb_eq, IH. split; intros [H | H]; auto.
Qed.

Lemma In_smem s l : In s l -> smem s l = true.
Proof. apply smem_In. Qed.

(** * 3. Loops: the computed set of loop-head states covers every number of iterations *)

(* loop-head states after exactly n further iterations *)
Fixpoint iter_heads (next : state -> list state) (n : nat) (st : state) : list state :=
  match n with
  | O => [st]
  | S k => flat_map next (iter_heads next k st)
  end.

Lemma closed_step next hs h h' :
  closed next hs = true -> In h hs -> In h' (next h) -> In h' hs.
Proof.
  unfold closed. intros Hc Hh Hn. rewrite forallb_forall in Hc. specialize (Hc _ Hh).
  rewrite forallb_forall in Hc. apply smem_In. apply Hc. exact Hn.
Qed.

Lemma loop_heads_cover next hs st :
  closed next hs = true -> smem st hs = true ->
  forall n h, In h (iter_heads next n st) -> In h hs.
Proof.
  intros Hc Hs n. induction n as [| k IH]; cbn; intros h Hin.
  - destruct Hin as [Hin | []]. subst. apply smem_In. exact Hs.
  - apply in_flat_map in Hin. destruct Hin as [h0 [H0 H1]].
    eapply closed_step; eauto.
Qed.

(* whenever loop_exec does not fail closed, its result contains, for every number n of iterations
   and every loop-head state h reachable by n iterations: leaving the loop at h, and every way the
   body started at h leaves the loop (break, return, goto) *)
Theorem loop_exec_covers_all_iterations eb ei st hs :
  closure LOOPFUEL (heads_next eb ei) [st] [] = Some hs ->
  closed (heads_next eb ei) hs && smem st hs = true ->
  forall n h, In h (iter_heads (heads_next eb ei) n st) ->
    In (ONormal h) (loop_exec eb ei st) /\
    (forall s, In (OBreak s) (eb h) -> In (ONormal s) (loop_exec eb ei st)) /\
    (forall v, In (ORet v) (eb h) -> In (ORet v) (loop_exec eb ei st)).
Proof.
  intros Hcl Hck n h Hin.
  apply andb_true_iff in Hck. destruct Hck as [Hc Hs].
  assert (Hh : In h hs) by (eapply loop_heads_cover; eauto).
  unfold loop_exec. rewrite Hcl. rewrite Hc, Hs. cbn [andb].
  split; [| split].
  - apply in_flat_map. exists h. split; [exact Hh | left; reflexivity].
  - intros s Hb. apply in_flat_map. exists h. split; [exact Hh |]. right.
    apply in_flat_map. exists (OBreak s). split; [exact Hb | left; reflexivity].
  - intros v Hr. apply in_flat_map. exists h. split; [exact Hh |]. right.
    apply in_flat_map. exists (ORet v). split; [exact Hr | left; reflexivity].
Qed.

(* and in every other case it fails closed *)
Theorem loop_exec_fails_closed eb ei st :
  (forall hs, closure LOOPFUEL (heads_next eb ei) [st] [] = Some hs ->
              closed (heads_next eb ei) hs && smem st hs = false) ->
  exists w, loop_exec eb ei st = [OBad w].
Proof.
  intros H. unfold loop_exec.
  destruct (closure LOOPFUEL (heads_next eb ei) [st] []) as [hs |] eqn:E.
  - rewrite (H hs eq_refl). eexists; reflexivity.
  - eexists; reflexivity.
Qed.

(** * 4. Boolean verdicts = specification *)

Lemma is_err_nonzero v : is_err v = true <-> nonzero v.
Proof.
  destruct v; cbn; try tauto.
  - rewrite negb_true_iff, Z.eqb_neq. tauto.
  - split; [discriminate | contradiction].
Qed.

Lemma out_is_err_spec o : out_is_err o = true <-> exists v, o = ORet v /\ nonzero v.
Proof.
  split.
  - destruct o; cbn; try discriminate. intros H. exists v. split; [reflexivity | apply is_err_nonzero; exact H].
  - intros [v [E N]]. subst. cbn. apply is_err_nonzero. exact N.
Qed.

Lemma propagates_spec m z s : propagates m z s = true <-> returns_error (run m z (s_body s)).
Proof.
  unfold propagates, returns_error. cbv zeta.
  destruct (run m z (s_body s)) as [| o l] eqn:E.
  - cbn. split; [discriminate | intros [H _]; congruence].
  - cbn [negb andb]. rewrite forallb_forall. split.
    + intros H. split; [discriminate |]. intros o' Hin. apply out_is_err_spec. apply H. exact Hin.
    + intros [_ H] o' Hin. apply out_is_err_spec. apply H. exact Hin.
Qed.

Lemma io_propagates_spec s c : io_propagates s c = true <-> site_returns_error s c.
Proof. unfold io_propagates, site_returns_error. exact (propagates_spec VFail (mpi2nc c) s). Qed.

Lemma link_propagates_spec l : link_propagates l = true <-> link_returns_error l.
Proof. unfold link_propagates, link_returns_error. exact (propagates_spec VErr 0 l). Qed.

(* the classes whose failure the function of s does not turn into an error return; the
   interpreter runs once per value of mpi2nc, not once per class *)
Definition dropped_classes (s : site) : list errclass :=
  let lost := filter (fun z => negb (propagates VFail z s)) mpi2nc_codes in
  filter (fun c => existsb (Z.eqb (mpi2nc c)) lost) all_classes.

Lemma dropped_classes_spec s c : In c (dropped_classes s) <-> io_propagates s c = false.
Proof.
  unfold dropped_classes, io_propagates. cbv zeta. rewrite filter_In, existsb_exists. split.
  - intros [_ [z [Hz E]]]. apply Z.eqb_eq in E. subst z.
    apply filter_In in Hz. apply negb_true_iff. apply Hz.
  - intros H. split; [apply all_classes_complete |]. exists (mpi2nc c). split; [| apply Z.eqb_refl].
    apply filter_In. split; [apply mpi2nc_in_codes | rewrite H; reflexivity].
Qed.

Lemma dropped_drops s : drops_classes s (dropped_classes s).
Proof.
  intros c Hin Hr. apply dropped_classes_spec in Hin. apply io_propagates_spec in Hr. congruence.
Qed.

Lemma not_dropped s c : ~ In c (dropped_classes s) -> site_returns_error s c.
Proof.
  intros H. apply io_propagates_spec. destruct (io_propagates s c) eqn:E; [reflexivity |].
  contradict H. apply dropped_classes_spec. exact E.
Qed.

(** * 5. Call graph: a closed set of functions contains every caller *)

Lemma str_mem_In x l : str_mem x l = true <-> In x l.
Proof.
  induction l as [| h t IH]; cbn; [split; [discriminate | contradiction] |].
  rewrite orb_true_iff, IH, String.eqb_eq. split; intros [H | H]; auto.
Qed.

Lemma up_closed_sound links f R :
  up_closed links f R = true -> forall g, calls_up links f g -> str_mem g R = true.
Proof.
  unfold up_closed. intros H. apply andb_true_iff in H. destruct H as [Hf Hc].
  rewrite forallb_forall in Hc.
  intros g Hg. induction Hg as [| l Hl _ IH]; [exact Hf |].
  specialize (Hc _ Hl). rewrite IH in Hc. cbn in Hc. exact Hc.
Qed.

(* the translator's certificate for the callers of hdr_fetch *)
Lemma up_closed_hdr_fetch : up_closed link_sites "hdr_fetch" (up_set "hdr_fetch") = true.
Proof. by_vm. Qed.

(* a path given explicitly: link sites from f upwards *)
Fixpoint path_from (f : string) (p : list site) : option string :=
  match p with
  | [] => Some f
  | l :: r => if String.eqb (s_callee l) f then path_from (s_func l) r else None
  end.

Lemma path_from_sound links : forall p f g,
  (forall l, In l p -> In l links) -> path_from f p = Some g ->
  forall f0, calls_up links f0 f -> calls_up links f0 g.
Proof.
  induction p as [| l r IH]; cbn; intros f g Hin Hp f0 H0.
  - inversion Hp. subst. exact H0.
  - destruct (String.eqb (s_callee l) f) eqn:E; [| discriminate].
    apply String.eqb_eq in E. eapply IH; [| exact Hp |].
    + intros x Hx. apply Hin. right. exact Hx.
    + apply cu_step; [apply Hin; left; reflexivity | rewrite E; exact H0].
Qed.

Definition found (l : list site) (id : string) : bool :=
  match find_site id l with Some _ => true | None => false end.

Lemma site_of_In (id : string) (l : list site) : found l id = true -> In (site_of id l) l.
Proof.
  unfold found, site_of. destruct (find_site id l) as [x |] eqn:E; [| discriminate].
  intros _. unfold find_site in E. apply find_some in E. tauto.
Qed.

(* link site [id] lies above f: the link sites [ids] lead from f up to its callee *)
Lemma on_path_intro links f ids id :
  forallb (found links) (id :: ids) = true ->
  path_from f (map (fun i => site_of i links) ids) = Some (s_callee (site_of id links)) ->
  on_path links f (site_of id links).
Proof.
  intros Hf Hp. cbn [forallb] in Hf. apply andb_true_iff in Hf. destruct Hf as [H0 Hf].
  rewrite forallb_forall in Hf.
  split; [apply site_of_In; exact H0 |].
  eapply path_from_sound; [| exact Hp | apply cu_refl].
  intros x Hx. apply in_map_iff in Hx. destruct Hx as [i [E Hi]]. subst x. apply site_of_In, Hf, Hi.
Qed.

(** * 6. All link sites at once *)

(* the link sites at which the present code loses a callee's error:
   - hdr_get_NC_var: `break` out of the dimid loop on error, then err is overwritten by the result
     of hdr_get_NC_attrarray (on the implementation the misaligned parse then fails otherwise) *)
Definition bad_link_ids : list string :=
  [ "ncmpio_header_get.c:hdr_get_NC_var:hdr_get_uint32#2";
    "ncmpio_header_get.c:hdr_get_NC_var:hdr_get_uint64#2" ].

Lemma links_propagate_except_bad :
  forall l, In l link_sites -> ~ In (s_id l) bad_link_ids -> link_returns_error l.
Proof.
  assert (H : forallb (fun l => str_mem (s_id l) bad_link_ids || link_propagates l) link_sites = true)
    by by_vm.
  intros l Hin Hnb. rewrite forallb_forall in H. specialize (H _ Hin).
  apply orb_true_iff in H. destruct H as [H | H].
  - exfalso. apply Hnb. apply str_mem_In. exact H.
  - apply link_propagates_spec. exact H.
Qed.

(* and these really lose it in the model *)
Lemma bad_links_drop :
  forall id, In id bad_link_ids -> ~ link_returns_error (site_of id link_sites).
Proof.
  assert (H : forallb (fun id => negb (link_propagates (site_of id link_sites))) bad_link_ids = true)
    by by_vm.
  intros id Hin Hr. rewrite forallb_forall in H. specialize (H _ Hin).
  apply link_propagates_spec in Hr. rewrite Hr in H. discriminate.
Qed.

Lemma no_silent_drop_of_except links s :
  no_silent_drop_except links s [] [] -> no_silent_drop links s.
Proof.
  intros H c Hc. destruct (H c Hc) as [H1 H2]. split; [apply H1; intros [] |].
  intros l Hl. apply H2; [exact Hl | intros []].
Qed.

Lemma dropped_refutes links s c : In c (dropped_classes s) -> ~ no_silent_drop links s.
Proof.
  intros Hin N. destruct (N c (mpi2nc_never_noerr c)) as [Hs _]. exact (dropped_drops s c Hin Hs).
Qed.

Lemma losing_link_refutes links s l :
  on_path links (s_func s) l -> ~ link_returns_error l -> ~ no_silent_drop links s.
Proof.
  intros Hp Hl N. destruct (N E_IO (mpi2nc_never_noerr E_IO)) as [_ H]. exact (Hl (H l Hp)).
Qed.

(* link site l is a call of the hop h = (caller, callee) *)
Definition is_hop (l : site) (h : string * string) : bool :=
  String.eqb (s_func l) (fst h) && String.eqb (s_callee l) (snd h).

(* no hop of the chain is a call made at a link site of B; some hop is one made at a link site of B
   that loses the callee's error *)
Definition chain_avoids (B : list site) (fs : list string) : bool :=
  forallb (fun h => negb (existsb (fun l => is_hop l h) B)) (chain_hops fs).
Definition chain_loses (B : list site) (fs : list string) : bool :=
  existsb (fun h => existsb (fun l => is_hop l h && negb (link_propagates l)) B) (chain_hops fs).

Lemma chain_loses_refutes links B fs :
  incl B links -> chain_loses B fs = true -> ~ chain_reaches_api links fs.
Proof.
  intros HB Hex [_ N]. apply existsb_exists in Hex. destruct Hex as [[a b] [Hh Hex]].
  apply existsb_exists in Hex. destruct Hex as [l [Hl Hb]].
  apply andb_true_iff in Hb. destruct Hb as [Hhop Hb].
  assert (Hr : link_returns_error l).
  { apply (N a b l Hh), filter_In. split; [apply HB, Hl | exact Hhop]. }
  apply link_propagates_spec in Hr. rewrite Hr in Hb. discriminate.
Qed.

(* The generic lemmas are proved for an arbitrary list of link sites [links] and an arbitrary set
   [bad] of ids outside of which every link propagates (so that nothing about the big generated
   constants is unfolded when they are checked); they are instantiated below. *)
Section Generic.
  Variable links : list site.
  Variable bad : list string.
  Hypothesis Hall : forall l, In l links -> ~ In (s_id l) bad -> link_returns_error l.

  Lemma except_bad_gen (s : site) : no_silent_drop_except links s (dropped_classes s) bad.
  Proof.
    intros c _. split; [apply not_dropped |]. intros l [Hin _] Hnb. apply Hall; assumption.
  Qed.

  (* D contains the callee of every link site of [bad] and, with a function, all it calls *)
  Definition below_closed (D : list string) : bool :=
    forallb (fun l => implb (str_mem (s_id l) bad || str_mem (s_func l) D) (str_mem (s_callee l) D))
            links.

  Lemma below_closed_sound D f g :
    below_closed D = true -> calls_up links f g -> str_mem g D = true -> str_mem f D = true.
  Proof.
    intros Hc Hup. induction Hup as [| l Hl _ IH]; [auto |]. intros Hg. apply IH.
    unfold below_closed in Hc. rewrite forallb_forall in Hc. specialize (Hc _ Hl).
    rewrite Hg, orb_true_r in Hc. exact Hc.
  Qed.

  (* so a function outside D has no link site of [bad] on any call path above it *)
  Lemma except_nil_gen (s : site) (D : list string) :
    below_closed D = true -> str_mem (s_func s) D = false ->
    no_silent_drop_except links s (dropped_classes s) [].
  Proof.
    intros Hc Hf c _. split; [apply not_dropped |].
    intros l [Hin Hup] _. apply Hall; [exact Hin |]. intros Hb. apply str_mem_In in Hb.
    assert (Hl : str_mem (s_callee l) D = true).
    { unfold below_closed in Hc. rewrite forallb_forall in Hc. specialize (Hc _ Hin).
      rewrite Hb in Hc. exact Hc. }
    rewrite (below_closed_sound D _ _ Hc Hup Hl) in Hf. discriminate.
  Qed.

  (* chains of the hand-written propagation table *)
  Lemma chain_reaches_api_except_intro_gen (fs : list string) :
    chain_in_graph links fs = true ->
    chain_reaches_api_except links fs bad.
  Proof.
    intros Hg. split; [exact Hg |]. intros caller callee l Hh Hl Hnb.
    apply Hall; [| exact Hnb].
    unfold hop_links in Hl. apply filter_In in Hl. tauto.
  Qed.

  Lemma chain_reaches_api_intro_gen (fs : list string) :
    chain_in_graph links fs = true ->
    chain_avoids (filter (fun l => str_mem (s_id l) bad) links) fs = true ->
    chain_reaches_api links fs.
  Proof.
    intros Hg Hb. split; [exact Hg |]. intros caller callee l Hh Hl.
    unfold hop_links in Hl. apply filter_In in Hl. destruct Hl as [Hin Hhop].
    apply Hall; [exact Hin |]. intros Hbad.
    unfold chain_avoids in Hb. rewrite forallb_forall in Hb. specialize (Hb _ Hh).
    apply negb_true_iff in Hb. rewrite <- not_true_iff_false in Hb. apply Hb.
    apply existsb_exists. exists l. split; [| exact Hhop].
    apply filter_In. split; [exact Hin | apply str_mem_In; exact Hbad].
  Qed.
End Generic.

(* instances for the generated link sites *)
Definition except_bad := except_bad_gen link_sites bad_link_ids links_propagate_except_bad.
Definition except_nil := except_nil_gen link_sites bad_link_ids links_propagate_except_bad.

(* the three verdicts of a site: every class propagates all the way up; classes are lost inside the
   function; a caller loses the error *)
Lemma site_propagates s D :
  below_closed link_sites bad_link_ids D = true -> str_mem (s_func s) D = false ->
  dropped_classes s = [] -> no_silent_drop link_sites s.
Proof.
  intros HD Hf E. apply no_silent_drop_of_except. rewrite <- E. exact (except_nil s D HD Hf).
Qed.

Lemma site_loses_classes s c L B :
  dropped_classes s = c :: L -> no_silent_drop_except link_sites s (dropped_classes s) B ->
  ~ no_silent_drop link_sites s /\ drops_classes s (c :: L) /\
  no_silent_drop_except link_sites s (c :: L) B.
Proof.
  intros E H. rewrite <- E. split; [| split; [apply dropped_drops | exact H]].
  apply (dropped_refutes link_sites s c). rewrite E. left. reflexivity.
Qed.

Lemma site_lost_by_caller s f id :
  on_path link_sites f (site_of id link_sites) -> s_func s = f -> str_mem id bad_link_ids = true ->
  dropped_classes s = [] ->
  ~ no_silent_drop link_sites s /\ no_silent_drop_except link_sites s [] bad_link_ids.
Proof.
  intros Hp Hf Hb E. subst f. split; [| rewrite <- E; apply except_bad].
  apply (losing_link_refutes link_sites s _ Hp). apply bad_links_drop, str_mem_In, Hb.
Qed.

(* the chains, all at once; the link sites of bad_link_ids are collected once for all of them *)
Lemma chains_reach_api_intro names :
  (let B := filter (fun l => str_mem (s_id l) bad_link_ids) link_sites in
   forallb (fun fs => chain_in_graph link_sites fs && chain_avoids B fs) (map chain_of names)) = true ->
  Forall (fun name => chain_reaches_api link_sites (chain_of name)) names.
Proof.
  intros H. cbv zeta in H. apply Forall_forall. intros name Hn. rewrite forallb_forall in H.
  specialize (H _ (in_map chain_of _ _ Hn)). apply andb_true_iff in H.
  apply (chain_reaches_api_intro_gen link_sites bad_link_ids links_propagate_except_bad); apply H.
Qed.

Lemma chains_refuted_and_partial_intro names :
  (let B := filter (fun l => str_mem (s_id l) bad_link_ids) link_sites in
   forallb (fun fs => chain_in_graph link_sites fs && chain_loses B fs) (map chain_of names)) = true ->
  Forall (fun name => ~ chain_reaches_api link_sites (chain_of name) /\
                      chain_reaches_api_except link_sites (chain_of name) bad_link_ids) names.
Proof.
  intros H. cbv zeta in H. apply Forall_forall. intros name Hn. rewrite forallb_forall in H.
  specialize (H _ (in_map chain_of _ _ Hn)). apply andb_true_iff in H. destruct H as [Hg Hl]. split.
  - exact (chain_loses_refutes link_sites _ _ (incl_filter _ _) Hl).
  - exact (chain_reaches_api_except_intro_gen link_sites bad_link_ids links_propagate_except_bad _ Hg).
Qed.

(* the hypotheses of the statements are satisfiable / the statements are not vacuous *)
Example mpi2nc_hypothesis_satisfiable : mpi2nc E_NO_SPACE <> NC_NOERR /\ mpi2nc E_IO <> NC_NOERR.
Proof. split; apply mpi2nc_never_noerr. Qed.

Example on_path_inhabited :
  on_path link_sites "write_NC" (site_of "ncmpio_enddef.c:ncmpio__enddef:write_NC" link_sites) /\
  on_path link_sites "write_NC" (site_of "file.c:ncmpi_enddef:ncmpio_enddef" link_sites).
Proof.
  split.
  - apply (on_path_intro link_sites "write_NC" []); by_vm.
  - apply (on_path_intro link_sites "write_NC"
             ["ncmpio_enddef.c:ncmpio__enddef:write_NC"; "ncmpio_enddef.c:ncmpio_enddef:ncmpio__enddef"]); by_vm.
Qed.

(* ==== PART 2: per-site and per-chain lemmas (generated by `python3 -m checks.C11 --regen`) ==== *)

Definition below_bad_links : list string := ["hdr_fetch"; "hdr_get_uint32"; "hdr_get_uint64"].
Lemma below_bad_links_closed : below_closed link_sites bad_link_ids below_bad_links = true.
Proof. by_vm. Qed.

Lemma bad_link_above_hdr_fetch :
  on_path link_sites "hdr_fetch" (site_of "ncmpio_header_get.c:hdr_get_NC_var:hdr_get_uint32#2" link_sites).
Proof. apply (on_path_intro link_sites "hdr_fetch" ["ncmpio_header_get.c:hdr_get_uint32:hdr_fetch"]); by_vm. Qed.

Lemma nsd_move_file_block__MPI_File_read_at_all : no_silent_drop link_sites (site_of "ncmpio_enddef.c:move_file_block:MPI_File_read_at_all" io_sites).
Proof. apply (site_propagates _ _ below_bad_links_closed); by_vm. Qed.

Lemma nsd_move_file_block__MPI_File_write_at_all : no_silent_drop link_sites (site_of "ncmpio_enddef.c:move_file_block:MPI_File_write_at_all" io_sites).
Proof. apply (site_propagates _ _ below_bad_links_closed); by_vm. Qed.

Lemma nsd_move_file_block__MPI_File_write_at : no_silent_drop link_sites (site_of "ncmpio_enddef.c:move_file_block:MPI_File_write_at" io_sites).
Proof. apply (site_propagates _ _ below_bad_links_closed); by_vm. Qed.

Lemma nsd_write_NC__MPI_File_write_at_all_1 : no_silent_drop link_sites (site_of "ncmpio_enddef.c:write_NC:MPI_File_write_at_all#1" io_sites).
Proof. apply (site_propagates _ _ below_bad_links_closed); by_vm. Qed.

Lemma nsd_write_NC__MPI_File_write_at : no_silent_drop link_sites (site_of "ncmpio_enddef.c:write_NC:MPI_File_write_at" io_sites).
Proof. apply (site_propagates _ _ below_bad_links_closed); by_vm. Qed.

Lemma nsd_write_NC__MPI_File_write_at_all_2_refuted_and_partial :
  (~ no_silent_drop link_sites (site_of "ncmpio_enddef.c:write_NC:MPI_File_write_at_all#2" io_sites)) /\
  (drops_classes (site_of "ncmpio_enddef.c:write_NC:MPI_File_write_at_all#2" io_sites) [E_BUFFER; E_COUNT; E_TYPE; E_TAG; E_COMM; E_RANK; E_REQUEST; E_ROOT; E_GROUP; E_OP; E_TOPOLOGY; E_DIMS; E_ARG; E_UNKNOWN; E_TRUNCATE; E_OTHER; E_INTERN; E_IN_STATUS; E_PENDING; E_ACCESS; E_AMODE; E_ASSERT; E_BAD_FILE; E_BASE; E_CONVERSION; E_DISP; E_DUP_DATAREP; E_FILE_EXISTS; E_FILE_IN_USE; E_FILE; E_INFO_KEY; E_INFO_NOKEY; E_INFO_VALUE; E_INFO; E_IO; E_KEYVAL; E_LOCKTYPE; E_NAME; E_NO_MEM; E_NOT_SAME; E_NO_SPACE; E_NO_SUCH_FILE; E_PORT; E_QUOTA; E_READ_ONLY; E_RMA_CONFLICT; E_RMA_SYNC; E_SERVICE; E_SIZE; E_SPAWN; E_UNSUPPORTED_DATAREP; E_UNSUPPORTED_OPERATION; E_WIN; E_RMA_RANGE; E_RMA_ATTACH; E_RMA_FLAVOR; E_RMA_SHARED; E_ANY_OTHER_CLASS]) /\
  (no_silent_drop_except link_sites (site_of "ncmpio_enddef.c:write_NC:MPI_File_write_at_all#2" io_sites) [E_BUFFER; E_COUNT; E_TYPE; E_TAG; E_COMM; E_RANK; E_REQUEST; E_ROOT; E_GROUP; E_OP; E_TOPOLOGY; E_DIMS; E_ARG; E_UNKNOWN; E_TRUNCATE; E_OTHER; E_INTERN; E_IN_STATUS; E_PENDING; E_ACCESS; E_AMODE; E_ASSERT; E_BAD_FILE; E_BASE; E_CONVERSION; E_DISP; E_DUP_DATAREP; E_FILE_EXISTS; E_FILE_IN_USE; E_FILE; E_INFO_KEY; E_INFO_NOKEY; E_INFO_VALUE; E_INFO; E_IO; E_KEYVAL; E_LOCKTYPE; E_NAME; E_NO_MEM; E_NOT_SAME; E_NO_SPACE; E_NO_SUCH_FILE; E_PORT; E_QUOTA; E_READ_ONLY; E_RMA_CONFLICT; E_RMA_SYNC; E_SERVICE; E_SIZE; E_SPAWN; E_UNSUPPORTED_DATAREP; E_UNSUPPORTED_OPERATION; E_WIN; E_RMA_RANGE; E_RMA_ATTACH; E_RMA_FLAVOR; E_RMA_SHARED; E_ANY_OTHER_CLASS] []).
Proof. apply site_loses_classes; [by_vm | apply (except_nil _ _ below_bad_links_closed); by_vm]. Qed.

Lemma nsd_ncmpio_read_write__MPI_File_read_at_all : no_silent_drop link_sites (site_of "ncmpio_file_io.c:ncmpio_read_write:MPI_File_read_at_all" io_sites).
Proof. apply (site_propagates _ _ below_bad_links_closed); by_vm. Qed.

Lemma nsd_ncmpio_read_write__MPI_File_read_at : no_silent_drop link_sites (site_of "ncmpio_file_io.c:ncmpio_read_write:MPI_File_read_at" io_sites).
Proof. apply (site_propagates _ _ below_bad_links_closed); by_vm. Qed.

Lemma nsd_ncmpio_read_write__MPI_File_write_at_all : no_silent_drop link_sites (site_of "ncmpio_file_io.c:ncmpio_read_write:MPI_File_write_at_all" io_sites).
Proof. apply (site_propagates _ _ below_bad_links_closed); by_vm. Qed.

Lemma nsd_ncmpio_read_write__MPI_File_write_at : no_silent_drop link_sites (site_of "ncmpio_file_io.c:ncmpio_read_write:MPI_File_write_at" io_sites).
Proof. apply (site_propagates _ _ below_bad_links_closed); by_vm. Qed.

Lemma nsd_fill_var_rec__MPI_File_write_at_all : no_silent_drop link_sites (site_of "ncmpio_fill.c:fill_var_rec:MPI_File_write_at_all" io_sites).
Proof. apply (site_propagates _ _ below_bad_links_closed); by_vm. Qed.

Lemma nsd_fill_var_rec__MPI_File_write_at : no_silent_drop link_sites (site_of "ncmpio_fill.c:fill_var_rec:MPI_File_write_at" io_sites).
Proof. apply (site_propagates _ _ below_bad_links_closed); by_vm. Qed.

Lemma nsd_fillerup_aggregate__MPI_File_write_at_all : no_silent_drop link_sites (site_of "ncmpio_fill.c:fillerup_aggregate:MPI_File_write_at_all" io_sites).
Proof. apply (site_propagates _ _ below_bad_links_closed); by_vm. Qed.

Lemma nsd_fillerup_aggregate__MPI_File_write_at : no_silent_drop link_sites (site_of "ncmpio_fill.c:fillerup_aggregate:MPI_File_write_at" io_sites).
Proof. apply (site_propagates _ _ below_bad_links_closed); by_vm. Qed.

Lemma nsd_hdr_fetch__MPI_File_read_at_all_1_refuted_and_partial :
  (~ no_silent_drop link_sites (site_of "ncmpio_header_get.c:hdr_fetch:MPI_File_read_at_all#1" io_sites)) /\
  (no_silent_drop_except link_sites (site_of "ncmpio_header_get.c:hdr_fetch:MPI_File_read_at_all#1" io_sites) [] bad_link_ids).
Proof. apply (site_lost_by_caller _ _ _ bad_link_above_hdr_fetch); by_vm. Qed.

Lemma nsd_hdr_fetch__MPI_File_read_at_refuted_and_partial :
  (~ no_silent_drop link_sites (site_of "ncmpio_header_get.c:hdr_fetch:MPI_File_read_at" io_sites)) /\
  (no_silent_drop_except link_sites (site_of "ncmpio_header_get.c:hdr_fetch:MPI_File_read_at" io_sites) [] bad_link_ids).
Proof. apply (site_lost_by_caller _ _ _ bad_link_above_hdr_fetch); by_vm. Qed.

Lemma nsd_hdr_fetch__MPI_File_read_at_all_2_refuted_and_partial :
  (~ no_silent_drop link_sites (site_of "ncmpio_header_get.c:hdr_fetch:MPI_File_read_at_all#2" io_sites)) /\
  (drops_classes (site_of "ncmpio_header_get.c:hdr_fetch:MPI_File_read_at_all#2" io_sites) [E_BUFFER; E_COUNT; E_TYPE; E_TAG; E_COMM; E_RANK; E_REQUEST; E_ROOT; E_GROUP; E_OP; E_TOPOLOGY; E_DIMS; E_ARG; E_UNKNOWN; E_TRUNCATE; E_OTHER; E_INTERN; E_IN_STATUS; E_PENDING; E_ACCESS; E_AMODE; E_ASSERT; E_BAD_FILE; E_BASE; E_CONVERSION; E_DISP; E_DUP_DATAREP; E_FILE_EXISTS; E_FILE_IN_USE; E_FILE; E_INFO_KEY; E_INFO_NOKEY; E_INFO_VALUE; E_INFO; E_IO; E_KEYVAL; E_LOCKTYPE; E_NAME; E_NO_MEM; E_NOT_SAME; E_NO_SPACE; E_NO_SUCH_FILE; E_PORT; E_QUOTA; E_READ_ONLY; E_RMA_CONFLICT; E_RMA_SYNC; E_SERVICE; E_SIZE; E_SPAWN; E_UNSUPPORTED_DATAREP; E_UNSUPPORTED_OPERATION; E_WIN; E_RMA_RANGE; E_RMA_ATTACH; E_RMA_FLAVOR; E_RMA_SHARED; E_ANY_OTHER_CLASS]) /\
  (no_silent_drop_except link_sites (site_of "ncmpio_header_get.c:hdr_fetch:MPI_File_read_at_all#2" io_sites) [E_BUFFER; E_COUNT; E_TYPE; E_TAG; E_COMM; E_RANK; E_REQUEST; E_ROOT; E_GROUP; E_OP; E_TOPOLOGY; E_DIMS; E_ARG; E_UNKNOWN; E_TRUNCATE; E_OTHER; E_INTERN; E_IN_STATUS; E_PENDING; E_ACCESS; E_AMODE; E_ASSERT; E_BAD_FILE; E_BASE; E_CONVERSION; E_DISP; E_DUP_DATAREP; E_FILE_EXISTS; E_FILE_IN_USE; E_FILE; E_INFO_KEY; E_INFO_NOKEY; E_INFO_VALUE; E_INFO; E_IO; E_KEYVAL; E_LOCKTYPE; E_NAME; E_NO_MEM; E_NOT_SAME; E_NO_SPACE; E_NO_SUCH_FILE; E_PORT; E_QUOTA; E_READ_ONLY; E_RMA_CONFLICT; E_RMA_SYNC; E_SERVICE; E_SIZE; E_SPAWN; E_UNSUPPORTED_DATAREP; E_UNSUPPORTED_OPERATION; E_WIN; E_RMA_RANGE; E_RMA_ATTACH; E_RMA_FLAVOR; E_RMA_SHARED; E_ANY_OTHER_CLASS] bad_link_ids).
Proof. apply site_loses_classes; [by_vm | apply except_bad]. Qed.

Lemma nsd_ncmpio_write_header__MPI_File_write_at_all_1 : no_silent_drop link_sites (site_of "ncmpio_header_put.c:ncmpio_write_header:MPI_File_write_at_all#1" io_sites).
Proof. apply (site_propagates _ _ below_bad_links_closed); by_vm. Qed.

Lemma nsd_ncmpio_write_header__MPI_File_write_at : no_silent_drop link_sites (site_of "ncmpio_header_put.c:ncmpio_write_header:MPI_File_write_at" io_sites).
Proof. apply (site_propagates _ _ below_bad_links_closed); by_vm. Qed.

Lemma nsd_ncmpio_write_header__MPI_File_write_at_all_2_refuted_and_partial :
  (~ no_silent_drop link_sites (site_of "ncmpio_header_put.c:ncmpio_write_header:MPI_File_write_at_all#2" io_sites)) /\
  (drops_classes (site_of "ncmpio_header_put.c:ncmpio_write_header:MPI_File_write_at_all#2" io_sites) [E_BUFFER; E_COUNT; E_TYPE; E_TAG; E_COMM; E_RANK; E_REQUEST; E_ROOT; E_GROUP; E_OP; E_TOPOLOGY; E_DIMS; E_ARG; E_UNKNOWN; E_TRUNCATE; E_OTHER; E_INTERN; E_IN_STATUS; E_PENDING; E_ACCESS; E_AMODE; E_ASSERT; E_BAD_FILE; E_BASE; E_CONVERSION; E_DISP; E_DUP_DATAREP; E_FILE_EXISTS; E_FILE_IN_USE; E_FILE; E_INFO_KEY; E_INFO_NOKEY; E_INFO_VALUE; E_INFO; E_IO; E_KEYVAL; E_LOCKTYPE; E_NAME; E_NO_MEM; E_NOT_SAME; E_NO_SPACE; E_NO_SUCH_FILE; E_PORT; E_QUOTA; E_READ_ONLY; E_RMA_CONFLICT; E_RMA_SYNC; E_SERVICE; E_SIZE; E_SPAWN; E_UNSUPPORTED_DATAREP; E_UNSUPPORTED_OPERATION; E_WIN; E_RMA_RANGE; E_RMA_ATTACH; E_RMA_FLAVOR; E_RMA_SHARED; E_ANY_OTHER_CLASS]) /\
  (no_silent_drop_except link_sites (site_of "ncmpio_header_put.c:ncmpio_write_header:MPI_File_write_at_all#2" io_sites) [E_BUFFER; E_COUNT; E_TYPE; E_TAG; E_COMM; E_RANK; E_REQUEST; E_ROOT; E_GROUP; E_OP; E_TOPOLOGY; E_DIMS; E_ARG; E_UNKNOWN; E_TRUNCATE; E_OTHER; E_INTERN; E_IN_STATUS; E_PENDING; E_ACCESS; E_AMODE; E_ASSERT; E_BAD_FILE; E_BASE; E_CONVERSION; E_DISP; E_DUP_DATAREP; E_FILE_EXISTS; E_FILE_IN_USE; E_FILE; E_INFO_KEY; E_INFO_NOKEY; E_INFO_VALUE; E_INFO; E_IO; E_KEYVAL; E_LOCKTYPE; E_NAME; E_NO_MEM; E_NOT_SAME; E_NO_SPACE; E_NO_SUCH_FILE; E_PORT; E_QUOTA; E_READ_ONLY; E_RMA_CONFLICT; E_RMA_SYNC; E_SERVICE; E_SIZE; E_SPAWN; E_UNSUPPORTED_DATAREP; E_UNSUPPORTED_OPERATION; E_WIN; E_RMA_RANGE; E_RMA_ATTACH; E_RMA_FLAVOR; E_RMA_SHARED; E_ANY_OTHER_CLASS] []).
Proof. apply site_loses_classes; [by_vm | apply (except_nil _ _ below_bad_links_closed); by_vm]. Qed.

Lemma nsd_ncmpio_write_numrecs__MPI_File_write_at_all_1_refuted_and_partial :
  (~ no_silent_drop link_sites (site_of "ncmpio_sync.c:ncmpio_write_numrecs:MPI_File_write_at_all#1" io_sites)) /\
  (drops_classes (site_of "ncmpio_sync.c:ncmpio_write_numrecs:MPI_File_write_at_all#1" io_sites) [E_BUFFER; E_COUNT; E_TYPE; E_TAG; E_COMM; E_RANK; E_REQUEST; E_ROOT; E_GROUP; E_OP; E_TOPOLOGY; E_DIMS; E_ARG; E_UNKNOWN; E_TRUNCATE; E_OTHER; E_INTERN; E_IN_STATUS; E_PENDING; E_ACCESS; E_AMODE; E_ASSERT; E_BAD_FILE; E_BASE; E_CONVERSION; E_DISP; E_DUP_DATAREP; E_FILE_EXISTS; E_FILE_IN_USE; E_FILE; E_INFO_KEY; E_INFO_NOKEY; E_INFO_VALUE; E_INFO; E_IO; E_KEYVAL; E_LOCKTYPE; E_NAME; E_NO_MEM; E_NOT_SAME; E_NO_SPACE; E_NO_SUCH_FILE; E_PORT; E_QUOTA; E_READ_ONLY; E_RMA_CONFLICT; E_RMA_SYNC; E_SERVICE; E_SIZE; E_SPAWN; E_UNSUPPORTED_DATAREP; E_UNSUPPORTED_OPERATION; E_WIN; E_RMA_RANGE; E_RMA_ATTACH; E_RMA_FLAVOR; E_RMA_SHARED; E_ANY_OTHER_CLASS]) /\
  (no_silent_drop_except link_sites (site_of "ncmpio_sync.c:ncmpio_write_numrecs:MPI_File_write_at_all#1" io_sites) [E_BUFFER; E_COUNT; E_TYPE; E_TAG; E_COMM; E_RANK; E_REQUEST; E_ROOT; E_GROUP; E_OP; E_TOPOLOGY; E_DIMS; E_ARG; E_UNKNOWN; E_TRUNCATE; E_OTHER; E_INTERN; E_IN_STATUS; E_PENDING; E_ACCESS; E_AMODE; E_ASSERT; E_BAD_FILE; E_BASE; E_CONVERSION; E_DISP; E_DUP_DATAREP; E_FILE_EXISTS; E_FILE_IN_USE; E_FILE; E_INFO_KEY; E_INFO_NOKEY; E_INFO_VALUE; E_INFO; E_IO; E_KEYVAL; E_LOCKTYPE; E_NAME; E_NO_MEM; E_NOT_SAME; E_NO_SPACE; E_NO_SUCH_FILE; E_PORT; E_QUOTA; E_READ_ONLY; E_RMA_CONFLICT; E_RMA_SYNC; E_SERVICE; E_SIZE; E_SPAWN; E_UNSUPPORTED_DATAREP; E_UNSUPPORTED_OPERATION; E_WIN; E_RMA_RANGE; E_RMA_ATTACH; E_RMA_FLAVOR; E_RMA_SHARED; E_ANY_OTHER_CLASS] []).
Proof. apply site_loses_classes; [by_vm | apply (except_nil _ _ below_bad_links_closed); by_vm]. Qed.

Lemma nsd_ncmpio_write_numrecs__MPI_File_write_at_all_2_refuted_and_partial :
  (~ no_silent_drop link_sites (site_of "ncmpio_sync.c:ncmpio_write_numrecs:MPI_File_write_at_all#2" io_sites)) /\
  (drops_classes (site_of "ncmpio_sync.c:ncmpio_write_numrecs:MPI_File_write_at_all#2" io_sites) [E_ACCESS; E_AMODE; E_BAD_FILE; E_FILE_EXISTS; E_NOT_SAME; E_NO_SPACE; E_NO_SUCH_FILE; E_QUOTA; E_READ_ONLY]) /\
  (no_silent_drop_except link_sites (site_of "ncmpio_sync.c:ncmpio_write_numrecs:MPI_File_write_at_all#2" io_sites) [E_ACCESS; E_AMODE; E_BAD_FILE; E_FILE_EXISTS; E_NOT_SAME; E_NO_SPACE; E_NO_SUCH_FILE; E_QUOTA; E_READ_ONLY] []).
Proof. apply site_loses_classes; [by_vm | apply (except_nil _ _ below_bad_links_closed); by_vm]. Qed.

Lemma nsd_ncmpio_write_numrecs__MPI_File_write_at_refuted_and_partial :
  (~ no_silent_drop link_sites (site_of "ncmpio_sync.c:ncmpio_write_numrecs:MPI_File_write_at" io_sites)) /\
  (drops_classes (site_of "ncmpio_sync.c:ncmpio_write_numrecs:MPI_File_write_at" io_sites) [E_ACCESS; E_AMODE; E_BAD_FILE; E_FILE_EXISTS; E_NOT_SAME; E_NO_SPACE; E_NO_SUCH_FILE; E_QUOTA; E_READ_ONLY]) /\
  (no_silent_drop_except link_sites (site_of "ncmpio_sync.c:ncmpio_write_numrecs:MPI_File_write_at" io_sites) [E_ACCESS; E_AMODE; E_BAD_FILE; E_FILE_EXISTS; E_NOT_SAME; E_NO_SPACE; E_NO_SUCH_FILE; E_QUOTA; E_READ_ONLY] []).
Proof. apply site_loses_classes; [by_vm | apply (except_nil _ _ below_bad_links_closed); by_vm]. Qed.

Lemma nsd_ncmpio_getput_zero_req__MPI_File_read_all : no_silent_drop link_sites (site_of "ncmpio_wait.c:ncmpio_getput_zero_req:MPI_File_read_all" io_sites).
Proof. apply (site_propagates _ _ below_bad_links_closed); by_vm. Qed.

Lemma nsd_ncmpio_getput_zero_req__MPI_File_read : no_silent_drop link_sites (site_of "ncmpio_wait.c:ncmpio_getput_zero_req:MPI_File_read" io_sites).
Proof. apply (site_propagates _ _ below_bad_links_closed); by_vm. Qed.

Lemma nsd_ncmpio_getput_zero_req__MPI_File_write_all : no_silent_drop link_sites (site_of "ncmpio_wait.c:ncmpio_getput_zero_req:MPI_File_write_all" io_sites).
Proof. apply (site_propagates _ _ below_bad_links_closed); by_vm. Qed.

Lemma nsd_ncmpio_getput_zero_req__MPI_File_write : no_silent_drop link_sites (site_of "ncmpio_wait.c:ncmpio_getput_zero_req:MPI_File_write" io_sites).
Proof. apply (site_propagates _ _ below_bad_links_closed); by_vm. Qed.

Lemma chains_reach_api :
  Forall (fun name => chain_reaches_api link_sites (chain_of name))
    ["enddef: header write"; "_enddef: header write"; "put (collective): numrecs"; "sync_numrecs: numrecs"; "sync: numrecs"; "end_indep_data: numrecs"; "close (independent mode): numrecs"; "wait_all: numrecs"; "enddef after redef: move fixed"; "enddef after redef: move records"; "enddef: fill new variables"; "fill_var_rec"; "fill_var_rec: numrecs"; "put (blocking)"; "put (independent)"; "get (blocking)"; "get (independent)"; "put, zero-length participation"; "get, zero-length participation"; "wait_all"; "wait_all (one request per call)"; "wait (independent)"; "wait_all, zero-length participation"; "open: header read"; "put_att in data mode: header write"; "rename_var in data mode: header write"].
Proof. apply chains_reach_api_intro. by_vm. Qed.

Lemma chains_refuted_and_partial :
  Forall (fun name => ~ chain_reaches_api link_sites (chain_of name) /\
                       chain_reaches_api_except link_sites (chain_of name) bad_link_ids)
    ["open: header read (variables)"].
Proof. apply chains_refuted_and_partial_intro. by_vm. Qed.

