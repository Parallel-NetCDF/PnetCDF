(* Proofs_Config.v — theorems about Config.v (property C10):
     align_precedence            closed form of the alignment resolution: a precedence list
     env_over_info_*             PNETCDF_HINTS overrides the MPI_Info argument, key by key
     offsets_only_by_alignment   non-interference: the layout is a function of the schema, the
                                 alignment part of the configuration and the enddef arguments
     reported_hints_in_force     what inq_file_info reports after enddef is what begins used
     ibuf_pack_equiv / ibuf_unpack_equiv   the packing-buffer branch never changes the bytes
     swap_mode_equiv             in-place swap + swap back == swap in a copy
     hash_sizes_positive         every accepted configuration has positive name-table sizes (the
                                 pre-fix code, which accepted 0 - F9 -, is refuted: hash_sizes_old_refuted)
   No axioms. *)
From Pnc Require Import Config Proofs_Lists Proofs_Base.
Require Import String.
Require Import Lia ZArith List Bool ZifyBool.
Import ListNotations.
Local Open Scope string_scope.
Local Open Scope list_scope.
(* importing ZifyBool sets this hook to its case split on booleans; here lia has to know div and mod *)
Ltac Zify.zify_post_hook ::= Z.div_mod_to_equations.
Local Open Scope Z_scope.
Local Arguments Z.mul : simpl never.
Local Arguments Z.add : simpl never.
Local Arguments Z.sub : simpl never.
Local Arguments Z.div : simpl never.
Local Arguments Z.modulo : simpl never.
Local Arguments Z.of_nat : simpl never.
Local Arguments Z.to_nat : simpl never.

(* ================================================================== *)
(* 1. scatter: writing a stream in pieces = writing it at once         *)
(* ================================================================== *)
Lemma scatter_app d p a b :
  scatter d p (a ++ b) = scatter (scatter d (zfirstn (Zlen a) p) a) (zskipn (Zlen a) p) b.
Proof. unfold scatter. rewrite zip_app_split. apply fold_left_app. Qed.

Lemma scatter_nil d p : scatter d p [] = d.
Proof. unfold scatter. rewrite zip_nil_r. reflexivity. Qed.

Theorem scatter_pieces_concat : forall pieces d pos,
  scatter_pieces d pos pieces = scatter d pos (concat pieces).
Proof.
  induction pieces as [|p r IH]; intros d pos; cbn [scatter_pieces concat].
  - now rewrite scatter_nil.
  - rewrite scatter_app. apply IH.
Qed.

Lemma length_zskipn_le {A} n (l : list A) : (length (zskipn n l) <= length l)%nat.
Proof.
  revert n. induction l as [|x l IH]; intros n; cbn [zskipn]; [lia|].
  destruct (n <=? 0); cbn [length]; [lia|]. specialize (IH (n - 1)). lia.
Qed.

Lemma concat_chunks : forall fuel n l, (length l <= fuel)%nat -> concat (chunks fuel n l) = l.
Proof.
  induction fuel as [|k IH]; intros n l H; cbn [chunks].
  - destruct l; [reflexivity|cbn [length] in H; lia].
  - destruct l as [|x r]; [reflexivity|].
    destruct (n <=? 0) eqn:E.
    + cbn [concat]. now rewrite app_nil_r.
    + cbn [concat]. rewrite IH.
      * apply zfirstn_zskipn.
      * rewrite zskipn_cons by lia. pose proof (length_zskipn_le (n - 1) r). cbn [length] in H. lia.
Qed.

Lemma concat_chunked n l : concat (chunked n l) = l.
Proof. apply concat_chunks. lia. Qed.

(* the stream reaches the file unchanged whatever the size of the intermediate buffer *)
Theorem scatter_chunked : forall cb d pos s, scatter_pieces d pos (chunked cb s) = scatter d pos s.
Proof. intros. now rewrite scatter_pieces_concat, concat_chunked. Qed.

Corollary rw_write_is_scatter : forall ibuf cb contig mem tm d pos,
  rw_write ibuf cb contig mem tm d pos = scatter d pos (pack mem tm).
Proof.
  intros. unfold rw_write.
  destruct ((0 <? tm_size tm) && negb contig && (tm_size tm <=? ibuf));
  rewrite ?scatter_chunked; reflexivity.
Qed.

(* C10 ibuf_pack_equiv: for ANY two values of nc_ibuf_size (and any piece size cb of the MPI
   library) ncmpio_read_write puts the same bytes at the same positions *)
Theorem ibuf_pack_equiv : forall ibuf1 ibuf2 cb contig mem tm d pos,
  rw_write ibuf1 cb contig mem tm d pos = rw_write ibuf2 cb contig mem tm d pos.
Proof.
  intros. now rewrite !rw_write_is_scatter.
Qed.

Example ibuf_pack_example :
  let mem := [10; 11; 12; 13; 14; 15; 16; 17] in
  let tm := [(0, 2); (4, 3)] in
  let d := rw_write 1 2 false mem tm empty_disk [100; 101; 102; 200; 201] in
  dk_read d 100 3 = [10; 11; 14] /\ dk_read d 200 2 = [15; 16] /\
  d = rw_write 64 2 false mem tm empty_disk [100; 101; 102; 200; 201].
Proof. repeat split; first [reflexivity | apply ibuf_pack_equiv]. Qed.

Definition tm_nonneg (tm : typemap) : Prop := Forall (fun b => 0 <= snd b) tm.

Lemma zsum_snd_nonneg (pairs : list (Z * Z)) :
  Forall (fun p => 0 <= snd p) pairs -> 0 <= zsum (map snd pairs).
Proof. induction 1 as [|q r Hq _ IH]; cbn [map zsum]; lia. Qed.

Lemma tm_size_nonneg tm : tm_nonneg tm -> 0 <= tm_size tm.
Proof. apply zsum_snd_nonneg. Qed.

Lemma unpack_direct : forall tm mem (d : disk) pos,
  tm_nonneg tm ->
  unpack mem tm (gather_view d (zfirstn (tm_size tm) pos)) =
  fst (fold_left (fun st b => let '(m, p) := st in
                              (mem_write m (fst b) (gather_view d (zfirstn (snd b) p)), zskipn (snd b) p))
                 tm (mem, pos)).
Proof.
  induction tm as [|[o l] tm IH]; intros mem d pos Hnn; [reflexivity|].
  inversion Hnn as [|b tm' Hl Htm]; subst. cbn [snd] in Hl.
  pose proof (tm_size_nonneg tm Htm) as Hs.
  cbn [unpack fold_left fst snd]. unfold gather_view at 1 2.
  rewrite zfirstn_map, zskipn_map.
  assert (Hsz : tm_size ((o, l) :: tm) = l + tm_size tm) by reflexivity.
  rewrite Hsz. rewrite zfirstn_zfirstn by lia.
  replace (zskipn l (zfirstn (l + tm_size tm) pos)) with (zfirstn (tm_size tm) (zskipn l pos))
    by (apply zfirstn_zskipn_comm; lia).
  fold (gather_view d (zfirstn l pos)). fold (gather_view d (zfirstn (tm_size tm) (zskipn l pos))).
  apply IH. exact Htm.
Qed.

Lemma rw_read_is_unpack ibuf contig mem tm d pos : tm_nonneg tm ->
  rw_read ibuf contig mem tm d pos = unpack mem tm (gather_view d (zfirstn (tm_size tm) pos)).
Proof.
  intros Hnn. unfold rw_read. destruct (_ && _); [reflexivity|]. symmetry. now apply unpack_direct.
Qed.

(* C10: a read delivers the same user buffer for any two values of nc_ibuf_size *)
Theorem ibuf_unpack_equiv : forall ibuf1 ibuf2 contig mem tm d pos,
  tm_nonneg tm ->
  rw_read ibuf1 contig mem tm d pos = rw_read ibuf2 contig mem tm d pos.
Proof. intros. now rewrite !rw_read_is_unpack. Qed.

Example ibuf_unpack_example :
  let d := dk_write empty_disk 100 [1; 2; 3; 4; 5] in
  rw_read 1 false [0; 0; 0; 0; 0; 0; 0; 0] [(6, 2); (0, 3)] d [100; 101; 102; 103; 104]
  = [3; 4; 5; 0; 0; 0; 1; 2] /\
  rw_read 64 false [0; 0; 0; 0; 0; 0; 0; 0] [(6, 2); (0, 3)] d [100; 101; 102; 103; 104]
  = [3; 4; 5; 0; 0; 0; 1; 2].
Proof. split; reflexivity. Qed.

(* ================================================================== *)
(* 2. in-place swap                                                    *)
(* ================================================================== *)
Lemma swapn_nil esz n : swapn esz n [] = [].
Proof. induction n as [|k IH]; cbn [swapn zfirstn zskipn rev app]; [reflexivity|exact IH]. Qed.

Theorem swapn_involutive : forall esz n l, swapn esz n (swapn esz n l) = l.
Proof.
  intros esz n. induction n as [|k IH]; intros l; [reflexivity|].
  cbn [swapn].
  destruct (Z_le_gt_dec esz 0) as [He|He].
  { rewrite !zfirstn_nonpos, !zskipn_nonpos by lia. cbn [rev app].
    rewrite ?zfirstn_nonpos, ?zskipn_nonpos by lia. cbn [rev app]. apply IH. }
  destruct (Z_le_gt_dec esz (Zlen l)) as [Hl|Hl].
  - (* a complete group *)
    assert (Hf : Zlen (rev (zfirstn esz l)) = esz) by (rewrite Zlen_rev, Zlen_zfirstn; lia).
    remember (rev (zfirstn esz l)) as F eqn:EF.
    remember (swapn esz k (zskipn esz l)) as R eqn:ER.
    assert (H1 : zfirstn esz (F ++ R) = F) by (rewrite <- Hf; apply zfirstn_app_exact).
    assert (H2 : zskipn esz (F ++ R) = R) by (rewrite <- Hf; apply zskipn_app_exact).
    rewrite H1, H2. subst F R. rewrite rev_involutive, IH.
    apply zfirstn_zskipn.
  - (* the list ends inside this group *)
    rewrite (zfirstn_all esz l), (zskipn_all esz l) by lia.
    rewrite swapn_nil, app_nil_r.
    rewrite zfirstn_all, zskipn_all by (rewrite Zlen_rev; lia).
    now rewrite swapn_nil, app_nil_r, rev_involutive.
Qed.

Lemma slice_all buf : slice buf 0 (Zlen buf) = buf.
Proof. unfold slice. rewrite zskipn_nonpos by lia. apply zfirstn_all. lia. Qed.

Lemma length_swapn esz n l : length (swapn esz n l) = length l.
Proof.
  revert l. induction n as [|k IH]; intros l; [reflexivity|].
  cbn [swapn]. rewrite app_length, rev_length, IH, <- app_length. now rewrite zfirstn_zskipn.
Qed.

(* when the buffer type is contiguous its type map is the one block [0, nbytes) and the buffer
   holds exactly the request *)
Definition contig_ok (contig : bool) (esz : Z) (nelems : nat) (buf : list byte) (tm : typemap) : Prop :=
  contig = true -> tm = [(0, Z.of_nat nelems * esz)] /\ Zlen buf = Z.of_nat nelems * esz.

(* C10 swap_mode_equiv: whatever nc_in_place_swap says (and on whichever side of
   NC_BYTE_SWAP_BUFFER_SIZE the request lies) the same bytes go to the file and the user buffer
   is returned unchanged *)
Theorem swap_mode_equiv : forall m1 m2 need_swap contig esz nelems buf tm,
  contig_ok contig esz nelems buf tm ->
  p_stream (put_bytes m1 need_swap contig esz nelems buf tm) =
  p_stream (put_bytes m2 need_swap contig esz nelems buf tm) /\
  p_buf_after (put_bytes m1 need_swap contig esz nelems buf tm) = buf.
Proof.
  intros m1 m2 need_swap contig esz nelems buf tm Hc.
  assert (Hkey : contig = true ->
                 pack (swapn esz nelems buf) tm = swapn esz nelems (pack buf tm)).
  { intros E. destruct (Hc E) as [-> Hlen]. unfold pack. cbn [flat_map fst snd].
    rewrite !app_nil_r. rewrite <- Hlen. rewrite slice_all.
    replace (Zlen buf) with (Zlen (swapn esz nelems buf))
      by (unfold Zlen; now rewrite length_swapn).
    now rewrite slice_all. }
  unfold put_bytes.
  destruct need_swap; cbn [negb orb].
  - destruct contig.
    + specialize (Hkey eq_refl). rewrite !andb_true_r.
      destruct (can_swap_in_place m1 true (Z.of_nat nelems * esz));
      destruct (can_swap_in_place m2 true (Z.of_nat nelems * esz)); cbn [p_stream p_buf_after];
        rewrite ?swapn_involutive; auto.
    + rewrite !andb_false_r. cbn [p_stream p_buf_after]. auto.
  - cbn [p_stream p_buf_after]. auto.
Qed.

(* the in-place branch is really taken on one side of the threshold and not on the other *)
Example swap_mode_example :
  let buf := [1; 2; 3; 4; 5; 6; 7; 8] in
  let tm := [(0, 8)] in
  p_inplace (put_bytes SwapOn true true 4 2 buf tm) = true /\
  p_inplace (put_bytes SwapAuto true true 4 2 buf tm) = false /\
  p_inplace (put_bytes SwapOff true true 4 2 buf tm) = false /\
  p_stream (put_bytes SwapOn true true 4 2 buf tm) = [4; 3; 2; 1; 8; 7; 6; 5] /\
  p_buf_during (put_bytes SwapOn true true 4 2 buf tm) = [4; 3; 2; 1; 8; 7; 6; 5] /\
  p_buf_after (put_bytes SwapOn true true 4 2 buf tm) = buf /\
  can_swap_in_place SwapAuto true 4096 = false /\ can_swap_in_place SwapAuto true 4097 = true.
Proof. repeat split; reflexivity. Qed.

(* ================================================================== *)
(* 3. alignment precedence                                             *)
(* ================================================================== *)
(* first positive element, 0 when there is none *)
Fixpoint first_pos (l : list Z) : Z :=
  match l with [] => 0 | x :: r => if x >? 0 then x else first_pos r end.
(* all CDF formats require 4-byte alignment *)
Definition fin4 (x : Z) : Z := if x =? 0 then 4 else rndup x 4.

Lemma first_pos2 x y : 0 <= x -> (if x =? 0 then (if y >? 0 then y else x) else x) = first_pos [x; y].
Proof. intros H. cbn [first_pos]. destruct (x =? 0) eqn:E0, (x >? 0) eqn:E1, (y >? 0); lia. Qed.

Lemma positive_stays x (b : bool) d : (x >? 0) = true -> (if (x =? 0) && b then d else x) = x.
Proof. intros H. now replace (x =? 0) with false by lia. Qed.

(* C10 align_precedence.  hints (already merged: PNETCDF_HINTS over MPI_Info) over the
   arguments of ncmpi__enddef over the defaults; exactly as implemented:
     h_align : nc_header_align_size, nc_var_align_size, v_align argument,
               then - only when no fixed-size variable is counted - nc_record_align_size and the
               r_align argument, then 512 on a new file, else 4
     v_align : nc_var_align_size, v_align argument, 4
     r_align : nc_record_align_size, r_align argument, 4
   every value is rounded up to a multiple of 4. *)
Theorem align_precedence : forall cfg ea nfix is_new,
  0 <= env_h_align cfg -> 0 <= env_v_align cfg -> 0 <= env_r_align cfg ->
  resolve_align cfg ea nfix is_new =
  (fin4 (first_pos [env_h_align cfg; env_v_align cfg; e_v_align ea;
                    (if nfix =? 0 then env_r_align cfg else 0);
                    (if nfix =? 0 then e_r_align ea else 0);
                    (if is_new then FILE_ALIGNMENT_DEFAULT else 0)]),
   fin4 (first_pos [env_v_align cfg; e_v_align ea]),
   fin4 (first_pos [env_r_align cfg; e_r_align ea])).
Proof.
  intros [h v r] [hm va vm ra] nfix is_new Hh Hv Hr.
  unfold resolve_align. change (fun x => if x =? 0 then 4 else rndup x 4) with fin4.
  cbn [env_h_align env_v_align env_r_align e_v_align e_r_align] in *.
  rewrite (first_pos2 v va Hv), (first_pos2 r ra Hr). do 3 f_equal.
  destruct (h =? 0) eqn:Eh.
  2:{ cbn [first_pos]. now replace (h >? 0) with true by lia. }
  replace h with 0 by lia. cbn [first_pos Z.gtb Z.compare].
  destruct (v >? 0) eqn:Ev; [now rewrite !(positive_stays v)|].
  destruct (va >? 0) eqn:Eva; [now rewrite !(positive_stays va)|].
  cbn [Z.eqb andb]. destruct (nfix =? 0); [|now destruct is_new].
  destruct (r >? 0) eqn:Er; [now rewrite (positive_stays r)|].
  destruct (ra >? 0) eqn:Era; [now rewrite (positive_stays ra)|].
  now destruct is_new.
Qed.

Lemma rndup4_props x : 0 < x -> 4 <= rndup x 4 /\ rndup x 4 mod 4 = 0 /\ x <= rndup x 4 < x + 4.
Proof. intros H. unfold rndup. cbn [Z.eqb]. lia. Qed.

Lemma first_pos_nonneg l : 0 <= first_pos l.
Proof. induction l as [|x l IH]; cbn [first_pos]; [lia|]. destruct (x >? 0) eqn:E; lia. Qed.

Lemma fin4_props x : 0 <= x -> 4 <= fin4 x /\ fin4 x mod 4 = 0 /\ x <= fin4 x.
Proof.
  intros H. unfold fin4. destruct (x =? 0) eqn:E.
  - assert (x = 0) by lia. subst. cbn. lia.
  - pose proof (rndup4_props x). lia.
Qed.

(* whatever the hints and arguments, the alignments used by NC_begins are positive multiples of 4 *)
Theorem resolved_alignment_mult4 : forall cfg ea nfix is_new ha va ra,
  0 <= env_h_align cfg -> 0 <= env_v_align cfg -> 0 <= env_r_align cfg ->
  resolve_align cfg ea nfix is_new = (ha, va, ra) ->
  (4 <= ha /\ ha mod 4 = 0) /\ (4 <= va /\ va mod 4 = 0) /\ (4 <= ra /\ ra mod 4 = 0).
Proof.
  intros cfg ea nfix is_new ha va ra Hh Hv Hr H.
  rewrite align_precedence in H by assumption.
  apply pair_equal_spec in H. destruct H as [H Hra].
  apply pair_equal_spec in H. destruct H as [Hha Hva]. subst ha va ra.
  repeat split; apply fin4_props; apply first_pos_nonneg.
Qed.

Lemma align_hint_nonneg ui k : 0 <= align_hint ui k.
Proof.
  unfold align_hint. destruct (uget ui k) as [v|]; [|lia].
  destruct (strtoll v) as [x|]; [|lia]. destruct (x <? 0) eqn:E; lia.
Qed.

Lemma open_config_align_nonneg user env hook safe np :
  let c := fst (open_config user env hook safe np) in
  0 <= env_h_align (c_align c) /\ 0 <= env_v_align (c_align c) /\ 0 <= env_r_align (c_align c).
Proof.
  unfold open_config, set_pnetcdf_hints.
  destruct (swap_hint _) as [sw swstr]. cbn [fst c_align env_h_align env_v_align env_r_align].
  repeat split; apply align_hint_nonneg.
Qed.

(* the value the environment string finally assigns to key k, if any *)
Definition env_last (items : list env_item) (k : list byte) : option (list byte) :=
  fold_left (fun acc it => match it with
                           | EnvSet k' v => if bytes_eqb k k' then Some v else acc
                           | _ => acc
                           end) items None.

Lemma bytes_eqb_sym a b : bytes_eqb a b = bytes_eqb b a.
Proof.
  destruct (bytes_eqb a b) eqn:E.
  - apply bytes_eqb_iff in E. subst. symmetry. apply bytes_eqb_refl.
  - destruct (bytes_eqb b a) eqn:E'; [|reflexivity].
    apply bytes_eqb_iff in E'. subst. rewrite bytes_eqb_refl in E. discriminate.
Qed.

Lemma info_get_del_same k i : info_get k (info_del k i) = None.
Proof.
  induction i as [|[k' v] i IH]; cbn [info_del info_get]; [reflexivity|].
  destruct (bytes_eqb k k') eqn:E; [exact IH|]. cbn [info_get]. now rewrite E.
Qed.

Lemma info_get_del_other k k' i : bytes_eqb k k' = false -> info_get k (info_del k' i) = info_get k i.
Proof.
  intros Hne. induction i as [|[k2 v] i IH]; cbn [info_del info_get]; [reflexivity|].
  destruct (bytes_eqb k' k2) eqn:E.
  - apply bytes_eqb_iff in E. subst k2. now rewrite Hne.
  - cbn [info_get]. now rewrite IH.
Qed.

Lemma info_get_set k k' v i :
  info_get k (info_set k' v i) = if bytes_eqb k k' then Some v else info_get k i.
Proof.
  unfold info_set. cbn [info_get]. destruct (bytes_eqb k k') eqn:E; [reflexivity|].
  now apply info_get_del_other.
Qed.

(* C10 align_precedence, first half: a well-formed "k=v" in PNETCDF_HINTS decides the value of
   hint k whatever the MPI_Info argument holds; a key the environment does not set keeps the
   MPI_Info value *)
Theorem env_over_info : forall user s k,
  uget (combine_env_hints user (Some s)) k =
  match env_last (env_items s) k with
  | Some v => Some v
  | None => uget user k
  end.
Proof.
  intros user s k. unfold combine_env_hints, env_last.
  induction (env_items s) as [|it items IH] using rev_ind; [reflexivity|].
  rewrite !fold_left_app. cbn [fold_left]. destruct it as [k' v|]; [|exact IH].
  cbn [uget]. rewrite info_get_set. destruct (bytes_eqb k k'); [reflexivity|].
  destruct (fold_left _ items user) as [i|]; exact IH.
Qed.

Corollary env_over_info_align : forall user s k v,
  env_last (env_items s) k = Some v ->
  forall user', align_hint (combine_env_hints user (Some s)) k =
                align_hint (combine_env_hints user' (Some s)) k.
Proof. intros user s k v H user'. unfold align_hint. now rewrite !env_over_info, H. Qed.

Corollary env_absent_keeps_info : forall user k,
  uget (combine_env_hints user None) k = uget user k.
Proof. reflexivity. Qed.

(* ill-formed pieces are skipped, among them "key=" and "key= value" (whose value the first
   strtok cuts off): no MPI_Info_set with a NULL value any more *)
Example env_items_example :
  env_items (B "a=1; b = 2;c=;;nc_x=3=4; d=5 ;e= 6") =
  [EnvSet (B "a") (B "1"); EnvSkip; EnvSkip; EnvSkip; EnvSkip; EnvSet (B "d") (B "5"); EnvSkip].
Proof. reflexivity. Qed.

Example env_over_info_example :
  let user := Some [(k_h_align, B "100"); (k_r_align, B "8")] in
  let env := Some (B "nc_header_align_size=64;nc_var_align_size = 9; nc_hash_size_dim=2 ;") in
  let c := fst (open_config user env None None 1) in
  c_align c = mkalign 64 0 8 /\ c_hash_dim c = 2 /\
  resolve_align (c_align c) (mkeargs 0 32 0 16) 1 true = (64, 32, 8).
Proof. repeat split; reflexivity. Qed.

(* ================================================================== *)
(* 4. non-interference: the layout depends on the alignment part only  *)
(* ================================================================== *)
(* C10 offsets_only_by_alignment: two configurations that agree on the three alignment hints
   give the same alignments and the same layout for every schema, enddef arguments and history —
   whatever nprocs, hash sizes, ibuf size, swap mode, chunk size, collective header I/O,
   aggregators per node and safe mode are *)
Theorem offsets_only_by_alignment : forall c1 c2 h ea stale old prev,
  c_align c1 = c_align c2 ->
  cfg_enddef c1 h ea stale old prev = cfg_enddef c2 h ea stale old prev.
Proof. intros c1 c2 h ea stale old prev H. unfold cfg_enddef. now rewrite H. Qed.

(* more precisely: the layout is a function of the schema, h_minfree/v_minfree, and the RESOLVED
   h_align and r_align; the resolved v_align does not enter NC_begins at all *)
Theorem layout_by_resolved_alignment : forall c1 c2 h ea1 ea2 stale1 stale2 old prev ha va1 va2 ra,
  fst (cfg_enddef c1 h ea1 stale1 old prev) = (ha, va1, ra) ->
  fst (cfg_enddef c2 h ea2 stale2 old prev) = (ha, va2, ra) ->
  e_h_minfree ea1 = e_h_minfree ea2 -> e_v_minfree ea1 = e_v_minfree ea2 ->
  snd (cfg_enddef c1 h ea1 stale1 old prev) = snd (cfg_enddef c2 h ea2 stale2 old prev).
Proof.
  intros c1 c2 h ea1 ea2 stale1 stale2 old prev ha va1 va2 ra H1 H2 Hm Hv.
  unfold cfg_enddef in *.
  destruct (resolve_align (c_align c1) ea1 _ _) as [[a1 b1] r1].
  destruct (resolve_align (c_align c2) ea2 _ _) as [[a2 b2] r2].
  cbn [fst snd] in *. inversion H1; inversion H2; subst. now rewrite Hm, Hv.
Qed.

Example offsets_only_by_alignment_example :
  let c1 := mkcfg (mkalign 64 0 0) 262144 SwapAuto 16777216 false 256 256 64 8 0 false 1 in
  let c2 := mkcfg (mkalign 64 0 0) 64 SwapOn 1 true 1 2 1 1 2 true 4 in
  let h := mkhdr 2 0 [mkdim [116] 0; mkdim [120] 3]
                 [] [mkvar [97] [0; 1] [] 4 0 false; mkvar [98] [1] [] 6 0 false] in
  cfg_enddef c1 h (mkeargs 0 0 0 0) 0 None 0 = cfg_enddef c2 h (mkeargs 0 0 0 0) 0 None 0 /\
  option_map l_begins (snd (cfg_enddef c1 h (mkeargs 0 0 0 0) 0 None 0)) = Some [216; 192].
Proof. split; [apply offsets_only_by_alignment|]; reflexivity. Qed.

(* ================================================================== *)
(* 5. reported hints are the ones in force                             *)
(* ================================================================== *)
Lemma info_get_inq_info k c ha va ra kept :
  info_get k (inq_info c (ha, va, ra) kept) =
  if bytes_eqb k k_subfiling then Some (B "disable")
  else if bytes_eqb k k_ibuf then Some (dec (c_ibuf c))
  else if bytes_eqb k k_swap
       then Some (match c_swap c with SwapOn => B "enable" | SwapOff => B "disable"
                                 | SwapAuto => B "auto" end)
  else if bytes_eqb k k_chunk then Some (dec (c_chunk c))
  else if bytes_eqb k k_r_align then Some (dec ra)
  else if bytes_eqb k k_v_align then Some (dec va)
  else if bytes_eqb k k_h_align then Some (dec ha)
  else info_get k kept.
Proof. unfold inq_info. now rewrite !info_get_set. Qed.

Lemma kept_hints ui hook safe np :
  let '(c, kept) := set_pnetcdf_hints ui hook safe np in
  info_get k_hash_dim kept = Some (dec (c_hash_dim c)) /\
  info_get k_hash_var kept = Some (dec (c_hash_var c)) /\
  info_get k_hash_gattr kept = Some (dec (c_hash_gattr c)) /\
  info_get k_hash_vattr kept = Some (dec (c_hash_vattr c)) /\
  info_get k_num_aggrs kept = Some (dec (c_num_aggrs c)).
Proof.
  unfold set_pnetcdf_hints. destruct (swap_hint ui) as [sw swstr]. repeat split; reflexivity.
Qed.

(* C10 reported_hints_in_force: after create (+ PNETCDF_HINTS) and enddef, the alignment values
   ncmpi_inq_file_info reports are exactly the ones passed to NC_begins, and the other hints are
   the fields of the configuration that the I/O paths consult *)
Theorem reported_hints_in_force : forall user env hook safe np h ea,
  let c := fst (open_config user env hook safe np) in
  let rep := fst (reported_after_enddef user env hook safe np h ea) in
  let lay := snd (reported_after_enddef user env hook safe np h ea) in
  exists ha va ra,
    resolve_align (c_align c) ea (Zlen (h_vars h)) true = (ha, va, ra) /\
    lay = begins h (e_h_minfree ea) (e_v_minfree ea) ha ra None 0 /\
    info_get k_h_align rep = Some (dec ha) /\
    info_get k_v_align rep = Some (dec va) /\
    info_get k_r_align rep = Some (dec ra) /\
    info_get k_chunk rep = Some (dec (c_chunk c)) /\
    info_get k_ibuf rep = Some (dec (c_ibuf c)) /\
    info_get k_swap rep = Some (match c_swap c with SwapOn => B "enable" | SwapOff => B "disable"
                                               | SwapAuto => B "auto" end) /\
    info_get k_hash_dim rep = Some (dec (c_hash_dim c)) /\
    info_get k_hash_var rep = Some (dec (c_hash_var c)) /\
    info_get k_hash_gattr rep = Some (dec (c_hash_gattr c)) /\
    info_get k_hash_vattr rep = Some (dec (c_hash_vattr c)) /\
    info_get k_num_aggrs rep = Some (dec (c_num_aggrs c)).
Proof.
  intros user env hook safe np h ea. cbv zeta. unfold reported_after_enddef, open_config.
  pose proof (kept_hints (combine_env_hints user env) hook safe np) as K.
  destruct (set_pnetcdf_hints _ hook safe np) as [c kept]. destruct K as (K1 & K2 & K3 & K4 & K5).
  unfold cfg_enddef. rewrite Z.sub_0_r.
  destruct (resolve_align _ ea (Zlen (h_vars h)) true) as [[ha va] ra].
  exists ha, va, ra. cbn [fst snd]. rewrite !info_get_inq_info, K1, K2, K3, K4, K5.
  (* every conjunct now evaluates on the concrete keys; comparing it with a hypothesis that does
     not fit would unfold dec *)
  repeat split; reflexivity.
Qed.

Example reported_hints_example :
  let r := reported_after_enddef (Some [(k_v_align, B "100"); (k_ibuf, B "64")])
             (Some (B "nc_record_align_size=24")) None None 2
             (mkhdr 1 0 [mkdim [116] 0; mkdim [120] 3] []
                    [mkvar [97] [0; 1] [] 4 0 false; mkvar [98] [1] [] 6 0 false])
             (mkeargs 0 0 0 0) in
  info_num (fst r) k_h_align = 100 /\ info_num (fst r) k_v_align = 100 /\
  info_num (fst r) k_r_align = 24 /\ info_num (fst r) k_ibuf = 64 /\
  option_map l_begins (snd r) = Some [240; 200] /\ option_map l_begin_rec (snd r) = Some 240.
Proof. repeat split; reflexivity. Qed.

(* before the first enddef the three alignment fields are still zero: that is what is reported
   (observed on the library as well; nothing has been laid out yet) *)
Lemma reported_before_enddef : forall user env hook safe np,
  let rep := reported_after_open user env hook safe np in
  info_get k_h_align rep = Some (B "0") /\ info_get k_v_align rep = Some (B "0") /\
  info_get k_r_align rep = Some (B "0").
Proof.
  intros. subst rep. unfold reported_after_open. destruct (open_config _ _ _ _ _) as [c kept].
  unfold align_fields0. rewrite !info_get_inq_info. repeat split; reflexivity.
Qed.

(* ================================================================== *)
(* 6. hash sizes (F9, fixed in /repo: `<= 0` falls back to the default) *)
(* ================================================================== *)
Lemma hash_hint_pos ui k dflt : 0 < dflt -> 0 < hash_hint ui k dflt.
Proof.
  intros Hd. unfold hash_hint. destruct (uget ui k) as [v|]; [|lia].
  destruct (atoi v <=? 0) eqn:E; lia.
Qed.

(* every accepted configuration has usable (positive) hash table sizes, whatever the hint strings *)
Theorem hash_sizes_positive : forall user env hook safe np,
  hash_sizes_ok (fst (open_config user env hook safe np)) = true.
Proof.
  intros user env hook safe np.
  unfold open_config, set_pnetcdf_hints. set (ui := combine_env_hints user env).
  destruct (swap_hint ui) as [sw swstr].
  unfold hash_sizes_ok. cbn [fst c_hash_dim c_hash_var c_hash_gattr c_hash_vattr].
  pose proof (hash_hint_pos ui k_hash_dim PNC_HSIZE_DIM ltac:(reflexivity)).
  pose proof (hash_hint_pos ui k_hash_var PNC_HSIZE_VAR ltac:(reflexivity)).
  pose proof (hash_hint_pos ui k_hash_gattr PNC_HSIZE_GATTR ltac:(reflexivity)).
  pose proof (hash_hint_pos ui k_hash_vattr PNC_HSIZE_VATTR ltac:(reflexivity)).
  lia.
Qed.

Example hash_sizes_example :
  let c := fst (open_config (Some [(k_hash_dim, B "1"); (k_hash_var, B "0"); (k_hash_vattr, B "x")])
                            (Some (B "nc_hash_size_gattr=256")) None None 1) in
  (c_hash_dim c, c_hash_var c, c_hash_gattr c, c_hash_vattr c) = (1, 256, 256, 8).
Proof. reflexivity. Qed.

(* the code before the fix: only negative values were rejected *)
Definition hash_hint_old (ui : option info) (k : list byte) (dflt : Z) : Z :=
  match uget ui k with
  | None => dflt
  | Some v => let x := atoi v in if x <? 0 then dflt else x
  end.

(* refuted for the old code: a hint value of 0 passed the `< 0` test and became the table size;
   calloc(0) and the mask (0 - 1) followed (heap overrun in ncmpio_hash_insert, seen under ASan) *)
Theorem hash_sizes_old_refuted :
  ~ (forall ui k dflt, 0 < dflt -> 0 < hash_hint_old ui k dflt).
Proof.
  intros H. specialize (H (Some [(k_hash_dim, B "0")]) k_hash_dim 256 ltac:(lia)).
  vm_compute in H. discriminate.
Qed.
