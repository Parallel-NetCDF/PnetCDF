(* Proofs_Move.v — correctness of the enddef data mover (Move.v):
   move_round / move_rounds / move_file_block, move_record_vars, move_fixed_vars.
   All statements are about the model functions of Move.v, for all nprocs >= 1, unit >= 1,
   nbytes >= 0, to >= from and all file contents. *)
From Pnc Require Import Disk Move Proofs_Lists Proofs_Disk.
Require Import Lia ZArith List Bool ZifyBool.
Import ListNotations.
Local Open Scope Z_scope.

Local Arguments Z.mul : simpl never.
Local Arguments Z.add : simpl never.
Local Arguments Z.div : simpl never.
Local Arguments Z.modulo : simpl never.

(* ====================================================================== *)
(** * 1. One round: the per-rank tiles partition the tail of the block     *)
(* ====================================================================== *)

(* closed forms of the two results of move_round *)
Definition rnb (np chunk left : Z) : Z :=
  if left <? np * chunk then 0 else left - chunk * np.

Definition rcnt (np chunk left r : Z) : Z :=
  if left <? np * chunk then
    (if r >? left / chunk then 0 else if r =? left / chunk then left mod chunk else chunk)
  else chunk.

Lemma move_round_eq np chunk from to left :
  move_round np chunk from to left =
  (rnb np chunk left,
   map (fun r => (from + rnb np chunk left + r * chunk,
                  to + rnb np chunk left + r * chunk,
                  rcnt np chunk left r)) (zrange 0 np)).
Proof.
  unfold move_round, rnb, rcnt. destruct (left <? np * chunk); reflexivity.
Qed.

Lemma rnb_range np chunk left :
  np >= 1 -> chunk >= 1 -> left > 0 ->
  0 <= rnb np chunk left < left /\
  (rnb np chunk left = 0 \/ rnb np chunk left = left - chunk * np).
Proof.
  intros Hnp Hc Hl. unfold rnb. destruct (Z.ltb_spec left (np * chunk)); nia.
Qed.

Lemma rcnt_bounds np chunk left r :
  np >= 1 -> chunk >= 1 -> left > 0 -> 0 <= r < np ->
  0 <= rcnt np chunk left r <= chunk /\
  (rcnt np chunk left r > 0 -> r * chunk + rcnt np chunk left r <= left - rnb np chunk left).
Proof.
  intros Hnp Hc Hl Hr. unfold rcnt, rnb.
  destruct (Z.ltb_spec left (np * chunk)) as [Hp|Hp].
  - pose proof (Z.div_mod left chunk ltac:(lia)) as Hdm.
    pose proof (Z.mod_pos_bound left chunk ltac:(lia)) as Hm.
    set (q := left / chunk) in *. set (m := left mod chunk) in *. clearbody q m.
    destruct (Z.gtb_spec r q) as [H1|H1]; [lia|].
    destruct (Z.eqb_spec r q) as [H2|H2]; [subst r; nia|].
    split; [lia|]. intros _. assert (r + 1 <= q) by lia. nia.
  - split; [lia|]. intros _. nia.
Qed.

(* the rank whose tile holds relative position y is y / chunk, and only that one *)
Lemma rcnt_cover np chunk left y r :
  np >= 1 -> chunk >= 1 -> left > 0 ->
  0 <= y < left - rnb np chunk left -> 0 <= r < np ->
  (r * chunk <= y < r * chunk + rcnt np chunk left r <-> r = y / chunk).
Proof.
  intros Hnp Hc Hl Hy Hr. unfold rcnt, rnb in *.
  pose proof (Z.div_mod y chunk ltac:(lia)) as Hdy.
  pose proof (Z.mod_pos_bound y chunk ltac:(lia)) as Hmy.
  set (qy := y / chunk) in *. set (my := y mod chunk) in *. clearbody qy my.
  destruct (Z.ltb_spec left (np * chunk)) as [Hp|Hp].
  - pose proof (Z.div_mod left chunk ltac:(lia)) as Hdm.
    pose proof (Z.mod_pos_bound left chunk ltac:(lia)) as Hm.
    set (q := left / chunk) in *. set (m := left mod chunk) in *. clearbody q m.
    assert (Hqy : qy <= q) by nia.
    destruct (Z.gtb_spec r q) as [H1|H1].
    + split; [lia|]. intros ->. lia.
    + destruct (Z.eqb_spec r q) as [H2|H2].
      * subst r. split.
        -- intros H. nia.
        -- intros ->. nia.
      * split.
        -- intros H. nia.
        -- intros ->. nia.
  - split.
    + intros H. nia.
    + intros ->. nia.
Qed.

Lemma cover_rank_range np chunk left y :
  np >= 1 -> chunk >= 1 -> left > 0 ->
  0 <= y < left - rnb np chunk left -> 0 <= y / chunk < np.
Proof.
  intros Hnp Hc Hl Hy. unfold rnb in Hy.
  pose proof (Z.div_mod y chunk ltac:(lia)) as Hdy.
  pose proof (Z.mod_pos_bound y chunk ltac:(lia)) as Hmy.
  set (qy := y / chunk) in *. set (my := y mod chunk) in *. clearbody qy my.
  destruct (Z.ltb_spec left (np * chunk)) as [Hp|Hp]; nia.
Qed.

(* a transfer (from_off, to_off, count) holds source position x *)
Definition tile_covers (t : Z * Z * Z) (x : Z) : Prop :=
  let '(fo, _, c) := t in fo <= x < fo + c.

Lemma znth_round_xs np chunk from to left i :
  0 <= i < np ->
  znth (map (fun r => (from + rnb np chunk left + r * chunk,
                       to + rnb np chunk left + r * chunk,
                       rcnt np chunk left r)) (zrange 0 np)) i (0, 0, 0)
  = (from + rnb np chunk left + i * chunk, to + rnb np chunk left + i * chunk, rcnt np chunk left i).
Proof.
  intros Hi.
  rewrite (znth_map _ (zrange 0 np) i 0 (0, 0, 0)) by (rewrite Zlen_zrange; lia).
  rewrite znth_zrange by lia. replace (0 + i) with i by lia. reflexivity.
Qed.

Theorem round_partition :
  forall np chunk from to left nb xs,
    np >= 1 -> chunk >= 1 -> left > 0 ->
    move_round np chunk from to left = (nb, xs) ->
    (* progress *)
    0 <= nb < left /\ (nb = 0 \/ nb = left - chunk * np) /\
    (* one transfer per rank *)
    Zlen xs = np /\
    (* every tile: non-negative count, same shift, inside [from+nb, from+left) *)
    (forall i, 0 <= i < np ->
       let '(fo, to_, c) := znth xs i (0, 0, 0) in
       0 <= c <= chunk /\ to_ - fo = to - from /\
       (c > 0 -> from + nb <= fo /\ fo + c <= from + left)) /\
    (* every byte of [from+nb, from+left) lies in the tile of exactly one rank *)
    (forall x, from + nb <= x < from + left ->
       exists i, 0 <= i < np /\ tile_covers (znth xs i (0, 0, 0)) x /\
                 forall j, 0 <= j < np -> tile_covers (znth xs j (0, 0, 0)) x -> j = i) /\
    (* the tiles are pairwise disjoint *)
    (forall i j x, 0 <= i < np -> 0 <= j < np ->
       tile_covers (znth xs i (0, 0, 0)) x -> tile_covers (znth xs j (0, 0, 0)) x -> i = j).
Proof.
  intros np chunk from to left nb xs Hnp Hc Hl Hmr.
  rewrite move_round_eq in Hmr. injection Hmr as Hnb Hxs. subst nb xs.
  pose proof (rnb_range np chunk left Hnp Hc Hl) as [Hr1 Hr2].
  assert (Huniq : forall i x, 0 <= i < np ->
            tile_covers (znth (map (fun r => (from + rnb np chunk left + r * chunk,
                       to + rnb np chunk left + r * chunk,
                       rcnt np chunk left r)) (zrange 0 np)) i (0, 0, 0)) x ->
            from + rnb np chunk left <= x < from + left /\
            i = (x - from - rnb np chunk left) / chunk).
  { intros i x Hi Hcov. rewrite znth_round_xs in Hcov by exact Hi. cbn [tile_covers] in Hcov.
    pose proof (rcnt_bounds np chunk left i Hnp Hc Hl Hi) as [Hb1 Hb2].
    assert (Hin : from + rnb np chunk left <= x < from + left) by nia.
    split; [exact Hin|].
    apply (rcnt_cover np chunk left (x - from - rnb np chunk left) i); lia. }
  split; [exact Hr1|]. split; [exact Hr2|].
  split; [rewrite Zlen_map, Zlen_zrange; lia|].
  split; [|split].
  - intros i Hi. rewrite znth_round_xs by exact Hi.
    pose proof (rcnt_bounds np chunk left i Hnp Hc Hl Hi) as [Hb1 Hb2].
    split; [exact Hb1|]. split; [lia|]. intros Hpos. specialize (Hb2 Hpos). nia.
  - intros x Hx.
    set (y := x - from - rnb np chunk left).
    assert (Hy : 0 <= y < left - rnb np chunk left) by (unfold y; lia).
    pose proof (cover_rank_range np chunk left y Hnp Hc Hl Hy) as Hq.
    exists (y / chunk). split; [exact Hq|]. split.
    + rewrite znth_round_xs by exact Hq. cbn [tile_covers].
      pose proof (proj2 (rcnt_cover np chunk left y (y / chunk) Hnp Hc Hl Hy Hq) eq_refl) as H.
      unfold y in *. lia.
    + intros j Hj Hcov. destruct (Huniq j x Hj Hcov) as [_ E]. exact E.
  - intros i j x Hi Hj Hci Hcj.
    destruct (Huniq i x Hi Hci) as [_ Ei]. destruct (Huniq j x Hj Hcj) as [_ Ej]. lia.
Qed.

(* ====================================================================== *)
(** * 2. The rounds: move_rounds / move_file_block                         *)
(* ====================================================================== *)

Lemma move_rounds_S k d np chunk from to left :
  move_rounds (S k) d np chunk from to left =
  if left <=? 0 then d
  else let '(nb, xs) := move_round np chunk from to left in
       move_rounds k
         (fold_left (fun acc p => dk_write acc (fst p) (snd p))
            (map (fun x => let '(fo, to_, c) := x in (to_, dk_read d fo c)) xs) d)
         np chunk from to nb.
Proof. reflexivity. Qed.

(* the (destination offset, bytes) tile of rank r in the round that has [left] bytes to go *)
Definition rtile (d : disk) (np chunk from to left r : Z) : Z * list byte :=
  (to + rnb np chunk left + r * chunk,
   dk_read d (from + rnb np chunk left + r * chunk) (rcnt np chunk left r)).

(* the disk after one round *)
Definition round_disk (d : disk) (np chunk from to left : Z) : disk :=
  write_tiles (map (rtile d np chunk from to left) (zrange 0 np)) d.

Lemma move_rounds_step k d np chunk from to left :
  0 < left ->
  move_rounds (S k) d np chunk from to left =
  move_rounds k (round_disk d np chunk from to left) np chunk from to (rnb np chunk left).
Proof.
  intros Hl. rewrite move_rounds_S, move_round_eq.
  replace (left <=? 0) with false by lia.
  cbv beta iota. rewrite map_map. reflexivity.
Qed.

Lemma In_round_data d np chunk from to left q :
  In q (map (rtile d np chunk from to left) (zrange 0 np)) <->
  exists r, 0 <= r < np /\ q = rtile d np chunk from to left r.
Proof.
  rewrite in_map_iff. split.
  - intros [r [E Hr]]. exists r. rewrite In_zrange in Hr. split; [lia|now symmetry].
  - intros [r [Hr E]]. exists r. rewrite In_zrange. split; [now symmetry|lia].
Qed.

Lemma rtile_covers d np chunk from to left r x :
  np >= 1 -> chunk >= 1 -> left > 0 -> 0 <= r < np ->
  covers (rtile d np chunk from to left r) x ->
  to + rnb np chunk left <= x < to + left /\
  0 <= x - (to + rnb np chunk left + r * chunk) < rcnt np chunk left r.
Proof.
  intros Hnp Hc Hl Hr Hcov. unfold covers, rtile in Hcov. cbn [fst snd] in Hcov.
  rewrite Zlen_dk_read in Hcov.
  pose proof (rcnt_bounds np chunk left r Hnp Hc Hl Hr) as [Hb1 Hb2]. nia.
Qed.

Lemma round_tile_at d np chunk from to left x :
  np >= 1 -> chunk >= 1 -> left > 0 -> to + rnb np chunk left <= x < to + left ->
  exists q, In q (map (rtile d np chunk from to left) (zrange 0 np)) /\ covers q x.
Proof.
  intros Hnp Hc Hl Hx. set (y := x - to - rnb np chunk left).
  assert (Hy : 0 <= y < left - rnb np chunk left) by (unfold y; lia).
  pose proof (cover_rank_range np chunk left y Hnp Hc Hl Hy) as Hq.
  exists (rtile d np chunk from to left (y / chunk)). split.
  - apply In_round_data. exists (y / chunk). split; [exact Hq|reflexivity].
  - unfold covers, rtile. cbn [fst snd]. rewrite Zlen_dk_read.
    pose proof (proj2 (rcnt_cover np chunk left y (y / chunk) Hnp Hc Hl Hy Hq) eq_refl) as Hcv.
    unfold y in *. lia.
Qed.

(* effect of one round on the contents *)
Lemma round_disk_get d np chunk from to left x :
  np >= 1 -> chunk >= 1 -> left > 0 ->
  dk_get (round_disk d np chunk from to left) x =
  if (to + rnb np chunk left <=? x) && (x <? to + left)
  then dk_get d (x - (to - from)) else dk_get d x.
Proof.
  intros Hnp Hc Hl. unfold round_disk.
  destruct ((to + rnb np chunk left <=? x) && (x <? to + left)) eqn:E.
  - (* x inside the destination of this round *)
    apply write_tiles_get_in; [apply round_tile_at; lia|].
    intros q Hq Hcov. apply In_round_data in Hq. destruct Hq as [r [Hr ->]].
    destruct (rtile_covers d np chunk from to left r x Hnp Hc Hl Hr Hcov) as [_ Hi].
    unfold rtile. cbn [fst snd]. rewrite znth_dk_read by exact Hi. f_equal. lia.
  - apply write_tiles_get_out. intros q Hq Hcov.
    apply In_round_data in Hq. destruct Hq as [r [Hr ->]].
    destruct (rtile_covers d np chunk from to left r x Hnp Hc Hl Hr Hcov) as [Hx _]. lia.
Qed.

(* effect of one round on the extent: the tile holding the last byte ends at to+left *)
Lemma round_disk_size d np chunk from to left :
  np >= 1 -> chunk >= 1 -> left > 0 ->
  dk_size (round_disk d np chunk from to left) = Z.max (dk_size d) (to + left).
Proof.
  intros Hnp Hc Hl. unfold round_disk.
  pose proof (rnb_range np chunk left Hnp Hc Hl) as [Hr1 _].
  assert (Hle : forall q, In q (map (rtile d np chunk from to left) (zrange 0 np)) ->
                  0 < Zlen (snd q) -> fst q + Zlen (snd q) <= to + left).
  { intros q Hq Hpos. apply In_round_data in Hq. destruct Hq as [r [Hr ->]].
    unfold rtile in *. cbn [fst snd] in *. rewrite Zlen_dk_read in *.
    pose proof (rcnt_bounds np chunk left r Hnp Hc Hl Hr) as [Hb1 Hb2]. nia. }
  apply write_tiles_size; [exact Hle|].
  destruct (round_tile_at d np chunk from to left (to + left - 1)) as (q & Hq & Hcov); try lia.
  exists q. unfold covers in Hcov. specialize (Hle q Hq). split; [exact Hq | lia].
Qed.

Lemma round_disk_exists d np chunk from to left :
  np >= 1 -> chunk >= 1 -> left > 0 ->
  dk_exists (round_disk d np chunk from to left) = true.
Proof.
  intros Hnp Hc Hl. unfold round_disk. rewrite write_tiles_exists.
  apply orb_true_iff. left. apply existsb_exists.
  pose proof (rnb_range np chunk left Hnp Hc Hl) as [Hr1 _].
  destruct (round_tile_at d np chunk from to left (to + left - 1)) as (q & Hq & Hcov); try lia.
  exists q. unfold covers in Hcov. split; [exact Hq | lia].
Qed.

(* Induction over the rounds: [left] bytes are still to be moved; a round leaves [rnb left] of
   them.  The fuel hypothesis says that enough rounds remain, so the out-of-fuel branch is never
   reached with work left. *)
Lemma move_rounds_ind np chunk from to (P : disk -> Z -> disk -> Prop) :
  np >= 1 -> chunk >= 1 ->
  (forall d, P d 0 d) ->
  (forall d left d', left > 0 ->
     P (round_disk d np chunk from to left) (rnb np chunk left) d' -> P d left d') ->
  forall fuel d left, 0 <= left -> left <= Z.of_nat fuel * (chunk * np) ->
    P d left (move_rounds fuel d np chunk from to left).
Proof.
  intros Hnp Hc H0 Hstep. induction fuel as [|k IH]; intros d left Hl Hfuel.
  - assert (left = 0) by lia. subst left. apply H0.
  - destruct (Z.eq_dec left 0) as [->|E]; [apply H0|].
    pose proof (rnb_range np chunk left Hnp Hc ltac:(lia)) as [Hr1 Hr2].
    rewrite move_rounds_step by lia. apply Hstep; [lia|]. apply IH; [lia | nia].
Qed.

(** A round writes only [to+nb, to+left); the bytes later rounds still have to read are
    [from, from+nb), which lie strictly below to+nb because from <= to.  Hence the rest of the
    work sees the original source bytes. *)
Lemma move_rounds_get :
  forall fuel d np chunk from to left x,
    np >= 1 -> chunk >= 1 -> from <= to -> 0 <= left ->
    left <= Z.of_nat fuel * (chunk * np) ->
    dk_get (move_rounds fuel d np chunk from to left) x =
    if (to <=? x) && (x <? to + left) then dk_get d (x - (to - from)) else dk_get d x.
Proof.
  intros fuel d np chunk from to left x Hnp Hc Hft Hl Hfuel. revert x.
  apply (move_rounds_ind np chunk from to (fun d left d' => forall x, dk_get d' x =
           if (to <=? x) && (x <? to + left) then dk_get d (x - (to - from)) else dk_get d x));
    try assumption.
  - intros d0 x. replace ((to <=? x) && (x <? to + 0)) with false by lia. reflexivity.
  - intros d0 l d' Hl' IH x.
    pose proof (rnb_range np chunk l Hnp Hc Hl') as [Hr1 Hr2].
    rewrite IH, !round_disk_get by lia.
    destruct (Z.leb_spec to x); destruct (Z.ltb_spec x (to + rnb np chunk l));
      destruct (Z.ltb_spec x (to + l));
      destruct (Z.leb_spec (to + rnb np chunk l) (x - (to - from)));
      destruct (Z.leb_spec (to + rnb np chunk l) x);
      destruct (Z.ltb_spec (x - (to - from)) (to + l));
      cbn [andb]; try reflexivity; try lia.
Qed.

Lemma move_rounds_size :
  forall fuel d np chunk from to left,
    np >= 1 -> chunk >= 1 -> 0 <= left ->
    left <= Z.of_nat fuel * (chunk * np) ->
    dk_size (move_rounds fuel d np chunk from to left) =
    if 0 <? left then Z.max (dk_size d) (to + left) else dk_size d.
Proof.
  intros fuel d np chunk from to left Hnp Hc.
  apply (move_rounds_ind np chunk from to (fun d left d' => dk_size d' =
           if 0 <? left then Z.max (dk_size d) (to + left) else dk_size d)); try assumption.
  - reflexivity.
  - intros d0 l d' Hl' IH.
    pose proof (rnb_range np chunk l Hnp Hc Hl') as [Hr1 Hr2].
    rewrite IH, round_disk_size by lia.
    destruct (Z.ltb_spec 0 (rnb np chunk l)); destruct (Z.ltb_spec 0 l); lia.
Qed.

Lemma move_rounds_exists :
  forall fuel d np chunk from to left,
    np >= 1 -> chunk >= 1 -> 0 <= left ->
    left <= Z.of_nat fuel * (chunk * np) ->
    dk_exists (move_rounds fuel d np chunk from to left) = (0 <? left) || dk_exists d.
Proof.
  intros fuel d np chunk from to left Hnp Hc.
  apply (move_rounds_ind np chunk from to (fun d left d' =>
           dk_exists d' = (0 <? left) || dk_exists d)); try assumption.
  - reflexivity.
  - intros d0 l d' Hl' IH. rewrite IH, round_disk_exists by lia.
    replace (0 <? l) with true by lia. apply orb_true_r.
Qed.

Lemma move_file_block_rounds d np unit_ to from n :
  np >= 1 -> unit_ >= 1 -> 0 < n ->
  exists fuel chunk, chunk >= 1 /\ n <= Z.of_nat fuel * (chunk * np) /\
    move_file_block d np unit_ to from n = move_rounds fuel d np chunk from to n.
Proof.
  intros Hnp Hu Hn. unfold move_file_block. replace (n <=? 0) with false by lia. cbv zeta.
  set (chunk := if _ >? unit_ then unit_ else _).
  assert (Hc : chunk >= 1).
  { unfold chunk. pose proof (Z.div_mod n np ltac:(lia)) as Hdm.
    pose proof (Z.mod_pos_bound n np ltac:(lia)) as Hm.
    set (q := n / np) in *. set (m := n mod np) in *. clearbody q m.
    assert (0 <= q) by nia.
    destruct (Z.eqb_spec m 0) as [E|E].
    - assert (q >= 1) by nia. destruct (Z.gtb_spec (q + 0) unit_); lia.
    - destruct (Z.gtb_spec (q + 1) unit_); lia. }
  exists (Z.to_nat (n / (chunk * np) + 2)), chunk. split; [exact Hc|]. split; [|reflexivity].
  clearbody chunk. assert (Hcn : 0 < chunk * np) by nia.
  pose proof (Z.div_mod n (chunk * np) ltac:(lia)) as Hdm.
  pose proof (Z.mod_pos_bound n (chunk * np) Hcn) as Hm.
  set (cn := chunk * np) in *. set (q := n / cn) in *. set (m := n mod cn) in *. clearbody cn q m.
  assert (0 <= q) by nia. rewrite Z2Nat.id by lia. nia.
Qed.

Lemma move_file_block_nonpos d np unit_ to from n :
  n <= 0 -> move_file_block d np unit_ to from n = d.
Proof. intros H. unfold move_file_block. now replace (n <=? 0) with true by lia. Qed.

Theorem move_file_block_correct :
  forall d np unit_ to from n x,
    np >= 1 -> unit_ >= 1 -> from <= to -> 0 <= n ->
    dk_get (move_file_block d np unit_ to from n) x =
    if (to <=? x) && (x <? to + n) then dk_get d (x - (to - from)) else dk_get d x.
Proof.
  intros d np unit_ to from n x Hnp Hu Hft Hn.
  destruct (Z.leb_spec n 0) as [H0|H0].
  - rewrite move_file_block_nonpos by exact H0.
    replace ((to <=? x) && (x <? to + n)) with false by lia. reflexivity.
  - destruct (move_file_block_rounds d np unit_ to from n Hnp Hu H0) as (fuel & chunk & Hc & Hf & ->).
    apply move_rounds_get; assumption.
Qed.

(* under 0 <= from as well, which the proof does not use *)
Corollary move_file_block_correct' :
  forall d np unit_ to from n x,
    np >= 1 -> unit_ >= 1 -> 0 <= from <= to -> 0 <= n ->
    dk_get (move_file_block d np unit_ to from n) x =
    if (to <=? x) && (x <? to + n) then dk_get d (x - (to - from)) else dk_get d x.
Proof. intros. apply move_file_block_correct; lia. Qed.

Theorem move_file_block_size :
  forall d np unit_ to from n,
    np >= 1 -> unit_ >= 1 ->
    dk_size (move_file_block d np unit_ to from n) =
    if 0 <? n then Z.max (dk_size d) (to + n) else dk_size d.
Proof.
  intros d np unit_ to from n Hnp Hu.
  destruct (Z.leb_spec n 0) as [H0|H0].
  - rewrite move_file_block_nonpos by exact H0. now replace (0 <? n) with false by lia.
  - destruct (move_file_block_rounds d np unit_ to from n Hnp Hu H0) as (fuel & chunk & Hc & Hf & ->).
    apply move_rounds_size; lia.
Qed.

Theorem move_file_block_exists :
  forall d np unit_ to from n,
    np >= 1 -> unit_ >= 1 ->
    dk_exists (move_file_block d np unit_ to from n) = (0 <? n) || dk_exists d.
Proof.
  intros d np unit_ to from n Hnp Hu.
  destruct (Z.leb_spec n 0) as [H0|H0].
  - rewrite move_file_block_nonpos by exact H0. now replace (0 <? n) with false by lia.
  - destruct (move_file_block_rounds d np unit_ to from n Hnp Hu H0) as (fuel & chunk & Hc & Hf & ->).
    apply move_rounds_exists; lia.
Qed.

Corollary move_file_block_moved d np unit_ to from n o :
  np >= 1 -> unit_ >= 1 -> from <= to -> 0 <= o < n ->
  dk_get (move_file_block d np unit_ to from n) (to + o) = dk_get d (from + o).
Proof.
  intros Hnp Hu Hft Ho. rewrite move_file_block_correct by lia.
  replace ((to <=? to + o) && (to + o <? to + n)) with true by lia. f_equal. lia.
Qed.

Corollary move_file_block_frame d np unit_ to from n x :
  np >= 1 -> unit_ >= 1 -> from <= to -> 0 <= n -> (x < to \/ to + n <= x) ->
  dk_get (move_file_block d np unit_ to from n) x = dk_get d x.
Proof.
  intros Hnp Hu Hft Hn Hx. rewrite move_file_block_correct by lia.
  replace ((to <=? x) && (x <? to + n)) with false by lia. reflexivity.
Qed.

(* ====================================================================== *)
(** * 3. A descending loop of block moves                                  *)
(* ====================================================================== *)

(* Blocks m-1 down to 0 are processed in this order; block i, when [act i], is copied from
   [src i] to [dst i].  Sources and destinations increase with i, so the source of block i lies
   below every destination written before it (those of the blocks j > i), and its own
   destination ends at or below them. *)
Section ShiftLoop.
  Variables (step : disk -> Z -> disk) (act : Z -> bool) (src dst len : Z -> Z) (n : Z).
  Hypothesis Hstep : forall acc i x, 0 <= i < n ->
    dk_get (step acc i) x =
    if act i && ((dst i <=? x) && (x <? dst i + len i))
    then dk_get acc (x - (dst i - src i)) else dk_get acc x.
  Hypothesis Hord : forall i j, 0 <= i -> i < j -> j < n -> act i = true -> act j = true ->
    src i + len i <= dst j /\ dst i + len i <= dst j.

  Lemma shift_loop : forall m d, Z.of_nat m <= n ->
    (forall i o, 0 <= i < Z.of_nat m -> act i = true -> 0 <= o < len i ->
       dk_get (fold_left step (rev (zseq 0 m)) d) (dst i + o) = dk_get d (src i + o)) /\
    (forall x, (forall i, 0 <= i < Z.of_nat m -> act i = true -> ~ dst i <= x < dst i + len i) ->
       dk_get (fold_left step (rev (zseq 0 m)) d) x = dk_get d x).
  Proof.
    induction m as [|m IH]; intros d Hm.
    - split; [intros i o Hi; lia | reflexivity].
    - rewrite rev_zseq_S. cbn [fold_left]. replace (0 + Z.of_nat m) with (Z.of_nat m) by lia.
      set (M := Z.of_nat m) in *. assert (HM : 0 <= M < n) by lia.
      destruct (IH (step d M) ltac:(lia)) as [IH1 IH2].
      split.
      + intros i o Hi Hai Ho. destruct (Z.eq_dec i M) as [->|E].
        * rewrite IH2.
          -- rewrite Hstep, Hai by exact HM.
             replace ((dst M <=? dst M + o) && (dst M + o <? dst M + len M)) with true by lia.
             cbn [andb]. f_equal. lia.
          -- intros j Hj Haj. destruct (Hord j M) as [_ H]; try assumption; lia.
        * rewrite IH1, Hstep by (assumption || lia).
          destruct (act M) eqn:HaM; [|reflexivity].
          destruct (Hord i M) as [H _]; try assumption; try lia.
          replace ((dst M <=? src i + o) && (src i + o <? dst M + len M)) with false by lia.
          reflexivity.
      + intros x Hx. rewrite IH2 by (intros i Hi; apply Hx; lia). rewrite Hstep by exact HM.
        destruct (act M && ((dst M <=? x) && (x <? dst M + len M))) eqn:E; [|reflexivity].
        apply andb_true_iff in E. destruct E as [Ea Er].
        exfalso. apply (Hx M); [lia | exact Ea | lia].
  Qed.
End ShiftLoop.

(* ====================================================================== *)
(** * 4. move_record_vars                                                  *)
(* ====================================================================== *)

Definition rec_step (np unit_ : Z) (nl ol : layout) (acc : disk) (recno : Z) : disk :=
  move_file_block acc np unit_
    (l_begin_rec nl + recno * l_recsize nl)
    (l_begin_rec ol + recno * l_recsize ol) (l_recsize ol).

Lemma move_record_vars_unfold d np unit_ numrecs nl ol :
  move_record_vars d np unit_ numrecs nl ol =
  if l_recsize nl =? l_recsize ol then
    if l_recsize nl =? 0 then d
    else move_file_block d np unit_ (l_begin_rec nl) (l_begin_rec ol) (l_recsize nl * numrecs)
  else fold_left (rec_step np unit_ nl ol) (rev (zrange 0 numrecs)) d.
Proof. reflexivity. Qed.

(* x lies in the new place of one of the (old-sized) records r < m *)
Definition in_new_record (nl ol : layout) (m x : Z) : Prop :=
  exists r, 0 <= r < m /\
    l_begin_rec nl + r * l_recsize nl <= x < l_begin_rec nl + r * l_recsize nl + l_recsize ol.

Lemma and_extend (P Q R : Prop) : P /\ Q -> (Q -> R) -> P /\ Q /\ R.
Proof. tauto. Qed.

Theorem move_record_vars_correct :
  forall d np unit_ numrecs nl ol,
    np >= 1 -> unit_ >= 1 -> 0 <= numrecs ->
    l_begin_rec nl >= l_begin_rec ol ->
    l_recsize nl >= l_recsize ol -> l_recsize ol >= 0 ->
    (* every byte of every old record arrives at its new place *)
    (forall r o, 0 <= r < numrecs -> 0 <= o < l_recsize ol ->
       dk_get (move_record_vars d np unit_ numrecs nl ol)
              (l_begin_rec nl + r * l_recsize nl + o)
       = dk_get d (l_begin_rec ol + r * l_recsize ol + o)) /\
    (* nothing outside the new places of the records changes *)
    (forall x, ~ in_new_record nl ol numrecs x ->
       dk_get (move_record_vars d np unit_ numrecs nl ol) x = dk_get d x) /\
    (* in particular everything below the new (hence below the old) record section *)
    (forall x, x < l_begin_rec nl ->
       dk_get (move_record_vars d np unit_ numrecs nl ol) x = dk_get d x).
Proof.
  intros d np unit_ numrecs nl ol Hnp Hu Hnr Hb Hrs Hors. apply and_extend.
  2:{ intros H2 x Hx. apply H2. intros [r [Hr Hin]].
      assert (0 <= r * l_recsize nl) by nia. lia. }
  rewrite move_record_vars_unfold. unfold in_new_record.
  set (nb := l_begin_rec nl) in *. set (ob := l_begin_rec ol) in *.
  set (rs := l_recsize nl) in *. set (ors := l_recsize ol) in *.
  destruct (Z.eqb_spec rs ors) as [E|E].
  - (* equal record sizes: one block *)
    destruct (Z.eqb_spec rs 0) as [E0|E0].
    + split; [intros r o Hr Ho; lia | reflexivity].
    + clearbody nb ob rs ors. subst ors.
      split.
      * intros r o Hr Ho. rewrite move_file_block_correct by nia.
        replace ((nb <=? nb + r * rs + o) && (nb + r * rs + o <? nb + rs * numrecs)) with true.
        -- f_equal. lia.
        -- assert (r + 1 <= numrecs) by lia. assert (r * rs + o < rs * numrecs) by nia.
           assert (0 <= r * rs) by nia. lia.
      * intros x Hx. rewrite move_file_block_correct by nia.
        replace ((nb <=? x) && (x <? nb + rs * numrecs)) with false; [reflexivity|].
        destruct (Z.leb_spec nb x); destruct (Z.ltb_spec x (nb + rs * numrecs));
          cbn [andb]; try reflexivity.
        exfalso. apply Hx.
        assert (Hrs0 : 0 < rs) by lia.
        pose proof (Z.div_mod (x - nb) rs ltac:(lia)) as Hdm.
        pose proof (Z.mod_pos_bound (x - nb) rs Hrs0) as Hm.
        exists ((x - nb) / rs).
        set (q := (x - nb) / rs) in *. set (t := (x - nb) mod rs) in *. clearbody q t.
        split; nia.
  - (* record by record, the last one first *)
    destruct (shift_loop (rec_step np unit_ nl ol) (fun _ => true)
                (fun r => ob + r * ors) (fun r => nb + r * rs) (fun _ => ors) numrecs)
      with (m := Z.to_nat numrecs) (d := d) as [H1 H2]; [| |lia|].
    + intros acc i x Hi. unfold rec_step. apply move_file_block_correct; nia.
    + intros i j Hi Hij Hj _ _. nia.
    + unfold zrange. rewrite Z2Nat.id in H1, H2 by lia. split.
      * intros r o Hr Ho. apply H1; auto.
      * intros x Hx. apply H2. intros i Hi _ Hin. apply Hx. exists i. auto.
Qed.

(* ====================================================================== *)
(** * 5. move_fixed_vars                                                   *)
(* ====================================================================== *)

Definition fv_isfix (oh : hdr) (i : Z) : bool :=
  negb (is_recvar (h_dims oh) (znth (h_vars oh) i (mkvar [] [] [] 0 0 true))).
Definition fv_from (ol : layout) (i : Z) : Z := znth (l_begins ol) i 0.
Definition fv_to (nl : layout) (i : Z) : Z := znth (l_begins nl) i 0.
Definition fv_len (newlens : list Z) (i : Z) : Z := znth newlens i 0.

(* Hypotheses on the begins / lens lists, over the fixed-size variables of the OLD header, in
   definition order: lengths non-negative, no variable moves down, old extents increasing and
   non-overlapping, new extents increasing and non-overlapping. *)
Definition fixed_move_ok (oh : hdr) (nl ol : layout) (newlens : list Z) : Prop :=
  (forall i, 0 <= i < Zlen (h_vars oh) -> fv_isfix oh i = true ->
     0 <= fv_len newlens i /\ fv_from ol i <= fv_to nl i) /\
  (forall i j, 0 <= i -> i < j -> j < Zlen (h_vars oh) ->
     fv_isfix oh i = true -> fv_isfix oh j = true ->
     fv_from ol i + fv_len newlens i <= fv_from ol j /\
     fv_to nl i + fv_len newlens i <= fv_to nl j).

Definition fix_step (np unit_ : Z) (oh : hdr) (nl ol : layout) (newlens : list Z)
           (acc : disk) (i : Z) : disk :=
  let ov := znth (h_vars oh) i (mkvar [] [] [] 0 0 true) in
  if is_recvar (h_dims oh) ov then acc
  else
    let from := znth (l_begins ol) i 0 in
    let to := znth (l_begins nl) i 0 in
    if to >? from then move_file_block acc np unit_ to from (znth newlens i 0) else acc.

Lemma move_fixed_vars_unfold d np unit_ oh nl ol newlens :
  move_fixed_vars d np unit_ oh nl ol newlens =
  fold_left (fix_step np unit_ oh nl ol newlens) (rev (zrange 0 (Zlen (h_vars oh)))) d.
Proof. reflexivity. Qed.

(* x lies in the new place of a fixed variable i < m that really moves *)
Definition in_moved_fixed (oh : hdr) (nl ol : layout) (newlens : list Z) (m x : Z) : Prop :=
  exists i, 0 <= i < m /\ fv_isfix oh i = true /\ fv_from ol i < fv_to nl i /\
            fv_to nl i <= x < fv_to nl i + fv_len newlens i.

(* effect of processing variable i alone *)
Lemma fix_step_get np unit_ oh nl ol newlens acc i x :
  np >= 1 -> unit_ >= 1 -> fixed_move_ok oh nl ol newlens -> 0 <= i < Zlen (h_vars oh) ->
  dk_get (fix_step np unit_ oh nl ol newlens acc i) x =
  if fv_isfix oh i && (fv_from ol i <? fv_to nl i) &&
     ((fv_to nl i <=? x) && (x <? fv_to nl i + fv_len newlens i))
  then dk_get acc (x - (fv_to nl i - fv_from ol i)) else dk_get acc x.
Proof.
  intros Hnp Hu [Hok1 _] Hi. specialize (Hok1 i Hi).
  unfold fix_step, fv_isfix, fv_from, fv_to, fv_len in *.
  destruct (is_recvar (h_dims oh) (znth (h_vars oh) i (mkvar [] [] [] 0 0 true))).
  - reflexivity.
  - cbn [negb andb]. specialize (Hok1 eq_refl).
    set (F := znth (l_begins ol) i 0) in *. set (T := znth (l_begins nl) i 0) in *.
    destruct (Z.gtb_spec T F) as [H|H].
    + replace (F <? T) with true by lia. cbn [andb].
      apply move_file_block_correct; lia.
    + replace (F <? T) with false by lia. reflexivity.
Qed.

(* moving variable i disturbs neither the not-yet-moved variables j < i (old places) nor the
   already moved variables j > i (new places) *)
Theorem move_fixed_step_no_clobber :
  forall np unit_ oh nl ol newlens acc i j o,
    np >= 1 -> unit_ >= 1 -> fixed_move_ok oh nl ol newlens ->
    0 <= i < Zlen (h_vars oh) -> 0 <= j < Zlen (h_vars oh) ->
    fv_isfix oh j = true -> 0 <= o < fv_len newlens j ->
    (j < i -> dk_get (fix_step np unit_ oh nl ol newlens acc i) (fv_from ol j + o)
              = dk_get acc (fv_from ol j + o)) /\
    (i < j -> dk_get (fix_step np unit_ oh nl ol newlens acc i) (fv_to nl j + o)
              = dk_get acc (fv_to nl j + o)).
Proof.
  intros np unit_ oh nl ol newlens acc i j o Hnp Hu Hok Hi Hj Hfj Ho.
  pose proof Hok as [Hok1 Hok2].
  split; intros Hlt; rewrite fix_step_get by assumption;
    (destruct (fv_isfix oh i) eqn:Hfi; [|reflexivity]); pose proof (Hok1 i Hi Hfi) as [? ?].
  - pose proof (Hok2 j i ltac:(lia) Hlt ltac:(lia) Hfj Hfi) as [? ?].
    replace ((fv_to nl i <=? fv_from ol j + o) &&
             (fv_from ol j + o <? fv_to nl i + fv_len newlens i)) with false by lia.
    rewrite andb_false_r. reflexivity.
  - pose proof (Hok2 i j ltac:(lia) Hlt ltac:(lia) Hfi Hfj) as [? ?].
    replace ((fv_to nl i <=? fv_to nl j + o) &&
             (fv_to nl j + o <? fv_to nl i + fv_len newlens i)) with false by lia.
    rewrite andb_false_r. reflexivity.
Qed.

Theorem move_fixed_vars_correct :
  forall d np unit_ oh nl ol newlens,
    np >= 1 -> unit_ >= 1 -> fixed_move_ok oh nl ol newlens ->
    (forall i o, 0 <= i < Zlen (h_vars oh) -> fv_isfix oh i = true -> 0 <= o < fv_len newlens i ->
       dk_get (move_fixed_vars d np unit_ oh nl ol newlens) (fv_to nl i + o)
       = dk_get d (fv_from ol i + o)) /\
    (forall x, ~ in_moved_fixed oh nl ol newlens (Zlen (h_vars oh)) x ->
       dk_get (move_fixed_vars d np unit_ oh nl ol newlens) x = dk_get d x).
Proof.
  intros d np unit_ oh nl ol newlens Hnp Hu Hok. pose proof Hok as [Hok1 Hok2].
  set (nv := Zlen (h_vars oh)) in *. pose proof (Zlen_nonneg (h_vars oh)) as Hnv. fold nv in Hnv.
  (* the variables that really move *)
  set (act := fun i => fv_isfix oh i && (fv_from ol i <? fv_to nl i)).
  assert (Hact : forall i, act i = true <-> fv_isfix oh i = true /\ fv_from ol i < fv_to nl i)
    by (intros i; unfold act; rewrite andb_true_iff; lia).
  destruct (shift_loop (fix_step np unit_ oh nl ol newlens) act
              (fv_from ol) (fv_to nl) (fv_len newlens) nv)
    with (m := Z.to_nat nv) (d := d) as [H1 H2]; [| |lia|].
  - intros acc i x Hi. apply fix_step_get; assumption.
  - intros i j Hi Hij Hj Hai Haj. apply Hact in Hai, Haj.
    destruct (Hok2 i j Hi Hij Hj) as [A B]; try tauto.
    destruct (Hok1 j) as [_ C]; try tauto; lia.
  - rewrite move_fixed_vars_unfold. unfold zrange. fold nv. rewrite Z2Nat.id in H1, H2 by lia.
    split.
    + intros i o Hi Hfi Ho. destruct (Hok1 i Hi Hfi) as [_ HFT].
      destruct (Z.ltb_spec (fv_from ol i) (fv_to nl i)) as [Hmv|Hmv].
      * apply H1; [exact Hi | apply Hact; auto | exact Ho].
      * (* the variable stays; no variable that moves lands on it *)
        replace (fv_from ol i) with (fv_to nl i) by lia. apply H2.
        intros j Hj Haj Hin. apply Hact in Haj. destruct Haj as [Hfj Hmj].
        destruct (Z.lt_trichotomy i j) as [Hlt|[->|Hgt]]; [|lia|].
        -- destruct (Hok2 i j) as [_ B]; try assumption; lia.
        -- destruct (Hok2 j i) as [_ B]; try assumption; lia.
    + intros x Hx. apply H2. intros i Hi Hai Hin. apply Hact in Hai.
      apply Hx. exists i. tauto.
Qed.

Definition move_rounds_correct := move_rounds_get.

(* ====================================================================== *)
(** * 6. Concrete instances (hypotheses are satisfiable; vm_compute sweeps) *)
(* ====================================================================== *)

(* a 40-byte file holding 100+x at position x *)
Definition ex_disk : disk :=
  mkdisk true 40 (fun x => if (0 <=? x) && (x <? 40) then 100 + x else 0).

(* round 1 of moving 26 bytes from 10 to 15 with 3 ranks, unit 4 (chunk 4): full round *)
Example ex_round_full :
  move_round 3 4 10 15 26 = (14, [(24, 29, 4); (28, 33, 4); (32, 37, 4)]).
Proof. vm_compute. reflexivity. Qed.

(* the last, partial round (2 bytes left): rank 0 moves 2 bytes, ranks 1,2 nothing *)
Example ex_round_partial :
  move_round 3 4 10 15 2 = (0, [(10, 15, 2); (14, 19, 0); (18, 23, 0)]).
Proof. vm_compute. reflexivity. Qed.

(* a partial round in which rank rem gets the remainder: 7 bytes left *)
Example ex_round_partial2 :
  move_round 3 4 10 15 7 = (0, [(10, 15, 4); (14, 19, 3); (18, 23, 0)]).
Proof. vm_compute. reflexivity. Qed.

Example ex_round_partition_hyps :
  3 >= 1 /\ 4 >= 1 /\ 26 > 0 /\
  move_round 3 4 10 15 26 = (14, [(24, 29, 4); (28, 33, 4); (32, 37, 4)]).
Proof. repeat split; try lia. Qed.

(* overlapping move: nprocs 3, unit 4, n = 26, to - from = 5: three rounds (12, 12, 2 bytes) *)
Example ex_move_file_block :
  map (dk_get (move_file_block ex_disk 3 4 15 10 26)) (zrange 0 61) =
  map (fun x => if (15 <=? x) && (x <? 15 + 26) then dk_get ex_disk (x - (15 - 10))
                else dk_get ex_disk x) (zrange 0 61)
  /\ dk_size (move_file_block ex_disk 3 4 15 10 26) = 41
  /\ dk_exists (move_file_block ex_disk 3 4 15 10 26) = true.
Proof. vm_compute. repeat split; reflexivity. Qed.

(* the same through the theorem (hypotheses satisfiable) *)
Example ex_move_file_block_thm x :
  dk_get (move_file_block ex_disk 3 4 15 10 26) x =
  if (15 <=? x) && (x <? 15 + 26) then dk_get ex_disk (x - (15 - 10)) else dk_get ex_disk x.
Proof. apply move_file_block_correct; lia. Qed.

(* other shapes: 1 rank; unit larger than the share; nbytes a multiple of chunk*nprocs;
   shift larger than the block (no overlap); shift 0 *)
Example ex_move_file_block_more :
  forallb (fun p : Z * Z * Z * Z * Z =>
     let '(np, u, to, from, n) := p in
     list_eqb Z.eqb
       (map (dk_get (move_file_block ex_disk np u to from n)) (zrange 0 81))
       (map (fun x => if (to <=? x) && (x <? to + n) then dk_get ex_disk (x - (to - from))
                      else dk_get ex_disk x) (zrange 0 81)))
    [(1, 4, 15, 10, 26); (3, 100, 15, 10, 26); (3, 4, 11, 10, 24); (2, 3, 50, 5, 30);
     (4, 1, 7, 7, 13); (5, 2, 3, 2, 1); (7, 3, 12, 0, 40); (2, 5, 9, 4, 0)] = true.
Proof. vm_compute. reflexivity. Qed.

(* record section: old begin 20, recsize 6; new begin 24, recsize 10; 3 records
   (per-record branch) *)
Definition ex_ol : layout := mklayout 0 0 20 6 [].
Definition ex_nl : layout := mklayout 0 0 24 10 [].

Example ex_move_record_vars :
  map (dk_get (move_record_vars ex_disk 3 4 3 ex_nl ex_ol)) (zrange 0 61) =
  map (fun x =>
         if (24 <=? x) && (x <? 30) then dk_get ex_disk (20 + (x - 24))
         else if (34 <=? x) && (x <? 40) then dk_get ex_disk (26 + (x - 34))
         else if (44 <=? x) && (x <? 50) then dk_get ex_disk (32 + (x - 44))
         else dk_get ex_disk x) (zrange 0 61).
Proof. vm_compute. reflexivity. Qed.

Example ex_move_record_vars_hyps :
  3 >= 1 /\ 4 >= 1 /\ 0 <= 3 /\ l_begin_rec ex_nl >= l_begin_rec ex_ol /\
  l_recsize ex_nl >= l_recsize ex_ol /\ l_recsize ex_ol >= 0.
Proof. cbn. lia. Qed.

(* equal record size: one block move of 3*6 bytes from 20 to 24 *)
Definition ex_nl_same : layout := mklayout 0 0 24 6 [].
Example ex_move_record_vars_same :
  map (dk_get (move_record_vars ex_disk 3 4 3 ex_nl_same ex_ol)) (zrange 0 61) =
  map (fun x => if (24 <=? x) && (x <? 42) then dk_get ex_disk (x - 4) else dk_get ex_disk x)
      (zrange 0 61).
Proof. vm_compute. reflexivity. Qed.

(* fixed variables: dims [unlimited; 4]; v0 fixed, v1 record, v2 fixed.
   old begins 8, (100), 16; new begins 12, (100), 24; lengths 8, -, 6 *)
Definition ex_oh : hdr :=
  mkhdr 1 0 [mkdim [] 0; mkdim [] 4] []
        [mkvar [97] [1] [] 5 8 false; mkvar [98] [0] [] 5 100 false; mkvar [99] [1] [] 5 16 false].
Definition ex_fol : layout := mklayout 0 8 100 4 [8; 100; 16].
Definition ex_fnl : layout := mklayout 0 12 100 4 [12; 100; 24].
Definition ex_lens : list Z := [8; 4; 6].

Example ex_fixed_move_ok : fixed_move_ok ex_oh ex_fnl ex_fol ex_lens.
Proof.
  split.
  - intros i Hi Hf. change (Zlen (h_vars ex_oh)) with 3 in Hi.
    assert (Hc : i = 0 \/ i = 1 \/ i = 2) by lia.
    destruct Hc as [ -> | [ -> | -> ] ]; vm_compute in Hf |- *; try discriminate Hf; split; congruence.
  - intros i j Hi Hij Hj Hfi Hfj. change (Zlen (h_vars ex_oh)) with 3 in Hj.
    assert (Hc : (i = 0 /\ j = 1) \/ (i = 0 /\ j = 2) \/ (i = 1 /\ j = 2)) by lia.
    destruct Hc as [ [ -> -> ] | [ [ -> -> ] | [ -> -> ] ] ];
      vm_compute in Hfi, Hfj |- *; try discriminate Hfi; try discriminate Hfj; split; congruence.
Qed.

Example ex_move_fixed_vars :
  map (dk_get (move_fixed_vars ex_disk 3 4 ex_oh ex_fnl ex_fol ex_lens)) (zrange 0 61) =
  map (fun x =>
         if (12 <=? x) && (x <? 20) then dk_get ex_disk (8 + (x - 12))
         else if (24 <=? x) && (x <? 30) then dk_get ex_disk (16 + (x - 24))
         else dk_get ex_disk x) (zrange 0 61).
Proof. vm_compute. reflexivity. Qed.

(* the theorems instantiated on the examples: every hypothesis is discharged *)
Example ex_round_partition_thm :=
  round_partition 3 4 10 15 26 14 [(24, 29, 4); (28, 33, 4); (32, 37, 4)]
    ltac:(lia) ltac:(lia) ltac:(lia) ex_round_full.

Example ex_move_record_vars_thm :=
  move_record_vars_correct ex_disk 3 4 3 ex_nl ex_ol
    ltac:(lia) ltac:(lia) ltac:(lia) ltac:(cbn; lia) ltac:(cbn; lia) ltac:(cbn; lia).

Example ex_move_fixed_vars_thm :=
  move_fixed_vars_correct ex_disk 3 4 ex_oh ex_fnl ex_fol ex_lens
    ltac:(lia) ltac:(lia) ex_fixed_move_ok.

Print Assumptions round_partition.
Print Assumptions move_rounds_correct.
Print Assumptions move_file_block_correct.
Print Assumptions move_file_block_size.
Print Assumptions move_file_block_exists.
Print Assumptions move_record_vars_correct.
Print Assumptions move_fixed_vars_correct.
Print Assumptions move_fixed_step_no_clobber.
