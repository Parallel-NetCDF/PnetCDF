(* Proofs_CSub.v — lemmas about the C-subset combinators of CSub.v, used by the equivalence
   proofs between generated definitions (Gen_vlens.v, Gen_scs.v, Gen_contig.v, Gen_begins.v) and the
   hand-written model. *)
From Pnc Require Import Base CSub Proofs_Lists.
Require Import Lia ZArith ZifyBool List Bool String.
Import ListNotations.
Local Open Scope Z_scope.

Lemma cs_znth_0 : forall A (x : A) l d, znth (x :: l) 0 d = x.
Proof. reflexivity. Qed.

Lemma cs_znth_map : forall A B (f : A -> B) l i d, 0 <= i < Zlen l -> znth (map f l) i (f d) = f (znth l i d).
Proof. intros A B f l i d. apply znth_map. Qed.

Lemma cs_app_snoc : forall A (pre : list A) x r, (pre ++ [x]) ++ r = pre ++ x :: r.
Proof. intros. rewrite <- app_assoc. reflexivity. Qed.

Lemma c_bind_norm : forall S (r : cres S) k s, r = CNorm s -> c_bind r k = k s.
Proof. intros S r k s ->. reflexivity. Qed.

Lemma c_bind_assoc : forall S (r : cres S) k1 k2,
  c_bind (c_bind r k1) k2 = c_bind r (fun s => c_bind (k1 s) k2).
Proof. intros S [ ] k1 k2; reflexivity. Qed.

Lemma c_bind_as : forall S (r r' : cres S) k, r = r' -> c_bind r k = c_bind r' k.
Proof. intros S r r' k ->. reflexivity. Qed.

Lemma c_loop_S : forall S f (cdef cond : S -> bool) body inc s,
  c_loop (Datatypes.S f) cdef cond body inc s =
  if cdef s then
    if cond s then
      match body s with
      | CNorm s' => c_bind (inc s') (c_loop f cdef cond body inc)
      | CCnt s' => c_bind (inc s') (c_loop f cdef cond body inc)
      | CBrk s' => CNorm s'
      | CRet v => CRet v
      | CUndef w => CUndef w
      | CUnsup w => CUnsup w
      | CRetS v s' => CRetS v s'
      end
    else CNorm s
  else CUndef "loop condition".
Proof. reflexivity. Qed.

Lemma c_loop_exit : forall S f (cdef cond : S -> bool) body inc s,
  cdef s = true -> cond s = false ->
  c_loop (Datatypes.S f) cdef cond body inc s = CNorm s.
Proof. intros S f cdef cond body inc s Hd Hc. rewrite c_loop_S, Hd, Hc. reflexivity. Qed.

Lemma c_loop_iter : forall S f (cdef cond : S -> bool) body inc s,
  cdef s = true -> cond s = true ->
  c_loop (Datatypes.S f) cdef cond body inc s =
  match body s with
  | CNorm s' => c_bind (inc s') (c_loop f cdef cond body inc)
  | CCnt s' => c_bind (inc s') (c_loop f cdef cond body inc)
  | CBrk s' => CNorm s'
  | CRet v => CRet v
  | CUndef w => CUndef w
  | CUnsup w => CUnsup w
  | CRetS v s' => CRetS v s'
  end.
Proof. intros S f cdef cond body inc s Hd Hc. rewrite c_loop_S, Hd, Hc. reflexivity. Qed.

(* a whole iteration: the body completes (normally or by `continue`), then the increment *)
Lemma c_loop_next : forall S f (cdef cond : S -> bool) body inc s s1 s2,
  cdef s = true -> cond s = true -> body s = CNorm s1 \/ body s = CCnt s1 -> inc s1 = CNorm s2 ->
  c_loop (Datatypes.S f) cdef cond body inc s = c_loop f cdef cond body inc s2.
Proof.
  intros S f cdef cond body inc s s1 s2 Hd Hc Hb Hi. rewrite c_loop_iter by assumption.
  destruct Hb as [-> | ->]; rewrite Hi; reflexivity.
Qed.

Lemma c_fuel_lt_S : forall i hi, i < hi -> c_fuel_lt i hi = Datatypes.S (c_fuel_lt (i + 1) hi).
Proof.
  intros i hi H. unfold c_fuel_lt. f_equal.
  replace (hi - i) with (Z.succ (hi - (i + 1))) by lia.
  rewrite Z2Nat.inj_succ by lia. reflexivity.
Qed.

Lemma c_fuel_lt_pos : forall i hi, exists f, c_fuel_lt i hi = Datatypes.S f.
Proof. intros. eexists. reflexivity. Qed.

Lemma z2b_b2z : forall b, z2b (b2z b) = b.
Proof. destruct b; reflexivity. Qed.

Lemma b2z_eq0 : forall b, (b2z b =? 0) = negb b.
Proof. destruct b; reflexivity. Qed.

Lemma in_i32_iff : forall v, in_i32 v = true <-> -2147483648 <= v <= 2147483647.
Proof. intros. unfold in_i32. lia. Qed.

Lemma in_i64_iff : forall v, in_i64 v = true <-> -9223372036854775808 <= v <= 9223372036854775807.
Proof. intros. unfold in_i64. lia. Qed.

Lemma div_ok_pos : forall tmin a b, 0 < b -> div_ok tmin a b = true.
Proof. intros. unfold div_ok. lia. Qed.

(* C division on non-negative operands is the model's Z./ *)
Lemma quot_is_div : forall a b, 0 <= a -> 0 < b -> Z.quot a b = a / b.
Proof. intros. apply Z.quot_div_nonneg; lia. Qed.

Lemma p_ok_some : forall A (l : list A) off i,
  0 <= off + i < Zlen l -> p_ok (Some (l, off)) i = true.
Proof. intros. unfold p_ok. lia. Qed.

Lemma p_ok_cons0 : forall A (x : A) l, p_ok (Some (x :: l, 0)) 0 = true.
Proof. intros. apply p_ok_some. rewrite Zlen_cons. pose proof (Zlen_nonneg l). lia. Qed.

(* the fuel the translator gives to  for (i = k; i < n; i++)  suffices for n - k iterations *)
Lemma c_fuel_lt_enough : forall n k : nat, (k <= n)%nat -> (n - k < c_fuel_lt (Z.of_nat k) (Z.of_nat n))%nat.
Proof. intros n k H. unfold c_fuel_lt. lia. Qed.

Lemma p_get_some : forall A (d : A) l off i, p_get d (Some (l, off)) i = znth l (off + i) d.
Proof. reflexivity. Qed.

Lemma p_ok_app : forall A (pre : list A) x r, p_ok (Some (pre ++ x :: r, 0)) (Zlen pre) = true.
Proof.
  intros. apply p_ok_some. rewrite Zlen_app, Zlen_cons.
  pose proof (Zlen_nonneg pre). pose proof (Zlen_nonneg r). lia.
Qed.

Lemma p_get_app : forall A (d : A) pre x r, p_get d (Some (pre ++ x :: r, 0)) (Zlen pre) = x.
Proof. intros. rewrite p_get_some, Z.add_0_l. apply znth_app_exact. Qed.

Lemma p_set_app : forall A (pre : list A) x r y,
  p_set (Some (pre ++ x :: r, 0)) (Zlen pre) y = Some (pre ++ y :: r, 0).
Proof. intros. cbn [p_set]. rewrite Z.add_0_l, zupd_app_exact. reflexivity. Qed.

(* the fuel of  for (i = ...; i < n; i++)  suffices for the n - i elements still to be visited *)
Lemma c_fuel_lt_len : forall A (l : list A) i n, n - i = Zlen l -> (Datatypes.length l < c_fuel_lt i n)%nat.
Proof. intros A l i n H. unfold c_fuel_lt. rewrite H. unfold Zlen. rewrite Nat2Z.id. lia. Qed.

Lemma p_ok_nat : forall (l : list Z) k, (k < Datatypes.length l)%nat -> p_ok (Some (l, 0)) (Z.of_nat k) = true.
Proof. intros. apply p_ok_some. unfold Zlen. lia. Qed.

Lemma p_get_nat : forall (l : list Z) k, p_get 0 (Some (l, 0)) (Z.of_nat k) = nth k l 0.
Proof. intros. rewrite p_get_some, Z.add_0_l. apply znth_nth. Qed.

Lemma cs_skipn_nth_cons : forall A (l : list A) k d, (k < Datatypes.length l)%nat ->
  skipn k l = nth k l d :: skipn (S k) l.
Proof.
  induction l as [|a l IH]; intros k d H; [cbn in H; lia|].
  destruct k as [|k]; [reflexivity|]. cbn [skipn nth]. cbn [Datatypes.length] in H.
  rewrite (IH k d) by lia. reflexivity.
Qed.

