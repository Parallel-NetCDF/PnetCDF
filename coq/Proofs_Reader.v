(* Proofs_Reader.v — proofs about the reader model (Reader.v).
   Part A  list facts (take_z, get_u32 / get_u64 on a prefix of known length)
   Part B  the parser monad, iter_p = iter_nat
   Part C  window invariant; the chunked reader equals the flat reader for every chunk size
           >= 8 (chunk_read_eq_flat), hence for all the sizes ncmpio_hdr_get_NC can produce
           (norm_chunk_ok: multiples of 4 that are >= 36)
   Part D  the flat reader agrees with the BNF decoder HeaderSpec.decode on valid files;
           reader_accepts_valid; composition with decode_encode_full
   Part E  C19: totality, crash witnesses (refutations) and partial results, consistency, cost
   Part F  the record size derived at open is the writer's (Proofs_Layout.recsize_of) *)
From Pnc Require Import Reader Proofs_Base Proofs_Lists Proofs_Header.
From Pnc Require Proofs_Vlen Proofs_Layout.
Local Open Scope Z_scope.

Local Arguments Z.mul : simpl never.
Local Arguments Z.add : simpl never.
Local Arguments Z.sub : simpl never.
Local Arguments Z.div : simpl never.
Local Arguments Z.modulo : simpl never.
Local Arguments Z.pow : simpl never.
Local Arguments Z.of_nat : simpl never.
Local Arguments Z.to_nat : simpl never.
Local Arguments Z.quot : simpl never.
Local Arguments Z.rem : simpl never.

(** * Part A: lists *)

Lemma zfirstn_all : forall A n (l : list A), Zlen l <= n -> zfirstn n l = l.
Proof. exact @Proofs_Lists.zfirstn_all. Qed.

(* take_z written with [repeat], so that it splits like [firstn] *)
Definition take_n (k : nat) (l : list byte) : list byte := firstn k l ++ repeat 0 (k - length (firstn k l)).

Lemma take_z_nat : forall n l, take_z n l = take_n (Z.to_nat n) l.
Proof.
  intros n l. unfold take_z, take_n, zeros. rewrite zfirstn_nat. f_equal. f_equal.
  unfold Zlen. lia.
Qed.

Lemma take_n_length : forall k l, length (take_n k l) = k.
Proof.
  intros k l. unfold take_n. rewrite app_length, repeat_length.
  pose proof (firstn_le_length k l). lia.
Qed.

Lemma take_n_split : forall a b l, take_n (a + b) l = take_n a l ++ take_n b (skipn a l).
Proof.
  induction a as [|a IH]; intros b l; [reflexivity|].
  destruct l as [|x l].
  - unfold take_n. rewrite skipn_nil, !firstn_nil. cbn [length app]. rewrite !Nat.sub_0_r. apply repeat_app.
  - cbn [Nat.add skipn]. unfold take_n in *. cbn [firstn length Nat.sub app]. now rewrite IH.
Qed.

Lemma take_z_len : forall n l, 0 <= n -> Zlen (take_z n l) = n.
Proof. intros. rewrite take_z_nat. unfold Zlen. rewrite take_n_length. lia. Qed.

Lemma take_z_nonpos : forall n l, n <= 0 -> take_z n l = [].
Proof. intros. rewrite take_z_nat. replace (Z.to_nat n) with O by lia. reflexivity. Qed.

Lemma take_z_split : forall a b l, 0 <= a -> 0 <= b ->
  take_z (a + b) l = take_z a l ++ take_z b (zskipn a l).
Proof.
  intros. rewrite !take_z_nat, zskipn_nat. rewrite Z2Nat.inj_add by lia. apply take_n_split.
Qed.

Lemma take_z_enough : forall n l, 0 <= n <= Zlen l -> take_z n l = zfirstn n l.
Proof.
  intros n l H. unfold take_z. rewrite Zlen_zfirstn_enough by lia.
  replace (n - n) with 0 by lia. apply app_nil_r.
Qed.

Lemma zcut_app : forall A n (a b : list A), Zlen a = n -> zfirstn n (a ++ b) = a /\ zskipn n (a ++ b) = b.
Proof. intros A n a b <-. split; [apply zfirstn_app_exact | apply zskipn_app_exact]. Qed.

Lemma take_z_cut : forall m n l, 0 <= m <= n ->
  zfirstn m (take_z n l) = take_z m l /\ zskipn m (take_z n l) = take_z (n - m) (zskipn m l).
Proof.
  intros m n l H. replace n with (m + (n - m)) at 1 2 by lia. rewrite take_z_split by lia.
  apply zcut_app, take_z_len. lia.
Qed.

Lemma get_u32_app4 : forall a b c d r,
  get_u32 ([a; b; c; d] ++ r) = Some (a * 16777216 + b * 65536 + c * 256 + d, r).
Proof. reflexivity. Qed.

Lemma get_u32_4 : forall a, Zlen a = 4 -> exists v, forall r, get_u32 (a ++ r) = Some (v, r).
Proof.
  intros a H. destruct a as [|a [|b [|c [|d [|e t]]]]]; rewrite ?Zlen_cons, ?Zlen_nil in H; try lia.
  - eexists. intros r. apply get_u32_app4.
  - pose proof (Zlen_nonneg t). lia.
Qed.

Lemma get_u64_8 : forall a, Zlen a = 8 -> exists v, forall r, get_u64 (a ++ r) = Some (v, r).
Proof.
  intros a H.
  destruct a as [|b0 [|b1 [|b2 [|b3 [|b4 [|b5 [|b6 [|b7 [|b8 t]]]]]]]]]; rewrite ?Zlen_cons, ?Zlen_nil in H; try lia.
  - eexists. intros r. reflexivity.
  - pose proof (Zlen_nonneg t). lia.
Qed.

(** * Part B: the parser monad *)
Section Monad.
Variable S : Type.

Lemma bind_assoc : forall A B C (m : P S A) (f : A -> P S B) (g : B -> P S C) s,
  bind (bind m f) g s = bind m (fun a => bind (f a) g) s.
Proof.
  intros. unfold bind. destruct (m s) as [[a|e|c] s']; reflexivity.
Qed.

Lemma bind_cong : forall A B (m1 m2 : P S A) (f g : A -> P S B) s,
  m1 s = m2 s -> (forall a s', f a s' = g a s') -> bind m1 f s = bind m2 g s.
Proof.
  intros A B m1 m2 f g s Hm Hf. unfold bind. rewrite Hm.
  destruct (m2 s) as [[a|e|c] s']; [apply Hf | reflexivity ..].
Qed.

Lemma bind_ret_r : forall A (m : P S A) s, bind m ret s = m s.
Proof. intros. unfold bind, ret. destruct (m s) as [[a|e|c] s']; reflexivity. Qed.

Fixpoint iter_nat {A} (k : nat) (f : A -> P S A) (x : A) : P S A :=
  match k with
  | O => ret x
  | Datatypes.S k' => bind (f x) (iter_nat k' f)
  end.

Lemma iter_nat_add : forall A (f : A -> P S A) a b x s,
  iter_nat (a + b) f x s = bind (iter_nat a f x) (iter_nat b f) s.
Proof.
  induction a as [|a IH]; intros b x s; [reflexivity|].
  cbn [Nat.add iter_nat]. rewrite bind_assoc. apply bind_cong; [reflexivity | intros; apply IH].
Qed.

Lemma iter_p_nat : forall A (f : A -> P S A) p x s,
  iter_p p f x s = iter_nat (Pos.to_nat p) f x s.
Proof.
  induction p as [q IH|q IH|]; intros x s; cbn [iter_p].
  - rewrite Pos2Nat.inj_xI.
    replace (Datatypes.S (2 * Pos.to_nat q)) with (Datatypes.S (Pos.to_nat q + Pos.to_nat q)) by lia.
    cbn [iter_nat]. apply bind_cong; [reflexivity|]. intros a s'. rewrite iter_nat_add.
    apply bind_cong; [apply IH | intros; apply IH].
  - rewrite Pos2Nat.inj_xO.
    replace (2 * Pos.to_nat q)%nat with (Pos.to_nat q + Pos.to_nat q)%nat by lia.
    rewrite iter_nat_add. apply bind_cong; [apply IH | intros; apply IH].
  - rewrite Pos2Nat.inj_1. cbn [iter_nat]. now rewrite bind_ret_r.
Qed.

Lemma iter_n_nat_all : forall A (f : A -> P S A) n x s,
  iter_n n f x s = iter_nat (Z.to_nat n) f x s.
Proof.
  intros A f n x s. destruct n as [|p|p]; [reflexivity | | reflexivity].
  cbn [iter_n]. rewrite iter_p_nat. now rewrite Z2Nat.inj_pos.
Qed.

Lemma iter_n_nat : forall A (f : A -> P S A) n x s, 0 <= n ->
  iter_n n f x s = iter_nat (Z.to_nat n) f x s.
Proof. intros. apply iter_n_nat_all. Qed.
End Monad.
Arguments iter_nat {S A} k f x _.

(** * Part C: simulation between two byte sources *)

Lemma chk_ok : forall s x y, chk s x = Ok y -> y = x /\ I64_MIN <= x <= I64_MAX.
Proof.
  intros s x y H. unfold chk, in_i64 in H.
  destruct ((I64_MIN <=? x) && (x <=? I64_MAX)) eqn:E; inversion H. subst. lia.
Qed.

Lemma chk_in : forall s x, I64_MIN <= x <= I64_MAX -> chk s x = Ok x.
Proof. intros s x H. unfold chk, in_i64. now replace ((I64_MIN <=? x) && (x <=? I64_MAX)) with true by lia. Qed.

(* the padding computed by the reader for an attribute is what the format prescribes *)
Lemma attr_pad_range : forall t n x, 0 < n -> attr_xsz t n = Ok x ->
  x = rndup (n * xlen_type t) 4 /\ 0 <= x - n * xlen_type t <= 3.
Proof.
  intros t n x Hn H. unfold attr_xsz in H. unfold rndup. cbn [Z.eqb].
  destruct (xlen_type_cases t) as [[E _]|[E|[E|[E|E]]]]; rewrite E in *; cbn [Z.eqb] in H.
  - apply chk_ok in H. destruct H as [-> _]. lia.
  - destruct (chk S_attr_xlen (n + 3)) eqn:C; cbn [rbind] in H; inversion H.
    apply chk_ok in C. destruct C as [-> _]. lia.
  - destruct (chk S_attr_xlen (n + Z.rem n 2)) eqn:C; cbn [rbind] in H; try discriminate.
    apply chk_ok in C. destruct C as [-> _]. apply chk_ok in H. destruct H as [-> _].
    pose proof (Z.rem_mod_nonneg n 2 ltac:(lia) ltac:(lia)) as Hr. rewrite Hr. lia.
  - apply chk_ok in H. destruct H as [-> _]. lia.
  - apply chk_ok in H. destruct H as [-> _]. lia.
Qed.

(* `if (padding > 0) { fetch if needed; pos += padding }` *)
Definition skip_pad {S} (X : src S) (k : Z) : P S unit := if k >? 0 then lift_ (gskip X k) else ret tt.

(* hdr_get_NC_dimarray / attrarray / vararray are one loop around different element readers *)
Definition rd_list {S St A} (X : src S) (mm fmt maxn emax tagc : Z)
                   (step : St -> P S St) (st0 : St) (fin : St -> list A) : P S (list A) :=
  bind (lift (g32 X)) (fun tag =>
  bind (rd_nn S X fmt) (fun n =>
  if n >? maxn then fail emax else
  if n =? 0 then ret [] else
  if negb (tag =? tagc) then fail NC_ENOTNC else
  bind (rndup_int S n) (fun asz =>
  bind (alloc mm (asz * 8)) (fun ok =>
  if negb ok then fail NC_ENOMEM else
  bind (iter_n n step st0) (fun st => ret (fin st)))))).

Definition dim_step {S} (X : src S) (mm fmt : Z) (st : Z * Z * list dim) : P S (Z * Z * list dim) :=
  let '(i, unlim, acc) := st in
  bind (rd_dim S X mm fmt unlim) (fun d => ret (i + 1, (if d_size d =? 0 then i else unlim), d :: acc)).

Lemma rd_dimarray_list : forall S X mm fmt, rd_dimarray S X mm fmt =
  rd_list X mm fmt NC_MAX_DIMS NC_EMAXDIMS NC_DIMENSION_TAG (dim_step X mm fmt) (0, -1, []) (fun st => rev (snd st)).
Proof. reflexivity. Qed.

Lemma rd_attarray_list : forall S X mm fmt, rd_attarray S X mm fmt =
  rd_list X mm fmt NC_MAX_ATTRS NC_EMAXATTS NC_ATTRIBUTE_TAG
          (fun acc => bind (rd_att S X mm fmt) (fun a => ret (a :: acc))) [] (@rev att).
Proof. reflexivity. Qed.

Lemma rd_vararray_list : forall S X mm fmt nd0, rd_vararray S X mm fmt nd0 =
  rd_list X mm fmt NC_MAX_VARS NC_EMAXVARS NC_VARIABLE_TAG
          (fun acc => bind (rd_var S X mm fmt nd0) (fun v => ret (v :: acc))) [] (@rev (var * bool)).
Proof. reflexivity. Qed.

Section Sim.
Variables (S1 S2 : Type) (X1 : src S1) (X2 : src S2) (R : S1 -> S2 -> Prop) (mm : Z).
Hypothesis H32 : forall s1 s2, R s1 s2 ->
  fst (g32 X1 s1) = fst (g32 X2 s2) /\ R (snd (g32 X1 s1)) (snd (g32 X2 s2)).
Hypothesis H64 : forall s1 s2, R s1 s2 ->
  fst (g64 X1 s1) = fst (g64 X2 s2) /\ R (snd (g64 X1 s1)) (snd (g64 X2 s2)).
Hypothesis Hby : forall n s1 s2, R s1 s2 ->
  fst (gbytes X1 n s1) = fst (gbytes X2 n s2) /\ R (snd (gbytes X1 n s1)) (snd (gbytes X2 n s2)).
Hypothesis Hsk : forall k s1 s2, 0 < k <= 8 -> R s1 s2 -> R (gskip X1 k s1) (gskip X2 k s2).

Definition rel_st (a : S1 * acct) (b : S2 * acct) : Prop := R (fst a) (fst b) /\ snd a = snd b.
Definition rel_P {A} (p1 : P S1 A) (p2 : P S2 A) : Prop :=
  forall s1 s2, rel_st s1 s2 -> fst (p1 s1) = fst (p2 s2) /\ rel_st (snd (p1 s1)) (snd (p2 s2)).

Lemma rel_ret : forall A (a : A), rel_P (ret a) (ret a).
Proof. intros A a s1 s2 H. split; [reflexivity | exact H]. Qed.
Lemma rel_fail : forall A e, @rel_P A (fail e) (fail e).
Proof. intros A a s1 s2 H. split; [reflexivity | exact H]. Qed.
Lemma rel_crash : forall A c, @rel_P A (crash c) (crash c).
Proof. intros A a s1 s2 H. split; [reflexivity | exact H]. Qed.
Lemma rel_pure : forall A (r : res A), rel_P (pure r) (pure r).
Proof. intros A r s1 s2 H. split; [reflexivity | exact H]. Qed.
Lemma rel_alloc : forall n, rel_P (alloc mm n) (alloc mm n).
Proof.
  intros n s1 s2 [H1 H2]. unfold alloc. cbn [fst snd]. rewrite H2. split; [reflexivity|].
  split; [exact H1 | reflexivity].
Qed.

Lemma rel_bind : forall A B (m1 : P S1 A) (m2 : P S2 A) (f1 : A -> P S1 B) (f2 : A -> P S2 B),
  rel_P m1 m2 -> (forall a, rel_P (f1 a) (f2 a)) -> rel_P (bind m1 f1) (bind m2 f2).
Proof.
  intros A B m1 m2 f1 f2 Hm Hf s1 s2 Hs. unfold bind.
  destruct (Hm s1 s2 Hs) as [E Hs'].
  destruct (m1 s1) as [r1 t1], (m2 s2) as [r2 t2]. cbn [fst snd] in E, Hs'. subst r2.
  destruct r1 as [a|e|c]; [apply Hf; exact Hs' | split; [reflexivity | exact Hs'] ..].
Qed.

Lemma rel_bind_pure : forall A B (r : res A) (f1 : A -> P S1 B) (f2 : A -> P S2 B),
  (forall a, r = Ok a -> rel_P (f1 a) (f2 a)) -> rel_P (bind (pure r) f1) (bind (pure r) f2).
Proof.
  intros A B r f1 f2 Hf s1 s2 Hs. unfold bind, pure.
  destruct r as [a|e|c]; [apply (Hf a eq_refl); exact Hs | split; [reflexivity | exact Hs] ..].
Qed.

Lemma rel_if : forall A (b : bool) (p1 q1 : P S1 A) (p2 q2 : P S2 A),
  rel_P p1 p2 -> rel_P q1 q2 -> rel_P (if b then p1 else q1) (if b then p2 else q2).
Proof. intros A [|] p1 q1 p2 q2 Hp Hq; assumption. Qed.

Lemma rel_lift : forall A (f1 : S1 -> A * S1) (f2 : S2 -> A * S2),
  (forall s1 s2, R s1 s2 -> fst (f1 s1) = fst (f2 s2) /\ R (snd (f1 s1)) (snd (f2 s2))) ->
  rel_P (lift f1) (lift f2).
Proof.
  intros A f1 f2 H s1 s2 [H1 H2]. unfold lift. destruct (H _ _ H1) as [E HR].
  destruct (f1 (fst s1)) as [v1 t1], (f2 (fst s2)) as [v2 t2]. cbn [fst snd] in *.
  subst v2. split; [reflexivity | split; assumption].
Qed.

Lemma rel_skip_pad : forall k, k <= 8 -> rel_P (skip_pad X1 k) (skip_pad X2 k).
Proof.
  intros k Hk. unfold skip_pad. destruct (k >? 0) eqn:E; [|apply rel_ret].
  intros s1 s2 [H1 H2]. split; [reflexivity|]. split; [apply Hsk; [lia | exact H1] | exact H2].
Qed.

Lemma rel_iter_n : forall A (f1 : A -> P S1 A) (f2 : A -> P S2 A),
  (forall x, rel_P (f1 x) (f2 x)) -> forall n x, rel_P (iter_n n f1 x) (iter_n n f2 x).
Proof.
  intros A f1 f2 Hf n x. destruct n as [|p|p]; cbn [iter_n]; try apply rel_ret.
  revert x. induction p as [q IH|q IH|]; intros x; cbn [iter_p]; auto using rel_bind.
Qed.

(* Every production is built from the four primitives with bind / if / iter_n; the only side
   condition is that a skip is at most 8 bytes long (paddings are at most 3).  Each nested
   bind / if of a production costs [auto] one level of depth: the longer productions need more
   than the default 5. *)
Local Hint Resolve rel_ret rel_fail rel_crash rel_pure rel_alloc rel_bind rel_if rel_iter_n : rel.
Local Hint Extern 1 (rel_P (lift (g32 _)) _) => apply rel_lift, H32 : rel.
Local Hint Extern 1 (rel_P (lift (g64 _)) _) => apply rel_lift, H64 : rel.
Local Hint Extern 1 (rel_P (lift (gbytes _ _)) _) => apply rel_lift, Hby : rel.

Lemma rel_rd_nn : forall fmt, rel_P (rd_nn S1 X1 fmt) (rd_nn S2 X2 fmt).
Proof. intros fmt. unfold rd_nn. auto with rel. Qed.
Local Hint Resolve rel_rd_nn : rel.

Lemma rel_rd_name : forall fmt, rel_P (rd_name S1 X1 mm fmt) (rd_name S2 X2 mm fmt).
Proof.
  intros fmt. unfold rd_name. cbv zeta.
  assert (forall n, rel_P (skip_pad X1 (padlen n)) (skip_pad X2 (padlen n)))
    by (intros n; apply rel_skip_pad; pose proof (padlen_range n); lia).
  unfold skip_pad in *. auto 12 with rel.
Qed.
Local Hint Resolve rel_rd_name : rel.

Lemma rel_rd_dim : forall fmt u, rel_P (rd_dim S1 X1 mm fmt u) (rd_dim S2 X2 mm fmt u).
Proof. intros fmt u. unfold rd_dim. cbv zeta. auto 12 with rel. Qed.

Lemma rel_rndup_int : forall n, rel_P (rndup_int S1 n) (rndup_int S2 n).
Proof. intros n. unfold rndup_int. auto with rel. Qed.

Lemma rel_rd_type : forall fmt, rel_P (rd_type S1 X1 fmt) (rd_type S2 X2 fmt).
Proof. intros fmt. unfold rd_type. auto 8 with rel. Qed.
Local Hint Resolve rel_rd_dim rel_rndup_int rel_rd_type : rel.

Lemma rel_rd_list : forall St A maxn emax tagc fmt (f1 : St -> P S1 St) (f2 : St -> P S2 St) st0 (fin : St -> list A),
  (forall st, rel_P (f1 st) (f2 st)) ->
  rel_P (rd_list X1 mm fmt maxn emax tagc f1 st0 fin) (rd_list X2 mm fmt maxn emax tagc f2 st0 fin).
Proof. intros. unfold rd_list. auto 16 with rel. Qed.

Lemma rel_rd_dimarray : forall fmt, rel_P (rd_dimarray S1 X1 mm fmt) (rd_dimarray S2 X2 mm fmt).
Proof.
  intros fmt. rewrite !rd_dimarray_list. apply rel_rd_list. intros [[i unlim] acc]. cbn [dim_step]. auto with rel.
Qed.

Lemma rel_rd_att : forall fmt, rel_P (rd_att S1 X1 mm fmt) (rd_att S2 X2 mm fmt).
Proof.
  intros fmt. unfold rd_att. cbv zeta.
  apply rel_bind; [auto with rel | intros nm]. apply rel_bind; [auto with rel | intros t].
  apply rel_bind; [auto with rel | intros n0]. apply rel_bind; [auto with rel | intros ok].
  apply rel_if; [auto with rel|].
  destruct (to_i64 n0 >? 0) eqn:En; apply rel_bind_pure; intros x Hx; [|auto with rel].
  assert (rel_P (skip_pad X1 (x - to_i64 n0 * xlen_type t)) (skip_pad X2 (x - to_i64 n0 * xlen_type t)))
    by (apply rel_skip_pad; destruct (attr_pad_range t (to_i64 n0) x ltac:(lia) Hx); lia).
  unfold skip_pad in *. auto 12 with rel.
Qed.
Local Hint Resolve rel_rd_att : rel.

Lemma rel_rd_attarray : forall fmt, rel_P (rd_attarray S1 X1 mm fmt) (rd_attarray S2 X2 mm fmt).
Proof. intros fmt. rewrite !rd_attarray_list. apply rel_rd_list. auto with rel. Qed.
Local Hint Resolve rel_rd_dimarray rel_rd_attarray : rel.

Lemma rel_rd_var : forall fmt nd0, rel_P (rd_var S1 X1 mm fmt nd0) (rd_var S2 X2 mm fmt nd0).
Proof. intros fmt nd0. unfold rd_var. auto 30 with rel. Qed.
Local Hint Resolve rel_rd_var : rel.

Lemma rel_rd_vararray : forall fmt nd0, rel_P (rd_vararray S1 X1 mm fmt nd0) (rd_vararray S2 X2 mm fmt nd0).
Proof. intros fmt nd0. rewrite !rd_vararray_list. apply rel_rd_list. auto with rel. Qed.
Local Hint Resolve rel_rd_vararray : rel.

Lemma rel_hdr_get_NC : rel_P (hdr_get_NC S1 X1 mm) (hdr_get_NC S2 X2 mm).
Proof. unfold hdr_get_NC. cbv zeta. auto 16 with rel. Qed.
End Sim.

(** ** The window invariant of the chunked source *)

(* [window_inv chunk c l]: l is the zero-extended file from the abstract read position on;
   the live part of the window (base+pos .. end) holds exactly the next chunk-pos bytes of it,
   and the file offset of the next read is where the window ends. *)
Definition window_inv (chunk : Z) (c : cst) (l : list byte) : Prop :=
  c_chunk c = chunk /\ 0 <= c_pos c <= chunk /\
  c_tail c = take_z (chunk - c_pos c) l /\ c_rest c = zskipn (chunk - c_pos c) l.

Lemma window_inv_fetch : forall chunk c l, window_inv chunk c l -> 0 < c_pos c ->
  window_inv chunk (c_fetch c) l.
Proof.
  intros chunk c l (Hc & Hp & Ht & Hr) Hpos. unfold window_inv, c_fetch.
  cbn [c_chunk c_pos c_tail c_rest]. rewrite Hc, Ht, Hr.
  replace (chunk - c_pos c =? chunk) with false by lia.
  replace (chunk - (chunk - c_pos c)) with (c_pos c) by lia. rewrite Z.sub_0_r.
  change (zfirstn (c_pos c) ?r ++ zeros (c_pos c - Zlen (zfirstn (c_pos c) ?r))) with (take_z (c_pos c) r).
  split; [reflexivity|]. split; [lia|]. split.
  - replace (take_z chunk l) with (take_z ((chunk - c_pos c) + c_pos c) l) by (f_equal; lia).
    rewrite take_z_split by lia. f_equal.
    destruct (chunk - c_pos c >? 0) eqn:E; [apply take_z_cut; lia | symmetry; apply take_z_nonpos; lia].
  - rewrite zskipn_zskipn by lia. f_equal. lia.
Qed.

Lemma window_inv_init : forall chunk f, 0 < chunk -> window_inv chunk (c_init chunk f) f.
Proof.
  intros chunk f H. unfold window_inv, c_init, c_fetch. cbn [c_chunk c_pos c_tail c_rest].
  rewrite !Z.sub_0_r, Z.eqb_refl, Z.sub_0_r. cbn [Z.gtb Z.compare app].
  split; [reflexivity|]. split; [lia|]. split; reflexivity.
Qed.

Lemma window_inv_adv : forall chunk c l k, window_inv chunk c l -> 0 <= k -> c_pos c + k <= chunk ->
  window_inv chunk (c_adv k c) (zskipn k l).
Proof.
  intros chunk c l k (Hc & Hp & Ht & Hr) Hk Hle. unfold window_inv, c_adv.
  cbn [c_chunk c_pos c_tail c_rest]. split; [assumption|]. split; [lia|].
  rewrite Ht, Hr. split.
  - rewrite (proj2 (take_z_cut k (chunk - c_pos c) l ltac:(lia))). f_equal. lia.
  - rewrite zskipn_zskipn by lia. f_equal. lia.
Qed.

(* The primitives of the chunked source simulate those of the flat source.  [J] is any further
   property of the window that advancing preserves and that a fetch preserves when at most 8 live
   bytes are carried over (the fetches of the copy loop carry none). *)
Section Window.
Variables (chunk : Z) (J : cst -> Prop).
Hypothesis J_adv : forall k c, J c -> J (c_adv k c).
Hypothesis J_fetch : forall c l, window_inv chunk c l -> 0 < c_pos c -> chunk - c_pos c <= 8 -> J c -> J (c_fetch c).

Definition win (c : cst) (l : list byte) : Prop := window_inv chunk c l /\ J c.

Lemma win_adv : forall c l k, win c l -> 0 <= k -> c_pos c + k <= chunk -> win (c_adv k c) (zskipn k l).
Proof. intros c l k [Hw Hj] Hk Hle. split; [now apply window_inv_adv | now apply J_adv]. Qed.

Lemma win_fetch : forall c l, win c l -> 0 < c_pos c -> chunk - c_pos c <= 8 -> win (c_fetch c) l.
Proof. intros c l [Hw Hj] Hp Hs. split; [now apply window_inv_fetch | now apply (J_fetch c l)]. Qed.

Lemma win_need : forall c l k, win c l -> 0 < k <= 8 -> 8 <= chunk ->
  win (c_need k c) l /\ c_pos (c_need k c) + k <= chunk.
Proof.
  intros c l k H Hk Hch. unfold c_need. pose proof H as [(Hc & Hp & _) _]. rewrite Hc.
  destruct (c_pos c + k >? chunk) eqn:E; [|split; [exact H | lia]].
  split; [apply win_fetch; [exact H | lia | lia] | cbn [c_fetch c_pos]; lia].
Qed.

Lemma sim_gskip : forall c l k, 8 <= chunk -> 0 < k <= 8 -> win c l -> win (c_gskip k c) (f_gskip k l).
Proof.
  intros c l k Hch Hk H. destruct (win_need c l k H Hk Hch) as [H1 Hle].
  apply win_adv; [exact H1 | lia | exact Hle].
Qed.

Lemma win_peek : forall (get : list byte -> option (Z * list byte)) k c l,
  (forall a, Zlen a = k -> exists v, forall r, get (a ++ r) = Some (v, r)) ->
  8 <= chunk -> 0 < k <= 8 -> win c l ->
  exists v t, get (c_tail (c_need k c)) = Some (v, t) /\ get (take_z k l) = Some (v, []).
Proof.
  intros get k c l Hget Hch Hk H. destruct (win_need c l k H Hk Hch) as [[(_ & Hp & Ht & _) _] Hle].
  destruct (Hget (take_z k l) (take_z_len k l ltac:(lia))) as [v Hv].
  exists v. rewrite Ht. replace (chunk - c_pos (c_need k c)) with (k + (chunk - c_pos (c_need k c) - k)) by lia.
  rewrite take_z_split by lia. rewrite Hv. eexists. split; [reflexivity|].
  rewrite <- (app_nil_r (take_z k l)). apply Hv.
Qed.

Lemma sim_g32 : forall c l, 8 <= chunk -> win c l ->
  fst (c_g32 c) = fst (f_g32 l) /\ win (snd (c_g32 c)) (snd (f_g32 l)).
Proof.
  intros c l Hch H. destruct (win_peek get_u32 4 c l get_u32_4 Hch ltac:(lia) H) as (v & t & E1 & E2).
  unfold c_g32, f_g32. rewrite E1, E2. split; [reflexivity | apply (sim_gskip c l 4); [exact Hch | lia | exact H]].
Qed.

Lemma sim_g64 : forall c l, 8 <= chunk -> win c l ->
  fst (c_g64 c) = fst (f_g64 l) /\ win (snd (c_g64 c)) (snd (f_g64 l)).
Proof.
  intros c l Hch H. destruct (win_peek get_u64 8 c l get_u64_8 Hch ltac:(lia) H) as (v & t & E1 & E2).
  unfold c_g64, f_g64. rewrite E1, E2. split; [reflexivity | apply (sim_gskip c l 8); [exact Hch | lia | exact H]].
Qed.

(* the copy loop: with enough fuel it delivers exactly the next n bytes of the stream *)
Lemma sim_copy : 0 < chunk -> forall fuel n acc c l,
  win c l ->
  2 * n + (if c_chunk c - c_pos c =? 0 then 1 else 0) <= Z.of_nat fuel ->
  let r := c_copy fuel n acc c in
  concat (rev (fst r)) = concat (rev acc) ++ take_z n l /\ win (snd r) (zskipn n l).
Proof.
  intros Hch. induction fuel as [|fuel IH]; intros n acc c l H Hf.
  - cbn [c_copy fst snd]. assert (n <= 0) by (destruct (c_chunk c - c_pos c =? 0); lia).
    rewrite take_z_nonpos, zskipn_nonpos by lia. now rewrite app_nil_r.
  - cbn [c_copy]. destruct (n <=? 0) eqn:En.
    + cbn [fst snd]. rewrite take_z_nonpos, zskipn_nonpos by lia. now rewrite app_nil_r.
    + pose proof H as [(Hc & Hp & Ht & Hr) _]. rewrite Hc in *.
      destruct (chunk - c_pos c >? 0) eqn:Er.
      * set (m := Z.min (chunk - c_pos c) n).
        assert (Hm : 0 < m <= n /\ m <= chunk - c_pos c) by lia.
        assert (H' : win (c_adv m c) (zskipn m l)) by (apply win_adv; [assumption | lia | lia]).
        specialize (IH (n - m) (zfirstn m (c_tail c) :: acc) (c_adv m c) (zskipn m l) H').
        cbn zeta in IH. destruct IH as [I1 I2].
        { destruct H' as [(Hc' & _) _]. rewrite Hc'. replace (chunk - c_pos c =? 0) with false in Hf by lia.
          destruct (chunk - c_pos (c_adv m c) =? 0); lia. }
        split.
        -- rewrite I1. cbn [rev]. rewrite concat_app. cbn [concat]. rewrite app_nil_r, <- app_assoc. f_equal.
           rewrite Ht, (proj1 (take_z_cut m (chunk - c_pos c) l ltac:(lia))). replace n with (m + (n - m)) at 2 by lia.
           now rewrite take_z_split by lia.
        -- rewrite zskipn_zskipn in I2 by lia. replace (m + (n - m)) with n in I2 by lia. exact I2.
      * assert (H' : win (c_fetch c) l) by (apply win_fetch; [assumption | lia | lia]).
        specialize (IH n acc (c_fetch c) l H'). cbn zeta in IH. apply IH.
        destruct H' as [(Hc' & _) _]. rewrite Hc'. unfold c_fetch. cbn [c_pos].
        replace (chunk - c_pos c =? 0) with true in Hf by lia.
        replace (chunk - 0 =? 0) with false by lia. lia.
Qed.

Lemma sim_gbytes : forall n c l, 0 < chunk -> win c l ->
  fst (c_gbytes n c) = fst (f_gbytes n l) /\ win (snd (c_gbytes n c)) (snd (f_gbytes n l)).
Proof.
  intros n c l Hch H. unfold c_gbytes, f_gbytes.
  pose proof (sim_copy Hch (Z.to_nat (2 * n + 2)) n [] c l H) as Hs. cbn zeta in Hs.
  destruct (c_copy (Z.to_nat (2 * n + 2)) n [] c) as [acc c'] eqn:E. cbn [fst snd] in *.
  destruct (Z_le_gt_dec n 0) as [Hn|Hn].
  - (* nothing to copy *)
    destruct (Z.to_nat (2 * n + 2)) as [|k] eqn:Ek; cbn [c_copy] in E.
    + inversion E; subst. rewrite take_z_nonpos, zskipn_nonpos by lia. split; [reflexivity | exact H].
    + replace (n <=? 0) with true in E by lia. inversion E; subst.
      rewrite take_z_nonpos, zskipn_nonpos by lia. split; [reflexivity | exact H].
  - apply Hs. destruct (c_chunk c - c_pos c =? 0); lia.
Qed.
End Window.

(** ** C04: the result does not depend on the chunk size *)

(* every chunk size ncmpio_hdr_get_NC can use: PNETCDF_RNDUP(MAX(36, hint), 4) *)
Lemma norm_chunk_ok : forall hint, 36 <= norm_chunk hint /\ norm_chunk hint mod 4 = 0.
Proof.
  intros hint. unfold norm_chunk, rndup, MIN_NC_XSZ, X_ALIGN. cbn [Z.eqb]. lia.
Qed.

Lemma read_header_win : forall chunk (J : cst -> Prop) mm f, 8 <= chunk ->
  (forall k c, J c -> J (c_adv k c)) ->
  (forall c l, window_inv chunk c l -> 0 < c_pos c -> chunk - c_pos c <= 8 -> J c -> J (c_fetch c)) ->
  J (c_init chunk f) ->
  fst (read_header chunk mm f) = fst (read_header_flat mm f) /\
  snd (snd (read_header chunk mm f)) = snd (snd (read_header_flat mm f)) /\
  win chunk J (fst (snd (read_header chunk mm f))) (fst (snd (read_header_flat mm f))).
Proof.
  intros chunk J mm f Hch Ja Jf J0. unfold read_header, read_header_flat.
  destruct (rel_hdr_get_NC cst (list byte) csrc fsrc (win chunk J) mm
              (fun c l => sim_g32 chunk J Ja Jf c l Hch)
              (fun c l => sim_g64 chunk J Ja Jf c l Hch)
              (fun n c l => sim_gbytes chunk J Ja Jf n c l ltac:(lia))
              (fun k c l Hk => sim_gskip chunk J Ja Jf c l k Hch Hk)
              (c_init chunk f, acct0) (f, acct0)) as [E [HR HA]].
  { split; [split; [apply window_inv_init; lia | exact J0] | reflexivity]. }
  split; [exact E|]. split; [exact HA | exact HR].
Qed.

Theorem chunk_read_eq_flat : forall chunk mm f, 8 <= chunk ->
  fst (read_header chunk mm f) = fst (read_header_flat mm f) /\
  snd (snd (read_header chunk mm f)) = snd (snd (read_header_flat mm f)) /\
  window_inv chunk (fst (snd (read_header chunk mm f))) (fst (snd (read_header_flat mm f))).
Proof.
  intros chunk mm f Hch.
  destruct (read_header_win chunk (fun _ => True) mm f Hch) as (E & HA & HR & _); auto.
Qed.

(* C04: for ALL chunk sizes the reader can use (every hint value: the code
   normalises it to a multiple of 4 that is >= 36) the chunked reader returns what the
   single-pass reader over the zero-extended file returns: same header / error code / crash site *)
Theorem chunk_decode_eq_flat : forall hint mm f,
  out_res (open_model hint mm f) = open_flat mm f.
Proof.
  intros hint mm f. unfold open_model, open_flat.
  destruct (inq_file_format f) as [v|e|s]; try reflexivity.
  destruct (norm_chunk_ok hint) as [H36 _].
  destruct (chunk_read_eq_flat (norm_chunk hint) mm f ltac:(lia)) as [E _].
  destruct (read_header (norm_chunk hint) mm f) as [r [c a]]. cbn [out_res fst] in *. exact E.
Qed.

Corollary chunk_independent : forall h1 h2 mm f,
  out_res (open_model h1 mm f) = out_res (open_model h2 mm f).
Proof. intros. now rewrite !chunk_decode_eq_flat. Qed.

(* the requested allocation bytes do not depend on the chunk size either (apart from the window) *)
Corollary chunk_alloc_independent : forall hint mm f v, inq_file_format f = Ok v ->
  ac_alloc (out_acct (open_model hint mm f)) = ac_alloc (snd (snd (read_header_flat mm f))) + norm_chunk hint.
Proof.
  intros hint mm f v Hv. unfold open_model. rewrite Hv.
  destruct (norm_chunk_ok hint) as [H36 _].
  destruct (chunk_read_eq_flat (norm_chunk hint) mm f ltac:(lia)) as [_ [E _]].
  destruct (read_header (norm_chunk hint) mm f) as [r [c a]]. cbn [out_acct ac_alloc fst snd] in *.
  now rewrite E.
Qed.

(** * Part D: the flat reader agrees with HeaderSpec.decode on valid files *)

Definition yields {A} (p : P (list byte) A) (l : list byte) (v : A) (r : list byte) : Prop :=
  forall a, exists a', p (l, a) = (Ok v, (r, a')).

Lemma yields_ret : forall A (v : A) l, yields (ret v) l v l.
Proof. intros A v l a. exists a. reflexivity. Qed.

Lemma yields_bind : forall A B (m : P (list byte) A) (f : A -> P (list byte) B) l x r1 v r,
  yields m l x r1 -> yields (f x) r1 v r -> yields (bind m f) l v r.
Proof.
  intros A B m f l x r1 v r Hm Hf a. destruct (Hm a) as [a1 E1]. destruct (Hf a1) as [a2 E2].
  exists a2. unfold bind. now rewrite E1.
Qed.

Lemma yields_alloc : forall mm n l, n <= mm -> yields (alloc mm n) l true l.
Proof.
  intros mm n l H a. unfold alloc. cbn [fst snd]. replace (n <=? mm) with true by lia. eexists; reflexivity.
Qed.

Lemma yields_lift : forall A (f : list byte -> A * list byte) l v r, f l = (v, r) -> yields (lift f) l v r.
Proof. intros A f l v r H a. exists a. unfold lift. cbn [fst snd]. now rewrite H. Qed.

Lemma take_z_app : forall k (a r : list byte), Zlen a = k -> take_z k (a ++ r) = a /\ zskipn k (a ++ r) = r.
Proof.
  intros k a r H. pose proof (Zlen_nonneg a). pose proof (Zlen_nonneg r).
  rewrite take_z_enough by (rewrite Zlen_app; lia). now apply zcut_app.
Qed.

Lemma yields_u32 : forall l v r, p_u32 l = Some (v, r) -> yields (lift (g32 fsrc)) l v r.
Proof.
  intros l v r H. apply yields_lift. destruct l as [|a [|b [|c [|d r']]]]; try discriminate.
  cbn [p_u32 get_u32] in H. inversion H; subst. cbn [g32 fsrc]. unfold f_g32.
  destruct (take_z_app 4 [a; b; c; d] r eq_refl) as [E1 E2]. cbn [app] in E1, E2. now rewrite E1, E2.
Qed.

Lemma yields_u64 : forall l v r, p_u64 l = Some (v, r) -> yields (lift (g64 fsrc)) l v r.
Proof.
  intros l v r H. apply yields_lift.
  destruct l as [|b0 [|b1 [|b2 [|b3 [|b4 [|b5 [|b6 [|b7 r']]]]]]]]; try discriminate.
  cbn [p_u64 get_u64 get_u32] in H. inversion H; subst. cbn [g64 fsrc]. unfold f_g64.
  destruct (take_z_app 8 [b0; b1; b2; b3; b4; b5; b6; b7] r eq_refl) as [E1 E2]. cbn [app] in E1, E2.
  now rewrite E1, E2.
Qed.

Lemma yields_nn : forall fmt l v r, p_nn fmt l = Some (v, r) -> yields (rd_nn (list byte) fsrc fmt) l v r.
Proof.
  intros fmt l v r H. unfold rd_nn, p_nn in *. destruct (fmt <? 5); [now apply yields_u32 | now apply yields_u64].
Qed.

Lemma p_bytes_inv : forall n l b r, p_bytes n l = Some (b, r) ->
  0 <= n <= Zlen l /\ b = zfirstn n l /\ r = zskipn n l.
Proof.
  intros n l b r H. unfold p_bytes in H. destruct ((n <? 0) || (Zlen l <? n)) eqn:E; [discriminate|].
  inversion H; subst. repeat split; lia.
Qed.

Lemma len_bytes : forall n l b r, p_bytes n l = Some (b, r) -> Zlen l = n + Zlen r /\ Zlen b = n.
Proof.
  intros n l b r H. apply p_bytes_inv in H. destruct H as (Hn & -> & ->).
  rewrite Zlen_zskipn_enough, Zlen_zfirstn_enough by lia. lia.
Qed.

Lemma p_padded_inv : forall n l b pad r, p_padded n l = Some ((b, pad), r) ->
  exists r1, p_bytes n l = Some (b, r1) /\ p_bytes (padlen n) r1 = Some (pad, r).
Proof.
  intros n l b pad r H. unfold p_padded in H.
  destruct (p_bytes n l) as [[b1 r1]|]; [|discriminate].
  destruct (p_bytes (padlen n) r1) as [[p1 r2]|] eqn:E2; [|discriminate]. inversion H; subst. eauto.
Qed.

Lemma len_padded : forall n l b pad r, p_padded n l = Some ((b, pad), r) ->
  Zlen l = rndup n 4 + Zlen r /\ Zlen b = n.
Proof.
  intros n l b pad r H. destruct (p_padded_inv _ _ _ _ _ H) as (r1 & E1 & E2).
  destruct (len_bytes _ _ _ _ E1) as [H1 H2]. destruct (len_bytes _ _ _ _ E2) as [H3 _].
  rewrite rndup4_padlen. split; lia.
Qed.

Lemma yields_bytes : forall n l b r, p_bytes n l = Some (b, r) -> yields (lift (gbytes fsrc n)) l b r.
Proof.
  intros n l b r H. apply p_bytes_inv in H. destruct H as (Hn & -> & ->).
  apply yields_lift. cbn [gbytes fsrc]. unfold f_gbytes. now rewrite take_z_enough by lia.
Qed.

Lemma yields_pad : forall k l pd r, p_bytes k l = Some (pd, r) -> yields (skip_pad fsrc k) l tt r.
Proof.
  intros k l pd r H a. apply p_bytes_inv in H. destruct H as (Hk & _ & ->). exists a.
  unfold skip_pad. destruct (k >? 0) eqn:E; [reflexivity|]. replace k with 0 by lia. now rewrite zskipn_0.
Qed.

(* the copy loop and the skip of the padding, as in hdr_get_NC_name and hdr_get_NC_attrV *)
Lemma yields_padded : forall A (g : list byte -> A) n l b pad r, p_padded n l = Some ((b, pad), r) ->
  yields (bind (lift (gbytes fsrc n)) (fun b => bind (skip_pad fsrc (padlen n)) (fun _ => ret (g b)))) l (g b) r.
Proof.
  intros A g n l b pad r H. destruct (p_padded_inv _ _ _ _ _ H) as (r1 & E1 & E2).
  eapply yields_bind; [apply yields_bytes, E1|]. eapply yields_bind; [eapply yields_pad, E2 | apply yields_ret].
Qed.

(* name = nelems namestring padding *)
Lemma flat_name : forall mm fmt l nm pad r, p_name fmt l = Some ((nm, pad), r) ->
  Zlen nm <= NC_MAX_NAME -> Zlen nm + 1 <= mm -> yields (rd_name (list byte) fsrc mm fmt) l nm r.
Proof.
  intros mm fmt l nm pad r H Hmax Hmm. unfold p_name in H.
  destruct (p_nn fmt l) as [[n r0]|] eqn:En; [|discriminate].
  destruct (len_padded _ _ _ _ _ H) as [_ Hlen].
  unfold rd_name. eapply yields_bind; [apply yields_nn, En|]. cbv zeta.
  replace (n >? NC_MAX_NAME) with false by lia.
  eapply yields_bind; [apply yields_alloc; lia|]. cbn [negb].
  exact (yields_padded _ (fun b => b) _ _ _ _ _ H).
Qed.

Lemma to_i64_id : forall x, x <= I64_MAX -> to_i64 x = x.
Proof. intros x H. unfold to_i64. now replace (x >? I64_MAX) with false by lia. Qed.

Lemma p_many_length : forall A (p : parser A) k l xs r, p_many p k l = Some (xs, r) -> length xs = k.
Proof.
  induction k as [|k IH]; intros l xs r H; cbn [p_many] in H.
  - inversion H; reflexivity.
  - destruct (p l) as [[x r1]|]; [|discriminate].
    destruct (p_many p k r1) as [[xs' r']|] eqn:E; [|discriminate].
    inversion H; subst. cbn [length]. f_equal. eapply IH; eassumption.
Qed.

Lemma yields_iter : forall A St (p : parser A) (step : St -> P (list byte) St) (next : St -> A -> St)
    (Inv : St -> list A -> Prop),
  (forall st x xs l r, Inv st (x :: xs) -> p l = Some (x, r) ->
     yields (step st) l (next st x) r /\ Inv (next st x) xs) ->
  forall k l xs r st, p_many p k l = Some (xs, r) -> Inv st xs ->
  yields (iter_nat k step st) l (fold_left next xs st) r.
Proof.
  intros A St p step next Inv Hstep. induction k as [|k IH]; intros l xs r st H Hi; cbn [p_many] in H.
  - inversion H; subst. apply yields_ret.
  - destruct (p l) as [[x r1]|] eqn:Ex; [|discriminate].
    destruct (p_many p k r1) as [[xs' r']|] eqn:E; [|discriminate]. inversion H; subst.
    destruct (Hstep _ _ _ _ _ Hi Ex) as [Hy Hi']. cbn [iter_nat fold_left].
    eapply yields_bind; [exact Hy | now apply IH].
Qed.

Lemma fold_left_collect : forall St A B (next : St -> A -> St) (proj : St -> list B) (g : A -> B),
  (forall st x, proj (next st x) = g x :: proj st) ->
  forall xs st, proj (fold_left next xs st) = rev (map g xs) ++ proj st.
Proof.
  intros St A B next proj g H. induction xs as [|x xs IH]; intros st; [reflexivity|].
  cbn [fold_left map rev]. now rewrite IH, H, <- app_assoc.
Qed.

Lemma yields_collect : forall A B (p : parser A) (step : list B -> P (list byte) (list B)) (g : A -> B)
    (Q : A -> Prop),
  (forall acc x l r, Q x -> p l = Some (x, r) -> yields (step acc) l (g x :: acc) r) ->
  forall k l xs r, p_many p k l = Some (xs, r) -> Forall Q xs ->
  exists st, yields (iter_nat k step []) l st r /\ rev st = map g xs.
Proof.
  intros A B p step g Q Hstep k l xs r H HQ. eexists. split.
  - apply (yields_iter _ _ p step (fun acc x => g x :: acc) (fun _ => Forall Q)) with (3 := HQ) (2 := H).
    intros st x xs' l' r' Hq Hp. inversion Hq; subst. split; [now apply Hstep | assumption].
  - rewrite (fold_left_collect _ _ _ _ (fun acc => acc) g) by reflexivity.
    now rewrite app_nil_r, rev_involutive.
Qed.

Lemma p_list_inv : forall A fmt tag (p : parser A) l xs r, p_list fmt tag p l = Some (xs, r) ->
  exists t n r1 r2, p_u32 l = Some (t, r1) /\ p_nn fmt r1 = Some (n, r2) /\
    ((t = 0 /\ n = 0 /\ xs = [] /\ r = r2) \/
     (t <> 0 /\ t = tag /\ p_many p (Z.to_nat n) r2 = Some (xs, r))).
Proof.
  intros A fmt tag p l xs r H. unfold p_list in H.
  destruct (p_u32 l) as [[t r1]|] eqn:Et; [|discriminate].
  destruct (p_nn fmt r1) as [[n r2]|] eqn:En; [|discriminate].
  exists t, n, r1, r2. split; [reflexivity|]. split; [exact En|].
  destruct (t =? 0) eqn:E0.
  - destruct (n =? 0) eqn:En0; [|discriminate]. inversion H; subst. left. repeat split; lia.
  - destruct (t =? tag) eqn:Etag; [|discriminate].
    destruct (Zlen r2 <? n); [discriminate|]. right. repeat split; try lia. exact H.
Qed.

(* dim_list / att_list / var_list: ABSENT, or the tag, the count and the elements; the array of
   pointers is allocated in multiples of PNC_ARRAY_GROWBY *)
Lemma yields_rd_list : forall A B St mm fmt maxn emax tagc (p : parser A)
    (step : St -> P (list byte) St) st0 (fin : St -> list B) (g : A -> B) l xs r,
  p_list fmt tagc p l = Some (xs, r) ->
  0 <= mm -> NC_MAX_INT <= maxn -> Zlen xs <= NC_MAX_INT - 63 -> list_req (Zlen xs) <= mm ->
  (forall k l', p_many p k l' = Some (xs, r) ->
     exists st, yields (iter_nat k step st0) l' st r /\ fin st = map g xs) ->
  yields (rd_list fsrc mm fmt maxn emax tagc step st0 fin) l (map g xs) r.
Proof.
  intros A B St mm fmt maxn emax tagc p step st0 fin g l xs r H Hmm Hmax Hcnt Hreq Hloop.
  destruct (p_list_inv _ _ _ _ _ _ _ H) as (t & n & r1 & r2 & Et & En & Hc).
  unfold rd_list, list_req, NC_MAX_INT in *.
  eapply yields_bind; [apply yields_u32, Et|]. eapply yields_bind; [apply yields_nn, En|].
  destruct Hc as [(Ht & Hn & Hxs & Hr) | (Ht & Htag & Hm)].
  - subst. replace (0 >? maxn) with false by lia. apply yields_ret.
  - pose proof (p_many_length _ _ _ _ _ _ Hm) as Hlen.
    assert (Hn : n <= 0 \/ n = Zlen xs) by (unfold Zlen; lia).
    replace (n >? maxn) with false by lia.
    destruct (n =? 0) eqn:E0.
    + assert (n = 0) by lia. subst n. cbn in Hm. inversion Hm; subst. apply yields_ret.
    + subst t. rewrite Z.eqb_refl. cbn [negb]. unfold rndup_int, PNC_ARRAY_GROWBY, INT_MAX.
      replace (n + (64 - 1) >? 2147483647) with false by lia.
      eapply yields_bind; [apply yields_ret|].
      eapply yields_bind; [apply yields_alloc; destruct Hn; [|subst n]; lia|]. cbn [negb].
      destruct (Hloop _ _ Hm) as (st & Hy & Hfin).
      eapply yields_bind; [intros a; rewrite iter_n_nat_all; apply Hy | rewrite <- Hfin; apply yields_ret].
Qed.

Definition dimQ (mm : Z) (x : dim) : Prop :=
  Zlen (d_name x) <= NC_MAX_NAME /\ Zlen (d_name x) + 1 <= mm /\ 0 <= d_size x <= I64_MAX.

Lemma flat_dim : forall mm fmt unlim l dd r, p_dim fmt l = Some (dd, r) ->
  dimQ mm (dd_dim dd) -> SZ_NC_DIM <= mm -> (unlim = -1 \/ d_size (dd_dim dd) <> 0) ->
  yields (rd_dim (list byte) fsrc mm fmt unlim) l (dd_dim dd) r.
Proof.
  intros mm fmt unlim l dd r H (Hn & Hm & Hs) Hmm Hu. unfold p_dim in H.
  destruct (p_name fmt l) as [[[nm pad] r1]|] eqn:En; [|discriminate].
  destruct (p_nn fmt r1) as [[sz r2]|] eqn:Es; [|discriminate].
  inversion H; subst. cbn [dd_dim d_name d_size] in *. unfold rd_dim.
  eapply yields_bind; [apply (flat_name _ _ _ _ _ _ En Hn Hm)|].
  eapply yields_bind; [apply yields_nn, Es|]. cbv zeta. rewrite to_i64_id by lia.
  replace (negb (unlim =? -1) && (sz =? 0)) with false by lia.
  eapply yields_bind; [apply yields_alloc, Hmm | apply yields_ret].
Qed.

(* dim_list; the loop keeps the index of the unlimited dimension: a second one is refused *)
Lemma flat_dimarray : forall mm fmt l xs r,
  p_list fmt 10 (p_dim fmt) l = Some (xs, r) ->
  Forall (fun x => dimQ mm (dd_dim x)) xs -> SZ_NC_DIM <= mm ->
  Zlen xs <= NC_MAX_INT - 63 -> list_req (Zlen xs) <= mm ->
  Zlen (filter (fun x => d_size (dd_dim x) =? 0) xs) <= 1 ->
  yields (rd_dimarray (list byte) fsrc mm fmt) l (map dd_dim xs) r.
Proof.
  intros mm fmt l xs r H HQ Hmm Hcnt Hreq Hz. rewrite rd_dimarray_list.
  apply (yields_rd_list _ _ _ _ _ _ _ _ _ _ _ _ dd_dim _ _ _ H); try assumption;
    [unfold SZ_NC_DIM in Hmm; lia | apply Z.le_refl |].
  intros k l' Hm. eexists. split.
  - apply (yields_iter _ _ _ _
             (fun st x => let '(i, u, acc) := st in (i + 1, (if d_size (dd_dim x) =? 0 then i else u), dd_dim x :: acc))
             (fun st ys => let '(i, u, _) := st in
                Forall (fun x => dimQ mm (dd_dim x)) ys /\ -1 <= u < i /\
                (if u =? -1 then 0 else 1) + Zlen (filter (fun x => d_size (dd_dim x) =? 0) ys) <= 1))
      with (2 := Hm); [|split; [exact HQ | split; [lia | exact Hz]]].
    intros [[i u] acc] x ys l0 r0 (Hq & Hu & Hc) Hp. inversion Hq; subst.
    cbn [filter] in Hc. pose proof (Zlen_nonneg (filter (fun x0 => d_size (dd_dim x0) =? 0) ys)).
    destruct (d_size (dd_dim x) =? 0) eqn:Ez; [rewrite Zlen_cons in Hc|];
      (split; [cbn [dim_step]; eapply yields_bind; [apply (flat_dim _ _ _ _ _ _ Hp); try assumption | rewrite Ez; apply yields_ret]
              | split; [assumption|]]).
    + destruct (u =? -1) eqn:Eu; lia.
    + replace (i =? -1) with false by lia. destruct (u =? -1); lia.
    + lia.
    + split; [lia | exact Hc].
  - rewrite (fold_left_collect _ _ _ _ snd dd_dim) by (intros [[i u] acc] x; reflexivity).
    cbn [snd]. now rewrite app_nil_r, rev_involutive.
Qed.

Lemma attr_xsz_valid : forall t n, 0 < n ->
  (xlen_type t = 1 \/ xlen_type t = 2 \/ xlen_type t = 4 \/ xlen_type t = 8) ->
  rndup (n * xlen_type t) 4 <= I64_MAX ->
  attr_xsz t n = Ok (rndup (n * xlen_type t) 4).
Proof.
  intros t n Hn Hx Hr. unfold attr_xsz, rndup in *. cbn [Z.eqb] in *. unfold I64_MAX in *.
  destruct Hx as [E|[E|[E|E]]]; rewrite E in *; cbn [Z.eqb Pos.eqb].
  - rewrite chk_in by (unfold I64_MIN, I64_MAX; lia). cbn [rbind]. f_equal. lia.
  - rewrite Z.rem_mod_nonneg by lia. rewrite chk_in by (unfold I64_MIN, I64_MAX; lia). cbn [rbind].
    rewrite chk_in by (unfold I64_MIN, I64_MAX; lia). f_equal. lia.
  - rewrite chk_in by (unfold I64_MIN, I64_MAX; lia). f_equal. lia.
  - rewrite chk_in by (unfold I64_MIN, I64_MAX; lia). f_equal. lia.
Qed.

Definition attQ (mm : Z) (x : att) : Prop :=
  Zlen (a_name x) <= NC_MAX_NAME /\ Zlen (a_name x) + 1 <= mm /\ a_nelems x <= I64_MAX /\
  rndup (a_nelems x * xlen_type (a_type x)) 4 <= I64_MAX /\
  rndup (a_nelems x * xlen_type (a_type x)) 4 <= mm.

Lemma flat_type : forall fmt l t r, fmt = 1 \/ fmt = 2 \/ fmt = 5 ->
  p_u32 l = Some (t, r) -> valid_type fmt t = true -> yields (rd_type (list byte) fsrc fmt) l t r.
Proof.
  intros fmt l t r Hf H Hv. unfold rd_type. eapply yields_bind; [apply yields_u32, H|].
  unfold valid_type in Hv. replace (t <? 1) with false by lia.
  destruct Hf as [-> | [-> | ->]]; cbn [Z.ltb Z.eqb Z.compare Pos.compare Pos.compare_cont Pos.eqb] in *;
    [replace (t >? 6) with false by lia | replace (t >? 6) with false by lia | replace (t >? 11) with false by lia];
    apply yields_ret.
Qed.

Lemma flat_att : forall mm fmt l da r, fmt = 1 \/ fmt = 2 \/ fmt = 5 ->
  p_att fmt l = Some (da, r) -> attQ mm (da_att da) -> SZ_NC_ATTR <= mm ->
  yields (rd_att (list byte) fsrc mm fmt) l (da_att da) r.
Proof.
  intros mm fmt l da r Hf H (Hnm & Hnmm & Hne & Hxs & Hxm) Hmm. unfold p_att in H.
  destruct (p_name fmt l) as [[[nm pad] r1]|] eqn:En; [|discriminate].
  destruct (p_u32 r1) as [[t r2]|] eqn:Et; [|discriminate].
  destruct (valid_type fmt t) eqn:Ev; cbn [negb] in H; [|discriminate].
  destruct (p_nn fmt r2) as [[n r3]|] eqn:Enn; [|discriminate].
  destruct ((n <? 0) || (Zlen r3 <? n)) eqn:Eb; [discriminate|].
  destruct (p_padded (n * xlen_type t) r3) as [[[data pad2] r4]|] eqn:Ep; [|discriminate].
  inversion H; subst. cbn [da_att a_name a_type a_nelems] in *. unfold rd_att.
  eapply yields_bind; [apply (flat_name _ _ _ _ _ _ En Hnm Hnmm)|].
  eapply yields_bind; [apply (flat_type _ _ _ _ Hf Et Ev)|].
  eapply yields_bind; [apply yields_nn, Enn|]. cbv zeta. rewrite to_i64_id by lia.
  eapply yields_bind; [apply yields_alloc, Hmm|]. cbn [negb].
  pose proof (valid_type_xlen fmt t Ev) as Hxl.
  destruct (n >? 0) eqn:En0.
  - rewrite attr_xsz_valid by (pose proof (xlen_type_cases t); lia).
    eapply yields_bind; [intros a; exists a; reflexivity|].
    eapply yields_bind; [apply yields_alloc, Hxm|]. cbn [negb].
    rewrite rndup4_padlen, Z.add_simpl_l. exact (yields_padded _ (mkatt nm t n) _ _ _ _ _ Ep).
  - (* no element: nothing is allocated, nothing copied, no padding *)
    assert (n = 0) by lia. subst n. rewrite Z.mul_0_l in *. rewrite p_padded_0 in Ep. inversion Ep; subst.
    eapply yields_bind; [intros a; exists a; reflexivity | apply yields_ret].
Qed.

Lemma flat_attarray : forall mm fmt l xs r, fmt = 1 \/ fmt = 2 \/ fmt = 5 ->
  p_list fmt 12 (p_att fmt) l = Some (xs, r) ->
  Forall (fun x => attQ mm (da_att x)) xs -> SZ_NC_ATTR <= mm ->
  Zlen xs <= NC_MAX_INT - 63 -> list_req (Zlen xs) <= mm ->
  yields (rd_attarray (list byte) fsrc mm fmt) l (map da_att xs) r.
Proof.
  intros mm fmt l xs r Hf H HQ Hmm Hcnt Hreq. rewrite rd_attarray_list.
  apply (yields_rd_list _ _ _ _ _ _ _ _ _ _ _ _ da_att _ _ _ H); try assumption;
    [unfold SZ_NC_ATTR in Hmm; lia | apply Z.le_refl |].
  intros k l' Hm. apply (yields_collect _ _ _ _ da_att _) with (2 := Hm) (3 := HQ).
  intros acc x l0 r0 Hq Hp. eapply yields_bind; [apply (flat_att _ _ _ _ _ Hf Hp Hq Hmm) | apply yields_ret].
Qed.

Definition varQ (mm nd0 : Z) (v : var) : Prop :=
  Zlen (v_name v) <= NC_MAX_NAME /\ Zlen (v_name v) + 1 <= mm /\
  Zlen (v_dimids v) <= NC_MAX_INT /\ Zlen (v_dimids v) * 8 <= mm /\
  Forall (fun i => 0 <= i < nd0) (v_dimids v) /\
  Forall (attQ mm) (v_atts v) /\ Zlen (v_atts v) <= NC_MAX_INT - 63 /\ list_req (Zlen (v_atts v)) <= mm /\
  v_begin v <= I64_MAX.

Lemma flat_var : forall mm fmt nd0 l dv r, fmt = 1 \/ fmt = 2 \/ fmt = 5 ->
  p_var fmt l = Some (dv, r) -> varQ mm nd0 (dv_var dv) -> SZ_NC_VAR <= mm ->
  yields (rd_var (list byte) fsrc mm fmt nd0) l (dv_var dv, true) r.
Proof.
  intros mm fmt nd0 l dv r Hf H HQ Hmm. unfold p_var in H.
  destruct (p_name fmt l) as [[[nm pad] r0]|] eqn:En; [|discriminate].
  destruct (p_nn fmt r0) as [[nd r1]|] eqn:End; [|discriminate].
  destruct (Zlen r1 <? nd) eqn:Elen; [discriminate|].
  destruct (p_many (p_nn fmt) (Z.to_nat nd) r1) as [[dimids r2]|] eqn:Edim; [|discriminate].
  destruct (p_list fmt 12 (p_att fmt) r2) as [[atts r3]|] eqn:Eatt; [|discriminate].
  destruct (p_u32 r3) as [[t r4]|] eqn:Et; [|discriminate].
  destruct (valid_type fmt t) eqn:Ev; cbn [negb] in H; [|discriminate].
  destruct (p_nn fmt r4) as [[vsize r5]|] eqn:Evs; [|discriminate].
  destruct (if fmt =? 1 then p_u32 r5 else p_u64 r5) as [[bg r6]|] eqn:Ebg; [|discriminate].
  inversion H; subst dv r6. clear H.
  destruct HQ as (Hn1 & Hn2 & Hd1 & Hd2 & Hd3 & Ha1 & Ha2 & Ha3 & Hb).
  cbn [dv_var v_name v_dimids v_atts v_type v_begin] in *. rewrite Zlen_map in *.
  rewrite Forall_map in Ha1.
  pose proof (p_many_length _ _ _ _ _ _ Edim) as Hlen.
  assert (Hnd : nd <= 0 \/ nd = Zlen dimids) by (unfold Zlen; lia).
  unfold rd_var, NC_MAX_VAR_DIMS, NC_MAX_INT in *.
  eapply yields_bind; [apply (flat_name _ _ _ _ _ _ En Hn1 Hn2)|].
  eapply yields_bind; [apply yields_nn, End|]. replace (nd >? 2147483647) with false by lia.
  eapply yields_bind; [apply yields_alloc, Hmm|]. cbn [negb].
  eapply yields_bind with (x := (true, true)).
  { destruct (nd >? 0) eqn:E0; [|apply yields_ret]. assert (nd = Zlen dimids) by lia. subst nd.
    eapply yields_bind; [apply yields_alloc, Hd2|]. eapply yields_bind; [apply yields_alloc, Hd2|].
    eapply yields_bind; [apply yields_alloc; lia | apply yields_ret]. }
  cbn [fst snd negb].
  destruct (yields_collect _ _ (p_nn fmt)
              (fun acc : list Z => bind (rd_nn (list byte) fsrc fmt) (fun d =>
                 if d >=? nd0 then fail NC_EBADDIM else ret (d :: acc)))
              (fun x => x) (fun i => 0 <= i < nd0)) with (2 := Edim) (3 := Hd3) as (racc & Hy & Hrev).
  { intros acc x l0 r' Hq Hp. eapply yields_bind; [apply yields_nn, Hp|].
    replace (x >=? nd0) with false by lia. apply yields_ret. }
  eapply yields_bind; [intros a; rewrite iter_n_nat_all; apply Hy|]. rewrite Hrev, map_id.
  eapply yields_bind; [apply (flat_attarray _ _ _ _ _ Hf Eatt Ha1); [unfold SZ_NC_ATTR, SZ_NC_VAR in *; lia | assumption ..]|].
  eapply yields_bind; [apply (flat_type _ _ _ _ Hf Et Ev)|].
  eapply yields_bind; [apply yields_nn, Evs|].
  eapply yields_bind; [destruct (fmt =? 1); [apply yields_u32 | apply yields_u64]; exact Ebg|].
  rewrite to_i64_id by lia. apply yields_ret.
Qed.

Lemma flat_vararray : forall mm fmt nd0 l xs r, fmt = 1 \/ fmt = 2 \/ fmt = 5 ->
  p_list fmt 11 (p_var fmt) l = Some (xs, r) ->
  Forall (fun x => varQ mm nd0 (dv_var x)) xs -> SZ_NC_VAR <= mm ->
  Zlen xs <= NC_MAX_INT - 63 -> list_req (Zlen xs) <= mm ->
  yields (rd_vararray (list byte) fsrc mm fmt nd0) l (map (fun x => (dv_var x, true)) xs) r.
Proof.
  intros mm fmt nd0 l xs r Hf H HQ Hmm Hcnt Hreq. rewrite rd_vararray_list.
  apply (yields_rd_list _ _ _ _ _ _ _ _ _ _ _ _ (fun x => (dv_var x, true)) _ _ _ H); try assumption;
    [unfold SZ_NC_VAR in Hmm; lia | apply Z.le_refl |].
  intros k l' Hm. apply (yields_collect _ _ _ _ (fun x => (dv_var x, true)) _) with (2 := Hm) (3 := HQ).
  intros acc x l0 r0 Hq Hp. eapply yields_bind; [apply (flat_var _ _ _ _ _ _ Hf Hp Hq Hmm) | apply yields_ret].
Qed.

(** ** post-processing on valid headers *)

Lemma match_nonnil : forall A B (l : list A) (x y : B), l <> [] -> match l with [] => x | _ :: _ => y end = y.
Proof. intros A B [|a l] x y H; [congruence | reflexivity]. Qed.

Definition eff (shape : list Z) : list Z := if shape_isrec shape then tl shape else shape.

Lemma eff_non_record_dims : forall shape, eff shape = Proofs_Vlen.non_record_dims shape.
Proof. intros [|s0 r]; reflexivity. Qed.

Lemma nelems_eff : forall shape, var_nelems_per_rec shape = zprod (eff shape).
Proof. intros shape. rewrite eff_non_record_dims. apply Proofs_Vlen.var_nelems_per_rec_zprod. Qed.

Lemma check_vlen_eff : forall xsz shape vmax, check_vlen xsz shape vmax = check_vlen_loop (eff shape) xsz vmax.
Proof. intros xsz shape vmax. rewrite eff_non_record_dims. apply Proofs_Vlen.check_vlen_as_loop. Qed.

Lemma eff_pos : forall shape, Forall (fun x => 0 <= x) shape -> unlimpos_bad shape = false ->
  Forall (fun x => 1 <= x) (eff shape).
Proof.
  intros [|s0 r] Hnn Hu; [constructor|]. cbn [unlimpos_bad] in Hu.
  inversion Hnn as [|? ? H0 Hr]; subst.
  assert (Hr' : Forall (fun x => 1 <= x) r).
  { rewrite Forall_forall in *. intros x Hx. specialize (Hr x Hx).
    assert (x <> 0); [|lia]. intros ->. 
    assert (existsb (fun s => s =? 0) r = true); [|congruence].
    apply existsb_exists. exists 0. split; [assumption | reflexivity]. }
  unfold eff, shape_isrec. destruct (s0 =? 0) eqn:E; cbn [tl]; [assumption | constructor; [lia | assumption]].
Qed.

Lemma cvlen_loop_eq : forall shape prod vmax, Forall (fun x => 1 <= x) shape -> 0 < prod ->
  0 <= vmax <= I64_MAX -> cvlen_loop shape prod vmax = Ok (check_vlen_loop shape prod vmax).
Proof.
  induction shape as [|s r IH]; intros prod vmax Hs Hp Hv; [reflexivity|].
  inversion Hs as [|? ? Hs0 Hr]; subst. cbn [cvlen_loop check_vlen_loop].
  replace (prod =? 0) with false by lia.
  rewrite Z.quot_div_nonneg by lia.
  destruct (s >? vmax / prod) eqn:E; [reflexivity|].
  assert (Hle : prod * s <= vmax).
  { assert (s <= vmax / prod) by lia. pose proof (Z.mul_div_le vmax prod Hp). nia. }
  rewrite chk_in by (unfold I64_MIN, I64_MAX in *; nia).
  cbn [rbind]. apply IH; [assumption | nia | assumption].
Qed.

(* the product loop over the dimensions from right to left, the leftmost one possibly unlimited *)
Lemma shape_prod_last : forall q p s0, Forall (fun x => 1 <= x) q -> 1 <= p -> 0 <= s0 ->
  p * zprod q * (if s0 =? 0 then 1 else s0) <= I64_MAX ->
  shape_prod (q ++ [s0]) p = Ok (p * zprod q * (if s0 =? 0 then 1 else s0)).
Proof.
  induction q as [|s q IH]; intros p s0 Hq Hp Hs Hb; cbn [app shape_prod zprod] in *.
  - destruct (s0 =? 0) eqn:E; [f_equal; lia|].
    rewrite chk_in by (unfold I64_MIN, I64_MAX in *; nia). cbn [rbind]. f_equal. lia.
  - inversion Hq as [|? ? Hs1 Hq']; subst. pose proof (zprod_pos _ Hq').
    set (n := if s0 =? 0 then 1 else s0) in *. assert (1 <= n) by (subst n; destruct (s0 =? 0) eqn:E; lia).
    replace (s =? 0) with false by lia.
    rewrite chk_in by (unfold I64_MIN, I64_MAX in *; nia). cbn [rbind].
    rewrite IH; [subst n; f_equal; ring | assumption | nia | assumption |].
    subst n. now rewrite <- (Z.mul_assoc p s).
Qed.

Lemma var_product_ok : forall shape, Forall (fun x => 0 <= x) shape -> Forall (fun x => 1 <= x) (eff shape) ->
  zprod (eff shape) <= I64_MAX -> var_product shape = Ok (zprod (eff shape)).
Proof.
  intros [|s0 t] Hnn He Hb; [reflexivity|]. inversion Hnn as [|? ? Hs0 _]; subst.
  assert (Ht : Forall (fun x => 1 <= x) (rev t)).
  { apply Forall_rev. unfold eff, shape_isrec in He. destruct (s0 =? 0); [exact He | now inversion He]. }
  assert (Hz : zprod (eff (s0 :: t)) = zprod (rev t) * (if s0 =? 0 then 1 else s0)).
  { rewrite zprod_rev. unfold eff, shape_isrec. destruct (s0 =? 0); cbn [tl zprod]; lia. }
  rewrite Hz in *. unfold var_product. cbn [rev]. destruct (rev t) as [|sl q]; cbn [app zprod] in *.
  - f_equal. lia.
  - inversion Ht as [|? ? Hsl Hq]; subst. rewrite match_nonnil by (destruct q; discriminate).
    rewrite <- Z.mul_assoc in Hb |- *. rewrite Z.mul_assoc in Hb |- *. now apply shape_prod_last.
Qed.

Section Post.
Variable dims : list dim.
Hypothesis Hdims : Forall (fun d => 0 <= d_size d) dims.

Definition Lv (v : var) : Z := var_len dims v.
Definition isr (v : var) : bool := is_recvar dims v.
Definition rawv (v : var) : Z := zprod (eff (var_shape dims v)) * xlen_type (v_type v).
Definition nonrec (v : var) : bool := negb (isr v).
Definition bl (v : var) : Z * Z := (v_begin v, Lv v).

Definition pvQ (v : var) : Prop :=
  unlimpos_bad (var_shape dims v) = false /\
  1 <= xlen_type (v_type v) <= 8 /\
  check_vlen (xlen_type (v_type v)) (var_shape dims v) (I64_MAX - 3) = true /\
  0 <= v_begin v /\ v_begin v + var_len dims v <= I64_MAX.

Lemma isr_shape : forall v, shape_isrec (var_shape dims v) = isr v.
Proof. reflexivity. Qed.

Lemma pvQ_facts : forall v, pvQ v ->
  Forall (fun x => 0 <= x) (var_shape dims v) /\ Forall (fun x => 1 <= x) (eff (var_shape dims v)) /\
  0 < rawv v <= I64_MAX - 3 /\ 0 < Lv v <= I64_MAX /\
  Lv v = (if rawv v mod 4 >? 0 then rawv v + (4 - rawv v mod 4) else rawv v).
Proof.
  intros v (Hu & Hx & Hc & Hb0 & Hb1).
  pose proof (var_shape_nonneg dims v Hdims) as Hnn.
  pose proof (eff_pos _ Hnn Hu) as He.
  rewrite check_vlen_eff in Hc.
  pose proof (Proofs_Vlen.check_vlen_loop_sound (eff (var_shape dims v)) (xlen_type (v_type v)) (I64_MAX - 3) ltac:(unfold I64_MAX; lia) He Hc) as Hb.
  pose proof (zprod_pos _ He) as Hz.
  assert (Hraw : 0 < rawv v <= I64_MAX - 3) by (unfold rawv; nia).
  assert (HL : Lv v = (if rawv v mod 4 >? 0 then rawv v + (4 - rawv v mod 4) else rawv v)).
  { unfold Lv, var_len, var_len_of, rawv. rewrite nelems_eff. reflexivity. }
  repeat split; try assumption; try lia.
  - rewrite HL. destruct (rawv v mod 4 >? 0); lia.
  - rewrite HL. unfold I64_MAX in *. destruct (rawv v mod 4 >? 0) eqn:E; lia.
Qed.

Lemma pvQ_bounds : forall v, pvQ v -> 0 <= v_begin v /\ 0 <= Lv v /\ v_begin v + Lv v <= I64_MAX.
Proof.
  intros v Hq. pose proof (pvQ_facts v Hq) as (_ & _ & _ & HL & _).
  destruct Hq as (_ & _ & _ & Hb0 & Hb1). unfold Lv in *. lia.
Qed.

Lemma var_shape64_ok : forall v, pvQ v ->
  var_shape64 dims v true = Ok (var_shape dims v, Lv v, rawv v).
Proof.
  intros v Hq. pose proof (pvQ_facts v Hq) as (Hnn & He & Hraw & HL & HLe).
  destruct Hq as (Hu & Hx & Hc & Hb0 & Hb1).
  unfold var_shape64. cbn [negb andb]. rewrite Hu.
  rewrite (var_product_ok _ Hnn He) by (pose proof (zprod_pos _ He); unfold rawv in Hraw; nia).
  cbn [rbind]. unfold cvlen. fold (eff (var_shape dims v)).
  rewrite cvlen_loop_eq by (try assumption; unfold I64_MAX; lia).
  rewrite <- check_vlen_eff, Hc. cbn [rbind negb].
  fold (rawv v). rewrite chk_in by (unfold I64_MIN, I64_MAX in *; lia).
  cbn [rbind]. rewrite Z.rem_mod_nonneg by lia. rewrite HLe.
  destruct (rawv v mod 4 >? 0) eqn:E; [rewrite chk_in by (unfold I64_MIN, I64_MAX in *; lia)|]; reflexivity.
Qed.

(* what the loop of compute_var_shape has found after the variables vs: the end of the last
   fixed-size variable, and the first variable of each kind unless one was known before *)
Definition last_end (l : list var) (d : Z) : Z :=
  match last_opt l with Some v => v_begin v + Lv v | None => d end.
Definition first_or {A} (f : var -> A) (l : list var) (o : option A) : option A :=
  match o, l with Some _, _ => o | None, v :: _ => Some (f v) | None, [] => None end.

Lemma cvs_loop_spec : forall vs br rs fv fr lens,
  Forall pvQ vs -> 0 <= rs -> rs + zsum (map Lv (filter isr vs)) <= I64_MAX ->
  cvs_loop dims (map (fun v => (v, true)) vs) br rs fv fr lens =
  Ok (last_end (filter nonrec vs) br, rs + zsum (map Lv (filter isr vs)),
      first_or v_begin (filter nonrec vs) fv,
      first_or (fun v => (v_begin v, Lv v, rawv v)) (filter isr vs) fr, rev lens ++ map Lv vs).
Proof.
  induction vs as [|v vs IH]; intros br rs fv fr lens HQ Hrs Hsum.
  - cbn. rewrite app_nil_r, Z.add_0_r. now destruct fv, fr.
  - inversion HQ as [|? ? Hv Hvs]; subst. cbn [map cvs_loop].
    rewrite (var_shape64_ok v Hv). cbn [rbind]. rewrite isr_shape.
    pose proof (pvQ_bounds v Hv) as (Hb0 & HL & Hb1).
    assert (Hz : 0 <= zsum (map Lv (filter isr vs))).
    { apply zsum_nonneg, Forall_map, Forall_forall. intros w Hw. apply filter_In in Hw.
      rewrite Forall_forall in Hvs. apply (pvQ_bounds w (Hvs w (proj1 Hw))). }
    cbn [filter] in *. change (nonrec v) with (negb (isr v)). destruct (isr v) eqn:Ei; cbn [negb map zsum] in *;
      rewrite chk_in by (unfold I64_MIN, I64_MAX in *; lia); cbn [rbind];
      rewrite IH by (try assumption; lia); cbn [rev]; rewrite <- app_assoc.
    + rewrite Z.add_assoc. now destruct fr.
    + unfold last_end. rewrite last_opt_cons. destruct (last_opt (filter nonrec vs)); now destruct fv.
Qed.

Lemma order_end : forall l p e, order_ok p (map bl l) = Some e -> last_end l p = e.
Proof.
  induction l as [|v l IH]; intros p e H; cbn [map order_ok] in H; [now inversion H|].
  unfold bl at 1 in H. destruct (v_begin v <? p); [discriminate|]. apply IH in H.
  unfold last_end in *. rewrite last_opt_cons. destruct (last_opt l); exact H.
Qed.

Lemma order_ok_ge : forall l p e, Forall (fun q => 0 <= snd q) l -> order_ok p l = Some e -> p <= e.
Proof.
  induction l as [|[b len] l IH]; intros p e Hl H; cbn [order_ok] in H; [inversion H; lia|].
  inversion Hl as [|? ? H0 Hr]; subst. cbn [snd] in H0.
  destruct (b <? p) eqn:E; [discriminate|]. specialize (IH _ _ Hr H). lia.
Qed.

(* begin_var and begin_rec of the NC object *)
Definition fbegin (l : list var) (d : Z) : Z := match l with v :: _ => v_begin v | [] => d end.

(* ncmpio_NC_check_voffs starts each pass at begin_var / begin_rec, not at the end of what precedes *)
Lemma order_ok_restart : forall l p e, Forall (fun q => 0 <= snd q) (map bl l) ->
  order_ok p (map bl l) = Some e ->
  p <= fbegin l p <= e /\ forall d, l <> [] -> order_ok (fbegin l d) (map bl l) = Some e.
Proof.
  intros [|v l] p e Hl H; [cbn in *; inversion H; split; [lia | congruence]|].
  cbn [fbegin map] in *. change (bl v) with (v_begin v, Lv v) in *. cbn [order_ok] in H.
  destruct (v_begin v <? p) eqn:E; [discriminate|].
  assert (H' : order_ok (v_begin v) ((v_begin v, Lv v) :: map bl l) = Some e)
    by (cbn [order_ok]; now rewrite Z.ltb_irrefl).
  split; [pose proof (order_ok_ge _ _ _ Hl H'); lia | intros _ _; exact H'].
Qed.

Lemma voffs_pass_ok : forall vs want prev, Forall pvQ vs ->
  voffs_pass (map (fun v => (isr v, v_begin v, Lv v)) vs) want prev =
  Ok (order_ok prev (map bl (filter (fun v => Bool.eqb (isr v) want) vs))).
Proof.
  induction vs as [|v vs IH]; intros want prev H; [reflexivity|].
  inversion H as [|? ? Hv Hr]; subst. apply pvQ_bounds in Hv. cbn [map voffs_pass filter].
  destruct (Bool.eqb (isr v) want); [|now apply IH].
  cbn [map order_ok]. unfold bl at 1. destruct (v_begin v <? prev); [reflexivity|].
  rewrite chk_in by (unfold I64_MIN, I64_MAX in *; lia). cbn [rbind]. now apply IH.
Qed.

Lemma filter_eqb_false : forall vs, filter (fun v => Bool.eqb (isr v) false) vs = filter nonrec vs.
Proof. intros. apply filter_ext. intros x. unfold nonrec. destruct (isr x); reflexivity. Qed.
Lemma filter_eqb_true : forall vs, filter (fun v => Bool.eqb (isr v) true) vs = filter isr vs.
Proof. intros. apply filter_ext. intros x. destruct (isr x); reflexivity. Qed.

(* size rules: the faithful version returns what Header.check_vlens computes *)
Lemma cvlen_ok : forall v vmax, pvQ v -> 0 <= vmax <= I64_MAX ->
  cvlen (xlen_type (v_type v)) (var_shape dims v) vmax
  = Ok (check_vlen (xlen_type (v_type v)) (var_shape dims v) vmax).
Proof.
  intros v vmax Hq Hv. pose proof (pvQ_facts v Hq) as (Hnn & He & _).
  destruct Hq as (_ & Hx & _). unfold cvlen. fold (eff (var_shape dims v)).
  rewrite check_vlen_eff. apply cvlen_loop_eq; [assumption | lia | assumption].
Qed.

Definition drop3 (o : option (Z * bool * Z)) : option (Z * bool) :=
  match o with Some (c, l, _) => Some (c, l) | None => None end.

Lemma rvl_pass_ok : forall fmt vmax want vs cnt last nsel, Forall pvQ vs -> 0 <= vmax <= I64_MAX ->
  rvl_pass fmt vmax (map (fun v => (xlen_type (v_type v), var_shape dims v)) vs) want cnt last
  = Ok (drop3 (vlens_pass fmt vmax (map (var_triple dims) vs) want cnt last nsel)).
Proof.
  intros fmt vmax want. induction vs as [|v vs IH]; intros cnt last nsel HQ Hv; [reflexivity|].
  inversion HQ as [|? ? Hq Hr]; subst. cbn [map rvl_pass vlens_pass]. unfold var_triple at 1.
  change (shape_isrec (var_shape dims v)) with (is_recvar dims v).
  destruct (Bool.eqb (is_recvar dims v) want); [|now apply IH].
  rewrite (cvlen_ok v vmax Hq Hv). cbn [rbind].
  destruct (check_vlen (xlen_type (v_type v)) (var_shape dims v) vmax); [now apply IH|].
  destruct (fmt >=? 5); [reflexivity | now apply IH].
Qed.

Lemma vlen_max_range : forall fmt, 0 <= vlen_max_of fmt <= I64_MAX.
Proof. intros fmt. pose proof (Proofs_Vlen.vlen_max_of_range fmt). unfold I64_MAX. lia. Qed.

Lemma rd_check_vlens_ok : forall fmt gatts nr vs, Forall pvQ vs ->
  rd_check_vlens fmt (map (fun v => (xlen_type (v_type v), var_shape dims v)) vs)
  = Ok (check_vlens (mkhdr fmt nr dims gatts vs)).
Proof.
  intros fmt gatts nr vs HQ. unfold rd_check_vlens, check_vlens. cbn [h_format h_dims h_vars].
  destruct vs as [|v0 vs0] eqn:Evs; [reflexivity|]. rewrite <- Evs in *.
  rewrite !match_nonnil by (rewrite Evs; discriminate).
  rewrite (rvl_pass_ok fmt _ false vs 0 false 0 HQ (vlen_max_range fmt)). cbn [rbind].
  destruct (vlens_pass fmt (vlen_max_of fmt) (map (var_triple dims) vs) false 0 false 0) as [[[lf lastf] n1]|]; cbn [drop3]; [|reflexivity].
  destruct (lf >? 1); [reflexivity|]. destruct ((lf =? 1) && negb lastf); [reflexivity|].
  rewrite !Zlen_filter_map. cbn [var_triple fst snd].
  change (fun x : var => shape_isrec (var_shape dims x)) with (fun x : var => is_recvar dims x).
  destruct (Zlen (filter (fun x : var => is_recvar dims x) vs) =? 0); [reflexivity|].
  destruct (lf =? 1); [reflexivity|].
  rewrite (rvl_pass_ok fmt _ true vs 0 false 0 HQ (vlen_max_range fmt)). cbn [rbind].
  destruct (vlens_pass fmt (vlen_max_of fmt) (map (var_triple dims) vs) true 0 false 0) as [[[lr lastr] n2]|]; cbn [drop3]; [|reflexivity].
  destruct (lr >? 1); [reflexivity|]. destruct ((lr =? 1) && negb lastr); reflexivity.
Qed.

Definition layQ (xsz : Z) (vs : list var) : Prop :=
  Forall pvQ vs /\ zsum (map Lv (filter isr vs)) <= I64_MAX /\ 0 < xsz <= I64_MAX /\
  exists ef, order_ok xsz (map bl (filter nonrec vs)) = Some ef /\
    (filter isr vs = [] \/ exists er, order_ok ef (map bl (filter isr vs)) = Some er).

Lemma bl_nonneg : forall vs, Forall pvQ vs -> forall f, Forall (fun q => 0 <= snd q) (map bl (filter f vs)).
Proof.
  intros vs HQ f. apply Forall_map, Forall_forall. intros v Hv. apply filter_In in Hv.
  rewrite Forall_forall in HQ. apply (pvQ_bounds v (HQ v (proj1 Hv))).
Qed.

Lemma rd_check_voffs_ok : forall vs bv br ef, Forall pvQ vs ->
  (filter nonrec vs <> [] -> order_ok bv (map bl (filter nonrec vs)) = Some ef) -> ef <= br ->
  (filter isr vs <> [] -> exists er, order_ok br (map bl (filter isr vs)) = Some er) ->
  rd_check_voffs bv br (map (fun v => (isr v, v_begin v, Lv v)) vs) = Ok NC_NOERR.
Proof.
  intros vs bv br ef HQ Hfix Hefbr Hrec. unfold rd_check_voffs.
  destruct vs as [|v0 vs0] eqn:Evs; [reflexivity|]. rewrite <- Evs in *.
  rewrite match_nonnil by (rewrite Evs; discriminate).
  rewrite (Zlen_filter_map _ _ (fun v : var => (isr v, v_begin v, Lv v)) (fun t => fst (fst t)) vs
           : _ = Zlen (filter isr vs)), Zlen_map.
  pose proof (Zlen_filter_split isr vs) as Hpart. change (filter (fun x => negb (isr x)) vs) with (filter nonrec vs) in Hpart.
  match goal with |- rbind ?fixed _ = _ => assert (E0 : fixed = Ok NC_NOERR) end.
  { destruct (Zlen vs - Zlen (filter isr vs) =? 0) eqn:En; [reflexivity|].
    rewrite (voffs_pass_ok vs false bv HQ), filter_eqb_false. cbn [rbind].
    rewrite Hfix by (intros Hc; rewrite Hc, Zlen_nil in Hpart; lia). now replace (br <? ef) with false by lia. }
  rewrite E0. cbn [rbind]. change (NC_NOERR =? NC_NOERR) with true. cbn [negb].
  destruct (Zlen (filter isr vs) =? 0) eqn:En; [reflexivity|].
  rewrite (voffs_pass_ok vs true br HQ), filter_eqb_true. cbn [rbind].
  destruct Hrec as [er Her]; [intros Hc; rewrite Hc, Zlen_nil in En; discriminate|]. now rewrite Her.
Qed.

Definition recsz (R : list var) : Z :=
  match R with
  | fr :: _ => if zsum (map Lv R) =? Lv fr then rawv fr else zsum (map Lv R)
  | [] => 0
  end.

Lemma compute_var_shape_ok : forall fmt nr gatts vs xsz, vs <> [] -> layQ xsz vs ->
  exists bv br rs,
    compute_var_shape xsz dims (map (fun v => (v, true)) vs) = Ok (bv, br, rs, map Lv vs) /\
    layout_of_hdr (mkhdr fmt nr dims gatts vs) xsz = mklayout xsz bv br rs (map v_begin vs) /\
    rd_check_voffs bv br (map (fun v => (isr v, v_begin v, Lv v)) vs) = Ok NC_NOERR.
Proof.
  intros fmt nr gatts vs xsz Hne (HQ & Hsum & Hx & ef & Hof & Hor).
  pose proof (bl_nonneg vs HQ) as Hbn. pose proof (order_end _ _ _ Hof) as Hend.
  destruct (order_ok_restart _ _ _ (Hbn nonrec) Hof) as [HxF HofF].
  assert (HR : ef <= fbegin (filter isr vs) ef /\
               (filter isr vs <> [] -> exists er, order_ok (fbegin (filter isr vs) ef) (map bl (filter isr vs)) = Some er)).
  { destruct Hor as [-> | [er Her]]; [split; [cbn; lia | congruence]|].
    destruct (order_ok_restart _ _ _ (Hbn isr) Her) as [H1 H2]. split; [lia | intros Hn; eauto]. }
  destruct HR as [HefR HofR].
  exists (fbegin (filter nonrec vs) (fbegin (filter isr vs) ef)), (fbegin (filter isr vs) ef), (recsz (filter isr vs)).
  split; [|split].
  - unfold compute_var_shape. rewrite match_nonnil by (destruct vs; [congruence | discriminate]).
    rewrite (cvs_loop_spec vs xsz 0 None None [] HQ ltac:(lia) ltac:(lia)), Hend. cbn [rbind app rev first_or].
    (* the four cases of "is there a record / a fixed-size variable" compute alike *)
    destruct (filter isr vs) as [|fr R], (filter nonrec vs) as [|fv F]; cbn [fbegin recsz map zsum] in *;
      try replace (ef >? v_begin fr) with false by lia; cbn [rbind];
      match goal with |- context [if ?c then Err _ else _] => replace c with false by lia end; reflexivity.
  - unfold layout_of_hdr. cbn [h_dims h_vars].
    unfold last_end, Lv in Hend. change (filter (fun v => negb (is_recvar dims v)) vs) with (filter nonrec vs).
    change (filter (is_recvar dims) vs) with (filter isr vs). rewrite Hend.
    destruct (filter isr vs) as [|fr R], (filter nonrec vs) as [|fv F]; cbn [fbegin recsz]; unfold rawv;
      rewrite ?nelems_eff; (destruct vs; [congruence | reflexivity]).
  - apply (rd_check_voffs_ok vs _ _ ef HQ); [|exact HefR | exact HofR].
    intros Hn. destruct (filter nonrec vs); [congruence | now apply HofF].
Qed.

Lemma post_open_ok : forall fmt nr gatts vs,
  let h := mkhdr fmt nr dims gatts vs in
  layQ (hdr_len h) vs -> check_vlens h = NC_NOERR ->
  post_open h (map (fun _ => true) vs) =
  Ok (mkopened h (layout_of_hdr h (hdr_len h)) (map (var_len dims) vs) (Zlen (filter (is_recvar dims) vs))).
Proof.
  intros fmt nr gatts vs h Hl Hvl. pose proof Hl as (HQ & _ & Hx & _).
  set (xsz := hdr_len h) in *.
  unfold post_open. fold xsz. rewrite chk_in by (unfold I64_MIN, I64_MAX in *; lia).
  cbn [rbind]. subst h. cbn [h_dims h_vars h_format].
  replace (zip vs (map (fun _ : var => true) vs)) with (map (fun v => (v, true)) vs)
    by (rewrite <- (map_id vs) at 2; now rewrite zip_map2).
  rewrite !zip_map2.
  replace (map shape_isrec (map (var_shape dims) vs)) with (map isr vs) by (now rewrite map_map).
  destruct vs as [|v0 vs0] eqn:Evs; [reflexivity|]. rewrite <- Evs in *.
  destruct (compute_var_shape_ok fmt nr gatts vs xsz ltac:(rewrite Evs; discriminate) Hl) as (bv & br & rs & Ec & Elay & Evo).
  rewrite Ec. cbn [rbind].
  rewrite (rd_check_vlens_ok fmt gatts nr vs HQ), Hvl. cbn [rbind]. change (NC_NOERR =? NC_NOERR) with true. cbn [negb].
  rewrite !zip_map2. cbv beta. rewrite Evo. cbn [rbind]. change (NC_NOERR =? NC_NOERR) with true. cbn [negb].
  rewrite Elay. now rewrite Zlen_filter_map.
Qed.
End Post.

(** ** inversion of HeaderSpec.decode *)
(* [dsc H]: H is [decode f = Some d] with [f] too short or starting with a wrong literal;
   unfold [decode] in a copy of H and discriminate it *)
Ltac dsc H := let H' := fresh in pose proof H as H'; cbv beta iota delta [decode] in H'; discriminate H'.

Lemma decode_inv : forall f d, decode f = Some d ->
  exists ver r nr r1 dims r2 gatts r3 vars r4,
    f = 67 :: 68 :: 70 :: ver :: r /\ (ver = 1 \/ ver = 2 \/ ver = 5) /\
    p_nn ver r = Some (nr, r1) /\
    p_list ver 10 (p_dim ver) r1 = Some (dims, r2) /\
    p_list ver 12 (p_att ver) r2 = Some (gatts, r3) /\
    p_list ver 11 (p_var ver) r3 = Some (vars, r4) /\
    d = mkdec (mkhdr ver nr (map dd_dim dims) (map da_att gatts) (map dv_var vars)) dims gatts vars
              (Zlen f - Zlen r4).
Proof.
  intros f d H.
  (* [decode] matches the first three bytes against the literals 67, 68, 70 ("CDF").  Each of
     the three rounds takes one byte off [f] and destructs it bit by bit (sign, then 7 binary
     digits), so that the nested match on the literal reduces: every bit pattern but the
     literal's makes [decode] return None, which [dsc] refutes. *)
  destruct f as [|b0 f]; [dsc H|].
  destruct b0 as [|p|p]; try dsc H.
  do 7 (destruct p as [p|p|]; try dsc H).
  destruct f as [|b1 f]; [dsc H|].
  destruct b1 as [|p|p]; try dsc H.
  do 7 (destruct p as [p|p|]; try dsc H).
  destruct f as [|b2 f]; [dsc H|].
  destruct b2 as [|p|p]; try dsc H.
  do 7 (destruct p as [p|p|]; try dsc H).
  destruct f as [|ver r]; [dsc H|].
  cbv beta iota zeta delta [decode] in H.
  destruct (negb ((ver =? 1) || (ver =? 2) || (ver =? 5))) eqn:Ev; [discriminate|].
  destruct (p_nn ver r) as [[nr r1]|] eqn:E1; [|discriminate].
  destruct (p_list ver 10 (p_dim ver) r1) as [[dims r2]|] eqn:E2; [|discriminate].
  destruct (p_list ver 12 (p_att ver) r2) as [[gatts r3]|] eqn:E3; [|discriminate].
  destruct (p_list ver 11 (p_var ver) r3) as [[vars r4]|] eqn:E4; [|discriminate].
  inversion H; subst d. exists ver, r, nr, r1, dims, r2, gatts, r3, vars, r4.
  repeat split; try assumption; try reflexivity. lia.
Qed.

(** ** bytes consumed by the decoder = ncmpio_hdr_len_NC of the decoded header *)
Lemma len_u32 : forall l v r, p_u32 l = Some (v, r) -> Zlen l = 4 + Zlen r.
Proof.
  intros l v r H. unfold p_u32 in H. destruct l as [|a [|b [|c [|d r']]]]; try discriminate.
  cbn [get_u32] in H. inversion H; subst. rewrite !Zlen_cons. lia.
Qed.

Lemma len_u64 : forall l v r, p_u64 l = Some (v, r) -> Zlen l = 8 + Zlen r.
Proof.
  intros l v r H. unfold p_u64, get_u64 in H.
  destruct (get_u32 l) as [[hi r1]|] eqn:E1; [|discriminate].
  destruct (get_u32 r1) as [[lo r2]|] eqn:E2; [|discriminate]. inversion H; subst.
  pose proof (len_u32 _ _ _ E1). pose proof (len_u32 _ _ _ E2). lia.
Qed.

Lemma len_nn : forall fmt l v r, fmt = 1 \/ fmt = 2 \/ fmt = 5 -> p_nn fmt l = Some (v, r) ->
  Zlen l = sz_nn fmt + Zlen r.
Proof.
  intros fmt l v r Hf H. unfold p_nn, sz_nn in *.
  destruct Hf as [-> | [-> | ->]]; cbn [Z.ltb Z.compare Z.eqb Pos.compare Pos.compare_cont Pos.eqb] in *;
    first [now apply len_u32 in H | now apply len_u64 in H].
Qed.

Lemma len_name : forall fmt l nm pad r, fmt = 1 \/ fmt = 2 \/ fmt = 5 -> p_name fmt l = Some ((nm, pad), r) ->
  Zlen l = sz_nn fmt + rndup (Zlen nm) 4 + Zlen r.
Proof.
  intros fmt l nm pad r Hf H. unfold p_name in H.
  destruct (p_nn fmt l) as [[n r0]|] eqn:En; [|discriminate].
  pose proof (len_nn _ _ _ _ Hf En). destruct (len_padded _ _ _ _ _ H) as [H1 H2]. rewrite H2. lia.
Qed.

Lemma len_many : forall A (p : parser A) (len : A -> Z),
  (forall l x r, p l = Some (x, r) -> Zlen l = len x + Zlen r) ->
  forall k l xs r, p_many p k l = Some (xs, r) -> Zlen l = zsum (map len xs) + Zlen r.
Proof.
  intros A p len Hp. induction k as [|k IH]; intros l xs r H; cbn [p_many] in H.
  - inversion H; subst. cbn. lia.
  - destruct (p l) as [[x r1]|] eqn:Ex; [|discriminate].
    destruct (p_many p k r1) as [[xs' r']|] eqn:E; [|discriminate]. inversion H; subst.
    cbn [map zsum]. pose proof (Hp _ _ _ Ex). pose proof (IH _ _ _ E). lia.
Qed.

Lemma len_list : forall A fmt tag (p : parser A) (len : A -> Z), fmt = 1 \/ fmt = 2 \/ fmt = 5 ->
  (forall l x r, p l = Some (x, r) -> Zlen l = len x + Zlen r) ->
  forall l xs r, p_list fmt tag p l = Some (xs, r) -> Zlen l = 4 + sz_nn fmt + zsum (map len xs) + Zlen r.
Proof.
  intros A fmt tag p len Hf Hp l xs r H.
  destruct (p_list_inv _ _ _ _ _ _ _ H) as (t & n & r1 & r2 & Et & En & Hc).
  pose proof (len_u32 _ _ _ Et). pose proof (len_nn _ _ _ _ Hf En).
  destruct Hc as [(_ & _ & -> & ->) | (_ & _ & Hm)].
  - cbn. lia.
  - pose proof (len_many _ p len Hp _ _ _ _ Hm). lia.
Qed.

Lemma len_dim_dec : forall fmt l x r, fmt = 1 \/ fmt = 2 \/ fmt = 5 -> p_dim fmt l = Some (x, r) ->
  Zlen l = len_dim fmt (dd_dim x) + Zlen r.
Proof.
  intros fmt l x r Hf H. unfold p_dim in H.
  destruct (p_name fmt l) as [[[nm pad] r1]|] eqn:En; [|discriminate].
  destruct (p_nn fmt r1) as [[sz r2]|] eqn:Es; [|discriminate]. inversion H; subst.
  pose proof (len_name _ _ _ _ _ Hf En). pose proof (len_nn _ _ _ _ Hf Es).
  unfold len_dim. cbn [dd_dim d_name]. lia.
Qed.

Lemma len_att_dec : forall fmt l x r, fmt = 1 \/ fmt = 2 \/ fmt = 5 -> p_att fmt l = Some (x, r) ->
  Zlen l = len_att fmt (da_att x) + Zlen r.
Proof.
  intros fmt l x r Hf H. unfold p_att in H.
  destruct (p_name fmt l) as [[[nm pad] r1]|] eqn:En; [|discriminate].
  destruct (p_u32 r1) as [[t r2]|] eqn:Et; [|discriminate].
  destruct (negb (valid_type fmt t)); [discriminate|].
  destruct (p_nn fmt r2) as [[n r3]|] eqn:Enn; [|discriminate].
  destruct ((n <? 0) || (Zlen r3 <? n)); [discriminate|].
  destruct (p_padded (n * xlen_type t) r3) as [[[data pad2] r4]|] eqn:Ep; [|discriminate]. inversion H; subst.
  pose proof (len_name _ _ _ _ _ Hf En). pose proof (len_u32 _ _ _ Et). pose proof (len_nn _ _ _ _ Hf Enn).
  destruct (len_padded _ _ _ _ _ Ep) as [H4 _].
  unfold len_att. cbn [da_att a_name a_nelems a_type]. lia.
Qed.

Lemma len_attarray_dec : forall fmt l xs r, fmt = 1 \/ fmt = 2 \/ fmt = 5 ->
  p_list fmt 12 (p_att fmt) l = Some (xs, r) -> Zlen l = len_attarray fmt (map da_att xs) + Zlen r.
Proof.
  intros fmt l xs r Hf H.
  pose proof (len_list _ fmt 12 (p_att fmt) (fun x => len_att fmt (da_att x)) Hf
                (fun l x r => len_att_dec fmt l x r Hf) _ _ _ H) as Hl.
  unfold len_attarray. rewrite map_map. lia.
Qed.

Lemma len_var_dec : forall fmt l x r, fmt = 1 \/ fmt = 2 \/ fmt = 5 -> p_var fmt l = Some (x, r) ->
  Zlen l = len_var fmt (dv_var x) + Zlen r.
Proof.
  intros fmt l x r Hf H. unfold p_var in H.
  destruct (p_name fmt l) as [[[nm pad] r0]|] eqn:En; [|discriminate].
  destruct (p_nn fmt r0) as [[nd r1]|] eqn:End; [|discriminate].
  destruct (Zlen r1 <? nd); [discriminate|].
  destruct (p_many (p_nn fmt) (Z.to_nat nd) r1) as [[dimids r2]|] eqn:Edim; [|discriminate].
  destruct (p_list fmt 12 (p_att fmt) r2) as [[atts r3]|] eqn:Eatt; [|discriminate].
  destruct (p_u32 r3) as [[t r4]|] eqn:Et; [|discriminate].
  destruct (negb (valid_type fmt t)); [discriminate|].
  destruct (p_nn fmt r4) as [[vsize r5]|] eqn:Evs; [|discriminate].
  destruct (if fmt =? 1 then p_u32 r5 else p_u64 r5) as [[bg r6]|] eqn:Ebg; [|discriminate].
  inversion H; subst.
  pose proof (len_name _ _ _ _ _ Hf En). pose proof (len_nn _ _ _ _ Hf End).
  pose proof (len_many _ (p_nn fmt) (fun _ => sz_nn fmt) (fun l x r Hx => len_nn fmt l x r Hf Hx) _ _ _ _ Edim) as Hd.
  rewrite zsum_map_const in Hd.
  pose proof (len_attarray_dec _ _ _ _ Hf Eatt). pose proof (len_u32 _ _ _ Et). pose proof (len_nn _ _ _ _ Hf Evs).
  assert (Hb : Zlen r5 = sz_off fmt + Zlen r).
  { unfold sz_off. destruct Hf as [-> | [-> | ->]]; cbn [Z.eqb Pos.eqb] in *; first [now apply len_u32 in Ebg | now apply len_u64 in Ebg]. }
  unfold len_var. cbn [dv_var v_name v_dimids v_atts]. lia.
Qed.

Theorem decode_len : forall f d, decode f = Some d -> dc_len d = hdr_len (dc_hdr d).
Proof.
  intros f d H.
  destruct (decode_inv f d H) as (ver & r & nr & r1 & dims & r2 & gatts & r3 & vars & r4 &
                                   Hf & Hver & E1 & E2 & E3 & E4 & Hd).
  subst d. cbn [dc_len dc_hdr]. unfold hdr_len. cbn [h_format h_dims h_gatts h_vars].
  pose proof (len_nn _ _ _ _ Hver E1) as L1.
  pose proof (len_list _ ver 10 (p_dim ver) (fun x => len_dim ver (dd_dim x)) Hver
                (fun l x r => len_dim_dec ver l x r Hver) _ _ _ E2) as L2.
  pose proof (len_attarray_dec _ _ _ _ Hver E3) as L3.
  pose proof (len_list _ ver 11 (p_var ver) (fun x => len_var ver (dv_var x)) Hver
                (fun l x r => len_var_dec ver l x r Hver) _ _ _ E4) as L4.
  rewrite !map_map. subst f. rewrite !Zlen_cons. pose proof (Zlen_nonneg r4).
  unfold byte in *. lia.
Qed.

Lemma forallb_req_Forall : forall A (p : A -> bool) (g : A -> Z) (Q : A -> Prop) m l,
  (forall x, p x = true -> g x <= m -> Q x) ->
  forallb p l = true -> fold_right Z.max 0 (map g l) <= m -> Forall Q l.
Proof.
  intros A p g Q m l HQ. induction l as [|x l IH]; intros Hp Hg; [constructor|].
  cbn [forallb map fold_right] in *. apply andb_prop in Hp. destruct Hp as [Hx Hl].
  constructor; [apply HQ; [exact Hx | lia] | apply IH; [exact Hl | lia]].
Qed.

Lemma att_ok_Q : forall mm a, att_ok a = true -> att_req a <= mm -> attQ mm a.
Proof.
  intros mm a H Hr. unfold att_ok, name_ok in H. unfold att_req in Hr. unfold attQ.
  apply andb_prop in H. destruct H as [H H3]. apply andb_prop in H. destruct H as [H1 H2]. lia.
Qed.

Lemma atts_ok_Q : forall mm l, forallb att_ok l = true -> fold_right Z.max 0 (map att_req l) <= mm -> Forall (attQ mm) l.
Proof. intros mm l. apply forallb_req_Forall, att_ok_Q. Qed.

Lemma c04_valid_inv : forall mm d, c04_valid mm d = true -> dc_len d = hdr_len (dc_hdr d) ->
  let h := dc_hdr d in
  let dims := h_dims h in
  h_numrecs h <= I64_MAX /\
  Zlen dims <= NC_MAX_INT - 63 /\ Zlen (h_gatts h) <= NC_MAX_INT - 63 /\ Zlen (h_vars h) <= NC_MAX_INT - 63 /\
  Forall (dimQ mm) dims /\ Forall (fun x => 0 <= d_size x) dims /\
  Zlen (filter (fun x => d_size x =? 0) dims) <= 1 /\
  Forall (attQ mm) (h_gatts h) /\
  Forall (varQ mm (Zlen dims)) (h_vars h) /\
  list_req (Zlen dims) <= mm /\ list_req (Zlen (h_gatts h)) <= mm /\ list_req (Zlen (h_vars h)) <= mm /\
  SZ_NC_VAR <= mm /\
  layQ dims (hdr_len h) (h_vars h) /\ check_vlens h = NC_NOERR /\ dc_len d = hdr_len h.
Proof.
  intros mm d H Hlen. cbv zeta. unfold c04_valid in H.
  set (h := dc_hdr d) in *. set (dims := h_dims h) in *.
  repeat rewrite andb_true_iff in H.
  destruct H as [[[[[[[[[[[[[H1 H2] H3] H4] H5] H6] H7] H8] H9] H10] H12] H13] H14] H15].
  assert (Hreq : hdr_req h <= mm) by lia. unfold hdr_req in Hreq. fold dims in Hreq.
  (* lia pays for every hypothesis: the large ones are cleared before each call *)
  assert (Hd : Forall (dimQ mm) dims).
  { apply (forallb_req_Forall _ _ (fun d0 => Zlen (d_name d0) + 1) _ mm _) with (2 := H5); [|clear - Hreq; lia].
    clear. intros x Hx Hr. unfold name_ok in Hx. unfold dimQ. lia. }
  assert (Hdn : Forall (fun x => 0 <= d_size x) dims)
    by (apply (Forall_impl _ (fun x (Hx : dimQ mm x) => proj1 (proj2 (proj2 Hx))) Hd)).
  assert (Hvars : Forall (fun v => varQ mm (Zlen dims) v /\ pvQ dims v) (h_vars h)).
  { apply (forallb_req_Forall _ _ var_req _ mm _) with (2 := H8); [|clear - Hreq; lia].
    clear. intros v Hv Hr. unfold name_ok in Hv. unfold var_req in Hr.
    repeat rewrite andb_true_iff in Hv.
    destruct Hv as [[[[[[[[[[V1 V2] V3] V4] V5] V6] V7] V8] V9] V10] V11].
    pose proof (valid_type_xlen _ _ V7) as Hx. apply negb_true_iff in V6.
    assert (Ha : Forall (attQ mm) (v_atts v)) by (apply atts_ok_Q; [exact V4 | clear - Hr; lia]).
    assert (Hi : Forall (fun i => 0 <= i < Zlen dims) (v_dimids v)).
    { apply forallb_Forall in V5. eapply Forall_impl; [|exact V5]. intros i Hi. cbv beta in Hi. lia. }
    clear V4 V5 V7. unfold varQ, pvQ. repeat split; try assumption; lia. }
  assert (Hvq : Forall (varQ mm (Zlen dims)) (h_vars h)) by (apply (Forall_impl _ (fun v Hv => proj1 Hv) Hvars)).
  assert (Hpq : Forall (pvQ dims) (h_vars h)) by (apply (Forall_impl _ (fun v Hv => proj2 Hv) Hvars)).
  assert (Hg : Forall (attQ mm) (h_gatts h)) by (apply atts_ok_Q; [exact H7 | clear - Hreq; lia]).
  assert (Hl : layQ dims (hdr_len h) (h_vars h)).
  { unfold layQ. change (Lv dims) with (var_len dims). change (isr dims) with (is_recvar dims).
    change (bl dims) with (fun v : var => (v_begin v, var_len dims v)).
    change (nonrec dims) with (fun v : var => negb (is_recvar dims v)).
    rewrite <- Hlen. split; [exact Hpq|]. split; [clear - H9; lia|].
    split; [clear - H12 H13; lia|]. clear - H15.
    destruct (h_vars h) as [|v0 vs0] eqn:Ev; [exists (dc_len d); split; [reflexivity | left; reflexivity]|].
    rewrite <- Ev in *.
    destruct (order_ok (dc_len d) _) as [ef|]; [|discriminate].
    exists ef. split; [reflexivity|].
    destruct (filter (is_recvar dims) (h_vars h)) as [|fr frs] eqn:Er; [left; reflexivity|]. right.
    destruct (order_ok ef _) as [er|]; [|discriminate]. exists er. reflexivity. }
  clear H5 H7 H8 H15 Hvars. repeat match goal with |- _ /\ _ => split end; try assumption; lia.
Qed.

(** ** C04: valid files are accepted *)

Theorem flat_accepts_valid : forall mm f d, decode f = Some d -> c04_valid mm d = true ->
  open_flat mm f = Ok (expected_open d).
Proof.
  intros mm f d Hdec Hval.
  destruct (decode_inv f d Hdec) as (ver & r & nr & r1 & dims & r2 & gatts & r3 & vars & r4 &
                                      Hf & Hver & E1 & E2 & E3 & E4 & Hd).
  pose proof (c04_valid_inv mm d Hval (decode_len f d Hdec)) as Hinv. cbv zeta in Hinv.
  rewrite Hd in Hinv. cbn [dc_hdr dc_len h_numrecs h_dims h_gatts h_vars h_format] in Hinv.
  destruct Hinv as (Hnr & Hcd & Hcg & Hcv & HdQ & Hdn & Hun & HgQ & HvQ & Hrd & Hrg & Hrv & Hmm & Hlay & Hvl & Hlen).
  rewrite !Zlen_map in *.
  (* dispatcher *)
  assert (Hfmt : inq_file_format f = Ok ver).
  { unfold inq_file_format. subst f.
    assert (4 <= Zlen r).
    { unfold p_nn, p_u32, p_u64 in E1. destruct (ver <? 5).
      - destruct r as [|a [|b [|c [|e r']]]]; try discriminate. unfold Zlen. cbn [length]. lia.
      - unfold get_u64 in E1. destruct r as [|a [|b [|c [|e r']]]]; try discriminate. unfold Zlen. cbn [length]. lia. }
    unfold byte. rewrite !Zlen_cons. replace (Zlen r + 1 + 1 + 1 + 1 <? 8) with false by lia.
    change (bytes_eqb (zfirstn 3 (67 :: 68 :: 70 :: ver :: r)) [67; 68; 70]) with true.
    change (znth (67 :: 68 :: 70 :: ver :: r) 3 0) with ver. cbn [andb].
    destruct Hver as [-> | [-> | ->]]; reflexivity. }
  unfold open_flat. rewrite Hfmt. unfold read_header_flat.
  rewrite Forall_map in HdQ, HgQ, HvQ.
  rewrite Zlen_filter_map in Hun.
  assert (Hy : yields (hdr_get_NC (list byte) fsrc mm) f (expected_open d) r4).
  { unfold hdr_get_NC. eapply yields_bind with (x := [67; 68; 70; ver]).
    { apply yields_lift. cbn [gbytes fsrc]. unfold f_gbytes. subst f.
      destruct (take_z_app 4 [67; 68; 70; ver] r eq_refl) as [T1 T2]. exact (f_equal2 pair T1 T2). }
    change (bytes_eqb (zfirstn 3 [67; 68; 70; ver]) [67; 68; 70]) with true. cbn [negb].
    change (znth [67; 68; 70; ver] 3 0) with ver.
    replace (negb ((ver =? 1) || (ver =? 2) || (ver =? 5))) with false by (destruct Hver as [-> | [-> | ->]]; reflexivity).
    eapply yields_bind; [apply yields_nn, E1|].
    eapply yields_bind; [apply (flat_dimarray mm ver r1 dims r2 E2 HdQ); [unfold SZ_NC_DIM, SZ_NC_VAR in *; lia | assumption ..]|].
    eapply yields_bind; [apply (flat_attarray mm ver r2 gatts r3 Hver E3 HgQ); [unfold SZ_NC_ATTR, SZ_NC_VAR in *; lia | assumption ..]|].
    rewrite Zlen_map.
    eapply yields_bind; [apply (flat_vararray mm ver (Zlen dims) r3 vars r4 Hver E4 HvQ Hmm Hcv Hrv)|].
    rewrite to_i64_id by exact Hnr. rewrite !map_map. cbn [fst snd]. change (fun x : dec_var => dv_var x) with dv_var.
    pose proof (post_open_ok (map dd_dim dims) Hdn ver nr (map da_att gatts) (map dv_var vars) Hlay Hvl) as Hpost.
    cbv zeta in Hpost. rewrite map_map in Hpost. rewrite Hpost.
    unfold expected_open. rewrite Hd. cbn [dc_hdr dc_len h_dims h_vars]. rewrite Hlen.
    intros a; exists a; reflexivity. }
  destruct (Hy acct0) as [a' E]. now rewrite E.
Qed.

(* C04: every specification-valid file is accepted, for EVERY chunk size,
   and the NC object holds exactly the decoded header, the derived layout (begin_var, begin_rec,
   recsize: vsize fields ignored and recomputed), lens and the number of record variables *)
Theorem reader_accepts_valid : forall hint mm f d,
  decode f = Some d -> c04_valid mm d = true ->
  out_res (open_model hint mm f) = Ok (expected_open d).
Proof. intros. rewrite chunk_decode_eq_flat. now apply flat_accepts_valid. Qed.

(* composition with the encoder round trip (Proofs_Header.decode_encode_full): every file whose
   header was written by the encoder model, followed by ANY bytes (gaps, junk, data), is read back
   exactly, provided the decoded header is valid in the sense of c04_valid *)
Theorem encoded_read_back : forall hint mm h rest,
  wf_hdr h = true -> c04_valid mm (decoded_of h) = true ->
  out_res (open_model hint mm (encode_header h ++ rest)) = Ok (expected_open (decoded_of h)) /\
  o_hdr (expected_open (decoded_of h)) = hdr_content h.
Proof.
  intros hint mm h rest Hwf Hval. split; [|reflexivity].
  apply reader_accepts_valid; [now apply decode_encode_full | exact Hval].
Qed.

(* a CDF-2 file produced by the free-choice encoder tools/c04_gen.py (fixed_schema): saturated and
   stale vsize fields, a zero-length attribute, an ABSENT list written as TAG 0, gaps and junk bytes
   between header and data and between variables.  The hypotheses of reader_accepts_valid hold. *)
Definition ex_valid_file : list byte :=
  [67; 68; 70; 2; 0; 0; 0; 2; 0; 0; 0; 10; 0; 0; 0; 3; 0; 0; 0; 1; 116; 0; 0; 0; 0; 0; 0; 0; 0; 0; 0; 5; 108; 97; 116; 120; 120; 0; 0; 0; 0; 0; 0; 3; 0; 0; 0; 3; 108; 111; 110; 0; 0; 0; 0; 2; 0; 0; 0; 12; 0; 0; 0; 3; 0; 0; 0; 5; 116; 105; 116; 108; 101; 0; 0; 0; 0; 0; 0; 2; 0; 0; 0; 5; 65; 66; 67; 68; 69; 0; 0; 0; 0; 0; 0; 1; 118; 0; 0; 0; 0; 0; 0; 6; 0; 0; 0; 2; 63; 248; 0; 0; 0; 0; 0; 0; 192; 2; 0; 0; 0; 0; 0; 0; 0; 0; 0; 5; 101; 109; 112; 116; 121; 0; 0; 0; 0; 0; 0; 4; 0; 0; 0; 0; 0; 0; 0; 11; 0; 0; 0; 4; 0; 0; 0; 3; 102; 105; 120; 0; 0; 0; 0; 2; 0; 0; 0; 1; 0; 0; 0; 2; 0; 0; 0; 12; 0; 0; 0; 2; 0; 0; 0; 5; 117; 110; 105; 116; 115; 0; 0; 0; 0; 0; 0; 2; 0; 0; 0; 3; 109; 47; 115; 0; 0; 0; 0; 2; 115; 99; 0; 0; 0; 0; 0; 3; 0; 0; 0; 3; 0; 1; 0; 2; 255; 254; 0; 0; 0; 0; 0; 4; 255; 255; 255; 255; 0; 0; 0; 0; 0; 0; 1; 136; 0; 0; 0; 4; 114; 101; 99; 49; 0; 0; 0; 2; 0; 0; 0; 0; 0; 0; 0; 1; 0; 0; 0; 12; 0; 0; 0; 1; 0; 0; 0; 1; 97; 0; 0; 0; 0; 0; 0; 1; 0; 0; 0; 1; 127; 0; 0; 0; 0; 0; 0; 3; 0; 0; 48; 57; 0; 0; 0; 0; 0; 0; 1; 180; 0; 0; 0; 4; 115; 99; 97; 108; 0; 0; 0; 0; 0; 0; 0; 12; 0; 0; 0; 0; 0; 0; 0; 6; 0; 0; 0; 8; 0; 0; 0; 0; 0; 0; 1; 168; 0; 0; 0; 4; 114; 101; 99; 50; 0; 0; 0; 1; 0; 0; 0; 0; 0; 0; 0; 0; 0; 0; 0; 0; 0; 0; 0; 5; 0; 0; 0; 4; 0; 0; 0; 0; 0; 0; 1; 188; 68; 164; 71; 245; 34; 122; 157; 132; 126; 234; 193; 183; 168; 133; 43; 83; 117; 59; 40; 91; 241; 130; 47; 206; 224; 255; 17; 74; 199; 51; 162; 40; 56; 250; 20; 227; 40; 79; 119; 55; 175; 155; 225; 87; 22; 98; 31; 32; 42; 2; 50; 93; 18; 176; 38; 231; 79; 25; 182; 226; 148; 215; 250; 119; 121; 98; 7; 157; 42; 179; 60; 123; 83; 210; 149; 232].

Example reader_accepts_valid_ex :
  exists d, decode ex_valid_file = Some d /\ c04_valid 1048576 d = true /\
            Zlen (h_vars (dc_hdr d)) = 4 /\ l_begin_var (o_lay (expected_open d)) = 392 /\
            out_fetches (open_model 36 1048576 ex_valid_file) = 11.
Proof.
  eexists. split; [vm_compute; reflexivity|]. vm_compute. repeat split; reflexivity.
Qed.

(** * Part E: C19 — totality, crashes, consistency, cost *)

(* the model is a total function (structural recursion on binary counts and on an
   explicit fuel for the copy loop); the only loop with fuel is proved to complete: *)
Theorem reader_total : forall hint mm f, exists o, open_model hint mm f = o.
Proof. intros. eexists; reflexivity. Qed.

Theorem copy_loop_complete : forall chunk n c l, 0 < chunk -> window_inv chunk c l ->
  fst (c_gbytes n c) = take_z n l /\ window_inv chunk (snd (c_gbytes n c)) (zskipn n l).
Proof.
  intros chunk n c l H Hw.
  destruct (sim_gbytes chunk (fun _ => True) (fun _ _ _ => I) (fun _ _ _ _ _ _ => I) n c l H (conj Hw I))
    as [E [Hw' _]].
  split; [exact E | exact Hw'].
Qed.

(* crashes *)
Definition reader_no_crash_full : Prop :=
  forall hint mm f s, out_res (open_model hint mm f) <> Crash s.

Example crash_rndup_int : out_res (open_model 0 1048576 w_rndup_int) = Crash S_rndup_int.
Proof. vm_compute. reflexivity. Qed.
Example crash_attr_null : out_res (open_model 0 1048576 w_attr_null) = Crash S_attr_memcpy_null.
Proof. vm_compute. reflexivity. Qed.
Example crash_attrV_mul : out_res (open_model 0 1048576 w_attrV_mul) = Crash S_attrV_mul.
Proof. vm_compute. reflexivity. Qed.
Example crash_attr_xlen : out_res (open_model 0 1048576 w_attr_xlen) = Crash S_attr_xlen.
Proof. vm_compute. reflexivity. Qed.
Example crash_shape_product : out_res (open_model 0 1048576 w_shape_product) = Crash S_shape_product.
Proof. vm_compute. reflexivity. Qed.
Example crash_var_calloc : out_res (open_model 0 1048576 w_var_calloc) = Crash S_var_calloc_null.
Proof. vm_compute. reflexivity. Qed.
Example crash_check_vlen : out_res (open_model 0 1048576 w_check_vlen) = Crash S_check_vlen_mul.
Proof. vm_compute. reflexivity. Qed.
Example crash_begin_len : out_res (open_model 0 1048576 w_begin_len) = Crash S_begin_len.
Proof. vm_compute. reflexivity. Qed.

Theorem reader_no_crash_refuted : ~ reader_no_crash_full.
Proof. intros H. apply (H 0 1048576 w_attr_null S_attr_memcpy_null). exact crash_attr_null. Qed.

(* strongest true statement proved: specification-valid files never crash the reader, whatever
   the chunk size (and are accepted) *)
Theorem reader_no_crash_partial : forall hint mm f d s,
  decode f = Some d -> c04_valid mm d = true -> out_res (open_model hint mm f) <> Crash s.
Proof. intros hint mm f d s Hd Hv. rewrite (reader_accepts_valid hint mm f d Hd Hv). discriminate. Qed.

Example reader_no_crash_partial_ex : exists d, decode ex_valid_file = Some d /\ c04_valid 1048576 d = true.
Proof. destruct reader_accepts_valid_ex as (d & H1 & H2 & _). exists d. split; assumption. Qed.

(* self-consistency of accepted metadata *)
Definition reader_result_consistent_full : Prop :=
  forall hint mm f o, out_res (open_model hint mm f) = Ok o -> consistent o = true.

Example inconsistent_numrecs : exists o, out_res (open_model 0 1048576 w_numrecs_neg) = Ok o /\
  h_numrecs (o_hdr o) = -1 /\ consistent o = false.
Proof. eexists. vm_compute. repeat split; reflexivity. Qed.

Example inconsistent_dim : exists o, out_res (open_model 0 1048576 w_dim_neg) = Ok o /\
  map d_size (h_dims (o_hdr o)) = [-9223372036854775803] /\ consistent o = false.
Proof. eexists. vm_compute. repeat split; reflexivity. Qed.

Theorem reader_result_consistent_refuted : ~ reader_result_consistent_full.
Proof.
  intros H. destruct inconsistent_numrecs as (o & Ho & _ & Hc).
  rewrite (H 0 1048576 w_numrecs_neg o Ho) in Hc. discriminate.
Qed.

(* what the post-checks DO guarantee for every byte sequence and chunk size: an accepted header
   with variables has 0 < header size <= begin_var <= begin_rec (data after the header, record
   section after the fixed section) *)
Lemma bind_inv : forall S A B (m : P S A) (f : A -> P S B) s b s',
  bind m f s = (Ok b, s') -> exists a s1, m s = (Ok a, s1) /\ f a s1 = (Ok b, s').
Proof.
  intros S A B m f s b s' H. unfold bind in H. destruct (m s) as [[a|e|c] s1]; try discriminate.
  exists a, s1. split; [reflexivity | exact H].
Qed.

Lemma hdr_get_NC_inv : forall S (X : src S) mm s o s', hdr_get_NC S X mm s = (Ok o, s') ->
  exists h (vars : list (var * bool)), h_vars h = map fst vars /\ post_open h (map snd vars) = Ok o.
Proof.
  intros S X mm s o s' H. unfold hdr_get_NC in H.
  apply bind_inv in H. destruct H as (m & s1 & _ & H).
  destruct (negb (bytes_eqb (zfirstn 3 m) [67; 68; 70])).
  - apply bind_inv in H. destruct H as (sg & s2 & _ & H). destruct (bytes_eqb sg hdf5_sig); discriminate.
  - destruct (negb ((znth m 3 0 =? 1) || (znth m 3 0 =? 2) || (znth m 3 0 =? 5))); [discriminate|].
    apply bind_inv in H. destruct H as (nr & s2 & _ & H).
    apply bind_inv in H. destruct H as (dims & s3 & _ & H).
    apply bind_inv in H. destruct H as (gatts & s4 & _ & H).
    apply bind_inv in H. destruct H as (vars & s5 & _ & H).
    unfold pure in H.
    destruct (post_open (mkhdr (znth m 3 0) (to_i64 nr) dims gatts (map fst vars)) (map snd vars)) as [o'| |] eqn:E;
      try discriminate.
    inversion H; subst. eexists; exists vars. split; [|exact E]. reflexivity.
Qed.

Lemma post_open_inv : forall h soks o, post_open h soks = Ok o ->
  o_hdr o = h /\
  (zip (h_vars h) soks <> [] ->
   0 < l_begin_var (o_lay o) /\ l_xsz (o_lay o) <= l_begin_var (o_lay o) <= l_begin_rec (o_lay o)).
Proof.
  intros h soks o H. unfold post_open in H.
  destruct (chk S_hdr_len (hdr_len h)) as [xsz| |]; try discriminate. cbn [rbind] in H.
  destruct (compute_var_shape xsz (h_dims h) (zip (h_vars h) soks)) as [[[[bv br] rs] lens]| |] eqn:Ec; try discriminate.
  cbn [rbind] in H.
  destruct (rd_check_vlens _ _) as [e1| |]; try discriminate. cbn [rbind] in H.
  destruct (negb (e1 =? NC_NOERR)); [discriminate|].
  destruct (rd_check_voffs _ _ _) as [e2| |]; try discriminate. cbn [rbind] in H.
  destruct (negb (e2 =? NC_NOERR)); [discriminate|].
  inversion H; subst o. cbn [o_hdr o_lay l_xsz l_begin_var l_begin_rec]. split; [reflexivity|]. intros Hne.
  unfold compute_var_shape in Ec. destruct (zip (h_vars h) soks) as [|p0 ps]; [congruence|].
  destruct (cvs_loop _ _ _ _ _ _ _) as [[[[[br0 rs0] fv] fr] lens0]| |]; try discriminate. cbn [rbind] in Ec.
  destruct (match fr with
            | Some (fb, fl, fraw) => if br0 >? fb then Err NC_ENOTNC else Ok (fb, if rs0 =? fl then fraw else rs0)
            | None => Ok (br0, rs0) end) as [[br' rs']| |]; try discriminate. cbn [rbind] in Ec.
  set (bv' := match fv with Some b => b | None => br' end) in *.
  destruct ((bv' <=? 0) || (xsz >? bv') || (br' <=? 0) || (bv' >? br')) eqn:E; [discriminate|].
  inversion Ec; subst. lia.
Qed.

Theorem reader_result_consistent_partial : forall hint mm f o,
  out_res (open_model hint mm f) = Ok o -> h_vars (o_hdr o) <> [] ->
  0 < l_begin_var (o_lay o) /\ l_xsz (o_lay o) <= l_begin_var (o_lay o) <= l_begin_rec (o_lay o).
Proof.
  intros hint mm f o H Hne. rewrite chunk_decode_eq_flat in H. unfold open_flat in H.
  destruct (inq_file_format f); try discriminate. unfold read_header_flat in H.
  destruct (hdr_get_NC (list byte) fsrc mm (f, acct0)) as [r s'] eqn:E. cbn [fst] in H. subst r.
  destruct (hdr_get_NC_inv _ _ _ _ _ _ E) as (h & vars & Hv & Hp).
  destruct (post_open_inv h (map snd vars) o Hp) as [Hh Hl]. apply Hl.
  rewrite Hv, zip_fst_snd. intros Hc. apply Hne. rewrite Hh, Hv, Hc. reflexivity.
Qed.

Example reader_result_consistent_partial_ex : exists o,
  out_res (open_model 36 1048576 ex_valid_file) = Ok o /\ h_vars (o_hdr o) <> [] /\ consistent o = true.
Proof. eexists. vm_compute. repeat split; try reflexivity. discriminate. Qed.

(* memory and read volume within a * |file| + b (DESIGN section 5, C19), tried with a = 64 and
   b = 4096 + the window: *)
Definition reader_cost_linear_full : Prop :=
  forall hint mm f,
    ac_alloc (out_acct (open_model hint mm f)) <= 64 * Zlen f + 4096 + norm_chunk hint /\
    out_offset (open_model hint mm f) <= Zlen f + 2 * norm_chunk hint.

Example cost_alloc_dims :
  Zlen w_alloc_dims = 48 /\ 17179868672 <= ac_alloc (out_acct (open_model 0 1099511627776 w_alloc_dims)).
Proof. vm_compute. split; [reflexivity | discriminate]. Qed.

Example cost_read_zeros :
  Zlen w_read_zeros = 48 /\ out_offset (open_model 4096 1048576 w_read_zeros) = 102400 /\
  out_fetches (open_model 4096 1048576 w_read_zeros) = 25 /\ out_getsize (open_model 4096 1048576 w_read_zeros) = 48.
Proof. vm_compute. repeat split; reflexivity. Qed.

Theorem reader_cost_linear_refuted : ~ reader_cost_linear_full.
Proof.
  intros H. destruct (H 0 1099511627776 w_alloc_dims) as [H1 _].
  destruct cost_alloc_dims as [Hl Ha]. rewrite Hl in H1. vm_compute (norm_chunk 0) in H1. lia.
Qed.

(* what does hold for EVERY input: each fetch after the first advances the file offset by at least
   chunk-8 bytes (no fetch without progress), so the number of fetches is linear in the number of
   header bytes consumed *)
Definition prog (chunk : Z) (c : cst) : Prop :=
  1 <= c_fetches c /\ (c_fetches c - 1) * (chunk - 8) + chunk <= c_off c.

Lemma prog_fetch : forall chunk c l, window_inv chunk c l -> 0 < c_pos c -> chunk - c_pos c <= 8 ->
  prog chunk c -> prog chunk (c_fetch c).
Proof.
  intros chunk c l (Hc & Hp & _) Hpos Hs [H1 H2]. unfold prog, c_fetch. cbn [c_fetches c_off]. rewrite Hc.
  replace (chunk - c_pos c =? chunk) with false by lia. split; [lia|]. nia.
Qed.

Theorem fetch_progress : forall hint mm f v, inq_file_format f = Ok v ->
  1 <= out_fetches (open_model hint mm f) /\
  (out_fetches (open_model hint mm f) - 1) * (norm_chunk hint - 8) + norm_chunk hint
    <= out_offset (open_model hint mm f).
Proof.
  intros hint mm f v Hv. unfold open_model. rewrite Hv.
  destruct (norm_chunk_ok hint) as [H36 _]. set (chunk := norm_chunk hint) in *.
  destruct (read_header_win chunk (prog chunk) mm f ltac:(lia)) as (_ & _ & _ & Hp).
  - intros k c Hc. exact Hc.
  - apply prog_fetch.
  - unfold prog, c_init, c_fetch. cbn [c_fetches c_off c_chunk c_pos].
    rewrite Z.sub_0_r, Z.eqb_refl. cbv iota. lia.
  - destruct (read_header chunk mm f) as [r [c a]]. exact Hp.
Qed.

Example fetch_progress_ex : exists v, inq_file_format ex_valid_file = Ok v.
Proof. eexists. vm_compute. reflexivity. Qed.

(** * Part F: the record size derived at open is the WRITER's record size (Header.begins / NC_begins) *)

Lemma layout_of_hdr_recsize : forall h x,
  l_recsize (layout_of_hdr h x) =
  match Proofs_Layout.rec_vars h with
  | fr :: _ => if zsum (map (var_len (h_dims h)) (Proofs_Layout.rec_vars h)) =? var_len (h_dims h) fr
               then Proofs_Layout.unpadded (h_dims h) fr
               else zsum (map (var_len (h_dims h)) (Proofs_Layout.rec_vars h))
  | [] => 0 end.
Proof.
  intros h x. unfold layout_of_hdr, Proofs_Layout.rec_vars, Proofs_Layout.unpadded.
  destruct (h_vars h) as [|v0 vs] eqn:Ev; [reflexivity|]. rewrite <- Ev.
  destruct (filter (is_recvar (h_dims h)) (h_vars h)) as [|fr frs]; destruct (h_vars h); try congruence; reflexivity.
Qed.

(* C04: for every specification-valid file and every chunk size, the record
   size the reader derives at open (compute_var_shape) is the record size the writer-side rule of
   Header.v assigns to that header (Proofs_Layout.recsize_of = l_recsize of Header.begins, theorems
   Proofs_Layout.begins_eq / begins_layout_ok); in particular with EXACTLY ONE record variable it is that variable's
   UNPADDED size (any element size: 1, 2, 4 or 8 bytes), with none it is 0 *)
Theorem reader_recsize_writer_rule : forall hint mm f d, decode f = Some d -> c04_valid mm d = true ->
  exists o, out_res (open_model hint mm f) = Ok o /\ o_hdr o = dc_hdr d /\
    l_recsize (o_lay o) = Proofs_Layout.recsize_of (dc_hdr d) /\
    (forall v, Proofs_Layout.rec_vars (dc_hdr d) = [v] ->
               l_recsize (o_lay o) = var_nelems_per_rec (var_shape (h_dims (dc_hdr d)) v) * xlen_type (v_type v)) /\
    (Proofs_Layout.rec_vars (dc_hdr d) = [] -> l_recsize (o_lay o) = 0).
Proof.
  intros hint mm f d Hdec Hval. exists (expected_open d).
  split; [now apply reader_accepts_valid|]. split; [reflexivity|].
  pose proof (c04_valid_inv mm d Hval (decode_len f d Hdec)) as Hinv. cbv zeta in Hinv.
  destruct Hinv as (_ & _ & _ & _ & _ & Hdn & _ & _ & _ & _ & _ & _ & _ & (HQ & _) & _ & _).
  assert (Hwf : Proofs_Layout.hdr_wf (dc_hdr d)) by exact Hdn.
  assert (Hpos : forall v, In v (Proofs_Layout.rec_vars (dc_hdr d)) -> 0 < var_len (h_dims (dc_hdr d)) v).
  { intros v Hv. unfold Proofs_Layout.rec_vars in Hv. apply filter_In in Hv. destruct Hv as [Hv _].
    rewrite Forall_forall in HQ. apply (pvQ_facts _ Hdn v (HQ v Hv)). }
  assert (E : l_recsize (o_lay (expected_open d)) = Proofs_Layout.recsize_of (dc_hdr d)).
  { unfold expected_open. cbn [o_lay]. rewrite layout_of_hdr_recsize.
    rewrite Proofs_Layout.recsize_of_rule. symmetry. now apply Proofs_Layout.rs_rule_first. }
  split; [exact E|]. split.
  - intros v Hv. rewrite E. now rewrite (Proofs_Layout.recsize_single _ v Hv).
  - intros Hn. rewrite E. now apply Proofs_Layout.recsize_none.
Qed.

Example reader_recsize_writer_rule_ex : exists d, decode ex_valid_file = Some d /\ c04_valid 1048576 d = true /\
  length (Proofs_Layout.rec_vars (dc_hdr d)) = 2%nat /\ Proofs_Layout.recsize_of (dc_hdr d) = 12.
Proof.
  eexists. split; [vm_compute; reflexivity|]. vm_compute. repeat split; reflexivity.
Qed.
