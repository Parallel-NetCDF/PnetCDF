(** * Proofs_BurstBuffer: properties of the burst-buffer driver model (BurstBuffer.v).

    Part I: the model's building blocks: the two loops of ncbbio_log_flush_core agree ([rounds_agree]);
      every entry fits into the flush buffer ([log_ok], [flush_buffer_fits]); replay refines direct
      application ([flush_refines_direct], [replay_rounds_refines]); status delivery ([status_delivery],
      the old loop refuted); record-count rule; log removed at close
    Part II: sessions; the burst-buffer world refines the default driver ([read_own_writes],
      [visible_after_sync_points], [bb_equals_default])
    Part III: every replayed entry is given its own bytes of the data log ([flush_data_correct]) *)
From Coq Require Import ZArith List Bool Lia Permutation.
From Pnc Require Import Gen_consts Gen_bbflush BurstBuffer Proofs_Lists.
Import ListNotations.
Local Open Scope Z_scope.

(** ** 0. Small list helpers (not in the 8.16 standard library under a stable name) *)

Lemma In_firstn_in : forall (A : Type) (n : nat) (l : list A) (x : A), In x (firstn n l) -> In x l.
Proof.
  intros A n l x H. rewrite <- (firstn_skipn n l). apply in_or_app. left. exact H.
Qed.

Lemma In_skipn_in : forall (A : Type) (n : nat) (l : list A) (x : A), In x (skipn n l) -> In x l.
Proof.
  intros A n l x H. rewrite <- (firstn_skipn n l). apply in_or_app. right. exact H.
Qed.

Lemma flat_map_all_nil : forall (A B : Type) (f : A -> list B) (l : list A),
  (forall x, In x l -> f x = []) -> flat_map f l = [].
Proof.
  intros A B f l. induction l as [|a l IH]; intros H.
  - reflexivity.
  - cbn [flat_map]. rewrite (H a (or_introl eq_refl)). cbn [app].
    apply IH. intros x Hx. apply H. right. exact Hx.
Qed.

Lemma fold_left_map_comp : forall (A B C : Type) (g : C -> B) (h : A -> B -> A) (l : list C) (a : A),
  fold_left h (map g l) a = fold_left (fun a x => h a (g x)) l a.
Proof.
  intros A B C g h l. induction l as [|x l IH]; intros a.
  - reflexivity.
  - cbn [map fold_left]. apply IH.
Qed.

Lemma fold_left_preorder : forall (A B : Type) (R : A -> A -> Prop) (f : A -> B -> A),
  (forall a, R a a) -> (forall a b c, R a b -> R b c -> R a c) -> (forall a x, R a (f a x)) ->
  forall l a, R a (fold_left f l a).
Proof.
  intros A B R f Hr Ht Hf. induction l as [|x l IH]; intro a; [apply Hr|].
  exact (Ht _ _ _ (Hf a x) (IH _)).
Qed.

(** ** A. Keys and maps *)

Lemma zlist_eqb_spec : forall a b, zlist_eqb a b = true <-> a = b.
Proof.
  induction a as [|x a IH]; intros [|y b]; cbn [zlist_eqb]; split; intro H;
    try reflexivity; try discriminate.
  - apply andb_true_iff in H. destruct H as [H1 H2].
    apply Z.eqb_eq in H1. apply IH in H2. subst. reflexivity.
  - inversion H; subst. apply andb_true_iff. split.
    + apply Z.eqb_refl.
    + apply IH. reflexivity.
Qed.

Lemma key_eqb_spec : forall a b, key_eqb a b = true <-> a = b.
Proof.
  intros [a1 a2] [b1 b2]. unfold key_eqb. cbn [fst snd]. split; intro H.
  - apply andb_true_iff in H. destruct H as [H1 H2].
    apply Z.eqb_eq in H1. apply zlist_eqb_spec in H2. subst. reflexivity.
  - inversion H; subst. apply andb_true_iff. split.
    + apply Z.eqb_refl.
    + apply zlist_eqb_spec. reflexivity.
Qed.

Lemma key_eqb_refl : forall k, key_eqb k k = true.
Proof. intro k. apply key_eqb_spec. reflexivity. Qed.

Lemma key_eq_dec : forall a b : key, {a = b} + {a <> b}.
Proof.
  intros a b. destruct (key_eqb a b) eqn:E.
  - left. apply key_eqb_spec. exact E.
  - right. intro H. apply key_eqb_spec in H. rewrite H in E. discriminate.
Qed.

Lemma upd_same : forall f k v, upd f k v k = Some v.
Proof. intros f k v. unfold upd. rewrite key_eqb_refl. reflexivity. Qed.

Lemma upd_other : forall f k v k', k' <> k -> upd f k v k' = f k'.
Proof.
  intros f k v k' H. unfold upd. destruct (key_eqb k' k) eqn:E.
  - apply key_eqb_spec in E. contradiction.
  - reflexivity.
Qed.

Lemma apply_writes_app : forall a b f, apply_writes (a ++ b) f = apply_writes b (apply_writes a f).
Proof.
  induction a as [|kv a IH]; intros b f.
  - reflexivity.
  - cbn [app apply_writes]. apply IH.
Qed.

Lemma apply_writes_notin : forall ws f k, ~ In k (map fst ws) -> apply_writes ws f k = f k.
Proof.
  induction ws as [|kv ws IH]; intros f k H.
  - reflexivity.
  - cbn [apply_writes]. cbn [map] in H. rewrite IH.
    + apply upd_other. intro E. apply H. left. symmetry. exact E.
    + intro Hin. apply H. right. exact Hin.
Qed.

Lemma apply_writes_in : forall ws f k v, NoDup (map fst ws) -> In (k, v) ws -> apply_writes ws f k = Some v.
Proof.
  induction ws as [|kv ws IH]; intros f k v Hnd Hin.
  - destruct Hin.
  - cbn [map] in Hnd. inversion Hnd as [|x l Hnin Hnd']; subst.
    cbn [apply_writes]. destruct Hin as [Heq | Hin].
    + subst kv. cbn [fst snd] in *. rewrite apply_writes_notin by exact Hnin. apply upd_same.
    + apply IH; assumption.
Qed.

(** [apply_writes] respects equality of the starting map at a key (no functional extensionality) *)
Lemma apply_writes_ext : forall ws f g k, f k = g k -> apply_writes ws f k = apply_writes ws g k.
Proof.
  induction ws as [|kv ws IH]; intros f g k H; [exact H|].
  cbn [apply_writes]. apply IH. unfold upd. destruct (key_eqb k (fst kv)); [reflexivity | exact H].
Qed.

Lemma NoDup_keys_perm : forall a b : list wr, Permutation a b -> NoDup (map fst a) -> NoDup (map fst b).
Proof. intros a b Hp Hn. eapply Permutation_NoDup; [apply Permutation_map; exact Hp | exact Hn]. Qed.

Lemma apply_writes_perm : forall ws ws' f, Permutation ws ws' -> NoDup (map fst ws) ->
  forall k, apply_writes ws f k = apply_writes ws' f k.
Proof.
  intros ws ws' f Hp Hnd k. pose proof (NoDup_keys_perm _ _ Hp Hnd) as Hnd'.
  destruct (in_dec key_eq_dec k (map fst ws)) as [Hin | Hnin].
  - apply in_map_iff in Hin. destruct Hin as [[k0 v] [Hk Hin]]. cbn [fst] in Hk. subst k0.
    rewrite (apply_writes_in ws f k v Hnd Hin).
    rewrite (apply_writes_in ws' f k v Hnd' (Permutation_in _ Hp Hin)). reflexivity.
  - rewrite !apply_writes_notin; [reflexivity | | exact Hnin].
    intro Hin. apply Hnin. apply (Permutation_in _ (Permutation_map fst (Permutation_sym Hp))). exact Hin.
Qed.

Example apply_writes_perm_ex :
  let ws := [((1, [0; 1]), 7); ((1, [0; 2]), 8); ((2, []), 9)] in
  NoDup (map fst ws) /\ Permutation ws (rev ws) /\
  apply_writes ws fempty (1, [0; 2]) = Some 8 /\ apply_writes (rev ws) fempty (1, [0; 2]) = Some 8.
Proof.
  cbv zeta. split; [|split; [|split]].
  - repeat constructor; cbn; intuition discriminate.
  - apply Permutation_rev.
  - vm_compute. reflexivity.
  - vm_compute. reflexivity.
Qed.

(** ** B. The two loops of ncbbio_log_flush_core agree *)

(** total data length of the valid entries of a batch (what is read into the flush buffer) *)
Definition batch_bytes (b : list entry) : Z := fold_right Z.add 0 (map e_datalen (valid_entries b)).

(** the first loop with an arbitrary starting state *)
Definition cstate (buf : Z) (es : list entry) (st : Z * Z) : Z * Z := fold_left (count_step buf) es st.
Lemma count_loop_cstate : forall buf es, count_loop buf es = fst (cstate buf es (0, 0)) + 1.
Proof. reflexivity. Qed.

Lemma cstate_cons : forall buf e es st, cstate buf (e :: es) st = cstate buf es (count_step buf st e).
Proof. reflexivity. Qed.

Lemma scan_batch_cons : forall buf used e r,
  scan_batch buf used (e :: r) =
  if e_valid e
  then if buf <? e_datalen e + used then ([], e :: r)
       else (e :: fst (scan_batch buf (used + e_datalen e) r), snd (scan_batch buf (used + e_datalen e) r))
  else (e :: fst (scan_batch buf used r), snd (scan_batch buf used r)).
Proof. reflexivity. Qed.

Lemma scan_batch_app : forall buf es used,
  fst (scan_batch buf used es) ++ snd (scan_batch buf used es) = es.
Proof.
  intros buf es. induction es as [|e r IH]; intros used.
  - reflexivity.
  - rewrite scan_batch_cons. destruct (e_valid e).
    + destruct (buf <? e_datalen e + used).
      * reflexivity.
      * cbn [fst snd app]. rewrite IH. reflexivity.
    + cbn [fst snd app]. rewrite IH. reflexivity.
Qed.

(** where the scan breaks, the count loop increments exactly once *)
Lemma scan_count : forall buf es used n,
  match snd (scan_batch buf used es) with
  | [] => fst (cstate buf es (n, used)) = n
  | e :: r => e_valid e = true /\ cstate buf es (n, used) = cstate buf r (n + 1, e_datalen e)
  end.
Proof.
  intros buf es. induction es as [|e r IH]; intros used n.
  - reflexivity.
  - rewrite scan_batch_cons. rewrite cstate_cons. unfold count_step. cbn [fst snd].
    destruct (e_valid e) eqn:Ev.
    + destruct (buf <? e_datalen e + used) eqn:Eb.
      * cbn [snd]. split; [exact Ev | reflexivity].
      * cbn [snd]. apply IH.
    + cbn [snd]. apply IH.
Qed.

Lemma scan_batch_progress : forall buf e r,
  (e_valid e = true -> e_datalen e <= buf) -> fst (scan_batch buf 0 (e :: r)) <> [].
Proof.
  intros buf e r H. rewrite scan_batch_cons. destruct (e_valid e).
  - destruct (buf <? e_datalen e + 0) eqn:Eb.
    + apply Z.ltb_lt in Eb. specialize (H eq_refl). lia.
    + cbn [fst]. discriminate.
  - cbn [fst]. discriminate.
Qed.

Lemma scan_batch_bytes : forall buf es used,
  valid_entries (fst (scan_batch buf used es)) = [] \/
  used + batch_bytes (fst (scan_batch buf used es)) <= buf.
Proof.
  intros buf es. induction es as [|e r IH]; intros used.
  - left. reflexivity.
  - rewrite scan_batch_cons. unfold batch_bytes, valid_entries. destruct (e_valid e) eqn:Ev.
    + destruct (buf <? e_datalen e + used) eqn:Eb; [left; reflexivity|].
      right. apply Z.ltb_ge in Eb. cbn [fst filter]. rewrite Ev. cbn [map fold_right].
      destruct (IH (used + e_datalen e)) as [H0 | Hle].
      * unfold valid_entries in H0. rewrite H0. cbn [map fold_right]. lia.
      * unfold batch_bytes, valid_entries in Hle. lia.
    + cbn [fst filter]. rewrite Ev. apply IH.
Qed.

(** the count loop along the first batch: the entry that opens the next round fits into the
    empty buffer, so the loop goes on as if started afresh on the rest, with one more round *)
Lemma cstate_unfold : forall buf es n,
  (forall e, In e es -> e_valid e = true -> 0 <= e_datalen e <= buf) ->
  fst (cstate buf es (n, 0)) =
  match snd (scan_batch buf 0 es) with
  | [] => n
  | _ :: _ => fst (cstate buf (snd (scan_batch buf 0 es)) (n + 1, 0))
  end.
Proof.
  intros buf es n Hb.
  pose proof (scan_count buf es 0 n) as Hs. pose proof (scan_batch_app buf es 0) as Happ.
  destruct (snd (scan_batch buf 0 es)) as [|e r]; [exact Hs|]. destruct Hs as [Hv ->].
  assert (Hin : In e es) by (rewrite <- Happ; apply in_or_app; right; left; reflexivity).
  specialize (Hb e Hin Hv).
  rewrite cstate_cons. unfold count_step. cbn [fst snd]. rewrite Hv.
  replace (buf <? e_datalen e + 0) with false by (symmetry; apply Z.ltb_ge; lia). reflexivity.
Qed.

Lemma batch_loop_cons : forall f buf e r,
  batch_loop (S f) buf (e :: r) =
  match batch_loop f buf (snd (scan_batch buf 0 (e :: r))) with
  | Some bs => Some (fst (scan_batch buf 0 (e :: r)) :: bs)
  | None => None
  end.
Proof. reflexivity. Qed.

Lemma batch_loop_nil : forall f buf, batch_loop f buf [] = Some [].
Proof. intros [|f] buf; reflexivity. Qed.

(** core: any fuel [>= length es] is enough, because every round takes at least one entry *)
Lemma rounds_core : forall buf n es, (length es <= n)%nat ->
  (forall e, In e es -> e_valid e = true -> 0 <= e_datalen e <= buf) ->
  exists bs, batch_loop n buf es = Some bs
    /\ concat bs = es
    /\ (forall b, In b bs -> b <> [])
    /\ (forall m, fst (cstate buf es (m, 0)) + match es with [] => 0 | _ => 1 end = m + Z.of_nat (length bs))
    /\ (forall b, In b bs -> valid_entries b = [] \/ batch_bytes b <= buf).
Proof.
  intros buf n. induction n as [|n IH]; intros es Hlen Hb;
    (destruct es as [|e r];
     [rewrite batch_loop_nil; exists []; repeat split; try (intros b []); intro m; unfold cstate; cbn [fold_left fst length]; lia |]).
  - cbn [length] in Hlen. lia.
  - rewrite batch_loop_cons. pose proof (fun m => cstate_unfold buf (e :: r) m Hb) as Hcnt.
    pose proof (scan_batch_app buf (e :: r) 0) as Happ.
    pose proof (scan_batch_progress buf e r (fun Hv => proj2 (Hb e (or_introl eq_refl) Hv))) as Hbne.
    pose proof (scan_batch_bytes buf (e :: r) 0) as Hbytes.
    destruct (scan_batch buf 0 (e :: r)) as [b rest]. cbn [fst snd] in *.
    destruct (IH rest) as (bs' & -> & Hcat & Hne & Hcount & Hsz).
    { apply (f_equal (@length entry)) in Happ. rewrite app_length in Happ.
      destruct b; [contradiction|]. cbn [length] in *. lia. }
    { intros x Hx. apply Hb. rewrite <- Happ. apply in_or_app. right. exact Hx. }
    exists (b :: bs'). split; [reflexivity|].
    split; [cbn [concat]; rewrite Hcat; exact Happ|].
    split; [intros x [<- | Hx]; [exact Hbne | exact (Hne x Hx)]|].
    split.
    { intro m. rewrite Hcnt. cbn [length]. specialize (Hcount (m + 1)).
      destruct rest; [unfold cstate in Hcount; cbn [fold_left fst] in Hcount|]; lia. }
    intros x [<- | Hx]; [exact Hbytes | exact (Hsz x Hx)].
Qed.

(** no hypothesis on the sign of [buf]: the last conjunct of [rounds_agree_full]
    ([batch_bytes b <= buf]) is false when [buf < 0] and every entry is cancelled
    ([rounds_agree_refuted]); the true bound is [Z.max 0 buf]. *)
Theorem rounds_agree_partial : forall buf es,
  (forall e, In e es -> e_valid e = true -> 0 <= e_datalen e <= buf) ->
  exists bs, batch_loop (S (length es)) buf es = Some bs
    /\ concat bs = es
    /\ (forall b, In b bs -> b <> [])
    /\ (es <> [] -> Z.of_nat (length bs) = count_loop buf es)
    /\ (es = [] -> bs = [] /\ count_loop buf es = 1)
    /\ (forall b, In b bs -> fold_right Z.add 0 (map e_datalen (valid_entries b)) <= Z.max 0 buf)
    /\ (forall b, In b bs -> valid_entries b <> [] -> fold_right Z.add 0 (map e_datalen (valid_entries b)) <= buf).
Proof.
  intros buf es Hb.
  destruct (rounds_core buf (S (length es)) es (Nat.le_succ_diag_r _) Hb) as (bs & Hbl & Hcat & Hne & Hcount & Hsz).
  exists bs. split; [exact Hbl|]. split; [exact Hcat|]. split; [exact Hne|].
  specialize (Hcount 0). rewrite count_loop_cstate.
  split; [destruct es; [intro H; contradiction | intros _; lia]|].
  split.
  { intros ->. split; [|reflexivity]. cbn in Hcount. destruct bs; [reflexivity | discriminate Hcount]. }
  split; intros b Hin; fold (batch_bytes b); destruct (Hsz b Hin) as [H0 | Hle].
  - unfold batch_bytes. rewrite H0. cbn [map fold_right]. lia.
  - lia.
  - intro Hv. contradiction.
  - intros _. exact Hle.
Qed.

(** the full statement (no sign hypothesis on [buf]) ... *)
Definition rounds_agree_full : Prop := forall buf es,
  (forall e, In e es -> e_valid e = true -> 0 <= e_datalen e <= buf) ->
  exists bs, batch_loop (S (length es)) buf es = Some bs
    /\ concat bs = es
    /\ (forall b, In b bs -> b <> [])
    /\ (es <> [] -> Z.of_nat (length bs) = count_loop buf es)
    /\ (es = [] -> bs = [] /\ count_loop buf es = 1)
    /\ (forall b, In b bs -> fold_right Z.add 0 (map e_datalen (valid_entries b)) <= buf).

Definition ex_req (n : Z) : request := RVar 0 false 1 [0] (Some [n]) None [].
Definition ex_entry (valid : bool) (id len line : Z) : entry :=
  mkEntry valid id 64 BB_KIND_VARA 0 len (ex_req len) line.

(** ... is false: negative buffer size, one cancelled entry: the batch holds 0 bytes > buf. *)
Lemma rounds_agree_refuted : ~ rounds_agree_full.
Proof.
  intro H. specialize (H (-1) [ex_entry false (-1) 5 1]).
  destruct H as (bs & Hbl & _ & _ & _ & _ & Hsz).
  - intros e [He | []] Hv. subst e. discriminate Hv.
  - vm_compute in Hbl. inversion Hbl; subst bs.
    specialize (Hsz _ (or_introl eq_refl)). vm_compute in Hsz. apply Hsz. reflexivity.
Qed.

(** [0 <= buf] always holds in the driver: the buffer size is at least the data-log header *)
Theorem rounds_agree : forall buf es, 0 <= buf ->
  (forall e, In e es -> e_valid e = true -> 0 <= e_datalen e <= buf) ->
  exists bs, batch_loop (S (length es)) buf es = Some bs
    /\ concat bs = es                                   (* every entry replayed exactly once, in order *)
    /\ (forall b, In b bs -> b <> [])                   (* every round makes progress: no spinning *)
    /\ (es <> [] -> Z.of_nat (length bs) = count_loop buf es)   (* count loop = batch loop *)
    /\ (es = [] -> bs = [] /\ count_loop buf es = 1)    (* empty log: one participation round *)
    /\ (forall b, In b bs -> fold_right Z.add 0 (map e_datalen (valid_entries b)) <= buf).
Proof.
  intros buf es H0 Hb.
  destruct (rounds_agree_partial buf es Hb) as (bs & Hbl & Hcat & Hne & Hcount & Hnil & Hsz & _).
  exists bs. repeat (split; [assumption|]).
  intros b Hin. specialize (Hsz b Hin). lia.
Qed.

(** a 3-entry log with one cancelled entry, buffer 10: two rounds *)
Definition ex_log3 : list entry := [ex_entry true 0 6 1; ex_entry false 1 9 2; ex_entry true (-1) 7 3].

Example rounds_agree_ex :
  (forall e, In e ex_log3 -> e_valid e = true -> 0 <= e_datalen e <= 10) /\
  batch_loop (S (length ex_log3)) 10 ex_log3
    = Some [[ex_entry true 0 6 1; ex_entry false 1 9 2]; [ex_entry true (-1) 7 3]] /\
  count_loop 10 ex_log3 = 2.
Proof.
  split; [|split].
  - intros e [H | [H | [H | []]]] Hv; subst e; cbn [e_datalen ex_entry]; first [lia | discriminate Hv].
  - vm_compute. reflexivity.
  - vm_compute. reflexivity.
Qed.

(** without the bound [e_datalen e <= buf] the batch loop spins while the count loop answers *)
Example rounds_refuted_without_bound :
  e_valid (ex_entry true (-1) 11 1) = true /\
  batch_loop 100 10 [ex_entry true (-1) 11 1] = None /\
  count_loop 10 [ex_entry true (-1) 11 1] = 2.
Proof. vm_compute. repeat split. Qed.

(** ** C. Buffer-size invariant: every entry fits into the flush buffer *)

Definition log_ok (l : logst) : Prop :=
  forall e, In e (l_entries l) -> 0 <= e_datalen e <= l_maxentry l.

Definition counts_nonneg (c : option (list Z)) : Prop :=
  match c with Some c => Forall (fun x => 0 <= x) c | None => True end.

Definition req_ok (r : request) : Prop :=
  match r with
  | RVar _ _ elsz _ cnt _ _ => 0 <= elsz /\ counts_nonneg cnt
  | RVarn _ _ elsz subs _ _ => 0 <= elsz /\ Forall (fun sc => counts_nonneg (snd sc)) subs
  end.

Lemma put_size_var_nonneg : forall elsz c, 0 <= elsz -> counts_nonneg c -> 0 <= put_size_var elsz c.
Proof.
  intros elsz c He Hc. unfold put_size_var. destruct c as [c|].
  - apply Z.mul_nonneg_nonneg; [exact He | apply zprod_nonneg; exact Hc].
  - lia.
Qed.

Lemma sub_count_nonneg : forall hc sc, counts_nonneg (snd sc) -> counts_nonneg (sub_count hc sc).
Proof.
  intros hc sc H. unfold sub_count. destruct hc; [exact H | exact I].
Qed.

Lemma varn_step_fst : forall elsz isrec hc acc sc,
  fst (varn_step elsz isrec hc acc sc) = fst acc + put_size_var elsz (sub_count hc sc).
Proof.
  intros elsz isrec hc acc sc. unfold varn_step. cbv zeta.
  destruct (put_size_var elsz (sub_count hc sc) =? 0); [reflexivity|].
  destruct isrec; reflexivity.
Qed.

Lemma varn_scan_fst_ge : forall elsz isrec hc subs acc, 0 <= elsz ->
  Forall (fun sc => counts_nonneg (snd sc)) subs ->
  fst acc <= fst (fold_left (varn_step elsz isrec hc) subs acc).
Proof.
  intros elsz isrec hc subs. induction subs as [|sc subs IH]; intros acc He Hs.
  - cbn [fold_left]. lia.
  - inversion Hs as [|x l Hsc Hrest]; subst. cbn [fold_left].
    specialize (IH (varn_step elsz isrec hc acc sc) He Hrest).
    rewrite varn_step_fst in IH.
    pose proof (put_size_var_nonneg elsz (sub_count hc sc) He (sub_count_nonneg hc sc Hsc)). lia.
Qed.

Lemma buffer_size_ge_max : forall hint l, l_maxentry l <= buffer_size hint l.
Proof.
  intros hint l. unfold buffer_size. cbv zeta.
  set (b := if (0 <? hint) && (hint <? l_datalogsize l) then hint else l_datalogsize l).
  destruct (b <? l_maxentry l) eqn:E.
  - lia.
  - apply Z.ltb_ge in E. exact E.
Qed.

Lemma log_init_ok : log_ok log_init.
Proof. intros e H. destruct H. Qed.

Lemma log_ok_snoc : forall l e dls m rd, log_ok l -> 0 <= e_datalen e <= m -> l_maxentry l <= m ->
  log_ok (mkLogst (l_entries l ++ [e]) dls m rd).
Proof.
  intros l e dls m rd Hl He Hm x Hin. cbn [l_entries l_maxentry] in *.
  apply in_app_or in Hin. destruct Hin as [Hin | [<- | []]]; [specialize (Hl x Hin); lia | exact He].
Qed.

Lemma log_put_ok : forall line r l, req_ok r -> log_ok l -> log_ok (log_put line r l).
Proof.
  intros line r l Hr Hl. destruct r as [vid isrec elsz st cnt str data | vid isrec elsz subs hc data];
    destruct Hr as [He Hs]; unfold log_put.
  - pose proof (put_size_var_nonneg elsz cnt He Hs) as Hp.
    destruct (put_size_var elsz cnt =? 0); [exact Hl|].
    apply log_ok_snoc; [exact Hl | cbn [e_datalen] | ]; lia.
  - pose proof (varn_scan_fst_ge elsz isrec hc subs (0, l_recdim l) He Hs) as Hp.
    cbn [fst] in Hp. fold (varn_scan elsz isrec hc subs (l_recdim l)) in Hp.
    apply log_ok_snoc; [exact Hl | cbn [e_datalen] | ]; lia.
Qed.

Lemma log_reset_ok : forall l, log_ok (log_reset l).
Proof. intros l e H. destruct H. Qed.

(** [log_ok] is preserved by the two in-place edits of a range of the entry list (iput, cancel) *)
Lemma log_ok_edit_range : forall (f : entry -> entry) a n b l, (forall e, e_datalen (f e) = e_datalen e) ->
  log_ok l ->
  log_ok (mkLogst (firstn a (l_entries l) ++ map f (firstn n (skipn a (l_entries l))) ++ skipn b (l_entries l))
                  (l_datalogsize l) (l_maxentry l) (l_recdim l)).
Proof.
  intros f a n b l Hf Hl e Hin. cbn [l_entries l_maxentry] in *.
  rewrite !in_app_iff, in_map_iff in Hin. destruct Hin as [H | [(e0 & <- & H) | H]].
  - apply Hl. eapply In_firstn_in. exact H.
  - rewrite Hf. apply Hl. eapply In_skipn_in. eapply In_firstn_in. exact H.
  - apply Hl. eapply In_skipn_in. exact H.
Qed.

Lemma mark_range_ok : forall id a b l, log_ok l ->
  log_ok (mkLogst (mark_range id a b (l_entries l)) (l_datalogsize l) (l_maxentry l) (l_recdim l)).
Proof. intros id a b l. apply log_ok_edit_range. reflexivity. Qed.

Lemma invalidate_ok : forall a b l, log_ok l ->
  log_ok (mkLogst (invalidate a b (l_entries l)) (l_datalogsize l) (l_maxentry l) (l_recdim l)).
Proof. intros a b l. apply log_ok_edit_range. reflexivity. Qed.

Corollary flush_buffer_fits : forall hint l, log_ok l ->
  forall e, In e (l_entries l) -> e_valid e = true -> 0 <= e_datalen e <= buffer_size hint l.
Proof.
  intros hint l Hl e Hin _. specialize (Hl e Hin).
  pose proof (buffer_size_ge_max hint l). lia.
Qed.

Definition ex_req3 : request := RVar 1 true 4 [2; 0] (Some [3; 5]) None (repeat 7 15).
Definition ex_reqn : request := RVarn 2 true 8 [([0; 1], Some [1; 2]); ([4; 0], Some [2; 2])] true (repeat 1 6).

Example log_put_ok_ex :
  req_ok ex_req3 /\ req_ok ex_reqn /\
  map e_datalen (l_entries (log_put 2 ex_reqn (log_put 1 ex_req3 log_init))) = [60; 48] /\
  l_maxentry (log_put 2 ex_reqn (log_put 1 ex_req3 log_init)) = 60 /\
  buffer_size 16 (log_put 2 ex_reqn (log_put 1 ex_req3 log_init)) = 60.
Proof.
  split; [|split; [|split; [|split]]].
  - unfold ex_req3, req_ok, counts_nonneg. split; [lia|]. repeat constructor; lia.
  - unfold ex_reqn, req_ok, counts_nonneg. split; [lia|]. repeat constructor; cbn [snd]; lia.
  - vm_compute. reflexivity.
  - vm_compute. reflexivity.
  - vm_compute. reflexivity.
Qed.

(** ** D. Per-rank flush and the multi-rank agreement *)

Definition is_wait (e : event) : bool := match e with EvW _ _ => true | _ => false end.

Lemma filter_is_wait_map_EvI : forall (A : Type) (f : A -> Z) (l : list A),
  filter is_wait (map (fun e => EvI (f e)) l) = [].
Proof.
  intros A f l. induction l as [|a l IH]; [reflexivity|]. cbn [map filter is_wait]. exact IH.
Qed.

Lemma batch_events_waits : forall coll b, length (filter is_wait (batch_events coll b)) = 1%nat.
Proof.
  intros coll b. unfold batch_events. rewrite filter_app.
  rewrite (filter_is_wait_map_EvI entry e_line). reflexivity.
Qed.

Lemma run_batches_cons : forall coll inj b r g pl,
  run_batches coll inj (b :: r) g pl =
  (batch_events coll b ++ fst (run_batches coll inj r (g + Z.of_nat (length (valid_entries b)))
                                            (deliver_c b (batch_stats inj g b) pl)),
   snd (run_batches coll inj r (g + Z.of_nat (length (valid_entries b)))
                    (deliver_c b (batch_stats inj g b) pl))).
Proof. reflexivity. Qed.

Lemma run_batches_waits : forall coll inj bs g pl,
  length (filter is_wait (fst (run_batches coll inj bs g pl))) = length bs.
Proof.
  intros coll inj bs. induction bs as [|b r IH]; intros g pl.
  - reflexivity.
  - rewrite run_batches_cons. cbn [fst]. rewrite filter_app, app_length.
    rewrite batch_events_waits. rewrite IH. reflexivity.
Qed.

Lemma run_batches_wait_mode : forall coll inj bs g pl n c,
  In (EvW n c) (fst (run_batches coll inj bs g pl)) -> c = coll.
Proof.
  intros coll inj bs. induction bs as [|b r IH]; intros g pl n c H.
  - destruct H.
  - rewrite run_batches_cons in H. cbn [fst] in H. apply in_app_or in H. destruct H as [H | H].
    + unfold batch_events in H. apply in_app_or in H. destruct H as [H | H].
      * apply in_map_iff in H. destruct H as [x [Hx _]]. discriminate Hx.
      * destruct H as [H | []]. inversion H. reflexivity.
    + eapply IH. exact H.
Qed.

Lemma filter_is_wait_repeat : forall n c k, filter is_wait (repeat (EvW n c) k) = repeat (EvW n c) k.
Proof.
  intros n c k. induction k as [|k IH]; [reflexivity|]. cbn [repeat filter is_wait]. rewrite IH. reflexivity.
Qed.

Theorem flush_core_rank_ok : forall hint indep inj nall l pl g,
  log_ok l -> count_loop (buffer_size hint l) (l_entries l) <= nall ->
  exists fr, flush_core_rank hint indep inj nall l pl g = Some fr
    /\ concat (fr_batches fr) = l_entries l
    /\ 0 <= fr_trailing fr
    /\ Z.of_nat (length (filter is_wait (fr_events fr))) = nall
    (* additional facts used at session level *)
    /\ fr_trailing fr = nall - Z.of_nat (length (fr_batches fr))
    /\ (l_entries l <> [] ->
        Z.of_nat (length (fr_batches fr)) = count_loop (buffer_size hint l) (l_entries l))
    /\ (l_entries l = [] -> fr_batches fr = [] /\ fr_trailing fr = nall)
    /\ (forall b, In b (fr_batches fr) -> b <> [])
    /\ fr_events fr = fst (run_batches (negb indep) inj (fr_batches fr) g pl)
                      ++ repeat (EvW 0 true) (Z.to_nat (fr_trailing fr))
    /\ fr_putlist fr = fst (snd (run_batches (negb indep) inj (fr_batches fr) g pl))
    /\ fr_g fr = snd (snd (run_batches (negb indep) inj (fr_batches fr) g pl)).
Proof.
  intros hint indep inj nall l pl g Hl Hn.
  destruct (rounds_agree_partial (buffer_size hint l) (l_entries l) (flush_buffer_fits hint l Hl))
    as (bs & Hbl & Hcat & Hne & Hcount & Hnil & _).
  unfold flush_core_rank. cbv zeta. rewrite Hbl.
  assert (Htr : 0 <= nall - Z.of_nat (length bs)).
  { destruct (l_entries l) as [|e r] eqn:Ees.
    - destruct (Hnil eq_refl) as [Hbs H1]. subst bs. cbn [length]. lia.
    - rewrite Hcount by discriminate. lia. }
  destruct (nall - Z.of_nat (length bs) <? 0) eqn:Elt; [apply Z.ltb_lt in Elt; lia|].
  eexists. split; [reflexivity|]. cbn [fr_batches fr_trailing fr_events fr_putlist fr_g].
  split; [exact Hcat|]. split; [exact Htr|].
  split.
  { rewrite filter_app, app_length, run_batches_waits, filter_is_wait_repeat, repeat_length. lia. }
  split; [reflexivity|]. split; [exact Hcount|].
  split.
  { intro E. destruct (Hnil E) as [Hbs _]. subst bs. split; [reflexivity | cbn [length]; lia]. }
  split; [exact Hne|]. repeat split.
Qed.

Example flush_core_rank_ok_ex :
  let l := mkLogst ex_log3 30 9 0 in
  log_ok l /\ buffer_size 10 l = 10 /\ count_loop (buffer_size 10 l) (l_entries l) = 2 /\
  (exists fr, flush_core_rank 10 false (fun _ => 0) 3 l [] 0 = Some fr /\ fr_trailing fr = 1 /\
     fr_events fr = [EvI 1; EvW 1 true; EvI 3; EvW 1 true; EvW 0 true]).
Proof.
  cbv zeta. split; [|split; [|split]].
  - intros e [H | [H | [H | []]]]; subst e; cbn [e_datalen ex_entry l_maxentry]; lia.
  - vm_compute. reflexivity.
  - vm_compute. reflexivity.
  - eexists. split; [vm_compute; reflexivity|]. split; reflexivity.
Qed.

Lemma fold_left_zmax_ge : forall l a,
  a <= fold_left Z.max l a /\ forall x, In x l -> x <= fold_left Z.max l a.
Proof.
  induction l as [|y l IH]; intros a.
  - cbn [fold_left]. split; [lia | intros x []].
  - cbn [fold_left]. destruct (IH (Z.max a y)) as [H1 H2]. split; [lia|].
    intros x [Hx | Hx]; [subst x; lia | apply H2; exact Hx].
Qed.

Lemma zmax_list_ge : forall l x, In x l -> x <= zmax_list l.
Proof. intros l x H. unfold zmax_list. apply (proj2 (fold_left_zmax_ge l 0)). exact H. Qed.

Lemma zmax_list_nonneg : forall l, 0 <= zmax_list l.
Proof. intros l. unfold zmax_list. apply (proj1 (fold_left_zmax_ge l 0)). Qed.

(** MPI_Allreduce(MAX) of the round counts dominates every rank's own count
    (the [Forall] hypothesis is not needed for this inequality; it is kept because the
    consumer [flush_all_rank_ok] needs it) *)
Theorem collective_rounds_agree : forall cfg rs, Forall (fun r => log_ok (r_log r)) rs ->
  forall r, In r rs -> rank_rounds cfg r <= zmax_list (map (rank_rounds cfg) rs).
Proof.
  intros cfg rs _ r Hin. apply zmax_list_ge. apply in_map. exact Hin.
Qed.

(** hence in a collective flush every rank completes, with exactly [nall] waits *)
Corollary flush_all_rank_ok : forall cfg rs, Forall (fun r => log_ok (r_log r)) rs ->
  forall r inj, In r rs ->
  let nall := zmax_list (map (rank_rounds cfg) rs) in
  exists fr, flush_core_rank (c_hint cfg) false inj nall (r_log r) (r_pl r) (r_g r) = Some fr
    /\ concat (fr_batches fr) = l_entries (r_log r)
    /\ 0 <= fr_trailing fr
    /\ Z.of_nat (length (filter is_wait (fr_events fr))) = nall
    /\ (length (fr_batches fr) <= Z.to_nat nall)%nat.
Proof.
  intros cfg rs Hall r inj Hin nall.
  assert (Hl : log_ok (r_log r)) by (rewrite Forall_forall in Hall; apply Hall; exact Hin).
  pose proof (collective_rounds_agree cfg rs Hall r Hin) as Hle. fold nall in Hle. unfold rank_rounds in Hle.
  destruct (flush_core_rank_ok (c_hint cfg) false inj nall (r_log r) (r_pl r) (r_g r) Hl Hle)
    as (fr & Hfr & Hcat & Htr & Hw & Htreq & _).
  exists fr. repeat (split; [assumption|]). lia.
Qed.

Example collective_rounds_agree_ex :
  let cfg := mkCfg 10 true (fun _ _ => 0) in
  let r1 := set_log (mkLogst ex_log3 30 9 0) rank_init in
  let rs := [r1; rank_init] in
  Forall (fun r => log_ok (r_log r)) rs /\ map (rank_rounds cfg) rs = [2; 1] /\
  zmax_list (map (rank_rounds cfg) rs) = 2.
Proof.
  cbv zeta. split; [|split].
  - constructor; [|constructor; [|constructor]].
    + intros e [H | [H | [H | []]]]; subst e; cbn; lia.
    + exact log_init_ok.
  - vm_compute. reflexivity.
  - vm_compute. reflexivity.
Qed.

Theorem indep_no_collective_wait : forall hint inj l pl g, log_ok l -> l_entries l <> [] ->
  exists fr, flush_core_rank hint true inj (count_loop (buffer_size hint l) (l_entries l)) l pl g = Some fr
    /\ fr_trailing fr = 0
    /\ forall n, In (EvW n true) (fr_events fr) -> False.
Proof.
  intros hint inj l pl g Hl Hne.
  destruct (flush_core_rank_ok hint true inj (count_loop (buffer_size hint l) (l_entries l)) l pl g Hl
              (Z.le_refl _)) as (fr & Hfr & _ & _ & _ & Htreq & Hcount & _ & _ & Hev & _).
  exists fr. split; [exact Hfr|].
  assert (Ht0 : fr_trailing fr = 0) by (rewrite Htreq, (Hcount Hne); lia).
  split; [exact Ht0|].
  intros n Hin. rewrite Hev, Ht0 in Hin. cbn [Z.to_nat repeat] in Hin. rewrite app_nil_r in Hin.
  apply run_batches_wait_mode in Hin. discriminate Hin.
Qed.

Example indep_no_collective_wait_ex :
  let l := mkLogst ex_log3 30 9 0 in
  log_ok l /\ l_entries l <> [] /\
  (exists fr, flush_core_rank 10 true (fun _ => 0) (count_loop (buffer_size 10 l) (l_entries l)) l [] 0 = Some fr /\
     fr_events fr = [EvI 1; EvW 1 false; EvI 3; EvW 1 false]).
Proof.
  cbv zeta. split; [|split].
  - intros e [H | [H | [H | []]]]; subst e; cbn [e_datalen ex_entry l_maxentry]; lia.
  - discriminate.
  - eexists. split; vm_compute; reflexivity.
Qed.

(** ** E. Replay refines direct application, for any batching and any order inside a batch *)

Lemma log_writes_app : forall a b, log_writes (a ++ b) = log_writes a ++ log_writes b.
Proof. intros a b. unfold log_writes. apply flat_map_app. Qed.

Lemma log_writes_concat : forall bs, log_writes (concat bs) = concat (map log_writes bs).
Proof.
  induction bs as [|b bs IH]; [reflexivity|].
  cbn [concat map]. rewrite log_writes_app, IH. reflexivity.
Qed.

Section Order.
  Variable ord : list wr -> list wr.
  Hypothesis ord_perm : forall l, Permutation (ord l) l.

  (** applying chunk after chunk, each chunk in an order chosen by [ord] *)
  Definition apply_chunks (chunks : list (list wr)) (f : fmap) : fmap :=
    fold_left (fun f c => apply_writes (ord c) f) chunks f.

  Lemma apply_chunks_ext : forall chunks f g k, f k = g k -> apply_chunks chunks f k = apply_chunks chunks g k.
  Proof.
    induction chunks as [|c chunks IH]; intros f g k H; [exact H|].
    unfold apply_chunks. cbn [fold_left]. apply IH. apply apply_writes_ext. exact H.
  Qed.

  Lemma apply_chunks_concat : forall chunks f, NoDup (map fst (concat chunks)) ->
    forall k, apply_chunks chunks f k = apply_writes (concat chunks) f k.
  Proof.
    induction chunks as [|c chunks IH]; intros f Hnd k.
    - reflexivity.
    - cbn [concat] in Hnd. rewrite map_app in Hnd.
      unfold apply_chunks. cbn [fold_left concat]. fold (apply_chunks chunks (apply_writes (ord c) f)).
      rewrite apply_writes_app, <- (IH _ (proj1 (proj2 (NoDup_app_inv _ _ _ Hnd)))).
      apply apply_chunks_ext. apply apply_writes_perm; [apply ord_perm|].
      apply (NoDup_keys_perm c); [apply Permutation_sym; apply ord_perm | exact (proj1 (NoDup_app_inv _ _ _ Hnd))].
  Qed.

    Lemma apply_sequence_perm : forall chunks ws f, Permutation (concat chunks) ws ->
    NoDup (map fst ws) ->
    forall k, apply_chunks chunks f k = apply_writes ws f k.
  Proof.
    intros chunks ws f Hp Hnd k.
    pose proof (NoDup_keys_perm _ _ (Permutation_sym Hp) Hnd) as Hnd'.
    rewrite (apply_chunks_concat chunks f Hnd' k).
    apply apply_writes_perm; assumption.
  Qed.

  Lemma replay_chunks : forall bs f, replay ord bs f = apply_chunks (map log_writes bs) f.
  Proof.
    intros bs f. unfold replay, apply_chunks, commit_batch.
    rewrite fold_left_map_comp. reflexivity.
  Qed.

  (** *** Multi-rank rounds *)

  Lemma replay_rounds_chunks : forall bss n f,
    replay_rounds ord bss n f =
    apply_chunks (map (fun k => log_writes (round_entries bss k)) (seq 0 n)) f.
  Proof.
    intros bss n f. unfold replay_rounds, apply_chunks, commit_batch.
    rewrite fold_left_map_comp. reflexivity.
  Qed.
End Order.

Lemma flat_map_app_perm : forall (A B : Type) (f g : A -> list B) (l : list A),
  Permutation (flat_map (fun x => f x ++ g x) l) (flat_map f l ++ flat_map g l).
Proof.
  intros A B f g l. induction l as [|a l IH].
  - apply perm_nil.
  - cbn [flat_map]. rewrite <- !app_assoc. apply Permutation_app_head.
    eapply Permutation_trans; [apply Permutation_app_head; exact IH|].
    apply Permutation_app_swap_app.
Qed.

(** reading one rank's batches round by round gives back its log, if [n] bounds the number of batches *)
Lemma rounds_of_rank : forall (bs : list (list entry)) n, (length bs <= n)%nat ->
  flat_map (fun k => log_writes (nth k bs [])) (seq 0 n) = log_writes (concat bs).
Proof.
  induction bs as [|b bs IH]; intros n Hlen.
  - apply flat_map_all_nil. intros k _. destruct k; reflexivity.
  - destruct n as [|n]; [cbn [length] in Hlen; lia|].
    cbn [seq flat_map nth concat]. rewrite log_writes_app. f_equal.
    rewrite <- seq_shift. rewrite flat_map_map_comm. cbn [nth].
    apply IH. cbn [length] in Hlen. lia.
Qed.

Lemma rounds_perm : forall bss n, (forall bs, In bs bss -> (length bs <= n)%nat) ->
  Permutation (flat_map (fun k => log_writes (round_entries bss k)) (seq 0 n))
              (flat_map (fun bs => log_writes (concat bs)) bss).
Proof.
  induction bss as [|bs bss IH]; intros n Hlen.
  - cbn [flat_map]. rewrite flat_map_all_nil; [apply perm_nil | reflexivity].
  - cbn [flat_map].
    rewrite (flat_map_ext _ (fun k => log_writes (nth k bs []) ++ log_writes (round_entries bss k)))
      by (intro k; apply log_writes_app).
    eapply Permutation_trans; [apply flat_map_app_perm|].
    rewrite (rounds_of_rank bs n (Hlen bs (or_introl eq_refl))).
    apply Permutation_app_head. apply IH. intros x Hx. apply Hlen. right. exact Hx.
Qed.

Theorem flush_refines_direct : forall ord, (forall l, Permutation (ord l) l) -> forall bs f,
  NoDup (map fst (log_writes (concat bs))) ->
  forall k, replay ord bs f k = apply_writes (log_writes (concat bs)) f k.
Proof.
  intros ord Hord bs f Hnd k. rewrite replay_chunks. rewrite log_writes_concat in *.
  apply (apply_chunks_concat ord Hord). exact Hnd.
Qed.

Theorem replay_rounds_refines : forall ord, (forall l, Permutation (ord l) l) -> forall bss n f,
  (forall bs, In bs bss -> (length bs <= n)%nat) ->
  NoDup (map fst (flat_map (fun bs => log_writes (concat bs)) bss)) ->
  forall k, replay_rounds ord bss n f k = apply_writes (flat_map (fun bs => log_writes (concat bs)) bss) f k.
Proof.
  intros ord Hord bss n f Hlen Hnd k. rewrite replay_rounds_chunks.
  apply (apply_sequence_perm ord Hord); [|exact Hnd].
  rewrite <- flat_map_concat_map. apply rounds_perm. exact Hlen.
Qed.

(** the SPEC side: a sequence of direct puts *)
Lemma direct_puts_map : forall reqs f0,
  lf_map (fold_left (fun f r => direct_put r f) reqs f0) = apply_writes (flat_map req_writes reqs) (lf_map f0).
Proof.
  induction reqs as [|r reqs IH]; intros f0.
  - reflexivity.
  - cbn [fold_left flat_map]. rewrite IH. rewrite apply_writes_app. reflexivity.
Qed.

Lemma direct_puts_numrecs : forall reqs f0,
  lf_numrecs (fold_left (fun f r => direct_put r f) reqs f0)
  = fold_left (fun m r => Z.max m (req_recs r)) reqs (lf_numrecs f0).
Proof.
  induction reqs as [|r reqs IH]; intros f0.
  - reflexivity.
  - cbn [fold_left]. rewrite IH. reflexivity.
Qed.

(** examples: two entries writing distinct elements (plus a cancelled one), reversed inside a batch *)
Definition ex_w1 : request := RVar 1 false 4 [0] (Some [2]) None [10; 11].
Definition ex_w2 : request := RVar 1 false 4 [2] (Some [2]) None [12; 13].
Definition ex_e (valid : bool) (r : request) (line : Z) : entry := mkEntry valid (-1) 64 BB_KIND_VARA 0 8 r line.
Definition ex_bs : list (list entry) := [[ex_e true ex_w1 1; ex_e false ex_w1 2]; [ex_e true ex_w2 3]].

Example flush_refines_direct_ex :
  (forall l : list wr, Permutation (rev l) l) /\
  NoDup (map fst (log_writes (concat ex_bs))) /\
  map (fun i => replay (@rev wr) ex_bs fempty (1, [i])) [0; 1; 2; 3; 4]
    = [Some 10; Some 11; Some 12; Some 13; None].
Proof.
  split; [|split].
  - intro l. apply Permutation_sym. apply Permutation_rev.
  - vm_compute. repeat constructor; cbn; intuition discriminate.
  - vm_compute. reflexivity.
Qed.

Example replay_rounds_refines_ex :
  let bss := [ex_bs; [[ex_e true (RVar 2 false 4 [0] (Some [1]) None [99]) 4]]] in
  (forall bs, In bs bss -> (length bs <= 2)%nat) /\
  NoDup (map fst (flat_map (fun bs => log_writes (concat bs)) bss)) /\
  replay_rounds (@rev wr) bss 2 fempty (2, [0]) = Some 99 /\
  replay_rounds (@rev wr) bss 2 fempty (1, [3]) = Some 13.
Proof.
  cbv zeta. split; [|split; [|split]].
  - intros bs [H | [H | []]]; subst bs; cbn [length ex_bs]; lia.
  - vm_compute. repeat constructor; cbn; intuition discriminate.
  - vm_compute. reflexivity.
  - vm_compute. reflexivity.
Qed.

(** ** F. Status delivery (the status loop of ncbbio_log_flush_core) *)

Lemma pl_get_set_same : forall pl id p, pl_get pl id <> None -> pl_get (pl_set pl id p) id = Some p.
Proof.
  induction pl as [|ip pl IH]; intros id p H.
  - contradiction H. reflexivity.
  - cbn [pl_get pl_set] in *. destruct (fst ip =? id) eqn:E.
    + cbn [pl_get fst snd]. rewrite Z.eqb_refl. reflexivity.
    + cbn [pl_get]. rewrite E. apply IH. exact H.
Qed.

Lemma pl_get_set_other : forall pl id p id', id' <> id -> pl_get (pl_set pl id p) id' = pl_get pl id'.
Proof.
  induction pl as [|ip pl IH]; intros id p id' H.
  - reflexivity.
  - cbn [pl_get pl_set]. destruct (fst ip =? id) eqn:E.
    + cbn [pl_get fst snd]. apply Z.eqb_eq in E.
      replace (id =? id') with false by (symmetry; apply Z.eqb_neq; lia).
      replace (fst ip =? id') with false by (symmetry; apply Z.eqb_neq; lia). reflexivity.
    + cbn [pl_get]. destruct (fst ip =? id'); [reflexivity|]. apply IH. exact H.
Qed.

Lemma pl_set_keys : forall pl id p, map fst (pl_set pl id p) = map fst pl.
Proof.
  induction pl as [|ip pl IH]; intros id p.
  - reflexivity.
  - cbn [pl_set]. destruct (fst ip =? id) eqn:E.
    + cbn [map fst]. apply Z.eqb_eq in E. rewrite E. reflexivity.
    + cbn [map]. rewrite IH. reflexivity.
Qed.

Lemma pl_complete_same : forall pl id st p, pl_get pl id = Some p ->
  pl_get (pl_complete pl id st) id = Some (mkPreq true st (p_start p) (p_end p)).
Proof.
  intros pl id st p H. unfold pl_complete. rewrite H. apply pl_get_set_same. rewrite H. discriminate.
Qed.

Lemma pl_complete_other : forall pl id st id', id' <> id -> pl_get (pl_complete pl id st) id' = pl_get pl id'.
Proof.
  intros pl id st id' H. unfold pl_complete. destruct (pl_get pl id); [|reflexivity].
  apply pl_get_set_other. exact H.
Qed.

Lemma pl_complete_keys : forall pl id st, map fst (pl_complete pl id st) = map fst pl.
Proof.
  intros pl id st. unfold pl_complete. destruct (pl_get pl id); [apply pl_set_keys | reflexivity].
Qed.

Lemma pl_complete_present : forall pl id st id', pl_get pl id' <> None -> pl_get (pl_complete pl id st) id' <> None.
Proof.
  intros pl id st id' H. destruct (Z.eq_dec id' id) as [E | E].
  - subst id'. destruct (pl_get pl id) as [p|] eqn:Eg; [|contradiction H; reflexivity].
    rewrite (pl_complete_same pl id st p Eg). discriminate.
  - rewrite pl_complete_other by exact E. exact H.
Qed.

Lemma deliver_loop_cons : forall ri e r stats j pl,
  deliver_loop ri (e :: r) stats j pl =
  if e_valid e
  then deliver_loop ri r stats (S (if ri then 0%nat else j))
         (if 0 <=? e_reqid e then pl_complete pl (e_reqid e) (nth (if ri then 0%nat else j) stats 0) else pl)
  else deliver_loop ri r stats (if ri then 0%nat else j) pl.
Proof. reflexivity. Qed.

(** the nonblocking requests of a batch: valid entries with a request id *)
Definition batch_reqids (batch : list entry) : list Z :=
  map e_reqid (filter (fun e => 0 <=? e_reqid e) (valid_entries batch)).

(** what a correct status loop must do, parameterised by the loop *)
Definition delivers (loop : list entry -> list Z -> putlist -> putlist) : Prop :=
  forall batch stats pl,
    NoDup (batch_reqids batch) ->
    (forall e, In e (valid_entries batch) -> 0 <= e_reqid e -> pl_get pl (e_reqid e) <> None) ->
    (forall j e, nth_error (valid_entries batch) j = Some e -> 0 <= e_reqid e ->
       exists p', pl_get (loop batch stats pl) (e_reqid e) = Some p'
                  /\ p_ready p' = true /\ p_status p' = nth j stats 0)
    /\ (forall id, (forall e, In e (valid_entries batch) -> 0 <= e_reqid e -> e_reqid e <> id) ->
          pl_get (loop batch stats pl) id = pl_get pl id).

Lemma valid_entries_cons : forall e r,
  valid_entries (e :: r) = if e_valid e then e :: valid_entries r else valid_entries r.
Proof. reflexivity. Qed.

Lemma batch_reqids_cons : forall e r,
  batch_reqids (e :: r) = if e_valid e && (0 <=? e_reqid e) then e_reqid e :: batch_reqids r else batch_reqids r.
Proof.
  intros e r. unfold batch_reqids. rewrite valid_entries_cons.
  destruct (e_valid e); [cbn [filter andb]; destruct (0 <=? e_reqid e)|]; reflexivity.
Qed.

Lemma In_batch_reqids : forall e b, In e (valid_entries b) -> 0 <= e_reqid e -> In (e_reqid e) (batch_reqids b).
Proof.
  intros e b He H0. unfold batch_reqids. apply in_map. apply filter_In. split; [exact He | apply Z.leb_le; exact H0].
Qed.

Lemma deliver_loop_other : forall ri batch stats j pl id,
  (forall e, In e (valid_entries batch) -> 0 <= e_reqid e -> e_reqid e <> id) ->
  pl_get (deliver_loop ri batch stats j pl) id = pl_get pl id.
Proof.
  intros ri batch stats. induction batch as [|e r IH]; intros j pl id Hid; [reflexivity|].
  rewrite deliver_loop_cons. rewrite valid_entries_cons in Hid. destruct (e_valid e).
  - rewrite IH by (intros x Hx; apply Hid; right; exact Hx).
    destruct (0 <=? e_reqid e) eqn:Eid; [|reflexivity]. apply Z.leb_le in Eid.
    apply pl_complete_other. intro E. exact (Hid e (or_introl eq_refl) Eid (eq_sym E)).
  - apply IH. exact Hid.
Qed.

(** the loop entered with counter [j0]: the request of the entry at valid-position [j] receives
    status [j0 + j] from the fixed loop and status [0] from the old one *)
Lemma deliver_loop_status : forall ri batch stats j0 pl,
  NoDup (batch_reqids batch) ->
  (forall e, In e (valid_entries batch) -> 0 <= e_reqid e -> pl_get pl (e_reqid e) <> None) ->
  forall j e, nth_error (valid_entries batch) j = Some e -> 0 <= e_reqid e ->
    exists p', pl_get (deliver_loop ri batch stats j0 pl) (e_reqid e) = Some p'
               /\ p_ready p' = true
               /\ p_status p' = nth (if ri then 0%nat else (j0 + j)%nat) stats 0.
Proof.
  intros ri batch stats. induction batch as [|e r IH]; intros j0 pl Hnd Hpres j x Hj Hx0.
  - destruct j; discriminate Hj.
  - rewrite deliver_loop_cons. rewrite batch_reqids_cons in Hnd. rewrite valid_entries_cons in Hj, Hpres.
    destruct (e_valid e); cbn [andb] in Hnd.
    + (* replayed entry: its request, if any, is completed with status [jj]; the counter advances *)
      set (jj := if ri then 0%nat else j0).
      set (pl' := if 0 <=? e_reqid e then pl_complete pl (e_reqid e) (nth jj stats 0) else pl).
      destruct j as [|j]; cbn [nth_error] in Hj.
      * injection Hj as <-. apply Z.leb_le in Hx0. unfold pl'. rewrite Hx0 in Hnd |- *. apply Z.leb_le in Hx0.
        apply NoDup_cons_iff in Hnd. rewrite deliver_loop_other.
        -- destruct (pl_get pl (e_reqid e)) as [p|] eqn:Eg; [|contradiction (Hpres e (or_introl eq_refl) Hx0)].
           rewrite (pl_complete_same pl _ _ p Eg). eexists. split; [reflexivity|]. split; [reflexivity|].
           unfold jj. destruct ri; [reflexivity|]. rewrite Nat.add_0_r. reflexivity.
        -- intros y Hy Hy0 E. apply (proj1 Hnd). rewrite <- E. apply In_batch_reqids; assumption.
      * destruct (IH (S jj) pl') with (3 := Hj) (4 := Hx0) as (p' & Hg & Hr & Hs).
        -- destruct (0 <=? e_reqid e); [apply NoDup_cons_iff in Hnd; apply Hnd | exact Hnd].
        -- intros y Hy Hy0. unfold pl'.
           destruct (0 <=? e_reqid e); [apply pl_complete_present|]; apply Hpres; [right| |right|]; assumption.
        -- exists p'. split; [exact Hg|]. split; [exact Hr|]. rewrite Hs. unfold jj.
           destruct ri; [reflexivity|]. f_equal. lia.
    + (* cancelled entry: skipped, counter unchanged *)
      destruct (IH (if ri then 0%nat else j0) pl Hnd Hpres j x Hj Hx0) as (p' & Hg & Hr & Hs).
      exists p'. rewrite Hs. destruct ri; repeat split; assumption.
Qed.

(** the loop of the tree as built has [j = 0] before the loop *)
Theorem status_delivery : delivers deliver_c.
Proof.
  intros batch stats pl Hnd Hpres. unfold deliver_c. change bb_status_j_reset_inside with false. split.
  - exact (deliver_loop_status false batch stats 0%nat pl Hnd Hpres).
  - intro id. apply deliver_loop_other.
Qed.

(** explicit form of [status_delivery], for use without unfolding [delivers] *)
Corollary status_delivery_explicit : forall batch stats pl,
  NoDup (batch_reqids batch) ->
  (forall e, In e (valid_entries batch) -> 0 <= e_reqid e -> pl_get pl (e_reqid e) <> None) ->
  (forall j e, nth_error (valid_entries batch) j = Some e -> 0 <= e_reqid e ->
     exists p', pl_get (deliver_c batch stats pl) (e_reqid e) = Some p'
                /\ p_ready p' = true /\ p_status p' = nth j stats 0)
  /\ (forall id, (forall e, In e (valid_entries batch) -> 0 <= e_reqid e -> e_reqid e <> id) ->
        pl_get (deliver_c batch stats pl) id = pl_get pl id).
Proof. exact status_delivery. Qed.

Lemma deliver_loop_keys : forall ri batch stats j pl, map fst (deliver_loop ri batch stats j pl) = map fst pl.
Proof.
  intros ri batch stats. induction batch as [|e r IH]; intros j pl.
  - reflexivity.
  - rewrite deliver_loop_cons. destruct (e_valid e).
    + rewrite IH. destruct (0 <=? e_reqid e); [apply pl_complete_keys | reflexivity].
    + apply IH.
Qed.

(** the loop with [j = 0] inside the loop (tree before adb6eb2b, finding F10) *)
Definition status_delivery_old_full : Prop :=
  delivers (fun batch stats pl => deliver_loop true batch stats 0 pl).

Definition ex_pl2 : putlist := [(0, mkPreq false 0 0 1); (1, mkPreq false 0 1 2)].
Definition ex_batch2 : list entry := [ex_entry true 0 4 1; ex_entry true 1 4 2].

Lemma status_delivery_old_refuted : ~ status_delivery_old_full.
Proof.
  intro H. destruct (H ex_batch2 [0; -5] ex_pl2) as [H1 _].
  - vm_compute. constructor; [intros [E | []]; discriminate E|]. constructor; [intros []|]. constructor.
  - intros e [E | [E | []]] _; subst e; vm_compute; discriminate.
  - destruct (H1 1%nat (ex_entry true 1 4 2) eq_refl) as (p' & Hg & _ & Hs).
    + cbn [e_reqid ex_entry]. lia.
    + vm_compute in Hg. inversion Hg; subst p'. vm_compute in Hs. discriminate Hs.
Qed.

(** what the old loop does: every request of the batch gets the status of the FIRST replayed put *)
Theorem status_delivery_old_partial : forall batch stats pl,
  NoDup (batch_reqids batch) ->
  (forall e, In e (valid_entries batch) -> 0 <= e_reqid e -> pl_get pl (e_reqid e) <> None) ->
  (forall j e, nth_error (valid_entries batch) j = Some e -> 0 <= e_reqid e ->
     exists p', pl_get (deliver_loop true batch stats 0 pl) (e_reqid e) = Some p'
                /\ p_ready p' = true /\ p_status p' = nth 0 stats 0)
  /\ (forall id, (forall e, In e (valid_entries batch) -> 0 <= e_reqid e -> e_reqid e <> id) ->
        pl_get (deliver_loop true batch stats 0 pl) id = pl_get pl id).
Proof.
  intros batch stats pl Hnd Hpres. split.
  - exact (deliver_loop_status true batch stats 0%nat pl Hnd Hpres).
  - intro id. apply deliver_loop_other.
Qed.

(** a 3-entry batch with one cancelled entry and one blocking put *)
Example status_delivery_ex :
  let batch := [ex_entry true 1 4 1; ex_entry false 0 4 2; ex_entry true (-1) 4 3; ex_entry true 0 4 4] in
  NoDup (batch_reqids batch) /\
  (forall e, In e (valid_entries batch) -> 0 <= e_reqid e -> pl_get ex_pl2 (e_reqid e) <> None) /\
  map (fun id => option_map p_status (pl_get (deliver_c batch [-7; 0; -9] ex_pl2) id)) [0; 1] = [Some (-9); Some (-7)] /\
  map (fun id => option_map p_status (pl_get (deliver_loop true batch [-7; 0; -9] 0 ex_pl2) id)) [0; 1]
    = [Some (-7); Some (-7)].
Proof.
  cbv zeta. split; [|split; [|split]].
  - vm_compute. constructor; [intros [E | []]; discriminate E|]. constructor; [intros []|]. constructor.
  - intros e [E | [E | [E | []]]] H0; subst e; vm_compute; try discriminate. vm_compute in H0. contradiction H0. reflexivity.
  - vm_compute. reflexivity.
  - vm_compute. reflexivity.
Qed.

(** ** G. Record-count rule: the driver's recdimsize follows the default driver's rule *)

Lemma hd_ones : forall n, hd 1 (ones n) = 1.
Proof. intros [|n]; reflexivity. Qed.

Lemma zprod_ones : forall n, zprod (ones n) = 1.
Proof.
  induction n as [|n IH]; [reflexivity|].
  unfold ones, zprod in *. cbn [repeat fold_right]. rewrite IH. reflexivity.
Qed.

(** covers [count = NULL] (var1-like: one element) as well; no hypothesis on lengths is needed:
    [hd 1 (ones n) = 1] also for [n = 0] *)
Lemma bb_recsize_eq_default_gen : forall st cnt t,
  zprod (eff_count (length st) cnt) <> 0 ->
  bb_recsize_var st cnt t = recs_of st (eff_count (length st) cnt) (eff_count (length st) t).
Proof.
  intros st cnt t Hp. unfold recs_of.
  destruct (zprod (eff_count (length st) cnt) =? 0) eqn:Ez; [apply Z.eqb_eq in Ez; contradiction|].
  unfold bb_recsize_var, eff_count. destruct t as [t|]; destruct cnt as [c|]; rewrite ?hd_ones; lia.
Qed.

Lemma bb_recsize_eq_default : forall elsz st c t, put_size_var elsz (Some c) <> 0 ->
  bb_recsize_var st (Some c) t = recs_of st c (eff_count (length st) t).
Proof.
  intros elsz st c t Hp. apply (bb_recsize_eq_default_gen st (Some c)).
  intro Hz. apply Hp. unfold put_size_var. cbn [eff_count] in Hz. rewrite Hz. apply Z.mul_0_r.
Qed.

(** the request is skipped as empty exactly when the default rule counts no record for it *)
Lemma put_size_zprod : forall elsz n cnt, 0 < elsz ->
  (put_size_var elsz cnt =? 0) = (zprod (eff_count n cnt) =? 0).
Proof.
  intros elsz n cnt He. unfold put_size_var, eff_count. destruct cnt as [c|]; [|rewrite zprod_ones].
  - destruct (Z.eqb_spec (elsz * zprod c) 0), (Z.eqb_spec (zprod c) 0); nia.
  - destruct (Z.eqb_spec (elsz * 1) 0); lia.
Qed.

Definition fmax_sub (hc : bool) (m : Z) (sc : list Z * option (list Z)) : Z := Z.max m (sub_recs hc sc).

Lemma fold_fmax_sub_max : forall hc subs a b,
  fold_left (fmax_sub hc) subs (Z.max a b) = Z.max a (fold_left (fmax_sub hc) subs b).
Proof.
  intros hc subs. induction subs as [|sc subs IH]; intros a b.
  - reflexivity.
  - cbn [fold_left]. unfold fmax_sub at 2 4. rewrite <- Z.max_assoc. apply IH.
Qed.

(** one step of the varn loop: its record size is that of put_var without stride *)
Lemma varn_step_snd : forall elsz isrec hc acc sc, 0 < elsz -> 0 <= snd acc ->
  snd (varn_step elsz isrec hc acc sc) = if isrec then Z.max (snd acc) (sub_recs hc sc) else snd acc.
Proof.
  intros elsz isrec hc acc sc He Hacc. unfold varn_step, sub_recs. cbv zeta.
  rewrite (put_size_zprod elsz (length (fst sc)) _ He).
  pose proof (bb_recsize_eq_default_gen (fst sc) (sub_count hc sc) None) as Hg. unfold recs_of in *.
  destruct (zprod (eff_count (length (fst sc)) (sub_count hc sc)) =? 0) eqn:Ez; destruct isrec; cbn [snd];
    try reflexivity; [lia|].
  f_equal. apply Hg. apply Z.eqb_neq. exact Ez.
Qed.

Lemma varn_scan_snd : forall elsz isrec hc subs acc, 0 < elsz -> 0 <= snd acc ->
  snd (fold_left (varn_step elsz isrec hc) subs acc)
  = if isrec then fold_left (fmax_sub hc) subs (snd acc) else snd acc.
Proof.
  intros elsz isrec hc subs. induction subs as [|sc subs IH]; intros acc He Hacc; cbn [fold_left].
  - destruct isrec; reflexivity.
  - pose proof (varn_step_snd elsz isrec hc acc sc He Hacc) as H1.
    rewrite IH, H1; [destruct isrec; reflexivity | exact He | rewrite H1; destruct isrec; lia].
Qed.

(** the driver's recdimsize follows the default driver's rule, for every request *)
Theorem log_put_recdim : forall line r l,
  match r with RVar _ _ elsz _ _ _ _ | RVarn _ _ elsz _ _ _ => 0 < elsz end -> 0 <= l_recdim l ->
  l_recdim (log_put line r l) = Z.max (l_recdim l) (req_recs r).
Proof.
  intros line [vid isrec elsz st cnt t data | vid isrec elsz subs hc data] l He Hrd;
    unfold log_put, req_recs; cbn [req_isrec].
  - rewrite (put_size_zprod elsz (length st) cnt He).
    pose proof (bb_recsize_eq_default_gen st cnt t) as Hg. unfold recs_of in *.
    destruct (zprod (eff_count (length st) cnt) =? 0) eqn:Ez; destruct isrec; cbn [negb l_recdim]; lia.
  - cbv zeta. cbn [l_recdim]. unfold varn_scan. rewrite varn_scan_snd by assumption. cbn [snd].
    destruct isrec; cbn [negb]; [|lia].
    change (fun m sc => Z.max m (sub_recs hc sc)) with (fmax_sub hc).
    rewrite <- fold_fmax_sub_max, Z.max_l by exact Hrd. reflexivity.
Qed.

Theorem log_put_recdim_var : forall line vid elsz st c t data l,
  0 < elsz -> 0 <= l_recdim l ->
  let r := RVar vid true elsz st (Some c) t data in
  l_recdim (log_put line r l) = Z.max (l_recdim l) (req_recs r).
Proof. intros line vid elsz st c t data l He Hrd r. apply log_put_recdim; assumption. Qed.

Example log_put_recdim_var_ex :
  l_recdim (log_put 1 ex_req3 log_init) = 5 /\ req_recs ex_req3 = 5 /\
  l_recdim (log_put 2 (RVar 1 true 4 [9; 0] (Some [0; 5]) None []) (log_put 1 ex_req3 log_init)) = 5.
Proof. vm_compute. repeat split. Qed.

Theorem log_put_recdim_varn : forall line vid elsz subs hc data l,
  0 < elsz -> 0 <= l_recdim l ->
  let r := RVarn vid true elsz subs hc data in
  l_recdim (log_put line r l) = Z.max (l_recdim l) (req_recs r).
Proof. intros line vid elsz subs hc data l He Hrd r. apply log_put_recdim; assumption. Qed.

Example log_put_recdim_varn_ex :
  l_recdim (log_put 2 ex_reqn (log_put 1 ex_req3 log_init)) = 6 /\ req_recs ex_reqn = 6 /\
  l_recdim (log_put 1 ex_reqn log_init) = Z.max 0 (req_recs ex_reqn).
Proof. vm_compute. repeat split. Qed.

(** ** H. The log files are removed at close unless the user asked to keep them *)

Theorem log_removed_at_close : forall cfg ord w, w_logs (close_all cfg ord w) = negb (c_del cfg).
Proof.
  intros cfg ord w. unfold close_all. cbn [w_logs].
  change bb_unlink_on_close with true. destruct (c_del cfg); reflexivity.
Qed.

Example log_removed_at_close_ex :
  w_logs (close_all (mkCfg 0 true (fun _ _ => 0)) ord_id (world_init 2)) = false /\
  w_logs (close_all (mkCfg 0 false (fun _ _ => 0)) ord_id (world_init 2)) = true.
Proof. vm_compute. split; reflexivity. Qed.

(** ** End of Part I: assumptions of the main results *)

Print Assumptions rounds_agree.
Print Assumptions rounds_agree_partial.
Print Assumptions flush_refines_direct.
Print Assumptions replay_rounds_refines.
Print Assumptions status_delivery.
Print Assumptions collective_rounds_agree.

(** * Part II: sessions.  The burst-buffer world refines the default driver. *)

(** ** list surgery on the rank table *)
Lemma upd_nth_length : forall (A : Type) (k : nat) (x : A) (l : list A), length (upd_nth k x l) = length l.
Proof.
  intros A k x l. revert k. induction l as [|y r IH]; intros [|k]; cbn [upd_nth length]; try reflexivity.
  rewrite IH. reflexivity.
Qed.

Lemma upd_nth_split : forall (A : Type) (k : nat) (x : A) (l : list A), (k < length l)%nat ->
  upd_nth k x l = firstn k l ++ x :: skipn (S k) l.
Proof.
  intros A k x l. revert k. induction l as [|y r IH]; intros [|k] Hk; cbn [length] in Hk; try lia.
  - reflexivity.
  - cbn [upd_nth firstn skipn app]. f_equal. apply IH. lia.
Qed.

Lemma nth_split_eq : forall (A : Type) (k : nat) (d : A) (l : list A), (k < length l)%nat ->
  l = firstn k l ++ nth k l d :: skipn (S k) l.
Proof.
  intros A k d l. revert k. induction l as [|y r IH]; intros [|k] Hk; cbn [length] in Hk; try lia.
  - reflexivity.
  - cbn [firstn skipn nth app]. f_equal. apply IH. lia.
Qed.

Lemma upd_nth_ge : forall (A : Type) (k : nat) (x : A) (l : list A), (length l <= k)%nat -> upd_nth k x l = l.
Proof.
  intros A k x l. revert k. induction l as [|y r IH]; intros [|k] Hk; cbn [length] in Hk; try lia; try reflexivity.
  cbn [upd_nth]. f_equal. apply IH. lia.
Qed.

Lemma nth_upd_nth_same : forall (A : Type) (k : nat) (x d : A) (l : list A), (k < length l)%nat ->
  nth k (upd_nth k x l) d = x.
Proof.
  intros A k x d l. revert k. induction l as [|y r IH]; intros [|k] Hk; cbn [length] in Hk; try lia.
  - reflexivity.
  - cbn [upd_nth nth]. apply IH. lia.
Qed.

Lemma nth_upd_nth_other : forall (A : Type) (k j : nat) (x d : A) (l : list A), j <> k ->
  nth j (upd_nth k x l) d = nth j l d.
Proof.
  intros A k j x d l. revert k j. induction l as [|y r IH]; intros [|k] [|j] Hne; cbn [upd_nth nth]; try reflexivity; try lia.
  apply IH. lia.
Qed.

Lemma Forall_upd_nth : forall (A : Type) (P : A -> Prop) (k : nat) (x : A) (l : list A),
  Forall P l -> P x -> Forall P (upd_nth k x l).
Proof.
  intros A P k x l Hl Hx. revert k. induction Hl as [|y r Hy Hr IH]; intros [|k]; cbn [upd_nth]; constructor; auto.
Qed.

Lemma nth_overflow_default : forall (A : Type) (k : nat) (d : A) (l : list A), (length l <= k)%nat -> nth k l d = d.
Proof. intros. apply nth_overflow. assumption. Qed.

(** ** pending writes, eventual file, well-formed worlds *)
Definition rank_writes (r : rstate) : list wr := log_writes (l_entries (r_log r)).
Definition pending (w : world) : list wr := flat_map rank_writes (w_rs w).
Definition EB (w : world) : fmap := apply_writes (pending w) (w_file w).

Definition good (w : world) : Prop :=
  NoDup (map fst (pending w)) /\ Forall (fun r => log_ok (r_log r)) (w_rs w) /\ w_spin w = false.

Lemma rank_writes_init : rank_writes rank_init = [].
Proof. reflexivity. Qed.

Lemma get_rank_overflow : forall w k, (length (w_rs w) <= k)%nat -> get_rank w k = rank_init.
Proof. intros w k H. unfold get_rank. apply nth_overflow. exact H. Qed.

Lemma good_rank_ok : forall w k, good w -> log_ok (r_log (get_rank w k)).
Proof.
  intros w k (_ & Hok & _). destruct (Nat.lt_ge_cases k (length (w_rs w))) as [Hk | Hk].
  - apply (proj1 (Forall_nth _ _) Hok). exact Hk.
  - rewrite get_rank_overflow by exact Hk. exact log_init_ok.
Qed.

Lemma pending_split : forall w k, (k < length (w_rs w))%nat ->
  pending w = flat_map rank_writes (firstn k (w_rs w)) ++ rank_writes (get_rank w k)
              ++ flat_map rank_writes (skipn (S k) (w_rs w)).
Proof.
  intros w k Hk. unfold pending, get_rank.
  rewrite (nth_split_eq rstate k rank_init (w_rs w) Hk) at 1.
  rewrite flat_map_app. cbn [flat_map]. reflexivity.
Qed.

Lemma pending_set_rank : forall w k r, (k < length (w_rs w))%nat ->
  pending (set_rank w k r) = flat_map rank_writes (firstn k (w_rs w)) ++ rank_writes r
                             ++ flat_map rank_writes (skipn (S k) (w_rs w)).
Proof.
  intros w k r Hk. unfold pending, set_rank. cbn [w_rs].
  rewrite upd_nth_split by exact Hk. rewrite flat_map_app. cbn [flat_map]. reflexivity.
Qed.

Lemma set_rank_overflow : forall w k r, (length (w_rs w) <= k)%nat -> w_rs (set_rank w k r) = w_rs w.
Proof. intros w k r H. unfold set_rank. cbn [w_rs]. apply upd_nth_ge. exact H. Qed.

Lemma in_pending_rank : forall w y, In y (pending w) ->
  exists j, (j < length (w_rs w))%nat /\ In y (rank_writes (get_rank w j)).
Proof.
  intros w y H. unfold pending in H. apply in_flat_map in H. destruct H as (r & Hr & Hy).
  destruct (In_nth _ _ rank_init Hr) as (j & Hj & Ej). exists j. split; [exact Hj|].
  unfold get_rank. rewrite Ej. exact Hy.
Qed.

Lemma pending_nil : forall w, (forall j, (j < length (w_rs w))%nat -> rank_writes (get_rank w j) = []) ->
  pending w = [].
Proof.
  intros w H. destruct (pending w) as [|y ys] eqn:E; [reflexivity|].
  destruct (in_pending_rank w y) as (j & Hj & Hy); [rewrite E; left; reflexivity|].
  rewrite (H j Hj) in Hy. destruct Hy.
Qed.

Lemma pending_nil_rank : forall w, pending w = [] -> forall j, rank_writes (get_rank w j) = [].
Proof.
  intros w Hp j. destruct (Nat.lt_ge_cases j (length (w_rs w))) as [Hj | Hj].
  - pose proof (pending_split w j Hj) as Hs. rewrite Hp in Hs.
    symmetry in Hs. apply app_eq_nil in Hs. destruct Hs as [_ Hs]. apply app_eq_nil in Hs. apply Hs.
  - rewrite get_rank_overflow by exact Hj. reflexivity.
Qed.

Lemma pending_init : forall np, pending (world_init np) = [].
Proof.
  intro np. apply flat_map_all_nil. intros r Hr. apply repeat_spec in Hr. subst r. reflexivity.
Qed.

(** moving the writes [W] out of a list [P] of pending writes (keys distinct) into the file does not
    change the eventual file: the flush of a log, and the completion of requests on the SPEC side *)
Lemma commit_writes : forall (W P P' : list wr) (f f' : fmap),
  NoDup (map fst P) -> Permutation P (W ++ P') -> (forall x, f' x = apply_writes W f x) ->
  (forall x, apply_writes P' f' x = apply_writes P f x) /\ NoDup (map fst P').
Proof.
  intros W P P' f f' Hnd Hp Hf. split.
  - intro x. rewrite (apply_writes_perm P (W ++ P') f Hp Hnd), apply_writes_app.
    apply apply_writes_ext. apply Hf.
  - apply (NoDup_keys_perm _ _ Hp) in Hnd. rewrite map_app in Hnd. apply NoDup_app_inv in Hnd. apply Hnd.
Qed.

(** [w'] is [w] after the ranks selected by [P] have replayed their logs into the file *)
Definition flushes (P : nat -> bool) (w w' : world) : Prop :=
  good w' /\ (forall x, EB w' x = EB w x) /\ length (w_rs w') = length (w_rs w) /\ w_indep w' = w_indep w /\
  (forall j, rank_writes (get_rank w' j) = if P j then [] else rank_writes (get_rank w j)).

Lemma commit_rank : forall w k r' f', good w -> (k < length (w_rs w))%nat ->
  rank_writes r' = [] -> log_ok (r_log r') ->
  (forall x, f' x = apply_writes (rank_writes (get_rank w k)) (w_file w) x) ->
  flushes (fun j => Nat.eqb j k) w (set_rank (set_file w f') k r').
Proof.
  intros w k r' f' (Hnd & Hok & Hsp) Hk Hr' Hlog Hf'. set (w' := set_rank (set_file w f') k r').
  destruct (commit_writes (rank_writes (get_rank w k)) (pending w) (pending w') (w_file w) f' Hnd) as [HE Hnd'];
    [|exact Hf'|].
  { unfold w'. rewrite (pending_set_rank (set_file w f') k r' Hk), Hr', (pending_split w k Hk).
    apply Permutation_app_swap_app. }
  split; [split; [exact Hnd' | split; [apply Forall_upd_nth; assumption | exact Hsp]]|].
  split; [exact HE|]. split; [apply upd_nth_length|]. split; [reflexivity|].
  intro j. unfold w', get_rank, set_rank, set_file. cbn [w_rs]. destruct (Nat.eqb_spec j k) as [-> | Hne].
  - rewrite nth_upd_nth_same by exact Hk. exact Hr'.
  - rewrite nth_upd_nth_other by exact Hne. reflexivity.
Qed.

(** ** the collective flush: no rank spins, the batches of each rank are its log *)
Lemma flush_ranks_spec : forall cfg nall rs k, Forall (fun r => log_ok (r_log r)) rs ->
  (forall r, In r rs -> rank_rounds cfg r <= nall) ->
  exists l, flush_ranks cfg nall k rs = Some l /\ length l = length rs /\
    flat_map (fun bs => log_writes (concat bs)) (map snd l) = flat_map rank_writes rs /\
    (forall bs, In bs (map snd l) -> (length bs <= Z.to_nat nall)%nat) /\
    Forall (fun x => rank_writes (fst x) = [] /\ log_ok (r_log (fst x))) l /\
    map (fun x => r_nr (fst x)) l = map r_nr rs.
Proof.
  intros cfg nall rs. induction rs as [|r rest IH]; intros k Hall Hle.
  - exists []. repeat split; [intros bs [] | constructor].
  - inversion Hall as [|x xs Hr Hrest]; subst.
    destruct (flush_core_rank_ok (c_hint cfg) false (c_inj cfg k) nall (r_log r) (r_pl r) (r_g r) Hr
                (Hle r (or_introl eq_refl))) as (fr & Hfr & Hcat & Htr & _ & Htreq & _).
    destruct (IH (S k) Hrest (fun x Hx => Hle x (or_intror Hx))) as (l & Hl & Hlen & Hw & Hb & Hlog & Hnr).
    cbn [flush_ranks]. rewrite Hfr, Hl. eexists. split; [reflexivity|]. cbn [length map flat_map fst snd].
    split; [rewrite Hlen; reflexivity|]. split; [rewrite Hw, Hcat; reflexivity|].
    split; [intros bs [<- | Hin]; [lia | exact (Hb bs Hin)]|].
    split; [constructor; [split; [reflexivity | apply log_reset_ok] | exact Hlog] | rewrite Hnr; reflexivity].
Qed.

Lemma flush_ranks_ok : forall cfg nall rs k, Forall (fun r => log_ok (r_log r)) rs ->
  (forall r, In r rs -> rank_rounds cfg r <= nall) ->
  exists l, flush_ranks cfg nall k rs = Some l /\ length l = length rs.
Proof.
  intros cfg nall rs k Hall Hle. destruct (flush_ranks_spec cfg nall rs k Hall Hle) as (l & Hl & Hlen & _).
  exists l. split; assumption.
Qed.

Section Session.
Variable ord : list wr -> list wr.
Hypothesis Hord : forall l, Permutation (ord l) l.
Variable cfg : config.

(** ** flushing one rank (independent mode) *)
Lemma flush_rank_spec : forall k w, good w -> flushes (fun j => Nat.eqb j k) w (flush_rank cfg ord k w).
Proof.
  intros k w Hg. unfold flush_rank.
  destruct (l_entries (r_log (get_rank w k))) as [|e0 es0] eqn:Ees.
  - (* nothing logged *)
    split; [exact Hg|]. repeat split. intro j. destruct (Nat.eqb_spec j k) as [-> |]; [|reflexivity].
    unfold rank_writes. rewrite Ees. reflexivity.
  - assert (Hk : (k < length (w_rs w))%nat).
    { destruct (Nat.lt_ge_cases k (length (w_rs w))) as [H|H]; [exact H|].
      rewrite (get_rank_overflow w k H) in Ees. discriminate. }
    rewrite <- Ees.
    destruct (flush_core_rank_ok (c_hint cfg) true (c_inj cfg k)
                (count_loop (buffer_size (c_hint cfg) (r_log (get_rank w k))) (l_entries (r_log (get_rank w k))))
                (r_log (get_rank w k)) (r_pl (get_rank w k)) (r_g (get_rank w k)) (good_rank_ok w k Hg) (Z.le_refl _))
      as (fr & -> & Hcat & _).
    apply commit_rank; [exact Hg | exact Hk | reflexivity | apply log_reset_ok |].
    intro x. rewrite (flush_refines_direct ord Hord); rewrite Hcat; [reflexivity|].
    destruct Hg as (Hnd & _). rewrite (pending_split w k Hk), !map_app in Hnd.
    apply NoDup_app_inv in Hnd. destruct Hnd as (_ & Hnd & _). apply NoDup_app_inv in Hnd. apply Hnd.
Qed.

Lemma Forall2_pending : forall rs (l : list (rstate * list (list entry))),
  Forall2 (fun r x => concat (snd x) = l_entries (r_log r) /\ (length (snd x) <= 0 + Z.to_nat 0 + length (snd x))%nat /\ True) rs l ->
  flat_map (fun bs => log_writes (concat bs)) (map snd l) = flat_map rank_writes rs.
Proof.
  intros rs l H. induction H as [|r x rs l (Hc & _) _ IH]; [reflexivity|].
  cbn [map flat_map]. rewrite IH, Hc. reflexivity.
Qed.

Lemma flush_all_spec : forall w, good w -> flushes (fun _ => true) w (flush_all cfg ord w).
Proof.
  intros w (Hnd & Hok & Hsp). unfold flush_all.
  destruct (flush_ranks_spec cfg (zmax_list (map (rank_rounds cfg) (w_rs w))) (w_rs w) 0 Hok)
    as (l & -> & Hlen & Hw & Hb & Hlog & _).
  { intros r Hin. apply zmax_list_ge. apply in_map. exact Hin. }
  generalize (zmax_list (map (fun r => log_recs (l_entries (r_log r))) (w_rs w))). intro m.
  set (w' := mkW _ _ _ _ _).
  assert (Hlog' : Forall (fun r => rank_writes r = [] /\ log_ok (r_log r)) (w_rs w')) by (apply Forall_map; exact Hlog).
  assert (Hp' : pending w' = []).
  { apply flat_map_all_nil. intros r Hr. apply (proj1 (Forall_forall _ _) Hlog' r Hr). }
  split; [split; [rewrite Hp'; constructor | split; [|exact Hsp]]|].
  { eapply Forall_impl; [|exact Hlog']. intros r Hr. apply Hr. }
  split; [|split; [cbn [w' w_rs]; rewrite map_length; exact Hlen | split; [reflexivity | exact (pending_nil_rank w' Hp')]]].
  intro x. unfold EB. rewrite Hp'. cbn [apply_writes w' w_file].
  rewrite (replay_rounds_refines ord Hord _ _ _ Hb); rewrite Hw; [reflexivity | exact Hnd].
Qed.

(** ** any flush trigger *)
Lemma flush_ranks_indep_spec : forall who w, good w ->
  flushes (fun j => existsb (Nat.eqb j) who) w (fold_left (fun w k => flush_rank cfg ord k w) who w).
Proof.
  induction who as [|k who IH]; intros w Hg; cbn [fold_left existsb].
  - split; [exact Hg|]. repeat split.
  - destruct (flush_rank_spec k w Hg) as (Hg1 & He1 & Hl1 & Hi1 & Hr1).
    destruct (IH _ Hg1) as (Hg2 & He2 & Hl2 & Hi2 & Hr2).
    split; [exact Hg2|]. split; [intro x; rewrite He2; apply He1|].
    split; [rewrite Hl2; exact Hl1|]. split; [rewrite Hi2; exact Hi1|].
    intro j. rewrite Hr2, Hr1. destruct (Nat.eqb j k), (existsb (Nat.eqb j) who); reflexivity.
Qed.

Lemma trigger_flush_spec : forall who w, good w ->
  flushes (fun j => negb (w_indep w) || existsb (Nat.eqb j) who) w (trigger_flush cfg ord who w).
Proof.
  intros who w Hg. unfold trigger_flush.
  destruct (w_indep w); [exact (flush_ranks_indep_spec who w Hg) | exact (flush_all_spec w Hg)].
Qed.

Lemma all_ranks_in : forall w j, (j < length (w_rs w))%nat -> In j (all_ranks w).
Proof. intros w j H. unfold all_ranks. apply in_seq. lia. Qed.

Lemma all_ranks_flushed : forall w b j, (j < length (w_rs w))%nat -> b || existsb (Nat.eqb j) (all_ranks w) = true.
Proof.
  intros w b j Hj. apply orb_true_iff. right. apply existsb_exists. exists j.
  split; [apply all_ranks_in; exact Hj | apply Nat.eqb_refl].
Qed.

(** ** the SPEC side of a session and the simulation relation *)
Definition dpend (d : dworld) : list wr := flat_map (fun t => req_writes (snd t)) (d_pend d).
Definition ED (d : dworld) : fmap := apply_writes (dpend d) (lf_map (d_file d)).
Definition sim (w : world) (d : dworld) : Prop :=
  (forall x, EB w x = ED d x) /\ NoDup (map fst (dpend d)).

(** executable well-formedness of one operation (the documented discipline) *)
Definition keys (ws : list wr) : list key := map fst ws.
Definition memk (x : key) (l : list key) : bool := existsb (key_eqb x) l.
Fixpoint nodupk (l : list key) : bool :=
  match l with [] => true | x :: r => negb (memk x r) && nodupk r end.
Definition disjk (a b : list key) : bool := forallb (fun x => negb (memk x b)) a.

Definition wf_reqb (r : request) : bool :=
  match r with
  | RVar _ _ elsz _ cnt _ _ => (0 <? elsz) && match cnt with Some c => forallb (fun x => 0 <? x) c | None => true end
  | RVarn _ _ elsz subs _ _ =>
      (0 <=? elsz) && forallb (fun sc => match snd sc with Some c => forallb (fun x => 0 <=? x) c | None => true end) subs
  end.

Definition wf_write (w : world) (d : dworld) (k : nat) (req : request) : bool :=
  (k <? length (w_rs w))%nat && wf_reqb req && nodupk (keys (req_writes req))
  && disjk (keys (req_writes req)) (keys (pending w)) && disjk (keys (req_writes req)) (keys (dpend d)).

Definition wf_read (w : world) (d : dworld) (who : list (nat * list key)) : bool :=
  forallb (fun rk => forallb (fun x =>
      negb (memk x (keys (dpend d))) &&
      (negb (w_indep w) ||
       forallb (fun j => existsb (Nat.eqb j) (map fst who) || negb (memk x (keys (rank_writes (get_rank w j)))))
               (all_ranks w)))
    (snd rk)) who.

Definition wf_wait (w : world) (who : list (nat * waitarg)) : bool :=
  let calls := map (fun ka => calls_ncmpio_wait (w_indep w) (snd ka)) who in
  w_indep w || negb (existsb id calls && existsb negb calls).

Definition wf_stepb (w : world) (d : dworld) (o : op) : bool :=
  match o with
  | OPut _ k req => wf_write w d k req
  | OIput _ k _ req => wf_write w d k req
  | OCancel _ _ _ => false          (* cancellation is covered by the correspondence check only *)
  | OGet _ who => wf_read w d who
  | OWait _ _ who => wf_wait w who
  | OReopen _ => match pending w with [] => true | _ => false end
  | _ => true
  end.

Lemma memk_spec : forall x l, memk x l = true <-> In x l.
Proof.
  intros x l. unfold memk. rewrite existsb_exists. split.
  - intros (y & Hy & E). apply key_eqb_spec in E. subst y. exact Hy.
  - intro H. exists x. split; [exact H | apply key_eqb_refl].
Qed.

Lemma memk_false : forall x l, memk x l = false -> ~ In x l.
Proof. intros x l H Hin. apply memk_spec in Hin. rewrite Hin in H. discriminate. Qed.

Lemma nodupk_spec : forall l, nodupk l = true -> NoDup l.
Proof.
  induction l as [|x r IH]; intro H; [constructor|].
  cbn [nodupk] in H. apply andb_true_iff in H. destruct H as [H1 H2].
  constructor; [apply memk_false; apply negb_true_iff; exact H1 | apply IH; exact H2].
Qed.

Lemma disjk_spec : forall a b, disjk a b = true -> forall x, In x a -> ~ In x b.
Proof.
  intros a b H x Hx. unfold disjk in H. rewrite forallb_forall in H.
  apply memk_false. apply negb_true_iff. apply H. exact Hx.
Qed.

(** ** log_put on a well-formed request appends exactly one valid entry *)
Lemma zprod_pos : forall c, forallb (fun x => 0 <? x) c = true -> 0 < zprod c.
Proof.
  induction c as [|x r IH]; intro H; [cbn; lia|].
  cbn [forallb] in H. apply andb_true_iff in H. destruct H as [H1 H2]. apply Z.ltb_lt in H1.
  cbn [zprod fold_right]. specialize (IH H2). unfold zprod in IH. nia.
Qed.

Lemma wf_req_ok : forall r, wf_reqb r = true -> req_ok r.
Proof.
  intros [vid isrec elsz st cnt str data | vid isrec elsz subs hc data] H; cbn [wf_reqb] in H;
    apply andb_true_iff in H; destruct H as [H1 H2]; cbn [req_ok].
  - apply Z.ltb_lt in H1. split; [lia|]. destruct cnt as [c|]; cbn [counts_nonneg]; [|exact I].
    rewrite Forall_forall. rewrite forallb_forall in H2. intros x Hx. specialize (H2 x Hx). apply Z.ltb_lt in H2. lia.
  - apply Z.leb_le in H1. split; [exact H1|]. rewrite Forall_forall. rewrite forallb_forall in H2.
    intros sc Hsc. specialize (H2 sc Hsc). destruct (snd sc) as [c|]; cbn [counts_nonneg]; [|exact I].
    rewrite Forall_forall. rewrite forallb_forall in H2. intros x Hx. specialize (H2 x Hx). apply Z.leb_le in H2. exact H2.
Qed.

Lemma log_put_entries : forall line r l, wf_reqb r = true ->
  exists e, l_entries (log_put line r l) = l_entries l ++ [e] /\ e_valid e = true /\ e_req e = r.
Proof.
  intros line [vid isrec elsz st cnt str data | vid isrec elsz subs hc data] l H; cbn [wf_reqb] in H;
    apply andb_true_iff in H; destruct H as [H1 H2]; cbn [log_put].
  - apply Z.ltb_lt in H1.
    assert (Hp : put_size_var elsz cnt <> 0).
    { unfold put_size_var. destruct cnt as [c|]; [pose proof (zprod_pos c H2); nia | lia]. }
    apply Z.eqb_neq in Hp. rewrite Hp. eexists. cbn [l_entries]. split; [reflexivity|]. split; reflexivity.
  - eexists. cbn [l_entries]. split; [reflexivity|]. split; reflexivity.
Qed.

Lemma log_put_writes : forall line r l, wf_reqb r = true ->
  log_writes (l_entries (log_put line r l)) = log_writes (l_entries l) ++ req_writes r.
Proof.
  intros line r l H. destruct (log_put_entries line r l H) as (e & He & Hv & Hr).
  rewrite He, log_writes_app. f_equal. unfold log_writes. cbn [flat_map]. rewrite app_nil_r.
  unfold entry_writes. rewrite Hv, Hr. reflexivity.
Qed.

Lemma log_writes_map_reqid : forall id es, log_writes (map (set_reqid id) es) = log_writes es.
Proof.
  intros id es. unfold log_writes. induction es as [|e r IH]; [reflexivity|].
  cbn [map flat_map]. rewrite IH. reflexivity.
Qed.

Lemma skipn_add : forall (A : Type) (y x : nat) (l : list A), skipn x (skipn y l) = skipn (y + x) l.
Proof.
  intros A y. induction y as [|y IH]; intros x l; [reflexivity|].
  destruct l as [|a r]; [cbn [skipn plus]; destruct x; reflexivity|]. cbn [skipn plus]. apply IH.
Qed.

Lemma mark_range_writes : forall id a b es, (a <= b)%nat -> log_writes (mark_range id a b es) = log_writes es.
Proof.
  intros id a b es Hab. unfold mark_range. rewrite !log_writes_app, log_writes_map_reqid.
  rewrite <- !log_writes_app. f_equal.
  replace (skipn b es) with (skipn (b - a) (skipn a es)).
  - rewrite firstn_skipn. apply firstn_skipn.
  - rewrite skipn_add. f_equal. lia.
Qed.

Lemma do_put_spec : forall line req r, wf_reqb req = true -> log_ok (r_log r) ->
  rank_writes (do_put line req r) = rank_writes r ++ req_writes req /\ log_ok (r_log (do_put line req r)).
Proof.
  intros line req r Hwf Hok. unfold do_put, rank_writes, set_log. cbn [r_log]. split.
  - apply log_put_writes. exact Hwf.
  - apply log_put_ok; [apply wf_req_ok; exact Hwf | exact Hok].
Qed.

Lemma do_iput_spec : forall line slot req r, wf_reqb req = true -> log_ok (r_log r) ->
  rank_writes (snd (do_iput line slot req r)) = rank_writes r ++ req_writes req /\
  log_ok (r_log (snd (do_iput line slot req r))).
Proof.
  intros line slot req r Hwf Hok. unfold do_iput.
  assert (Hal : r_log (snd (id_alloc r)) = r_log r).
  { unfold id_alloc. destruct (r_stack r); reflexivity. }
  destruct (id_alloc r) as [id r1] eqn:Ea. cbn [snd] in Hal. cbn [snd].
  destruct (log_put_entries line req (r_log r1) Hwf) as (e & He & Hv & Hr).
  unfold rank_writes. cbn [r_log l_entries]. split.
  - rewrite mark_range_writes.
    + rewrite log_put_writes by exact Hwf. rewrite Hal. reflexivity.
    + rewrite He, app_length. lia.
  - apply (mark_range_ok id _ _ (log_put line req (r_log r1))).
    apply log_put_ok; [apply wf_req_ok; exact Hwf | rewrite Hal; exact Hok].
Qed.

(** ** one operation preserves the simulation *)
Lemma wf_write_facts : forall w d k req, wf_write w d k req = true ->
  (k < length (w_rs w))%nat /\ wf_reqb req = true /\ NoDup (map fst (req_writes req)) /\
  (forall x, In x (map fst (req_writes req)) -> ~ In x (map fst (pending w))) /\
  (forall x, In x (map fst (req_writes req)) -> ~ In x (map fst (dpend d))).
Proof.
  intros w d k req H. unfold wf_write in H. repeat rewrite andb_true_iff in H.
  destruct H as ((((H1 & H2) & H3) & H4) & H5).
  split; [apply Nat.ltb_lt; exact H1|]. split; [exact H2|]. split; [apply nodupk_spec; exact H3|].
  split; [apply disjk_spec; exact H4 | apply disjk_spec; exact H5].
Qed.

(** rank [k] logs one more request: the SPEC applies it at once (blocking put) or keeps it
    pending (nonblocking put); the eventual files agree either way *)
Lemma sim_add_writes : forall w d k slot req r', good w -> sim w d -> wf_write w d k req = true ->
  (wf_reqb req = true ->
   rank_writes r' = rank_writes (get_rank w k) ++ req_writes req /\ log_ok (r_log r')) ->
  good (set_rank w k r') /\
  sim (set_rank w k r') (mkD (direct_put req (d_file d)) (d_pend d)) /\
  sim (set_rank w k r') (mkD (d_file d) (d_pend d ++ [(k, slot, req)])).
Proof.
  intros w d k slot req r' (Hnd & Hok & Hsp) (Hs & Hdn) Hwf Hr'.
  destruct (wf_write_facts w d k req Hwf) as (Hk & Hreq & HW & HWP & HWD).
  destruct (Hr' Hreq) as (Hrw & Hlog).
  assert (Hperm : Permutation (pending (set_rank w k r')) (pending w ++ req_writes req)).
  { rewrite (pending_set_rank w k r' Hk), Hrw, (pending_split w k Hk), <- !app_assoc.
    do 2 apply Permutation_app_head. apply Permutation_app_comm. }
  assert (Hnd' : NoDup (map fst (pending (set_rank w k r')))).
  { apply (NoDup_keys_perm (pending w ++ req_writes req)); [apply Permutation_sym; exact Hperm|].
    rewrite map_app. apply NoDup_app_intro; [exact Hnd | exact HW|]. intros x Hx Hx'. exact (HWP x Hx' Hx). }
  assert (Hn2 : NoDup (map fst (dpend d ++ req_writes req))).
  { rewrite map_app. apply NoDup_app_intro; [exact Hdn | exact HW|]. intros x Hx Hx'. exact (HWD x Hx' Hx). }
  assert (E : forall x, EB (set_rank w k r') x = apply_writes (dpend d ++ req_writes req) (lf_map (d_file d)) x).
  { intro x. unfold EB. cbn [set_rank w_file]. rewrite (apply_writes_perm _ _ _ Hperm Hnd'), !apply_writes_app.
    apply apply_writes_ext. apply Hs. }
  assert (Edp : dpend (mkD (d_file d) (d_pend d ++ [(k, slot, req)])) = dpend d ++ req_writes req).
  { unfold dpend. cbn [d_pend]. rewrite flat_map_app. cbn [flat_map snd]. rewrite app_nil_r. reflexivity. }
  split; [split; [exact Hnd' | split; [apply Forall_upd_nth; assumption | exact Hsp]]|].
  split; split.
  - (* the new writes touch no pending request: they may as well go first *)
    intro x. rewrite E. unfold ED, dpend. cbn [d_pend d_file direct_put lf_map]. rewrite <- apply_writes_app.
    apply apply_writes_perm; [apply Permutation_app_comm | exact Hn2].
  - exact Hdn.
  - intro x. rewrite E. unfold ED. rewrite Edp. reflexivity.
  - rewrite Edp. exact Hn2.
Qed.

(** waiting does not touch the log *)
Lemma id_free_log : forall id r, r_log (id_free id r) = r_log r.
Proof. reflexivity. Qed.

Lemma handle_put_log : forall s r, r_log (snd (handle_put s r)) = r_log r.
Proof.
  intros s r. unfold handle_put. destruct (slot_get (r_slots r) s); [|reflexivity].
  destruct (pl_get (r_pl r) z); reflexivity.
Qed.

Lemma handle_list_log : forall l r, r_log (snd (handle_list l r)) = r_log r.
Proof.
  induction l as [|s l IH]; intro r; [reflexivity|]. cbn [handle_list].
  destruct s as [sl | |].
  - pose proof (handle_put_log sl r) as H1. destruct (handle_put sl r) as [st r1]. cbn [snd] in H1.
    pose proof (IH r1) as H2. destruct (handle_list l r1) as [sts r2]. cbn [snd] in *. rewrite H2. exact H1.
  - pose proof (IH r) as H2. destruct (handle_list l r) as [sts r2]. exact H2.
  - pose proof (IH r) as H2. destruct (handle_list l r) as [sts r2]. exact H2.
Qed.

Lemma handle_all_log : forall r, r_log (handle_all r) = r_log r.
Proof.
  intro r. unfold handle_all. generalize (sort_z (map fst (r_pl r))). intro l. revert r.
  induction l as [|id l IH]; intro r; [reflexivity|]. cbn [fold_left]. rewrite IH. reflexivity.
Qed.

Lemma wait_rank_log : forall line coll indep k a r, r_log (snd (wait_rank line coll indep k a r)) = r_log r.
Proof.
  intros line coll indep k a r. unfold wait_rank. destruct a as [l | num].
  - pose proof (handle_list_log l r) as H. destruct (handle_list l r) as [sts r1]. cbn [snd] in *.
    destruct ((0 <? count_gets l) || negb indep); cbn [snd]; [unfold add_ev; cbn [r_log]|]; exact H.
  - cbn [snd].
    destruct ((num =? NC_REQ_ALL) || (num =? NC_PUT_REQ_ALL)); destruct ((num =? NC_REQ_ALL) || (num =? NC_GET_REQ_ALL));
      unfold add_ev; cbn [r_log]; try rewrite handle_all_log; reflexivity.
Qed.

(** [w'] differs from [w] in bookkeeping only (put lists, record counts, mode flags) *)
Definition same_state (w w' : world) : Prop :=
  (good w -> good w') /\ pending w' = pending w /\ w_file w' = w_file w.

Lemma same_state_refl : forall w, same_state w w.
Proof. intro w. split; [exact (fun H => H) | split; reflexivity]. Qed.

Lemma same_state_trans : forall a b c, same_state a b -> same_state b c -> same_state a c.
Proof.
  intros a b c (G1 & P1 & F1) (G2 & P2 & F2).
  split; [exact (fun H => G2 (G1 H)) | split; [rewrite P2; exact P1 | rewrite F2; exact F1]].
Qed.

Lemma EB_same : forall w w', same_state w w' -> forall x, EB w' x = EB w x.
Proof. intros w w' (_ & Hp & Hf) x. unfold EB. rewrite Hp, Hf. reflexivity. Qed.

Lemma set_rank_same_log : forall w k r', r_log r' = r_log (get_rank w k) -> same_state w (set_rank w k r').
Proof.
  intros w k r' Hlog.
  assert (Hp : pending (set_rank w k r') = pending w).
  { destruct (Nat.lt_ge_cases k (length (w_rs w))) as [Hk | Hk].
    - rewrite pending_set_rank, (pending_split w k Hk) by exact Hk. unfold rank_writes. rewrite Hlog. reflexivity.
    - unfold pending. rewrite set_rank_overflow by exact Hk. reflexivity. }
  split; [|split; [exact Hp | reflexivity]].
  intro Hg. pose proof (good_rank_ok w k Hg) as Hlk. destruct Hg as (Hnd & Hok & Hsp).
  split; [rewrite Hp; exact Hnd | split; [|exact Hsp]].
  apply Forall_upd_nth; [exact Hok | rewrite Hlog; exact Hlk].
Qed.

Lemma wait_step_same : forall line coll who w, good w -> wf_wait w who = true ->
  same_state (trigger_flush cfg ord (map fst who) w) (fst (step cfg ord w (OWait line coll who))).
Proof.
  intros line coll who w Hg Hwf. cbn [step]. unfold bb_trig_wait. cbv zeta.
  destruct (trigger_flush_spec (map fst who) w Hg) as (_ & _ & _ & Hi1 & _).
  set (w1 := trigger_flush cfg ord (map fst who) w) in *.
  (* [wf_wait]: in collective mode either every rank reaches ncmpio's wait or none does *)
  unfold wf_wait in Hwf. cbv zeta in Hwf. rewrite Hi1.
  replace (negb (w_indep w) && _ && _) with false
    by (destruct (w_indep w); [reflexivity | apply negb_true_iff in Hwf; symmetry; exact Hwf]).
  cbv iota.
  apply (fold_left_preorder _ _ (fun a b => same_state (fst a) (fst b))) with (a := (w1, []));
    [intro a; apply same_state_refl | intros a b c; apply same_state_trans | intros a ka].
  pose proof (wait_rank_log line coll (w_indep w1) (fst ka) (snd ka) (get_rank (fst a) (fst ka))) as Hl.
  destruct (wait_rank line coll (w_indep w1) (fst ka) (snd ka) (get_rank (fst a) (fst ka))) as [sts r'].
  exact (set_rank_same_log (fst a) (fst ka) r' Hl).
Qed.

Lemma sync_numrecs_same : forall w, same_state w (sync_numrecs w).
Proof.
  intro w. unfold sync_numrecs. generalize (zmax_list (map r_nr (w_rs w))). intro m.
  assert (Hp : pending (mkW (w_file w) (map (set_nr m) (w_rs w)) (w_indep w) (w_logs w) (w_spin w)) = pending w).
  { unfold pending. cbn [w_rs]. rewrite flat_map_map_comm. reflexivity. }
  split; [|split; [exact Hp | reflexivity]].
  intros (Hnd & Hok & Hsp). split; [rewrite Hp; exact Hnd | split; [|exact Hsp]].
  apply Forall_map. exact Hok.
Qed.

Lemma reflag_same : forall w b l, same_state w (mkW (w_file w) (w_rs w) b l (w_spin w)).
Proof. intros w b l. split; [exact (fun H => H) | split; reflexivity]. Qed.

(** the SPEC side of a wait: completed requests move from the pending list into the file *)
Lemma filter_partition_perm : forall (A : Type) (f : A -> bool) (l : list A),
  Permutation l (filter f l ++ filter (fun x => negb (f x)) l).
Proof.
  intros A f l. induction l as [|x r IH]; [constructor|].
  cbn [filter]. destruct (f x); cbn [negb app].
  - constructor. exact IH.
  - apply Permutation_cons_app. exact IH.
Qed.

Lemma dtake_sim : forall d k sl, NoDup (map fst (dpend d)) ->
  let d' := mkD (fold_left (fun f r => direct_put r f) (fst (d_take k sl (d_pend d))) (d_file d))
                (snd (d_take k sl (d_pend d))) in
  (forall x, ED d' x = ED d x) /\ NoDup (map fst (dpend d')).
Proof.
  intros d k sl Hnd. cbv zeta. unfold ED.
  apply (commit_writes (flat_map req_writes (fst (d_take k sl (d_pend d))))); [exact Hnd | |].
  - unfold dpend, d_take. cbn [fst snd d_pend]. rewrite flat_map_map_comm, <- flat_map_app.
    apply Permutation_flat_map. apply filter_partition_perm.
  - intro x. cbn [d_file]. rewrite direct_puts_map. reflexivity.
Qed.

Lemma dwait_sim : forall line coll who d, NoDup (map fst (dpend d)) ->
  (forall x, ED (fst (dstep d (OWait line coll who))) x = ED d x) /\
  NoDup (map fst (dpend (fst (dstep d (OWait line coll who))))).
Proof.
  intros line coll who d. cbn [dstep fst].
  apply (fold_left_preorder _ _ (fun d d' => NoDup (map fst (dpend d)) ->
           (forall x, ED d' x = ED d x) /\ NoDup (map fst (dpend d')))).
  - intros a Ha. split; [reflexivity | exact Ha].
  - intros a b c Hab Hbc Ha. destruct (Hab Ha) as [E1 N1]. destruct (Hbc N1) as [E2 N2].
    split; [intro x; rewrite E2; apply E1 | exact N2].
  - intros a ka Ha. cbv zeta. apply dtake_sim. exact Ha.
Qed.

Definition is_get (o : op) : bool := match o with OGet _ _ => true | _ => false end.

(** operations after which every rank's log is empty *)
Definition is_sync_point (w : world) (o : op) : bool :=
  match o with
  | OSync _ | OFlush _ | ORedef _ | OClose _ => true
  | OWait _ _ _ | OGet _ _ => negb (w_indep w)       (* wait_all / get_all in collective mode *)
  | _ => false
  end.

Lemma same_state_sim : forall w w' d, same_state w w' -> good w -> sim w d -> good w' /\ sim w' d.
Proof.
  intros w w' d Hsame Hg (Hs & Hdn). split; [apply Hsame; exact Hg|].
  split; [|exact Hdn]. intro x. rewrite (EB_same _ _ Hsame). apply Hs.
Qed.

Lemma sync_if_same : forall (b : bool) w, same_state w (if b then sync_numrecs w else w).
Proof. intros [|] w; [apply sync_numrecs_same | apply same_state_refl]. Qed.

Lemma sync_reflag_same : forall w b l,
  same_state w (mkW (w_file (sync_numrecs w)) (w_rs (sync_numrecs w)) b l (w_spin (sync_numrecs w))).
Proof. intros w b l. exact (same_state_trans _ _ _ (sync_numrecs_same w) (reflag_same (sync_numrecs w) b l)). Qed.

(** an operation that flushes the logs of [who] and then does bookkeeping: the eventual file is the
    one before the flush, and nothing stays pending when every rank flushed (collective mode, or
    all ranks named) *)
Lemma flush_sim : forall who w d w', good w -> sim w d -> same_state (trigger_flush cfg ord who w) w' ->
  good w' /\ sim w' d /\ (negb (w_indep w) = true \/ who = all_ranks w -> pending w' = []).
Proof.
  intros who w d w' Hg (Hs & Hdn) Hsame.
  destruct (trigger_flush_spec who w Hg) as (Hg1 & He1 & Hl1 & _ & Hr1).
  destruct (same_state_sim _ _ d Hsame Hg1) as [G S]; [split; [|exact Hdn]; intro x; rewrite He1; apply Hs|].
  split; [exact G|]. split; [exact S|].
  intro Hall. destruct Hsame as (_ & -> & _). apply pending_nil. intros j Hj. rewrite Hl1 in Hj. rewrite Hr1.
  destruct Hall as [-> | ->]; [|rewrite all_ranks_flushed by exact Hj]; reflexivity.
Qed.

(** sync, flush, redef, close: every rank replays its log *)
Lemma flush_all_ranks_sim : forall w d w', good w -> sim w d ->
  same_state (trigger_flush cfg ord (all_ranks w) w) w' -> good w' /\ sim w' d /\ pending w' = [].
Proof.
  intros w d w' Hg Hsim Hsame. destruct (flush_sim (all_ranks w) w d w' Hg Hsim Hsame) as (G & S & P).
  exact (conj G (conj S (P (or_intror eq_refl)))).
Qed.

(** after the flush it triggers, a well-formed get finds in the file what the SPEC's file holds: its
    elements are written by no pending request of the SPEC and by no log entry left after the flush *)
Lemma get_reads_spec : forall who w d, good w -> (forall x, EB w x = ED d x) -> wf_read w d who = true ->
  forall rk x, In rk who -> In x (snd rk) ->
  w_file (trigger_flush cfg ord (map fst who) w) x = lf_map (d_file d) x.
Proof.
  intros who w d Hg Hs Hwf rk x Hrk Hx.
  unfold wf_read in Hwf. rewrite forallb_forall in Hwf. specialize (Hwf rk Hrk).
  rewrite forallb_forall in Hwf. specialize (Hwf x Hx). apply andb_true_iff in Hwf. destruct Hwf as [Hd Hr].
  destruct (trigger_flush_spec (map fst who) w Hg) as (_ & He1 & Hl1 & _ & Hr1).
  transitivity (EB (trigger_flush cfg ord (map fst who) w) x);
    [symmetry | rewrite He1, Hs; apply apply_writes_notin; apply memk_false; apply negb_true_iff; exact Hd].
  apply apply_writes_notin. intro Hin. apply in_map_iff in Hin. destruct Hin as (y & <- & Hy).
  destruct (in_pending_rank _ y Hy) as (j & Hj & Hyj).
  rewrite Hr1 in Hyj. rewrite Hl1 in Hj.
  destruct (negb (w_indep w)); [destruct Hyj|]. cbn [orb] in Hr, Hyj.
  rewrite forallb_forall in Hr. specialize (Hr j (all_ranks_in w j Hj)).
  destruct (existsb (Nat.eqb j) (map fst who)); [destruct Hyj|].
  apply negb_true_iff, memk_false in Hr. apply Hr. apply in_map. exact Hyj.
Qed.

(** wait: the driver flushes and hands out statuses; the SPEC applies the requests waited for.
    In collective mode every rank flushes, whoever is named in the call. *)
Lemma wait_sim : forall line coll who w d, good w -> sim w d -> wf_wait w who = true ->
  let w' := fst (step cfg ord w (OWait line coll who)) in
  good w' /\ sim w' (fst (dstep d (OWait line coll who))) /\ (negb (w_indep w) = true -> pending w' = []).
Proof.
  intros line coll who w d Hg Hsim Hwf.
  destruct (flush_sim (map fst who) w d _ Hg Hsim (wait_step_same line coll who w Hg Hwf)) as (G & (Hs & _) & P).
  destruct (dwait_sim line coll who d (proj2 Hsim)) as (Hed & Hnd').
  split; [exact G|]. split; [|exact (fun H => P (or_introl H))].
  split; [|exact Hnd']. intro x. rewrite Hs. symmetry. apply Hed.
Qed.

Lemma reopen_sim : forall line w d, good w -> sim w d -> pending w = [] ->
  good (fst (step cfg ord w (OReopen line))) /\ sim (fst (step cfg ord w (OReopen line))) d.
Proof.
  intros line w d Hg (Hs & Hdn) Ep. cbn [step fst]. set (w' := mkW _ _ _ _ _).
  assert (Hp : pending w' = []).
  { unfold pending, w'. cbn [w_rs]. rewrite flat_map_map_comm. apply flat_map_all_nil. reflexivity. }
  split.
  - split; [rewrite Hp; constructor | split; [|apply Hg]].
    apply Forall_map. apply Forall_forall. intros r _. exact log_init_ok.
  - split; [|exact Hdn]. intro x. rewrite <- Hs. unfold EB. rewrite Hp, Ep. reflexivity.
Qed.

(** what [step_sim] asks of an operation that is neither a get nor a sync point, and of a sync point *)
Lemma quiet_step : forall w' d' (A B : Prop), good w' /\ sim w' d' ->
  good w' /\ sim w' d' /\ (false = true -> A) /\ (false = true -> B).
Proof. intros w' d' A B (G & S). split; [exact G | split; [exact S | split; discriminate]]. Qed.

Lemma sync_point_step : forall w' d' (A : Prop), good w' /\ sim w' d' /\ pending w' = [] ->
  good w' /\ sim w' d' /\ (false = true -> A) /\ (true = true -> pending w' = []).
Proof. intros w' d' A (G & S & P). split; [exact G | split; [exact S | split; [discriminate | intros _; exact P]]]. Qed.

Theorem step_sim : forall w d o, good w -> sim w d -> wf_stepb w d o = true ->
  good (fst (step cfg ord w o)) /\ sim (fst (step cfg ord w o)) (fst (dstep d o)) /\
  (is_get o = true -> snd (step cfg ord w o) = snd (dstep d o)) /\
  (is_sync_point w o = true -> pending (fst (step cfg ord w o)) = []).
Proof.
  intros w d o Hg Hsim Hwf.
  destruct o as [line k req | line k slot req | line k slots | line who | line coll who | line | line | line | | | line | line | line];
    cbn [wf_stepb] in Hwf; cbn [is_get is_sync_point].
  all: cbn [step dstep fst snd].
  (* every flush trigger is present in the source as built *)
  all: unfold close_all, bb_trig_get, bb_trig_getn, bb_trig_sync, bb_trig_flush, bb_trig_redef, bb_trig_close;
    cbn [andb fst snd].
  - (* OPut *)
    destruct (sim_add_writes w d k 0 req _ Hg Hsim Hwf
                (fun Hreq => do_put_spec line req _ Hreq (good_rank_ok w k Hg))) as (G & S & _).
    exact (quiet_step _ _ _ _ (conj G S)).
  - (* OIput *)
    destruct (sim_add_writes w d k slot req _ Hg Hsim Hwf
                (fun Hreq => do_iput_spec line slot req _ Hreq (good_rank_ok w k Hg))) as (G & _ & S).
    destruct (do_iput line slot req (get_rank w k)) as [id r']. exact (quiet_step _ _ _ _ (conj G S)).
  - discriminate.
  - (* OGet *)
    destruct (flush_sim (map fst who) w d _ Hg Hsim (same_state_refl _)) as (G & S & P).
    split; [exact G | split; [exact S | split; [|exact (fun H => P (or_introl H))]]].
    intros _. apply map_ext_in. intros rk Hrk. do 3 f_equal. apply map_ext_in. intros x Hx. f_equal.
    exact (get_reads_spec who w d Hg (proj1 Hsim) Hwf rk x Hrk Hx).
  - (* OWait *)
    destruct (wait_sim line coll who w d Hg Hsim Hwf) as (G & S & P).
    split; [exact G | split; [exact S | split; [discriminate | exact P]]].
  - (* OSync *)
    apply sync_point_step, (flush_all_ranks_sim w); [exact Hg | exact Hsim | apply sync_if_same].
  - (* OFlush *)
    apply sync_point_step, (flush_all_ranks_sim w); [exact Hg | exact Hsim | apply same_state_refl].
  - (* ORedef *)
    apply sync_point_step, (flush_all_ranks_sim w); [exact Hg | exact Hsim | apply same_state_refl].
  - (* OBeginIndep *)
    apply quiet_step, (same_state_sim w); [apply reflag_same | exact Hg | exact Hsim].
  - (* OEndIndep *)
    apply quiet_step, (same_state_sim w); [apply sync_reflag_same | exact Hg | exact Hsim].
  - (* OInq *)
    exact (quiet_step _ _ _ _ (conj Hg Hsim)).
  - (* OClose *)
    apply sync_point_step, (flush_all_ranks_sim w); [exact Hg | exact Hsim | apply sync_reflag_same].
  - (* OReopen *)
    destruct (pending w) as [|y ys] eqn:Ep; [|discriminate]. exact (quiet_step _ _ _ _ (reopen_sim line w d Hg Hsim Ep)).
Qed.

(** ** whole sessions *)
Fixpoint wf_run (w : world) (d : dworld) (ops : list op) : Prop :=
  match ops with
  | [] => True
  | o :: r => wf_stepb w d o = true /\ wf_run (fst (step cfg ord w o)) (fst (dstep d o)) r
  end.

Lemma run_cons_fst : forall w o r, fst (run cfg ord w (o :: r)) = fst (run cfg ord (fst (step cfg ord w o)) r).
Proof.
  intros w o r. cbn [run]. destruct (step cfg ord w o) as [w1 ob1]. cbn [fst].
  destruct (run cfg ord w1 r) as [w2 ob2]. reflexivity.
Qed.

Lemma drun_cons_fst : forall d o r, fst (drun d (o :: r)) = fst (drun (fst (dstep d o)) r).
Proof.
  intros d o r. cbn [drun]. destruct (dstep d o) as [d1 ob1]. cbn [fst].
  destruct (drun d1 r) as [d2 ob2]. reflexivity.
Qed.

Lemma run_snoc_fst : forall a o w, fst (run cfg ord w (a ++ [o])) = fst (step cfg ord (fst (run cfg ord w a)) o).
Proof.
  induction a as [|x a IH]; intros o w; [apply (run_cons_fst w o [])|].
  rewrite <- app_comm_cons, !run_cons_fst. apply IH.
Qed.

Lemma drun_snoc_fst : forall a o d, fst (drun d (a ++ [o])) = fst (dstep (fst (drun d a)) o).
Proof.
  induction a as [|x a IH]; intros o d; [apply (drun_cons_fst d o [])|].
  rewrite <- app_comm_cons, !drun_cons_fst. apply IH.
Qed.

Lemma wf_run_app : forall a b w d, wf_run w d (a ++ b) ->
  wf_run w d a /\ wf_run (fst (run cfg ord w a)) (fst (drun d a)) b.
Proof.
  induction a as [|o a IH]; intros b w d H; [split; [exact I | exact H]|].
  rewrite <- app_comm_cons in H. cbn [wf_run] in H. destruct H as [H1 H2].
  destruct (IH b _ _ H2) as [H3 H4]. split; [split; assumption|].
  rewrite run_cons_fst, drun_cons_fst. exact H4.
Qed.

Theorem run_sim : forall ops w d, good w -> sim w d -> wf_run w d ops ->
  good (fst (run cfg ord w ops)) /\ sim (fst (run cfg ord w ops)) (fst (drun d ops)).
Proof.
  induction ops as [|o r IH]; intros w d Hg Hs Hwf; [split; assumption|].
  cbn [wf_run] in Hwf. destruct Hwf as [H1 H2].
  destruct (step_sim w d o Hg Hs H1) as (Hg1 & Hs1 & _).
  rewrite run_cons_fst, drun_cons_fst. apply IH; assumption.
Qed.

Lemma good_init : forall np, good (world_init np).
Proof.
  intro np. split; [rewrite pending_init; constructor | split; [|reflexivity]].
  apply Forall_forall. intros r Hr. apply repeat_spec in Hr. subst r. exact log_init_ok.
Qed.

Lemma sim_init : forall np, sim (world_init np) dworld_init.
Proof. intro np. split; [|constructor]. intro x. unfold EB. rewrite pending_init. reflexivity. Qed.

(** READ OWN WRITES: after any well-formed history, a well-formed get (its elements have no
    pending nonblocking write, and in independent mode no unflushed write of a rank that does not
    take part in the call) returns exactly what the default driver returns: the driver flushes the
    callers' logs first. *)
Theorem read_own_writes : forall np ops line who,
  wf_run (world_init np) dworld_init (ops ++ [OGet line who]) ->
  snd (step cfg ord (fst (run cfg ord (world_init np) ops)) (OGet line who)) =
  snd (dstep (fst (drun dworld_init ops)) (OGet line who)).
Proof.
  intros np ops line who Hwf. destruct (wf_run_app ops [OGet line who] _ _ Hwf) as [Ha [Hb _]].
  destruct (run_sim ops _ _ (good_init np) (sim_init np) Ha) as [Hg Hs].
  apply (step_sim _ _ _ Hg Hs Hb). reflexivity.
Qed.

(** VISIBLE AFTER SYNC POINTS: after sync / flush / redef / close (any mode) and after wait_all /
    get_all in collective mode, no rank has anything left in its log and the destination file holds
    every write made so far by every process (all of the default driver's file, plus the nonblocking
    puts that the default driver still has pending). *)
Theorem visible_after_sync_points : forall np ops o,
  wf_run (world_init np) dworld_init (ops ++ [o]) ->
  is_sync_point (fst (run cfg ord (world_init np) ops)) o = true ->
  let w1 := fst (run cfg ord (world_init np) (ops ++ [o])) in
  let d1 := fst (drun dworld_init (ops ++ [o])) in
  pending w1 = [] /\ w_spin w1 = false /\ (forall x, w_file w1 x = ED d1 x) /\
  (d_pend d1 = [] -> forall x, w_file w1 x = lf_map (d_file d1) x).
Proof.
  intros np ops o Hwf Hsp. cbv zeta. destruct (wf_run_app ops [o] _ _ Hwf) as [Ha [Hb _]].
  destruct (run_sim ops _ _ (good_init np) (sim_init np) Ha) as [Hg Hs].
  destruct (step_sim _ _ _ Hg Hs Hb) as ((_ & _ & Hspin) & (Hs1 & _) & _ & Hemp).
  rewrite run_snoc_fst, drun_snoc_fst. specialize (Hemp Hsp).
  unfold EB in Hs1. rewrite Hemp in Hs1. cbn [apply_writes] in Hs1.
  split; [exact Hemp|]. split; [exact Hspin|]. split; [exact Hs1|].
  intros Hnone x. rewrite (Hs1 x). unfold ED, dpend. rewrite Hnone. reflexivity.
Qed.

(** BB = DEFAULT AT CLOSE: for every well-formed program that ends with close and has waited for
    all its nonblocking puts, the destination file written through the burst-buffer driver equals the
    file written by the default driver, no rank hangs or spins on the way, and the log files exist
    afterwards iff retention was requested. *)
Theorem bb_equals_default : forall np ops line,
  wf_run (world_init np) dworld_init (ops ++ [OClose line]) ->
  let w1 := fst (run cfg ord (world_init np) (ops ++ [OClose line])) in
  let d1 := fst (drun dworld_init (ops ++ [OClose line])) in
  d_pend d1 = [] ->
  (forall x, w_file w1 x = lf_map (d_file d1) x) /\ w_spin w1 = false /\ w_logs w1 = negb (c_del cfg).
Proof.
  intros np ops line Hwf. cbv zeta. intro Hnone.
  destruct (visible_after_sync_points np ops (OClose line) Hwf eq_refl) as (_ & Hsp & _ & Hf). cbv zeta in Hf.
  split; [exact (Hf Hnone)|]. split; [exact Hsp|].
  rewrite run_snoc_fst. cbn [step fst].
  apply log_removed_at_close.
Qed.

End Session.

(** the hypotheses are satisfiable: a two-rank session with blocking and nonblocking puts, an
    independent-mode phase, reads of own and of flushed foreign data, a one-entry flush buffer *)
Definition ex_cfg : config := mkCfg 1 true (fun _ _ => 0).
Definition ex_ops : list op :=
  [ OPut 1 0 (RVar 0 true 4 [0; 0] (Some [1; 4]) None [1; 2; 3; 4]);
    OPut 2 1 (RVar 0 true 4 [1; 0] (Some [1; 4]) None [5; 6; 7; 8]);
    OIput 3 0 0 (RVarn 1 false 8 [([0], Some [2]); ([3], Some [1])] true [9; 10; 11]);
    OGet 4 [(0%nat, [(0, [0; 1])]); (1%nat, [(0, [1; 2])])];
    OWait 5 true [(0%nat, WList [WPut 0]); (1%nat, WList [])];
    OGet 6 [(0%nat, [(0, [1; 3]); (1, [3])]); (1%nat, [(0, [0; 0])])];
    OBeginIndep;
    OPut 7 1 (RVar 0 true 4 [2; 1] (Some [1; 2]) (Some [1; 2]) [12; 13]);
    OGet 8 [(1%nat, [(0, [2; 3])])];
    OSync 9; OEndIndep;
    OPut 10 0 (RVar 0 true 4 [2; 1] (Some [1; 1]) None [14]);
    OClose 11 ].

Example session_example :
  wf_run ord_id ex_cfg (world_init 2) dworld_init ex_ops /\
  d_pend (fst (drun dworld_init ex_ops)) = [] /\
  snd (run ex_cfg ord_id (world_init 2) (firstn 4 ex_ops)) = [[20; 3; 0; 0]; [40; 4; 0; 2]; [40; 4; 1; 7]] /\
  map (fun x => w_file (fst (run ex_cfg ord_id (world_init 2) ex_ops)) x) [(0, [2; 1]); (0, [2; 3]); (1, [3]); (1, [2])]
  = [Some 14; Some 13; Some 11; None].
Proof.
  split; [|split; [|split]].
  - cbn [ex_ops wf_run]. repeat (split; [vm_compute; reflexivity|]). exact I.
  - vm_compute. reflexivity.
  - vm_compute. reflexivity.
  - vm_compute. reflexivity.
Qed.

(** ** record count *)
(** after a collective flush every rank's record count is its old count raised to the largest
    record extent of ANY rank's flushed entries: ranks that agreed before agree afterwards *)
Theorem collective_flush_numrecs : forall (ord : list wr -> list wr) (cfg : config) w, good w ->
  let m := zmax_list (map (fun r => log_recs (l_entries (r_log r))) (w_rs w)) in
  map r_nr (w_rs (flush_all cfg ord w)) = map (fun r => Z.max (r_nr r) m) (w_rs w) /\
  (forall r, In r (w_rs w) -> log_recs (l_entries (r_log r)) <= m).
Proof.
  intros ord cfg w (Hnd & Hok & Hsp). cbv zeta. split.
  - unfold flush_all.
    destruct (flush_ranks_spec cfg (zmax_list (map (rank_rounds cfg) (w_rs w))) (w_rs w) 0 Hok)
      as (l & -> & _ & _ & _ & _ & Hnr).
    { intros r Hin. apply zmax_list_ge. apply in_map. exact Hin. }
    generalize (zmax_list (map (fun r => log_recs (l_entries (r_log r))) (w_rs w))). intro m.
    apply (f_equal (map (fun n => Z.max n m))) in Hnr. rewrite !map_map in Hnr.
    cbn [w_rs]. rewrite map_map. exact Hnr.
  - intros r Hin. apply zmax_list_ge. apply (in_map (fun r => log_recs (l_entries (r_log r)))). exact Hin.
Qed.

(** a process sees the records it has written at once (ncbbio_inq_dim), before any flush *)
Theorem own_records_visible : forall line req r,
  match req with RVar _ _ elsz _ _ _ _ | RVarn _ _ elsz _ _ _ => 0 < elsz end -> 0 <= l_recdim (r_log r) ->
  req_recs req <= numrecs_view (do_put line req r).
Proof.
  intros line req r He Hr. unfold numrecs_view, do_put, set_log. cbn [r_log r_nr].
  rewrite (log_put_recdim line req (r_log r) He Hr). lia.
Qed.

Theorem own_records_visible_var : forall line vid elsz st c t data r, 0 < elsz -> 0 <= l_recdim (r_log r) ->
  req_recs (RVar vid true elsz st (Some c) t data) <= numrecs_view (do_put line (RVar vid true elsz st (Some c) t data) r).
Proof. intros line vid elsz st c t data r He Hr. apply own_records_visible; assumption. Qed.

Theorem own_records_visible_varn : forall line vid elsz subs hc data r, 0 < elsz -> 0 <= l_recdim (r_log r) ->
  req_recs (RVarn vid true elsz subs hc data) <= numrecs_view (do_put line (RVarn vid true elsz subs hc data) r).
Proof. intros line vid elsz subs hc data r He Hr. apply own_records_visible; assumption. Qed.

Print Assumptions step_sim.
Print Assumptions read_own_writes.
Print Assumptions visible_after_sync_points.
Print Assumptions bb_equals_default.
Print Assumptions collective_flush_numrecs.

(** * Part III: every replayed entry is given its OWN bytes of the data log, for any pattern of
      valid and cancelled entries (reads at [databuffer + dataread], seeks over cancelled bytes) *)
Section DataLogProofs.
Variable A : Type.
Variable cells : entry -> list A.

Lemma write_at_append : forall (d buf : list A), write_at A (length buf) d buf = buf ++ d.
Proof.
  intros d buf. unfold write_at. rewrite firstn_all. rewrite skipn_all2 by lia. rewrite app_nil_r. reflexivity.
Qed.

Lemma skipn_app_exact : forall (pre rest : list A), skipn (length pre) (pre ++ rest) = rest.
Proof. intros pre rest. rewrite skipn_app, skipn_all, Nat.sub_diag. reflexivity. Qed.

Lemma firstn_app_exact : forall (u rest : list A), firstn (length u) (u ++ rest) = u.
Proof. intros u rest. rewrite firstn_app, firstn_all, Nat.sub_diag. cbn [firstn]. apply app_nil_r. Qed.

(** the reader after [pre] of the data log is consumed: [B] is in the buffer, the bytes [U] that
    follow in the log are counted in [databufferused] but not read yet *)
Definition rd_at (pre B U : list A) : rdstate A :=
  mkRd A (length pre) B (length B) (length B + length U).

Lemma rd_at_use : forall pre B U c,
  mkRd A (length pre) B (length B) (length B + length U + length c) = rd_at pre B (U ++ c).
Proof. intros. unfold rd_at. rewrite app_length, Nat.add_assoc. reflexivity. Qed.

Lemma rd_at_skip : forall pre B c,
  mkRd A (length pre + length c) B (length B) (length B + 0) = rd_at (pre ++ c) B [].
Proof. intros. unfold rd_at. rewrite app_length. reflexivity. Qed.

Lemma do_read_spec : forall pre B U R,
  do_read A true (pre ++ U ++ R) (rd_at pre B U) = rd_at (pre ++ U) (B ++ U) [].
Proof.
  intros pre B U R. unfold do_read, rd_at. cbn [rd_pos rd_buf rd_read rd_used].
  rewrite !app_length. cbn [length]. rewrite Nat.add_0_r.
  replace (length B + length U - length B)%nat with (length U) by lia.
  destruct (length B <? length B + length U)%nat eqn:E.
  - rewrite write_at_append, skipn_app_exact, firstn_app_exact. reflexivity.
  - apply Nat.ltb_ge in E. destruct U; [|cbn [length] in E; lia].
    cbn [length]. rewrite !Nat.add_0_r, app_nil_r. reflexivity.
Qed.

Lemma scan_read_spec : forall b pre B U R,
  scan_read A cells true (pre ++ U ++ flat_map cells b ++ R) b (rd_at pre B U)
  = rd_at (pre ++ U ++ flat_map cells b) (B ++ U ++ flat_map cells (valid_entries b)) [].
Proof.
  induction b as [|e r IH]; intros pre B U R; cbn [scan_read flat_map].
  - cbn [app valid_entries filter flat_map]. rewrite !app_nil_r. apply do_read_spec.
  - rewrite valid_entries_cons, <- (app_assoc (cells e)). destruct (e_valid e).
    + cbn [flat_map rd_at rd_pos rd_buf rd_read rd_used].
      rewrite rd_at_use, (app_assoc U (cells e)), IH, <- !app_assoc. reflexivity.
    + rewrite do_read_spec. cbn [rd_at rd_pos rd_buf rd_read rd_used length].
      rewrite rd_at_skip, (app_assoc pre U), (app_assoc (pre ++ U) (cells e)).
      etransitivity; [exact (IH ((pre ++ U) ++ cells e) (B ++ U) [] R)|]. cbn [app]. rewrite <- !app_assoc. reflexivity.
Qed.

Lemma slice_data_spec : forall b tail,
  slice_data A cells b (flat_map cells (valid_entries b) ++ tail) = map cells (valid_entries b).
Proof.
  induction b as [|e r IH]; intro tail; [reflexivity|]. cbn [slice_data]. rewrite valid_entries_cons.
  destruct (e_valid e); [|apply IH].
  cbn [flat_map map]. rewrite <- app_assoc, firstn_app_exact, skipn_app_exact, IH. reflexivity.
Qed.

Theorem read_batches_correct : forall bs dl pre R,
  dl = pre ++ flat_map cells (concat bs) ++ R ->
  read_batches A cells true dl bs (length pre) = map (fun b => map cells (valid_entries b)) bs.
Proof.
  induction bs as [|b r IH]; intros dl pre R ->; [reflexivity|]. cbn [read_batches map concat].
  rewrite flat_map_app, <- app_assoc.
  pose proof (scan_read_spec b pre [] [] (flat_map cells (concat r) ++ R)) as H.
  unfold rd_at in H. cbn [app length Nat.add] in H. rewrite H. cbn [rd_buf rd_pos]. f_equal.
  - rewrite <- (app_nil_r (flat_map cells (valid_entries b))). apply slice_data_spec.
  - apply (IH _ (pre ++ flat_map cells b) R). rewrite <- app_assoc. reflexivity.
Qed.
End DataLogProofs.

Lemma valid_entries_app : forall a b, valid_entries (a ++ b) = valid_entries a ++ valid_entries b.
Proof. intros a b. unfold valid_entries. apply filter_app. Qed.

Lemma concat_map_valid : forall (B : Type) (f : entry -> B) bs,
  concat (map (fun b => map f (valid_entries b)) bs) = map f (valid_entries (concat bs)).
Proof.
  intros B f bs. induction bs as [|b r IH]; [reflexivity|].
  cbn [map concat]. rewrite IH, valid_entries_app, map_app. reflexivity.
Qed.

Lemma combine_map_map : forall (X B C : Type) (f : X -> B) (g : X -> C) l,
  combine (map f l) (map g l) = map (fun x => (f x, g x)) l.
Proof. intros X B C f g l. induction l as [|x r IH]; [reflexivity|]. cbn [map combine]. rewrite IH. reflexivity. Qed.

(** OWN DATA: whatever the pattern of valid and cancelled entries, the buffer size and the resulting
    batching, the flush hands every valid entry exactly the bytes it wrote into the data log *)
Theorem flush_data_correct : forall hint l, log_ok l ->
  flush_data hint l = Some (map (fun e => (e_line e, entry_cells e)) (valid_entries (l_entries l))).
Proof.
  intros hint l Hok. unfold flush_data.
  destruct (rounds_agree_partial (buffer_size hint l) (l_entries l) (flush_buffer_fits hint l Hok))
    as (bs & Hbl & Hcat & _).
  rewrite Hbl. change bb_read_at_dataread with true. f_equal.
  assert (Hdl : flat_map entry_cells (l_entries l) = [] ++ flat_map entry_cells (concat bs) ++ []).
  { cbn [app]. rewrite app_nil_r, Hcat. reflexivity. }
  pose proof (read_batches_correct Z entry_cells bs (flat_map entry_cells (l_entries l)) [] [] Hdl) as Hrb.
  cbn [length] in Hrb. rewrite Hrb, concat_map_valid, Hcat. apply combine_map_map.
Qed.

(** the hypothesis is necessary: reading at [databuffer] instead of [databuffer + dataread] (the seeded
    change C12_flush_read_offset_after_cancel) gives the first entry the bytes of a later one as soon as
    one round contains two cancelled entries that each follow an unread valid entry *)
Definition ex_e5 (v : bool) (line : Z) : entry := mkEntry v (-1) 64 BB_KIND_VARA 0 2 (ex_req 2) line.
Definition ex_log5 : list entry := [ex_e5 true 1; ex_e5 false 2; ex_e5 true 3; ex_e5 false 4; ex_e5 true 5].

Example read_offset_zero_refuted :
  read_batches Z entry_cells false (flat_map entry_cells ex_log5) [ex_log5] 0
    <> map (fun b => map entry_cells (valid_entries b)) [ex_log5] /\
  hd [] (hd [] (read_batches Z entry_cells false (flat_map entry_cells ex_log5) [ex_log5] 0)) = entry_cells (ex_e5 true 3) /\
  read_batches Z entry_cells true (flat_map entry_cells ex_log5) [ex_log5] 0
    = [[entry_cells (ex_e5 true 1); entry_cells (ex_e5 true 3); entry_cells (ex_e5 true 5)]].
Proof. split; [vm_compute; discriminate | split; vm_compute; reflexivity]. Qed.

Print Assumptions flush_data_correct.
Print Assumptions read_batches_correct.
