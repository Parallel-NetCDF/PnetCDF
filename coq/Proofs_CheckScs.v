(* Proofs_CheckScs.v — the dispatcher's argument check (Access.check_scs, model of
   check_start_count_stride): exact characterisation of acceptance, the set of error codes,
   and which error is reported first (property C15).  No axioms.
   The check is a start phase, a count/edge phase and a stride phase in sequence (check_scs_decomp);
   it accepts exactly when fits_b = true (check_scs_iff_fits; check_scs_iff_fits_prop with fits, the
   predicate read dimension by dimension), which implies Proofs_Access.req_ok (fits_req_ok); its result
   is one of five codes (check_scs_codes); check_scs_einvalcoords_iff, check_scs_first_bad_dim and their
   instances give the precedence of the errors, perturb_* one perturbation of an accepted request at a
   time. *)
From Pnc Require Import Base Access Proofs_Lists Proofs_Access.
Require Import Lia ZArith List Bool ZifyBool.
Import ListNotations.
Local Open Scope Z_scope.
Local Arguments Z.mul : simpl never.
Local Arguments Z.add : simpl never.
Local Arguments Z.sub : simpl never.

(* The five codes *)
Lemma codes_distinct :
  NC_NOERR <> NC_EINVALCOORDS /\ NC_NOERR <> NC_EEDGE /\ NC_NOERR <> NC_ESTRIDE /\
  NC_NOERR <> NC_ENEGATIVECNT /\ NC_EINVALCOORDS <> NC_EEDGE /\ NC_EINVALCOORDS <> NC_ESTRIDE /\
  NC_EINVALCOORDS <> NC_ENEGATIVECNT /\ NC_EEDGE <> NC_ESTRIDE /\ NC_EEDGE <> NC_ENEGATIVECNT /\
  NC_ESTRIDE <> NC_ENEGATIVECNT.
Proof. vm_compute. repeat split; discriminate. Qed.

Lemma eqb_EINVALCOORDS : (NC_EINVALCOORDS =? NC_NOERR) = false. Proof. reflexivity. Qed.
Lemma eqb_EEDGE : (NC_EEDGE =? NC_NOERR) = false. Proof. reflexivity. Qed.
Lemma eqb_ESTRIDE : (NC_ESTRIDE =? NC_NOERR) = false. Proof. reflexivity. Qed.
Lemma eqb_ENEGATIVECNT : (NC_ENEGATIVECNT =? NC_NOERR) = false. Proof. reflexivity. Qed.
Lemma eqb_NOERR : (NC_NOERR =? NC_NOERR) = true. Proof. reflexivity. Qed.

Ltac codes :=
  rewrite ?eqb_EINVALCOORDS, ?eqb_EEDGE, ?eqb_ESTRIDE, ?eqb_ENEGATIVECNT, ?eqb_NOERR;
  cbn [negb andb orb].

(* One dimension *)
(* the start index is acceptable in a dimension of (current) length sh *)
Definition start_fits (strict : bool) (s c sh : Z) : bool :=
  (0 <=? s) &&
  (if strict then s <? sh else (s <=? sh) && negb ((s =? sh) && (0 <? c))).

(* count (and stride, when given) stay inside the dimension *)
Definition edge_fits (s c : Z) (t : option Z) (sh : Z) : bool :=
  (0 <=? c) && (s + c <=? sh) &&
  match t with
  | None => true
  | Some t => negb ((0 <? c) && (sh <=? s + (c - 1) * t))
  end.

(* the code the count/edge phase reports for one bounded dimension *)
Definition dim_code (s c : Z) (t : option Z) (sh : Z) : Z :=
  if c <? 0 then NC_ENEGATIVECNT else check_EEDGE s c t sh.

Lemma check_EINVALCOORDS_code strict s c sh :
  check_EINVALCOORDS strict s c sh =
  if start_fits strict s c sh then NC_NOERR else NC_EINVALCOORDS.
Proof.
  unfold check_EINVALCOORDS, start_fits. destruct strict.
  - destruct ((s <? 0) || (s >=? sh)) eqn:E.
    + replace ((0 <=? s) && (s <? sh)) with false by lia. reflexivity.
    + replace ((0 <=? s) && (s <? sh)) with true by lia. reflexivity.
  - destruct ((s <? 0) || (s >? sh)) eqn:E.
    + replace ((0 <=? s) && ((s <=? sh) && negb ((s =? sh) && (0 <? c)))) with false by lia.
      reflexivity.
    + destruct ((s =? sh) && (c >? 0)) eqn:E2.
      * replace ((0 <=? s) && ((s <=? sh) && negb ((s =? sh) && (0 <? c)))) with false by lia.
        reflexivity.
      * replace ((0 <=? s) && ((s <=? sh) && negb ((s =? sh) && (0 <? c)))) with true by lia.
        reflexivity.
Qed.

Lemma check_EEDGE_cases s c t sh :
  check_EEDGE s c t sh = NC_NOERR \/ check_EEDGE s c t sh = NC_EEDGE.
Proof.
  unfold check_EEDGE. destruct ((c >? sh) || (s + c >? sh)); [now right|].
  destruct t as [t|]; [|now left].
  destruct ((c >? 0) && (s + (c - 1) * t >=? sh)); [now right | now left].
Qed.

Lemma dim_code_cases s c t sh :
  dim_code s c t sh = NC_NOERR \/ dim_code s c t sh = NC_EEDGE \/
  dim_code s c t sh = NC_ENEGATIVECNT.
Proof.
  unfold dim_code. destruct (c <? 0); [now right; right|].
  destruct (check_EEDGE_cases s c t sh) as [H|H]; rewrite H; auto.
Qed.

(* given an acceptable start, the edge check passes exactly when count/stride fit *)
Lemma dim_code_fits_b s c t sh : 0 <= s ->
  (dim_code s c t sh =? NC_NOERR) = edge_fits s c t sh.
Proof.
  intros Hs. unfold dim_code, edge_fits, check_EEDGE.
  destruct (c <? 0) eqn:Ec; [codes; now replace (0 <=? c) with false by lia|].
  destruct ((c >? sh) || (s + c >? sh)) eqn:E;
    [codes; replace (s + c <=? sh) with false by lia; now rewrite andb_false_r|].
  destruct t as [t|]; [destruct ((c >? 0) && (s + (c - 1) * t >=? sh)) eqn:E2|]; codes; lia.
Qed.

Lemma dim_code_fits s c t sh : 0 <= s ->
  (dim_code s c t sh = NC_NOERR <-> edge_fits s c t sh = true).
Proof. intros Hs. rewrite <- (dim_code_fits_b s c t sh Hs). apply iff_sym, Z.eqb_eq. Qed.

Lemma start_fits_nonneg strict s c sh : start_fits strict s c sh = true -> 0 <= s <= sh.
Proof. unfold start_fits. destruct strict; lia. Qed.

(* Lists of dimensions (truncating like zip) *)
Fixpoint starts_fit_b (strict : bool) (st cn shp : list Z) : bool :=
  match st, cn, shp with
  | s :: st', c :: cn', sh :: shp' => start_fits strict s c sh && starts_fit_b strict st' cn' shp'
  | _, _, _ => true
  end.

Fixpoint dims_code (st cn : list Z) (ts : list (option Z)) (shp : list Z) : Z :=
  match st, cn, ts, shp with
  | s :: st', c :: cn', t :: ts', sh :: shp' =>
      let e := dim_code s c t sh in
      if e =? NC_NOERR then dims_code st' cn' ts' shp' else e
  | _, _, _, _ => NC_NOERR
  end.

(* the two folds of check_scs, named *)
Definition coords_err (strict : bool) (st cn shp : list Z) : Z :=
  first_err (map (fun p => check_EINVALCOORDS strict (fst (fst p)) (snd (fst p)) (snd p))
                 (zip (zip st cn) shp)).

Definition edge_err (st cn : list Z) (ts : list (option Z)) (shp : list Z) : Z :=
  first_err
    (map (fun q => let '(s, c, t, sh) := q in
                   if sh <? 0 then NC_EEDGE
                   else if c <? 0 then NC_ENEGATIVECNT
                   else check_EEDGE s c t sh)
         (map (fun p => (fst (fst (fst p)), snd (fst (fst p)), snd (fst p), snd p))
              (zip (zip (zip st cn) ts) shp))).

Lemma coords_err_code strict : forall st cn shp,
  coords_err strict st cn shp =
  if starts_fit_b strict st cn shp then NC_NOERR else NC_EINVALCOORDS.
Proof.
  unfold coords_err.
  induction st as [|s st IH]; intros cn shp; [reflexivity|].
  destruct cn as [|c cn]; [reflexivity|]. destruct shp as [|sh shp]; [reflexivity|].
  cbn [zip map first_err fst snd starts_fit_b].
  rewrite check_EINVALCOORDS_code. destruct (start_fits strict s c sh); codes.
  - apply IH.
  - reflexivity.
Qed.

Lemma edge_err_code strict : forall st cn ts shp,
  starts_fit_b strict st cn shp = true ->
  edge_err st cn ts shp = dims_code st cn ts shp.
Proof.
  unfold edge_err.
  induction st as [|s st IH]; intros cn ts shp H; [reflexivity|].
  destruct cn as [|c cn]; [reflexivity|]. destruct ts as [|t ts]; [reflexivity|].
  destruct shp as [|sh shp]; [reflexivity|].
  cbn [starts_fit_b] in H. apply andb_true_iff in H. destruct H as [H1 H2].
  apply start_fits_nonneg in H1.
  cbn [zip map first_err fst snd dims_code]. unfold dim_code.
  replace (sh <? 0) with false by lia.
  rewrite IH by assumption. reflexivity.
Qed.

(* check_scs in three phases *)
(* the dimension lengths the request is checked against *)
Definition shp_of (isrec : bool) (shape : list Z) (numrecs : Z) : list Z :=
  if isrec then numrecs :: tl shape else shape.

(* a NULL count stands for all ones *)
Definition cnt_or1 (count : option (list Z)) (shp : list Z) : list Z :=
  match count with Some c => c | None => map (fun _ => 1) shp end.

Definition strides_of (cn : list Z) (stride : option (list Z)) : list (option Z) :=
  match stride with Some t => map Some t | None => map (fun _ => None) cn end.

(* dimension 0 of a record variable is not bounded for a write *)
Definition free0 (isrec isread : bool) : bool := isrec && negb isread.

(* phase 1: the start indices (the only phase that reports NC_EINVALCOORDS) *)
Definition starts_ok_b (fmt : Z) (strict isrec isread : bool) (shape : list Z) (numrecs : Z)
           (st : list Z) (count : option (list Z)) : bool :=
  let shp := shp_of isrec shape numrecs in
  let cn := cnt_or1 count shp in
  negb (hd 0 st <? 0) &&
  negb (isrec && ((fmt <? 5) && (hd 0 st >? NC_MAX_UINT))) &&
  (if free0 isrec isread then starts_fit_b strict (tl st) (tl cn) (tl shp)
   else starts_fit_b strict st cn shp).

(* phase 2: counts and edges, dimension by dimension (NC_ENEGATIVECNT / NC_EEDGE) *)
Definition edge_code (isrec isread : bool) (st cn : list Z) (ts : list (option Z))
           (shp : list Z) : Z :=
  if free0 isrec isread then
    if hd 0 cn <? 0 then NC_ENEGATIVECNT else dims_code (tl st) (tl cn) (tl ts) (tl shp)
  else dims_code st cn ts shp.

(* phase 3: the strides *)
Definition stride_code (stride : option (list Z)) : Z :=
  match stride with
  | Some t => if existsb (fun x => x <=? 0) t then NC_ESTRIDE else NC_NOERR
  | None => NC_NOERR
  end.

Definition phases (fmt : Z) (strict isrec isread : bool) (kind : apikind) (shape : list Z)
           (numrecs : Z) (st : list Z) (count stride : option (list Z)) : Z :=
  if starts_ok_b fmt strict isrec isread shape numrecs st count then
    match count with
    | None => match kind with API_VAR1 => NC_NOERR | _ => NC_EEDGE end
    | Some cn =>
        let e := edge_code isrec isread st cn (strides_of cn stride)
                           (shp_of isrec shape numrecs) in
        if e =? NC_NOERR then stride_code stride else e
    end
  else NC_EINVALCOORDS.

(* the C arrays have ndims entries by contract *)
Definition lengths_ok (isrec : bool) (shape st : list Z) (count stride : option (list Z)) : Prop :=
  (isrec = true -> shape <> []) /\
  length st = length shape /\
  match count with Some cn => length cn = length shape | None => True end /\
  match stride with Some t => length t = length shape | None => True end.

(* check_scs with its two folds named (definitional) *)
Lemma check_scs_eq fmt strict isrec isread kind shape numrecs st count stride :
  check_scs fmt strict isrec isread kind shape numrecs (Some st) count stride =
  if hd 0 st <? 0 then NC_EINVALCOORDS
  else
    let shp := shp_of isrec shape numrecs in
    let cn1 := cnt_or1 count shp in
    let e_rec :=
      if isrec then
        if (fmt <? 5) && (hd 0 st >? NC_MAX_UINT) then NC_EINVALCOORDS
        else if isread then
          let len := hd 1 cn1 in
          if (numrecs =? 0) && (len >? 0) then NC_EINVALCOORDS
          else check_EINVALCOORDS strict (hd 0 st) len numrecs
        else NC_NOERR
      else NC_NOERR in
    if negb (e_rec =? NC_NOERR) then e_rec
    else
      let skip := if isrec then 1%nat else 0%nat in
      let e_coords := coords_err strict (skipn skip st) (skipn skip cn1) (skipn skip shp) in
      if negb (e_coords =? NC_NOERR) then e_coords
      else
        match count with
        | None => match kind with API_VAR1 => NC_NOERR | _ => NC_EEDGE end
        | Some cn =>
            let strides := strides_of cn stride in
            let e0 :=
              if isrec then
                if hd 0 cn <? 0 then NC_ENEGATIVECNT
                else if isread then check_EEDGE (hd 0 st) (hd 0 cn) (hd None strides) numrecs
                else NC_NOERR
              else NC_NOERR in
            if negb (e0 =? NC_NOERR) then e0
            else
              let e_edge := edge_err (skipn skip st) (skipn skip cn) (skipn skip strides)
                                     (skipn skip shp) in
              if negb (e_edge =? NC_NOERR) then e_edge else stride_code stride
        end.
Proof. reflexivity. Qed.

Lemma length_tl_S {A} (l : list A) n : length l = S n -> length (tl l) = n.
Proof. destruct l; cbn [length tl]; [discriminate | lia]. Qed.

Lemma strides_of_length cn stride n :
  length cn = n -> match stride with Some t => length t = n | None => True end ->
  length (strides_of cn stride) = n.
Proof. intros H1 H2. unfold strides_of. destruct stride; rewrite map_length; assumption. Qed.

(* the start of a read in the record dimension: the test against numrecs = 0 adds nothing *)
Lemma rec_start_code strict s len numrecs :
  (if (numrecs =? 0) && (len >? 0) then NC_EINVALCOORDS
   else check_EINVALCOORDS strict s len numrecs) =
  if start_fits strict s len numrecs then NC_NOERR else NC_EINVALCOORDS.
Proof.
  rewrite check_EINVALCOORDS_code.
  destruct ((numrecs =? 0) && (len >? 0)) eqn:Enr; [|reflexivity].
  replace (start_fits strict s len numrecs) with false
    by (unfold start_fits; destruct strict; lia).
  reflexivity.
Qed.

Theorem check_scs_decomp : forall fmt strict isrec isread kind shape numrecs st count stride,
  lengths_ok isrec shape st count stride ->
  check_scs fmt strict isrec isread kind shape numrecs (Some st) count stride =
  phases fmt strict isrec isread kind shape numrecs st count stride.
Proof.
  intros fmt strict isrec isread kind shape numrecs st count stride (Hne & Hls & Hlc & Hlt).
  rewrite check_scs_eq. unfold phases, starts_ok_b, edge_code, free0. cbv zeta.
  destruct isrec.
  - (* record variable *)
    destruct shape as [|sh0 ss]; [exfalso; now apply Hne|]. clear Hne.
    destruct st as [|s0 st']; [discriminate|]. cbn [length] in Hls.
    unfold shp_of. cbn [tl hd skipn andb].
    destruct (s0 <? 0) eqn:Es0; cbn [negb andb]; [reflexivity|].
    destruct ((fmt <? 5) && (s0 >? NC_MAX_UINT)) eqn:Emax; codes; [reflexivity|].
    (* phase 1 reads the counts, given or not, as a list c1 :: cn1' *)
    assert (Hcn1 : exists c1 cn1', cnt_or1 count (numrecs :: ss) = c1 :: cn1').
    { destruct count as [[|c0 cn']|]; [discriminate | |]; cbn [cnt_or1 map]; eauto. }
    destruct Hcn1 as (c1 & cn1' & Ecn1). rewrite Ecn1. cbn [hd tl].
    rewrite coords_err_code.
    destruct isread; cbn [negb starts_fit_b].
    + (* read: dimension 0 is bounded by numrecs *)
      rewrite rec_start_code.
      destruct (start_fits strict s0 c1 numrecs); codes; [|reflexivity].
      destruct (starts_fit_b strict st' cn1' ss) eqn:Est; codes; [|reflexivity].
      destruct count as [cn|]; [|reflexivity]. cbn [cnt_or1] in Ecn1. subst cn.
      pose proof (strides_of_length _ stride _ Hlc Hlt) as Hlts.
      destruct (strides_of (c1 :: cn1') stride) as [|t0 ts']; [discriminate|].
      cbn [hd tl dims_code]. unfold dim_code. destruct (c1 <? 0); codes; [reflexivity|].
      destruct (check_EEDGE_cases s0 c1 t0 numrecs) as [Ee|Ee]; rewrite Ee; codes; [|reflexivity].
      rewrite (edge_err_code strict) by assumption.
      destruct (dims_code st' cn1' ts' ss =? NC_NOERR); reflexivity.
    + (* write: dimension 0 is free *)
      codes.
      destruct (starts_fit_b strict st' cn1' ss) eqn:Est; codes; [|reflexivity].
      destruct count as [cn|]; [|reflexivity]. cbn [cnt_or1] in Ecn1. subst cn.
      pose proof (strides_of_length _ stride _ Hlc Hlt) as Hlts.
      destruct (strides_of (c1 :: cn1') stride) as [|t0 ts']; [discriminate|].
      cbn [hd tl]. destruct (c1 <? 0); codes; [reflexivity|].
      rewrite (edge_err_code strict) by assumption.
      destruct (dims_code st' cn1' ts' ss =? NC_NOERR); reflexivity.
  - (* fixed-size variable *)
    unfold shp_of. cbn [andb negb skipn]. codes.
    destruct (hd 0 st <? 0) eqn:Es0; cbn [negb andb]; [reflexivity|].
    rewrite coords_err_code.
    destruct (starts_fit_b strict st (cnt_or1 count shape) shape) eqn:Est; codes; [|reflexivity].
    destruct count as [cn|]; [|reflexivity]. cbn [cnt_or1] in Est.
    rewrite (edge_err_code strict) by assumption.
    destruct (dims_code st cn (strides_of cn stride) shape =? NC_NOERR); reflexivity.
Qed.

(* The set of codes *)
Definition is_code (e : Z) : Prop :=
  e = NC_NOERR \/ e = NC_EINVALCOORDS \/ e = NC_EEDGE \/ e = NC_ESTRIDE \/ e = NC_ENEGATIVECNT.

Lemma first_err_code : forall l, Forall is_code l -> is_code (first_err l).
Proof.
  induction l as [|e r IH]; intros H; [left; reflexivity|].
  inversion H as [|? ? He Hr]; subst. cbn [first_err].
  destruct (e =? NC_NOERR); [apply IH; assumption | assumption].
Qed.

Lemma is_code_seq e r : is_code e -> is_code r -> is_code (if negb (e =? NC_NOERR) then e else r).
Proof. intros He Hr. destruct (negb (e =? NC_NOERR)); assumption. Qed.

Lemma is_code_EINVALCOORDS strict s c sh : is_code (check_EINVALCOORDS strict s c sh).
Proof.
  rewrite check_EINVALCOORDS_code. destruct (start_fits strict s c sh);
    [left; reflexivity | right; left; reflexivity].
Qed.

Lemma is_code_EEDGE s c t sh : is_code (check_EEDGE s c t sh).
Proof.
  destruct (check_EEDGE_cases s c t sh) as [H|H]; rewrite H;
    [left; reflexivity | right; right; left; reflexivity].
Qed.

Theorem check_scs_codes : forall fmt strict isrec isread kind shape numrecs start count stride,
  is_code (check_scs fmt strict isrec isread kind shape numrecs start count stride).
Proof.
  intros fmt strict isrec isread kind shape numrecs start count stride.
  destruct start as [st|]; [|right; left; reflexivity].
  rewrite check_scs_eq. cbv zeta.
  assert (Hinv : is_code NC_EINVALCOORDS) by (right; left; reflexivity).
  assert (Hok : is_code NC_NOERR) by (left; reflexivity).
  assert (Hedge : is_code NC_EEDGE) by (right; right; left; reflexivity).
  assert (Hneg : is_code NC_ENEGATIVECNT) by (right; right; right; right; reflexivity).
  destruct (hd 0 st <? 0); [assumption|].
  apply is_code_seq.
  { destruct isrec; [|assumption].
    destruct ((fmt <? 5) && (hd 0 st >? NC_MAX_UINT)); [assumption|].
    destruct isread; [|assumption].
    destruct ((numrecs =? 0) && (hd 1 (cnt_or1 count (shp_of true shape numrecs)) >? 0));
      [assumption | apply is_code_EINVALCOORDS]. }
  apply is_code_seq.
  { rewrite coords_err_code. destruct (starts_fit_b _ _ _ _); assumption. }
  destruct count as [cn|]; [|destruct kind; assumption].
  apply is_code_seq.
  { destruct isrec; [|assumption]. destruct (hd 0 cn <? 0); [assumption|].
    destruct isread; [apply is_code_EEDGE | assumption]. }
  apply is_code_seq.
  { unfold edge_err. apply first_err_code. apply Forall_forall. intros e He.
    apply in_map_iff in He. destruct He as [[[[s c] t] sh] [<- _]].
    destruct (sh <? 0); [assumption|]. destruct (c <? 0); [assumption|]. apply is_code_EEDGE. }
  unfold stride_code. destruct stride as [t|]; [|assumption].
  destruct (existsb (fun x => x <=? 0) t); [right; right; right; left; reflexivity | assumption].
Qed.

Lemma dims_code_cases : forall st cn ts shp,
  dims_code st cn ts shp = NC_NOERR \/ dims_code st cn ts shp = NC_EEDGE \/
  dims_code st cn ts shp = NC_ENEGATIVECNT.
Proof.
  induction st as [|s st IH]; intros cn ts shp; [now left|].
  destruct cn as [|c cn]; [now left|]. destruct ts as [|t ts]; [now left|].
  destruct shp as [|sh shp]; [now left|]. cbn [dims_code].
  destruct (dim_code s c t sh =? NC_NOERR); [apply IH | apply dim_code_cases].
Qed.

(* Acceptance = the request fits *)
Fixpoint dims_fit_b (strict : bool) (st cn : list Z) (ts : list (option Z)) (shp : list Z) : bool :=
  match st, cn, ts, shp with
  | s :: st', c :: cn', t :: ts', sh :: shp' =>
      start_fits strict s c sh && edge_fits s c t sh && dims_fit_b strict st' cn' ts' shp'
  | _, _, _, _ => true
  end.

Fixpoint inside_b (st shp : list Z) : bool :=
  match st, shp with
  | s :: st', sh :: shp' => (0 <=? s) && (s <? sh) && inside_b st' shp'
  | _, _ => true
  end.

Definition is_var1 (k : apikind) : bool := match k with API_VAR1 => true | _ => false end.

(* THE FITTING PREDICATE.  start = None (NULL) never fits.  With count = None (NULL, the var1
   form) every bounded start must be strictly inside and the strides are not looked at.
   Otherwise: start_0 >= 0; start_0 <= NC_MAX_UINT for a record variable in CDF-1/2; every
   bounded dimension (all of them, except dimension 0 of a record variable in a write) passes
   start_fits and edge_fits against its length (numrecs for the record dimension); the record
   count of a write is >= 0; every stride given is >= 1. *)
Definition fits_b (fmt : Z) (strict isrec isread : bool) (kind : apikind) (shape : list Z)
           (numrecs : Z) (start count stride : option (list Z)) : bool :=
  match start with
  | None => false
  | Some st =>
      let shp := shp_of isrec shape numrecs in
      (0 <=? hd 0 st) && negb (isrec && (fmt <? 5) && (NC_MAX_UINT <? hd 0 st)) &&
      match count with
      | None =>
          is_var1 kind &&
          (if free0 isrec isread then inside_b (tl st) (tl shp) else inside_b st shp)
      | Some cn =>
          let ts := strides_of cn stride in
          (if free0 isrec isread
           then (0 <=? hd 0 cn) && dims_fit_b strict (tl st) (tl cn) (tl ts) (tl shp)
           else dims_fit_b strict st cn ts shp) &&
          match stride with Some t => forallb (fun x => 1 <=? x) t | None => true end
      end
  end.

Lemma dims_fit_b_split strict : forall st cn ts shp,
  length cn = length st -> length ts = length st -> length shp = length st ->
  dims_fit_b strict st cn ts shp =
  starts_fit_b strict st cn shp && (dims_code st cn ts shp =? NC_NOERR).
Proof.
  induction st as [|s st IH]; intros cn ts shp H1 H2 H3.
  - reflexivity.
  - destruct cn as [|c cn]; [discriminate|]. destruct ts as [|t ts]; [discriminate|].
    destruct shp as [|sh shp]; [discriminate|]. cbn [length] in H1, H2, H3.
    cbn [dims_fit_b starts_fit_b dims_code]. rewrite IH by lia.
    destruct (start_fits strict s c sh) eqn:Esf; [|reflexivity].
    apply start_fits_nonneg in Esf.
    rewrite <- (dim_code_fits_b s c t sh) by lia.
    destruct (dim_code s c t sh =? NC_NOERR) eqn:E; cbn [andb].
    + reflexivity.
    + rewrite E. now rewrite andb_false_r.
Qed.

Lemma starts_fit_ones strict : forall st shp,
  starts_fit_b strict st (map (fun _ => 1) shp) shp = inside_b st shp.
Proof.
  induction st as [|s st IH]; intros shp; [reflexivity|].
  destruct shp as [|sh shp]; [reflexivity|]. cbn [map starts_fit_b inside_b]. rewrite IH.
  f_equal. unfold start_fits. destruct strict; lia.
Qed.

Lemma stride_code_noerr stride :
  stride_code stride = NC_NOERR <->
  match stride with Some t => forallb (fun x => 1 <=? x) t | None => true end = true.
Proof.
  unfold stride_code. destruct stride as [t|]; [|tauto].
  assert (E : existsb (fun x => x <=? 0) t = negb (forallb (fun x => 1 <=? x) t)).
  { induction t as [|x t IH]; [reflexivity|]. cbn [existsb forallb]. rewrite IH.
    rewrite negb_andb. f_equal. lia. }
  rewrite E. destruct (forallb (fun x => 1 <=? x) t); cbn [negb].
  - tauto.
  - split; discriminate.
Qed.

Lemma phases_noerr fmt strict isrec isread kind shape numrecs st count stride :
  phases fmt strict isrec isread kind shape numrecs st count stride = NC_NOERR <->
  starts_ok_b fmt strict isrec isread shape numrecs st count = true /\
  match count with
  | None => kind = API_VAR1
  | Some cn => edge_code isrec isread st cn (strides_of cn stride) (shp_of isrec shape numrecs)
               = NC_NOERR /\ stride_code stride = NC_NOERR
  end.
Proof.
  unfold phases. destruct (starts_ok_b fmt strict isrec isread shape numrecs st count).
  - destruct count as [cn|].
    + cbv zeta.
      destruct (edge_code isrec isread st cn (strides_of cn stride) (shp_of isrec shape numrecs)
                =? NC_NOERR) eqn:E.
      * apply Z.eqb_eq in E. rewrite E. tauto.
      * apply Z.eqb_neq in E. tauto.
    + destruct kind; split; try tauto; try discriminate;
        intros [_ H]; discriminate.
  - split; [discriminate | intros [H _]; discriminate].
Qed.

Lemma tl_map {A B} (f : A -> B) l : tl (map f l) = map f (tl l).
Proof. destruct l; reflexivity. Qed.

Lemma shp_of_length isrec shape numrecs :
  (isrec = true -> shape <> []) -> length (shp_of isrec shape numrecs) = length shape.
Proof.
  intros H. unfold shp_of. destruct isrec; [|reflexivity].
  destruct shape; [exfalso; now apply H | reflexivity].
Qed.

Lemma fits_b_phases fmt strict isrec isread kind shape numrecs st count stride :
  lengths_ok isrec shape st count stride ->
  (fits_b fmt strict isrec isread kind shape numrecs (Some st) count stride = true <->
   starts_ok_b fmt strict isrec isread shape numrecs st count = true /\
   match count with
   | None => kind = API_VAR1
   | Some cn => edge_code isrec isread st cn (strides_of cn stride) (shp_of isrec shape numrecs)
                = NC_NOERR /\ stride_code stride = NC_NOERR
   end).
Proof.
  intros (Hne & Hls & Hlc & Hlt).
  pose proof (shp_of_length isrec shape numrecs Hne) as Hlshp.
  unfold fits_b, starts_ok_b, edge_code. cbv zeta.
  set (shp := shp_of isrec shape numrecs) in *.
  (* the two tests on start[0], as fits_b and as starts_ok_b write them *)
  assert (H0 : (0 <=? hd 0 st) = true <-> (hd 0 st <? 0) = false) by lia.
  assert (Hmax : isrec && (fmt <? 5) && (NC_MAX_UINT <? hd 0 st) = false <->
                 isrec && ((fmt <? 5) && (hd 0 st >? NC_MAX_UINT)) = false)
    by (destruct isrec; lia).
  destruct count as [cn|]; cbn [cnt_or1].
  - rewrite stride_code_noerr.
    pose proof (strides_of_length cn stride (length shape) Hlc Hlt) as Hlts.
    set (ts := strides_of cn stride) in *.
    destruct (free0 isrec isread).
    + rewrite dims_fit_b_split by (rewrite !length_tl; lia).
      destruct (hd 0 cn <? 0) eqn:Ec0.
      * replace (0 <=? hd 0 cn) with false by lia. rewrite andb_false_r. cbn [andb].
        split; [discriminate | intros [_ [H _]]; discriminate H].
      * replace (0 <=? hd 0 cn) with true by lia. cbn [andb].
        rewrite !andb_true_iff, !negb_true_iff, Z.eqb_eq. tauto.
    + rewrite dims_fit_b_split by lia.
      rewrite !andb_true_iff, !negb_true_iff, Z.eqb_eq. tauto.
  - rewrite tl_map, !starts_fit_ones.
    rewrite !andb_true_iff, !negb_true_iff.
    assert (is_var1 kind = true <-> kind = API_VAR1)
      by (destruct kind; cbn [is_var1]; split; congruence).
    tauto.
Qed.

Theorem check_scs_iff_fits : forall fmt strict isrec isread kind shape numrecs start count stride,
  match start with
  | Some st => lengths_ok isrec shape st count stride
  | None => True
  end ->
  (check_scs fmt strict isrec isread kind shape numrecs start count stride = NC_NOERR <->
   fits_b fmt strict isrec isread kind shape numrecs start count stride = true).
Proof.
  intros fmt strict isrec isread kind shape numrecs start count stride Hl.
  destruct start as [st|].
  - rewrite check_scs_decomp by assumption. rewrite phases_noerr, fits_b_phases by assumption.
    reflexivity.
  - cbn [check_scs fits_b]. split; discriminate.
Qed.

(* Dimension-by-dimension reading (nth) *)
Lemma hd_nth0 {A} (l : list A) d : hd d l = nth 0 l d.
Proof. destruct l; reflexivity. Qed.

Lemma nth_tl {A} (l : list A) i d : nth i (tl l) d = nth (S i) l d.
Proof. destruct l; [destruct i; reflexivity | reflexivity]. Qed.

Lemma starts_fit_b_nth strict : forall n st cn shp,
  length st = n -> length cn = n -> length shp = n ->
  (starts_fit_b strict st cn shp = true <->
   forall i, (i < n)%nat -> start_fits strict (nth i st 0) (nth i cn 0) (nth i shp 0) = true).
Proof.
  induction n as [|n IH]; intros st cn shp H1 H2 H3.
  - destruct st; [|discriminate]. split; [intros _ i Hi; lia | reflexivity].
  - destruct st as [|s st]; [discriminate|]. destruct cn as [|c cn]; [discriminate|].
    destruct shp as [|sh shp]; [discriminate|]. cbn [length] in H1, H2, H3.
    cbn [starts_fit_b]. rewrite andb_true_iff, (IH st cn shp) by lia. split.
    + intros [H0 H] i Hi. destruct i as [|i]; cbn [nth]; [exact H0 | apply H; lia].
    + intros H. split; [apply (H 0%nat); lia | intros i Hi; apply (H (S i)); lia].
Qed.

Lemma dims_code_seq : forall n st cn ts shp,
  length st = n -> length cn = n -> length ts = n -> length shp = n ->
  dims_code st cn ts shp =
  first_err (map (fun i => dim_code (nth i st 0) (nth i cn 0) (nth i ts None) (nth i shp 0))
                 (seq 0 n)).
Proof.
  induction n as [|n IH]; intros st cn ts shp H1 H2 H3 H4.
  - destruct st; [reflexivity | discriminate].
  - destruct st as [|s st]; [discriminate|]. destruct cn as [|c cn]; [discriminate|].
    destruct ts as [|t ts]; [discriminate|]. destruct shp as [|sh shp]; [discriminate|].
    cbn [length] in H1, H2, H3, H4.
    cbn [seq map first_err dims_code nth]. rewrite <- seq_shift, map_map. cbn [nth].
    rewrite <- IH by lia. reflexivity.
Qed.

Lemma first_err_first_bad (f : nat -> Z) : forall n a i,
  (a <= i < a + n)%nat -> (forall j, (a <= j < i)%nat -> f j = NC_NOERR) -> f i <> NC_NOERR ->
  first_err (map f (seq a n)) = f i.
Proof.
  induction n as [|n IH]; intros a i Hi Hpre Hbad; [lia|].
  cbn [seq map first_err]. destruct (Nat.eq_dec a i) as [->|Hne].
  - apply Z.eqb_neq in Hbad. now rewrite Hbad.
  - rewrite (Hpre a) by lia. codes. apply IH; [lia | intros j Hj; apply Hpre; lia | assumption].
Qed.

Lemma first_err_all_noerr (f : nat -> Z) : forall n a,
  first_err (map f (seq a n)) = NC_NOERR <-> forall j, (a <= j < a + n)%nat -> f j = NC_NOERR.
Proof.
  induction n as [|n IH]; intros a.
  - cbn [seq map first_err]. split; [intros _ j Hj; lia | reflexivity].
  - cbn [seq map first_err]. destruct (f a =? NC_NOERR) eqn:E.
    + apply Z.eqb_eq in E. rewrite IH. split.
      * intros H j Hj. destruct (Nat.eq_dec j a) as [->|Hne]; [exact E | apply H; lia].
      * intros H j Hj. apply H. lia.
    + apply Z.eqb_neq in E. split; [intros H; contradiction | intros H; apply H; lia].
Qed.

(* dimension i is checked against its length *)
Definition bounded_dim (isrec isread : bool) (i : nat) : bool :=
  negb (free0 isrec isread && (i =? 0)%nat).

(* the code the count/edge phase computes for dimension i *)
Definition code_at (isrec isread : bool) (st cn : list Z) (ts : list (option Z)) (shp : list Z)
           (i : nat) : Z :=
  if nth i cn 0 <? 0 then NC_ENEGATIVECNT
  else if bounded_dim isrec isread i
       then check_EEDGE (nth i st 0) (nth i cn 0) (nth i ts None) (nth i shp 0)
       else NC_NOERR.

(* phase 2 reports the code of the first dimension (in increasing order) that has one *)
Lemma edge_code_seq isrec isread : forall n st cn ts shp,
  length st = n -> length cn = n -> length ts = n -> length shp = n ->
  (free0 isrec isread = true -> (0 < n)%nat) ->
  edge_code isrec isread st cn ts shp =
  first_err (map (code_at isrec isread st cn ts shp) (seq 0 n)).
Proof.
  intros n st cn ts shp H1 H2 H3 H4 Hn. unfold edge_code, code_at, bounded_dim.
  destruct (free0 isrec isread) eqn:Ef.
  - destruct n as [|n]; [specialize (Hn eq_refl); lia|].
    destruct st as [|s st]; [discriminate|]. destruct cn as [|c cn]; [discriminate|].
    destruct ts as [|t ts]; [discriminate|]. destruct shp as [|sh shp]; [discriminate|].
    cbn [length] in H1, H2, H3, H4. cbn [hd tl seq map first_err nth Nat.eqb andb negb].
    destruct (c <? 0); codes; [reflexivity|].
    rewrite <- seq_shift, map_map. cbn [nth Nat.eqb andb negb].
    rewrite (dims_code_seq n) by lia. reflexivity.
  - cbn [andb negb]. rewrite (dims_code_seq n) by assumption. reflexivity.
Qed.

Lemma nth_strides_of cn stride n i :
  length cn = n -> match stride with Some t => length t = n | None => True end -> (i < n)%nat ->
  nth i (strides_of cn stride) None = option_map (fun t => nth i t 0) stride.
Proof.
  intros H1 H2 Hi. unfold strides_of. destruct stride as [t|]; cbn [option_map].
  - rewrite (nth_indep _ None (Some 0)) by (rewrite map_length; lia).
    apply (map_nth Some t 0 i).
  - clear. revert i. induction cn as [|c cn IH]; intros i; destruct i; cbn [map nth]; auto.
Qed.

Lemma free0_pos isrec isread (shape : list Z) :
  (isrec = true -> shape <> []) -> free0 isrec isread = true -> (0 < length shape)%nat.
Proof.
  intros Hne Hf. unfold free0 in Hf. destruct isrec; [|discriminate].
  destruct shape; [exfalso; now apply Hne | cbn [length]; lia].
Qed.

Lemma starts_ok_b_nth fmt strict isrec isread shape numrecs st count stride :
  lengths_ok isrec shape st count stride ->
  let shp := shp_of isrec shape numrecs in
  let cn := cnt_or1 count shp in
  (starts_ok_b fmt strict isrec isread shape numrecs st count = true <->
   0 <= nth 0 st 0 /\
   (isrec = true -> fmt < 5 -> nth 0 st 0 <= NC_MAX_UINT) /\
   forall i, (i < length shape)%nat -> bounded_dim isrec isread i = true ->
     start_fits strict (nth i st 0) (nth i cn 0) (nth i shp 0) = true).
Proof.
  intros (Hne & Hls & Hlc & Hlt) shp cn.
  pose proof (shp_of_length isrec shape numrecs Hne) as Hlshp. fold shp in Hlshp.
  assert (Hlcn : length cn = length shape).
  { unfold cn, cnt_or1. destruct count; [assumption | rewrite map_length; assumption]. }
  unfold starts_ok_b. cbv zeta. fold shp. fold cn. rewrite hd_nth0.
  rewrite !andb_true_iff, !negb_true_iff. unfold bounded_dim.
  destruct (free0 isrec isread) eqn:Ef.
  - pose proof (free0_pos isrec isread shape Hne Ef) as Hpos.
    rewrite (starts_fit_b_nth strict (Nat.pred (length shape))) by (rewrite length_tl; lia).
    split.
    + intros [[Ha Hb] Hc]. split; [lia|]. split; [intros -> ?; lia|].
      intros i Hi Hbd. destruct i as [|i]; [discriminate|].
      specialize (Hc i ltac:(lia)). rewrite !nth_tl in Hc. exact Hc.
    + intros (Ha & Hb & Hc). split; [split; [lia | destruct isrec; [|reflexivity]]|].
      * destruct (fmt <? 5) eqn:E5; [|reflexivity]. specialize (Hb eq_refl ltac:(lia)). lia.
      * intros i Hi. rewrite !nth_tl. apply Hc; [lia | reflexivity].
  - rewrite (starts_fit_b_nth strict (length shape)) by assumption. cbn [andb negb]. split.
    + intros [[Ha Hb] Hc]. split; [lia|]. split; [intros -> ?; lia|].
      intros i Hi _. apply Hc. exact Hi.
    + intros (Ha & Hb & Hc). split; [split; [lia | destruct isrec; [|reflexivity]]|].
      * destruct (fmt <? 5) eqn:E5; [|reflexivity]. specialize (Hb eq_refl ltac:(lia)). lia.
      * intros i Hi. apply Hc; [exact Hi | reflexivity].
Qed.

(* the code of dimension i in the count/edge phase, with the stride read from the request *)
Definition code_at_s (isrec isread : bool) (st cn : list Z) (stride : option (list Z))
           (shp : list Z) (i : nat) : Z :=
  if nth i cn 0 <? 0 then NC_ENEGATIVECNT
  else if bounded_dim isrec isread i
       then check_EEDGE (nth i st 0) (nth i cn 0) (option_map (fun t => nth i t 0) stride)
                        (nth i shp 0)
       else NC_NOERR.

Lemma edge_code_seq_s isrec isread shape numrecs st cn stride :
  lengths_ok isrec shape st (Some cn) stride ->
  let shp := shp_of isrec shape numrecs in
  edge_code isrec isread st cn (strides_of cn stride) shp =
  first_err (map (code_at_s isrec isread st cn stride shp) (seq 0 (length shape))).
Proof.
  intros (Hne & Hls & Hlc & Hlt) shp.
  pose proof (shp_of_length isrec shape numrecs Hne) as Hlshp.
  pose proof (strides_of_length cn stride (length shape) Hlc Hlt) as Hlts.
  rewrite (edge_code_seq isrec isread (length shape)); try assumption;
    [|apply free0_pos; assumption].
  f_equal. apply map_ext_in. intros i Hi. apply in_seq in Hi.
  unfold code_at, code_at_s. rewrite (nth_strides_of cn stride (length shape)) by (try assumption; lia).
  reflexivity.
Qed.

(* "the request fits", dimension by dimension *)
Definition dim_fits (strict : bool) (s c : Z) (t : option Z) (sh : Z) : Prop :=
  (if strict then s < sh else s <= sh /\ (s = sh -> c = 0)) /\
  s + c <= sh /\
  match t with Some t => 0 < c -> s + (c - 1) * t < sh | None => True end.

Definition fits (fmt : Z) (strict isrec isread : bool) (shape : list Z) (numrecs : Z)
           (st cn : list Z) (stride : option (list Z)) : Prop :=
  let shp := shp_of isrec shape numrecs in
  (isrec = true -> fmt < 5 -> nth 0 st 0 <= NC_MAX_UINT) /\
  forall i, (i < length shape)%nat ->
    0 <= nth i st 0 /\ 0 <= nth i cn 0 /\
    match stride with Some t => 1 <= nth i t 0 | None => True end /\
    (bounded_dim isrec isread i = true ->
     dim_fits strict (nth i st 0) (nth i cn 0) (option_map (fun t => nth i t 0) stride)
              (nth i shp 0)).

Lemma forallb_nth_pos t n : length t = n ->
  (forallb (fun x => 1 <=? x) t = true <-> forall i, (i < n)%nat -> 1 <= nth i t 0).
Proof.
  intros Hl. rewrite forallb_forall. split.
  - intros H i Hi. specialize (H (nth i t 0) ltac:(apply nth_In; lia)). lia.
  - intros H x Hx. destruct (In_nth _ _ 0 Hx) as [i [Hi <-]]. specialize (H i ltac:(lia)). lia.
Qed.

(* one dimension, bounded (b = true) or free: what phases 1 and 2 ask of it *)
Lemma dim_accept_iff strict (b : bool) s c t sh :
  (b = true -> start_fits strict s c sh = true) /\
  (if c <? 0 then NC_ENEGATIVECNT else if b then check_EEDGE s c t sh else NC_NOERR) = NC_NOERR
  <-> 0 <= c /\ (b = true -> 0 <= s /\ dim_fits strict s c t sh).
Proof.
  destruct (c <? 0) eqn:Ec.
  { split; [intros [_ H]; discriminate H | intros [H _]; lia]. }
  destruct b.
  2: { split; [intros _; split; [lia | discriminate] | intros _; split; [discriminate | reflexivity]]. }
  (* a bounded dimension: through dim_code_fits *)
  assert (Hcode : dim_code s c t sh = check_EEDGE s c t sh) by (unfold dim_code; now rewrite Ec).
  rewrite <- Hcode. unfold dim_fits. split.
  - intros [Hs Hd]. specialize (Hs eq_refl). pose proof (start_fits_nonneg _ _ _ _ Hs) as Hs0.
    apply dim_code_fits in Hd; [|lia]. unfold start_fits in Hs. unfold edge_fits in Hd.
    split; [lia|]. intros _. split; [lia|]. split; [destruct strict; lia|]. split; [lia|].
    destruct t as [t|]; [lia | exact I].
  - intros [_ Hd]. destruct (Hd eq_refl) as (Hs0 & Hst & Hed & Ht). split.
    + intros _. unfold start_fits. destruct strict; lia.
    + apply dim_code_fits; [lia|]. unfold edge_fits. destruct t as [t|]; lia.
Qed.

(* only dimension 0 can be free *)
Lemma unbounded_dim_0 isrec isread i : bounded_dim isrec isread i = false -> i = 0%nat.
Proof.
  unfold bounded_dim. destruct (free0 isrec isread); [|discriminate].
  destruct i; [reflexivity | discriminate].
Qed.

Theorem check_scs_iff_fits_prop : forall fmt strict isrec isread kind shape numrecs st cn stride,
  lengths_ok isrec shape st (Some cn) stride ->
  (check_scs fmt strict isrec isread kind shape numrecs (Some st) (Some cn) stride = NC_NOERR <->
   fits fmt strict isrec isread shape numrecs st cn stride).
Proof.
  intros fmt strict isrec isread kind shape numrecs st cn stride Hl.
  pose proof Hl as (Hne & Hls & Hlc & Hlt).
  rewrite check_scs_decomp, phases_noerr by assumption.
  rewrite (starts_ok_b_nth fmt strict isrec isread shape numrecs st (Some cn) stride Hl).
  cbn [cnt_or1].
  rewrite (edge_code_seq_s isrec isread shape numrecs st cn stride Hl).
  rewrite first_err_all_noerr, stride_code_noerr. unfold fits. cbv zeta.
  set (shp := shp_of isrec shape numrecs) in *.
  assert (Hstr : match stride with Some t => forallb (fun x => 1 <=? x) t | None => true end = true
                 <-> forall i, (i < length shape)%nat ->
                       match stride with Some t => 1 <= nth i t 0 | None => True end).
  { destruct stride as [t|]; [apply forallb_nth_pos; assumption | split; auto]. }
  rewrite Hstr. clear Hstr.
  (* dimension by dimension; the start of a free dimension 0 is only asked to be >= 0 *)
  pose proof (fun i => dim_accept_iff strict (bounded_dim isrec isread i) (nth i st 0) (nth i cn 0)
                         (option_map (fun t => nth i t 0) stride) (nth i shp 0)) as Hdim.
  fold (code_at_s isrec isread st cn stride shp) in Hdim.
  split.
  - intros [(H0 & Hmax & Hst) [Hcode Hstr]]. split; [exact Hmax|]. intros i Hi.
    destruct (proj1 (Hdim i) (conj (Hst i Hi) (Hcode i ltac:(lia)))) as [Hc Hd].
    split; [|split; [exact Hc | split; [apply Hstr; exact Hi | intros Hb; exact (proj2 (Hd Hb))]]].
    destruct (bounded_dim isrec isread i) eqn:Eb; [exact (proj1 (Hd eq_refl))|].
    rewrite (unbounded_dim_0 _ _ _ Eb). exact H0.
  - intros [Hmax Hall].
    assert (Hacc : forall i, (i < length shape)%nat ->
              (bounded_dim isrec isread i = true ->
               start_fits strict (nth i st 0) (nth i cn 0) (nth i shp 0) = true) /\
              code_at_s isrec isread st cn stride shp i = NC_NOERR).
    { intros i Hi. destruct (Hall i Hi) as (Hs & Hc & _ & Hd). apply Hdim.
      split; [exact Hc | intros Hb; split; [exact Hs | exact (Hd Hb)]]. }
    split; [split; [|split; [exact Hmax | intros i Hi; apply (Hacc i Hi)]] |
            split; [intros i Hi; apply Hacc; lia | intros i Hi; apply Hall; exact Hi]].
    destruct shape as [|sh0 ss].
    + destruct st; [cbn [nth]; lia | discriminate].
    + destruct (Hall 0%nat ltac:(cbn [length]; lia)) as (H & _). exact H.
Qed.

Corollary check_scs_complete : forall fmt strict isrec isread kind shape numrecs st cn stride,
  lengths_ok isrec shape st (Some cn) stride ->
  fits fmt strict isrec isread shape numrecs st cn stride ->
  check_scs fmt strict isrec isread kind shape numrecs (Some st) (Some cn) stride = NC_NOERR.
Proof. intros. now apply check_scs_iff_fits_prop. Qed.

(* fits against Proofs_Access.req_ok: shape[0] = 0 is how req_ok learns that dimension 0 is the
   record dimension, which fits bounds by numrecs (on a read) or not at all *)
Lemma fits_req_ok fmt strict isread shape numrecs st cn stride :
  length st = length shape -> length cn = length shape ->
  match stride with Some t => length t = length shape | None => True end ->
  fits fmt strict (match shape with s0 :: _ => s0 =? 0 | [] => false end) isread shape numrecs
       st cn stride ->
  req_ok shape st cn (stride_or_ones (length shape) stride).
Proof.
  intros Hls Hlc Hlt [_ H]. apply req_ok_nth.
  refine (conj Hls (conj Hlc (conj _ _))); [destruct stride; [exact Hlt|apply ones_length]|].
  intros i Hi. destruct (H i Hi) as (Hs & Hc & Ht & Hb).
  assert (Et : nth i (stride_or_ones (length shape) stride) 0 =
               match stride with Some t => nth i t 0 | None => 1 end).
  { destruct stride; [reflexivity|]. unfold stride_or_ones, ones.
    rewrite (nth_indep _ 0 1) by (rewrite repeat_length; exact Hi). apply nth_repeat. }
  rewrite Et. refine (conj Hs (conj Hc (conj _ _))); [destruct stride; [exact Ht|lia]|].
  destruct shape as [|s0 ss]; [cbn [length] in Hi; lia|].
  destruct (Z.eqb_spec s0 0) as [E0|E0].
  - destruct i as [|i]; [left; split; [reflexivity|exact E0]|]. right.
    unfold bounded_dim, shp_of in Hb. cbn [Nat.eqb tl nth] in Hb |- *. rewrite andb_false_r in Hb.
    specialize (Hb eq_refl). unfold dim_fits in Hb. destruct stride; cbn [option_map] in Hb; lia.
  - right. specialize (Hb eq_refl). unfold dim_fits, shp_of in Hb.
    destruct stride; cbn [option_map] in Hb; lia.
Qed.

Lemma check_scs_var1_req_ok : forall fmt strict isread shape numrecs st,
  length st = length shape ->
  check_scs fmt strict (match shape with s0 :: _ => s0 =? 0 | [] => false end)
            isread API_VAR1 shape numrecs (Some st) None None = NC_NOERR ->
  req_ok shape st (map (fun _ => 1) shape) (ones (length shape)).
Proof.
  intros fmt strict isread shape numrecs st Hls H.
  set (isrec := match shape with s0 :: _ => s0 =? 0 | [] => false end) in *.
  assert (Hl : lengths_ok isrec shape st None None).
  { unfold lengths_ok. split; [|split; [exact Hls | split; exact I]].
    intros E C. subst shape. discriminate E. }
  rewrite check_scs_decomp in H by exact Hl. unfold phases in H.
  destruct (starts_ok_b fmt strict isrec isread shape numrecs st None) eqn:Es;
    [|discriminate H].
  apply (starts_ok_b_nth fmt strict isrec isread shape numrecs st None None Hl) in Es.
  destruct Es as (H0 & Hmax & Hall).
  (* a NULL count is checked as all ones: the start check with count 1 already bounds the edge *)
  apply (fits_req_ok fmt strict isread shape numrecs st _ None Hls (map_length _ _) I).
  fold isrec. split; [exact Hmax|]. intros i Hi. rewrite nth_map_const by exact Hi. cbn [option_map].
  destruct (bounded_dim isrec isread i) eqn:Eb.
  - specialize (Hall i Hi Eb). unfold cnt_or1 in Hall.
    rewrite nth_map_const in Hall by (rewrite (shp_of_length _ _ _ (proj1 Hl)); exact Hi).
    unfold start_fits in Hall. unfold dim_fits. clear - Hall.
    repeat split; try (intros _; discriminate); destruct strict; lia.
  - unfold bounded_dim, free0 in Eb. assert (i = 0%nat) by lia. subst i.
    repeat split; try (intros C; discriminate C); lia.
Qed.

(* Which error is reported *)
Theorem check_scs_null_start : forall fmt strict isrec isread kind shape numrecs count stride,
  check_scs fmt strict isrec isread kind shape numrecs None count stride = NC_EINVALCOORDS.
Proof. reflexivity. Qed.

Lemma edge_code_cases isrec isread st cn ts shp :
  edge_code isrec isread st cn ts shp = NC_NOERR \/
  edge_code isrec isread st cn ts shp = NC_EEDGE \/
  edge_code isrec isread st cn ts shp = NC_ENEGATIVECNT.
Proof.
  unfold edge_code. destruct (free0 isrec isread); [|apply dims_code_cases].
  destruct (hd 0 cn <? 0); [now right; right | apply dims_code_cases].
Qed.

(* NC_EINVALCOORDS is reported exactly when the start phase fails; nothing that is wrong with
   count or stride can mask it *)
Theorem check_scs_einvalcoords_iff : forall fmt strict isrec isread kind shape numrecs st count stride,
  lengths_ok isrec shape st count stride ->
  (check_scs fmt strict isrec isread kind shape numrecs (Some st) count stride = NC_EINVALCOORDS
   <-> starts_ok_b fmt strict isrec isread shape numrecs st count = false).
Proof.
  intros fmt strict isrec isread kind shape numrecs st count stride Hl.
  rewrite check_scs_decomp by assumption. unfold phases.
  destruct (starts_ok_b fmt strict isrec isread shape numrecs st count); [|tauto].
  split; [|discriminate]. intros H. exfalso.
  destruct count as [cn|].
  - cbv zeta in H.
    destruct (edge_code_cases isrec isread st cn (strides_of cn stride)
                (shp_of isrec shape numrecs)) as [E|[E|E]]; rewrite E in H; revert H; codes.
    + unfold stride_code. destruct stride as [t|]; [|discriminate].
      destruct (existsb (fun x => x <=? 0) t); discriminate.
    + discriminate.
    + discriminate.
  - destruct kind; discriminate H.
Qed.

Corollary check_scs_bad_start : forall fmt strict isrec isread kind shape numrecs st count stride,
  lengths_ok isrec shape st count stride ->
  starts_ok_b fmt strict isrec isread shape numrecs st count = false ->
  check_scs fmt strict isrec isread kind shape numrecs (Some st) count stride = NC_EINVALCOORDS.
Proof. intros. now apply check_scs_einvalcoords_iff. Qed.

(* a negative start in ANY dimension: NC_EINVALCOORDS, whatever else is wrong *)
Theorem check_scs_neg_start : forall fmt strict isrec isread kind shape numrecs st count stride i,
  lengths_ok isrec shape st count stride ->
  (i < length shape)%nat -> nth i st 0 < 0 ->
  check_scs fmt strict isrec isread kind shape numrecs (Some st) count stride = NC_EINVALCOORDS.
Proof.
  intros fmt strict isrec isread kind shape numrecs st count stride i Hl Hi Hneg.
  apply check_scs_bad_start; [assumption|].
  destruct (starts_ok_b fmt strict isrec isread shape numrecs st count) eqn:E; [|reflexivity].
  exfalso.
  destruct (proj1 (starts_ok_b_nth fmt strict isrec isread shape numrecs st count stride Hl) E)
    as (H0 & _ & Hst).
  destruct (bounded_dim isrec isread i) eqn:Eb.
  - specialize (Hst i Hi Eb). apply start_fits_nonneg in Hst. lia.
  - unfold bounded_dim in Eb. destruct (free0 isrec isread); [|discriminate].
    destruct i; [lia | discriminate].
Qed.

(* a start beyond the end of a bounded dimension: NC_EINVALCOORDS, whatever else is wrong.
   (Relaxed mode tolerates start = length, but only together with count <= 0.) *)
Theorem check_scs_start_too_large :
  forall fmt (strict : bool) isrec isread kind shape numrecs st count stride i,
  lengths_ok isrec shape st count stride ->
  (i < length shape)%nat -> bounded_dim isrec isread i = true ->
  let shp := shp_of isrec shape numrecs in
  let s := nth i st 0 in let c := nth i (cnt_or1 count shp) 0 in let sh := nth i shp 0 in
  (if strict then sh <= s else sh < s \/ (s = sh /\ 0 < c)) ->
  check_scs fmt strict isrec isread kind shape numrecs (Some st) count stride = NC_EINVALCOORDS.
Proof.
  intros fmt strict isrec isread kind shape numrecs st count stride i Hl Hi Hb shp s c sh Hbig.
  apply check_scs_bad_start; [assumption|].
  destruct (starts_ok_b fmt strict isrec isread shape numrecs st count) eqn:E; [|reflexivity].
  exfalso.
  destruct (proj1 (starts_ok_b_nth fmt strict isrec isread shape numrecs st count stride Hl) E)
    as (_ & _ & Hst).
  specialize (Hst i Hi Hb). fold shp in Hst. fold s c sh in Hst.
  unfold start_fits in Hst. destruct strict; lia.
Qed.

(* NULL count with valid starts: accepted for the var1 form only *)
Theorem check_scs_null_count : forall fmt strict isrec isread kind shape numrecs st stride,
  lengths_ok isrec shape st None stride ->
  starts_ok_b fmt strict isrec isread shape numrecs st None = true ->
  check_scs fmt strict isrec isread kind shape numrecs (Some st) None stride =
  match kind with API_VAR1 => NC_NOERR | _ => NC_EEDGE end.
Proof.
  intros fmt strict isrec isread kind shape numrecs st stride Hl Hs.
  rewrite check_scs_decomp by assumption. unfold phases. rewrite Hs. reflexivity.
Qed.

(* FIRST ERROR of the count/edge phase: with valid starts, the code of the first dimension that
   has one is the result *)
Theorem check_scs_first_bad_dim :
  forall fmt strict isrec isread kind shape numrecs st cn stride i,
  lengths_ok isrec shape st (Some cn) stride ->
  starts_ok_b fmt strict isrec isread shape numrecs st (Some cn) = true ->
  let shp := shp_of isrec shape numrecs in
  (i < length shape)%nat ->
  (forall j, (j < i)%nat -> code_at_s isrec isread st cn stride shp j = NC_NOERR) ->
  code_at_s isrec isread st cn stride shp i <> NC_NOERR ->
  check_scs fmt strict isrec isread kind shape numrecs (Some st) (Some cn) stride =
  code_at_s isrec isread st cn stride shp i.
Proof.
  intros fmt strict isrec isread kind shape numrecs st cn stride i Hl Hs shp Hi Hpre Hbad.
  rewrite check_scs_decomp by assumption. unfold phases. rewrite Hs. cbv zeta.
  rewrite (edge_code_seq_s isrec isread shape numrecs st cn stride Hl). fold shp.
  rewrite (first_err_first_bad _ (length shape) 0 i); try assumption; try lia.
  - apply Z.eqb_neq in Hbad. now rewrite Hbad.
  - intros j Hj. apply Hpre. lia.
Qed.

(* how to discharge the "earlier dimensions are fine" hypothesis *)
Lemma code_at_s_fits isrec isread st cn stride shp j :
  0 <= nth j st 0 -> 0 <= nth j cn 0 ->
  (bounded_dim isrec isread j = true ->
   edge_fits (nth j st 0) (nth j cn 0) (option_map (fun t => nth j t 0) stride) (nth j shp 0)
   = true) ->
  code_at_s isrec isread st cn stride shp j = NC_NOERR.
Proof.
  intros Hs Hc Hb. unfold code_at_s. replace (nth j cn 0 <? 0) with false by lia.
  destruct (bounded_dim isrec isread j); [|reflexivity]. specialize (Hb eq_refl).
  apply (dim_code_fits _ _ _ _ Hs) in Hb. unfold dim_code in Hb.
  replace (nth j cn 0 <? 0) with false in Hb by lia. exact Hb.
Qed.

Theorem check_scs_neg_count :
  forall fmt strict isrec isread kind shape numrecs st cn stride i,
  lengths_ok isrec shape st (Some cn) stride ->
  starts_ok_b fmt strict isrec isread shape numrecs st (Some cn) = true ->
  (i < length shape)%nat ->
  (forall j, (j < i)%nat ->
     code_at_s isrec isread st cn stride (shp_of isrec shape numrecs) j = NC_NOERR) ->
  nth i cn 0 < 0 ->
  check_scs fmt strict isrec isread kind shape numrecs (Some st) (Some cn) stride =
  NC_ENEGATIVECNT.
Proof.
  intros fmt strict isrec isread kind shape numrecs st cn stride i Hl Hs Hi Hpre Hneg.
  assert (E : code_at_s isrec isread st cn stride (shp_of isrec shape numrecs) i = NC_ENEGATIVECNT)
    by (unfold code_at_s; replace (nth i cn 0 <? 0) with true by lia; reflexivity).
  rewrite <- E. apply check_scs_first_bad_dim; try assumption.
  rewrite E. discriminate.
Qed.

Theorem check_scs_count_too_large :
  forall fmt strict isrec isread kind shape numrecs st cn stride i,
  lengths_ok isrec shape st (Some cn) stride ->
  starts_ok_b fmt strict isrec isread shape numrecs st (Some cn) = true ->
  (i < length shape)%nat -> bounded_dim isrec isread i = true ->
  (forall j, (j < i)%nat ->
     code_at_s isrec isread st cn stride (shp_of isrec shape numrecs) j = NC_NOERR) ->
  0 <= nth i cn 0 ->
  nth i (shp_of isrec shape numrecs) 0 < nth i st 0 + nth i cn 0 ->
  check_scs fmt strict isrec isread kind shape numrecs (Some st) (Some cn) stride = NC_EEDGE.
Proof.
  intros fmt strict isrec isread kind shape numrecs st cn stride i Hl Hs Hi Hb Hpre Hc Hbig.
  assert (E : code_at_s isrec isread st cn stride (shp_of isrec shape numrecs) i = NC_EEDGE).
  { unfold code_at_s. replace (nth i cn 0 <? 0) with false by lia. rewrite Hb.
    unfold check_EEDGE.
    replace ((nth i cn 0 >? nth i (shp_of isrec shape numrecs) 0)
             || (nth i st 0 + nth i cn 0 >? nth i (shp_of isrec shape numrecs) 0))
      with true by lia. reflexivity. }
  rewrite <- E. apply check_scs_first_bad_dim; try assumption.
  rewrite E. discriminate.
Qed.

(* start + count fits but the last strided index does not *)
Theorem check_scs_stride_reach :
  forall fmt strict isrec isread kind shape numrecs st cn t i,
  lengths_ok isrec shape st (Some cn) (Some t) ->
  starts_ok_b fmt strict isrec isread shape numrecs st (Some cn) = true ->
  (i < length shape)%nat -> bounded_dim isrec isread i = true ->
  (forall j, (j < i)%nat ->
     code_at_s isrec isread st cn (Some t) (shp_of isrec shape numrecs) j = NC_NOERR) ->
  0 < nth i cn 0 ->
  nth i (shp_of isrec shape numrecs) 0 <= nth i st 0 + (nth i cn 0 - 1) * nth i t 0 ->
  check_scs fmt strict isrec isread kind shape numrecs (Some st) (Some cn) (Some t) = NC_EEDGE.
Proof.
  intros fmt strict isrec isread kind shape numrecs st cn t i Hl Hs Hi Hb Hpre Hc Hbig.
  assert (E : code_at_s isrec isread st cn (Some t) (shp_of isrec shape numrecs) i = NC_EEDGE).
  { unfold code_at_s. replace (nth i cn 0 <? 0) with false by lia. rewrite Hb.
    cbn [option_map]. unfold check_EEDGE.
    destruct ((nth i cn 0 >? nth i (shp_of isrec shape numrecs) 0)
              || (nth i st 0 + nth i cn 0 >? nth i (shp_of isrec shape numrecs) 0));
      [reflexivity|].
    replace ((nth i cn 0 >? 0)
             && (nth i st 0 + (nth i cn 0 - 1) * nth i t 0 >=?
                 nth i (shp_of isrec shape numrecs) 0)) with true by lia.
    reflexivity. }
  rewrite <- E. apply check_scs_first_bad_dim; try assumption.
  rewrite E. discriminate.
Qed.

(* a stride <= 0 is reported last: only when starts, counts and edges are all fine *)
Theorem check_scs_bad_stride :
  forall fmt strict isrec isread kind shape numrecs st cn t i,
  lengths_ok isrec shape st (Some cn) (Some t) ->
  starts_ok_b fmt strict isrec isread shape numrecs st (Some cn) = true ->
  (forall j, (j < length shape)%nat ->
     code_at_s isrec isread st cn (Some t) (shp_of isrec shape numrecs) j = NC_NOERR) ->
  (i < length shape)%nat -> nth i t 0 <= 0 ->
  check_scs fmt strict isrec isread kind shape numrecs (Some st) (Some cn) (Some t) = NC_ESTRIDE.
Proof.
  intros fmt strict isrec isread kind shape numrecs st cn t i Hl Hs Hall Hi Hbad.
  pose proof Hl as (Hne & Hls & Hlc & Hlt).
  rewrite check_scs_decomp by assumption. unfold phases. rewrite Hs. cbv zeta.
  rewrite (edge_code_seq_s isrec isread shape numrecs st cn (Some t) Hl).
  rewrite (proj2 (first_err_all_noerr _ (length shape) 0)) by (intros j Hj; apply Hall; lia).
  codes. unfold stride_code.
  replace (existsb (fun x => x <=? 0) t) with true; [reflexivity|].
  symmetry. apply existsb_exists. exists (nth i t 0). split; [apply nth_In; lia | lia].
Qed.

(* One perturbation of an accepted request at a time *)
Fixpoint set_nth {A} (i : nat) (v : A) (l : list A) {struct l} : list A :=
  match l with
  | [] => []
  | x :: r => match i with O => v :: r | S k => x :: set_nth k v r end
  end.

Lemma length_set_nth {A} (v : A) : forall l i, length (set_nth i v l) = length l.
Proof. induction l as [|x r IH]; intros i; [reflexivity|]. destruct i; cbn [set_nth length]; auto. Qed.

Lemma nth_set_nth_eq {A} (v d : A) : forall l i, (i < length l)%nat -> nth i (set_nth i v l) d = v.
Proof.
  induction l as [|x r IH]; intros i Hi; [cbn [length] in Hi; lia|].
  destruct i; cbn [set_nth nth]; [reflexivity|]. apply IH. cbn [length] in Hi. lia.
Qed.

Lemma nth_set_nth_neq {A} (v d : A) : forall l i j, i <> j -> nth j (set_nth i v l) d = nth j l d.
Proof.
  induction l as [|x r IH]; intros i j Hne; [reflexivity|].
  destruct i; destruct j; cbn [set_nth nth]; try reflexivity; [lia|]. apply IH. lia.
Qed.

Lemma accepted_phases fmt strict isrec isread kind shape numrecs st cn stride :
  lengths_ok isrec shape st (Some cn) stride ->
  check_scs fmt strict isrec isread kind shape numrecs (Some st) (Some cn) stride = NC_NOERR ->
  starts_ok_b fmt strict isrec isread shape numrecs st (Some cn) = true /\
  (forall j, (j < length shape)%nat ->
     code_at_s isrec isread st cn stride (shp_of isrec shape numrecs) j = NC_NOERR) /\
  stride_code stride = NC_NOERR.
Proof.
  intros Hl H. rewrite check_scs_decomp in H by assumption. apply phases_noerr in H.
  destruct H as [Hs [He Hst]]. split; [exact Hs|]. split; [|exact Hst].
  rewrite (edge_code_seq_s isrec isread shape numrecs st cn stride Hl) in He.
  intros j Hj. apply (proj1 (first_err_all_noerr _ _ _) He). lia.
Qed.

(* the start phase looks at a count only to see whether it is positive where start = length *)
Lemma starts_ok_b_count_change fmt strict isrec isread shape numrecs st cn cn' stride :
  lengths_ok isrec shape st (Some cn) stride -> length cn' = length shape ->
  starts_ok_b fmt strict isrec isread shape numrecs st (Some cn) = true ->
  (forall j, (j < length shape)%nat -> bounded_dim isrec isread j = true -> 0 < nth j cn' 0 ->
     0 < nth j cn 0 \/ nth j st 0 < nth j (shp_of isrec shape numrecs) 0) ->
  starts_ok_b fmt strict isrec isread shape numrecs st (Some cn') = true.
Proof.
  intros Hl Hl' Hs Hch.
  assert (Hl2 : lengths_ok isrec shape st (Some cn') stride).
  { destruct Hl as (H1 & H2 & H3 & H4). repeat split; assumption. }
  destruct (proj1 (starts_ok_b_nth fmt strict isrec isread shape numrecs st (Some cn) stride Hl) Hs)
    as (H0 & Hmax & Hst).
  apply (starts_ok_b_nth fmt strict isrec isread shape numrecs st (Some cn') stride Hl2).
  split; [exact H0|]. split; [exact Hmax|]. intros j Hj Hb.
  specialize (Hst j Hj Hb). specialize (Hch j Hj Hb). cbn [cnt_or1] in *.
  unfold start_fits in *. destruct strict; lia.
Qed.

Theorem perturb_neg_start : forall fmt strict isrec isread kind shape numrecs st count stride i v,
  lengths_ok isrec shape st count stride -> (i < length shape)%nat -> v < 0 ->
  check_scs fmt strict isrec isread kind shape numrecs (Some (set_nth i v st)) count stride =
  NC_EINVALCOORDS.
Proof.
  intros fmt strict isrec isread kind shape numrecs st count stride i v (H1 & H2 & H3 & H4) Hi Hv.
  apply (check_scs_neg_start _ _ _ _ _ _ _ _ _ _ i).
  - repeat split; try assumption. now rewrite length_set_nth.
  - exact Hi.
  - rewrite nth_set_nth_eq by lia. exact Hv.
Qed.

Theorem perturb_start_too_large :
  forall fmt (strict : bool) isrec isread kind shape numrecs st count stride i v,
  lengths_ok isrec shape st count stride -> (i < length shape)%nat ->
  bounded_dim isrec isread i = true ->
  (if strict then nth i (shp_of isrec shape numrecs) 0 <= v
   else nth i (shp_of isrec shape numrecs) 0 < v) ->
  check_scs fmt strict isrec isread kind shape numrecs (Some (set_nth i v st)) count stride =
  NC_EINVALCOORDS.
Proof.
  intros fmt strict isrec isread kind shape numrecs st count stride i v (H1 & H2 & H3 & H4) Hi Hb Hv.
  apply (check_scs_start_too_large _ _ _ _ _ _ _ _ _ _ i).
  - repeat split; try assumption. now rewrite length_set_nth.
  - exact Hi.
  - exact Hb.
  - rewrite nth_set_nth_eq by lia. destruct strict; [exact Hv | left; exact Hv].
Qed.

Lemma code_at_s_set_count isrec isread st cn stride shp i v j : i <> j ->
  code_at_s isrec isread st (set_nth i v cn) stride shp j = code_at_s isrec isread st cn stride shp j.
Proof. intros Hne. unfold code_at_s. rewrite nth_set_nth_neq by assumption. reflexivity. Qed.

Theorem perturb_neg_count : forall fmt strict isrec isread kind shape numrecs st cn stride i v,
  lengths_ok isrec shape st (Some cn) stride ->
  check_scs fmt strict isrec isread kind shape numrecs (Some st) (Some cn) stride = NC_NOERR ->
  (i < length shape)%nat -> v < 0 ->
  check_scs fmt strict isrec isread kind shape numrecs (Some st) (Some (set_nth i v cn)) stride =
  NC_ENEGATIVECNT.
Proof.
  intros fmt strict isrec isread kind shape numrecs st cn stride i v Hl Hacc Hi Hv.
  destruct (accepted_phases _ _ _ _ _ _ _ _ _ _ Hl Hacc) as (Hs & Hcodes & _).
  pose proof Hl as (H1 & H2 & H3 & H4).
  apply (check_scs_neg_count _ _ _ _ _ _ _ _ _ _ i).
  - repeat split; try assumption. now rewrite length_set_nth.
  - apply (starts_ok_b_count_change _ _ _ _ _ _ _ cn _ stride); try assumption.
    + now rewrite length_set_nth.
    + intros j Hj Hb Hpos. destruct (Nat.eq_dec i j) as [<-|Hne].
      * rewrite nth_set_nth_eq in Hpos by lia. lia.
      * rewrite nth_set_nth_neq in Hpos by assumption. left. exact Hpos.
  - exact Hi.
  - intros j Hj. rewrite code_at_s_set_count by lia. apply Hcodes. lia.
  - rewrite nth_set_nth_eq by lia. exact Hv.
Qed.

(* start strictly inside, count enlarged beyond the end.  (With start = length, which relaxed
   mode accepts for count = 0, a positive count gives NC_EINVALCOORDS instead:
   perturb_count_at_end.) *)
Theorem perturb_count_too_large :
  forall fmt strict isrec isread kind shape numrecs st cn stride i v,
  lengths_ok isrec shape st (Some cn) stride ->
  check_scs fmt strict isrec isread kind shape numrecs (Some st) (Some cn) stride = NC_NOERR ->
  (i < length shape)%nat -> bounded_dim isrec isread i = true ->
  nth i st 0 < nth i (shp_of isrec shape numrecs) 0 ->
  nth i (shp_of isrec shape numrecs) 0 < nth i st 0 + v ->
  check_scs fmt strict isrec isread kind shape numrecs (Some st) (Some (set_nth i v cn)) stride =
  NC_EEDGE.
Proof.
  intros fmt strict isrec isread kind shape numrecs st cn stride i v Hl Hacc Hi Hb Hin Hv.
  destruct (accepted_phases _ _ _ _ _ _ _ _ _ _ Hl Hacc) as (Hs & Hcodes & _).
  pose proof Hl as (H1 & H2 & H3 & H4).
  apply (check_scs_count_too_large _ _ _ _ _ _ _ _ _ _ i).
  - repeat split; try assumption. now rewrite length_set_nth.
  - apply (starts_ok_b_count_change _ _ _ _ _ _ _ cn _ stride); try assumption.
    + now rewrite length_set_nth.
    + intros j Hj Hbj Hpos. destruct (Nat.eq_dec i j) as [<-|Hne].
      * right. exact Hin.
      * rewrite nth_set_nth_neq in Hpos by assumption. left. exact Hpos.
  - exact Hi.
  - exact Hb.
  - intros j Hj. rewrite code_at_s_set_count by lia. apply Hcodes. lia.
  - rewrite nth_set_nth_eq by lia. lia.
  - rewrite nth_set_nth_eq by lia. exact Hv.
Qed.

Theorem perturb_count_at_end :
  forall fmt isrec isread kind shape numrecs st cn stride i v,
  lengths_ok isrec shape st (Some cn) stride ->
  (i < length shape)%nat -> bounded_dim isrec isread i = true ->
  nth i st 0 = nth i (shp_of isrec shape numrecs) 0 -> 0 < v ->
  check_scs fmt false isrec isread kind shape numrecs (Some st) (Some (set_nth i v cn)) stride =
  NC_EINVALCOORDS.
Proof.
  intros fmt isrec isread kind shape numrecs st cn stride i v (H1 & H2 & H3 & H4) Hi Hb He Hv.
  apply (check_scs_start_too_large _ false _ _ _ _ _ _ _ _ i).
  - repeat split; try assumption. now rewrite length_set_nth.
  - exact Hi.
  - exact Hb.
  - cbn [cnt_or1]. rewrite nth_set_nth_eq by lia. right. split; [exact He | exact Hv].
Qed.

(* a stride <= 0 in an otherwise accepted request never trips the edge check first *)
Theorem perturb_bad_stride : forall fmt strict isrec isread kind shape numrecs st cn t i v,
  lengths_ok isrec shape st (Some cn) (Some t) ->
  check_scs fmt strict isrec isread kind shape numrecs (Some st) (Some cn) (Some t) = NC_NOERR ->
  (i < length shape)%nat -> v <= 0 ->
  check_scs fmt strict isrec isread kind shape numrecs (Some st) (Some cn)
            (Some (set_nth i v t)) = NC_ESTRIDE.
Proof.
  intros fmt strict isrec isread kind shape numrecs st cn t i v Hl Hacc Hi Hv.
  destruct (accepted_phases _ _ _ _ _ _ _ _ _ _ Hl Hacc) as (Hs & Hcodes & _).
  pose proof Hl as (H1 & H2 & H3 & H4).
  destruct (proj1 (starts_ok_b_nth fmt strict isrec isread shape numrecs st (Some cn) (Some t) Hl) Hs)
    as (_ & _ & Hst).
  assert (Hl' : lengths_ok isrec shape st (Some cn) (Some (set_nth i v t))).
  { repeat split; try assumption. now rewrite length_set_nth. }
  apply (check_scs_bad_stride _ _ _ _ _ _ _ _ _ _ i); try assumption.
  - intros j Hj. specialize (Hcodes j Hj). unfold code_at_s in *. cbn [option_map] in *.
    destruct (nth j cn 0 <? 0) eqn:Ec; [exact Hcodes|].
    destruct (bounded_dim isrec isread j) eqn:Eb; [|reflexivity].
    destruct (Nat.eq_dec i j) as [<-|Hne]; [|rewrite nth_set_nth_neq by assumption; exact Hcodes].
    rewrite nth_set_nth_eq by lia.
    specialize (Hst i Hi Eb). cbn [cnt_or1] in Hst.
    pose proof (start_fits_nonneg _ _ _ _ Hst) as Hs0.
    apply check_EEDGE_ok in Hcodes. destruct Hcodes as [He _].
    unfold check_EEDGE.
    replace ((nth i cn 0 >? nth i (shp_of isrec shape numrecs) 0)
             || (nth i st 0 + nth i cn 0 >? nth i (shp_of isrec shape numrecs) 0))
      with false by lia.
    destruct (nth i cn 0 >? 0) eqn:Ep; [|reflexivity].
    assert (Hlt : nth i st 0 < nth i (shp_of isrec shape numrecs) 0)
      by (unfold start_fits in Hst; destruct strict; lia).
    assert (Hm : (nth i cn 0 - 1) * v <= 0) by nia.
    replace (nth i st 0 + (nth i cn 0 - 1) * v >=? nth i (shp_of isrec shape numrecs) 0)
      with false by lia.
    reflexivity.
  - rewrite nth_set_nth_eq by lia. exact Hv.
Qed.

(* Examples *)
(* a 3-D record variable (unlimited x 3 x 4) with 5 records, CDF-2, relaxed mode, strided read *)
Definition ex_shape : list Z := [0; 3; 4].
Definition ex_st : list Z := [1; 0; 1].
Definition ex_cn : list Z := [2; 3; 2].
Definition ex_sd : list Z := [2; 1; 2].

Example ex_lengths : lengths_ok true ex_shape ex_st (Some ex_cn) (Some ex_sd).
Proof. repeat split; try reflexivity. intros _. discriminate. Qed.

Example ex_accept :
  check_scs 2 false true true API_VARS ex_shape 5 (Some ex_st) (Some ex_cn) (Some ex_sd) = NC_NOERR
  /\ fits_b 2 false true true API_VARS ex_shape 5 (Some ex_st) (Some ex_cn) (Some ex_sd) = true.
Proof. vm_compute. split; reflexivity. Qed.

(* the same by the completeness theorem, from the dimension-by-dimension predicate *)
Example ex_accept_by_theorem :
  check_scs 2 false true true API_VARS ex_shape 5 (Some ex_st) (Some ex_cn) (Some ex_sd) = NC_NOERR.
Proof.
  apply check_scs_complete; [exact ex_lengths|].
  split; [intros _ _; discriminate|].
  intros i Hi. unfold ex_shape in Hi. cbn [length] in Hi.
  destruct i as [|[|[|i]]]; [| | |lia];
    (cbn [nth ex_st ex_cn ex_sd ex_shape shp_of tl option_map]; unfold dim_fits;
     repeat split; try lia; intros _; repeat split; try lia).
Qed.

(* a write may start beyond the current number of records; a read may not *)
Example ex_write_beyond :
  check_scs 2 false true false API_VARA ex_shape 5 (Some [7; 0; 0]) (Some [3; 3; 4]) None = NC_NOERR /\
  check_scs 2 false true true API_VARA ex_shape 5 (Some [7; 0; 0]) (Some [3; 3; 4]) None
  = NC_EINVALCOORDS /\
  check_scs 2 false true true API_VARA ex_shape 5 (Some [4; 0; 0]) (Some [3; 3; 4]) None = NC_EEDGE.
Proof. vm_compute. repeat split; reflexivity. Qed.

(* the perturbation theorems applied to the accepted request ... *)
Example ex_perturb :
  check_scs 2 false true true API_VARS ex_shape 5 (Some (set_nth 2 (-1) ex_st)) (Some ex_cn)
            (Some ex_sd) = NC_EINVALCOORDS /\
  check_scs 2 false true true API_VARS ex_shape 5 (Some (set_nth 1 4 ex_st)) (Some ex_cn)
            (Some ex_sd) = NC_EINVALCOORDS /\
  check_scs 2 false true true API_VARS ex_shape 5 (Some ex_st) (Some (set_nth 1 (-3) ex_cn))
            (Some ex_sd) = NC_ENEGATIVECNT /\
  check_scs 2 false true true API_VARS ex_shape 5 (Some ex_st) (Some (set_nth 2 4 ex_cn))
            (Some ex_sd) = NC_EEDGE /\
  check_scs 2 false true true API_VARS ex_shape 5 (Some ex_st) (Some ex_cn)
            (Some (set_nth 0 0 ex_sd)) = NC_ESTRIDE.
Proof.
  pose proof ex_lengths as Hl. destruct ex_accept as [Hacc _].
  split; [|split; [|split; [|split]]].
  - apply perturb_neg_start; [exact Hl | cbn; lia | lia].
  - apply perturb_start_too_large; [exact Hl | cbn; lia | reflexivity | vm_compute; reflexivity].
  - apply perturb_neg_count; [exact Hl | exact Hacc | cbn; lia | lia].
  - apply perturb_count_too_large;
      [exact Hl | exact Hacc | cbn; lia | reflexivity | vm_compute; reflexivity
       | vm_compute; reflexivity].
  - apply perturb_bad_stride; [exact Hl | exact Hacc | cbn; lia | lia].
Qed.

(* ... and cross-checked by evaluation *)
Example ex_perturb_compute :
  map (fun r => check_scs 2 false true true API_VARS ex_shape 5 (Some (fst (fst r)))
                          (Some (snd (fst r))) (Some (snd r)))
      [ ([1; 0; -1], ex_cn, ex_sd); ([1; 4; 1], ex_cn, ex_sd); (ex_st, [2; -3; 2], ex_sd);
        (ex_st, [2; 3; 4], ex_sd); (ex_st, ex_cn, [0; 1; 2]); (ex_st, [2; 3; 2], [4; 1; 2]) ]
  = [NC_EINVALCOORDS; NC_EINVALCOORDS; NC_ENEGATIVECNT; NC_EEDGE; NC_ESTRIDE; NC_EEDGE].
Proof. vm_compute. reflexivity. Qed.

(* precedence: a bad start masks everything; the first bad dimension decides between
   NC_ENEGATIVECNT and NC_EEDGE; a bad stride shows only when all the rest is fine *)
Example ex_precedence :
  check_scs 2 false true true API_VARS ex_shape 5 (Some [1; 0; -1]) (Some [-2; 9; 2])
            (Some [0; 1; 2]) = NC_EINVALCOORDS /\
  check_scs 2 false true true API_VARS ex_shape 5 (Some ex_st) (Some [2; 9; -2])
            (Some [0; 1; 2]) = NC_EEDGE /\
  check_scs 2 false true true API_VARS ex_shape 5 (Some ex_st) (Some [2; -9; 9])
            (Some [0; 1; 2]) = NC_ENEGATIVECNT.
Proof. vm_compute. repeat split; reflexivity. Qed.

(* corners of the model:
   - relaxed mode accepts start = length only with count = 0; strict mode never;
   - reading a record variable that has no records: the special case (numrecs = 0, count > 0)
     only turns the code into NC_EINVALCOORDS, acceptance is unchanged; a zero-length read at
     record 0 is accepted in relaxed mode and rejected in strict mode;
   - a negative count at start = length passes the start phase: NC_ENEGATIVECNT;
   - the CDF-1/2 limit on the record index does not apply to CDF-5;
   - NULL count: var1 only, and the stride is not looked at *)
Example ex_corners :
  check_scs 5 false false true API_VARA [4; 5] 0 (Some [4; 0]) (Some [0; 5]) None = NC_NOERR /\
  check_scs 5 true false true API_VARA [4; 5] 0 (Some [4; 0]) (Some [0; 5]) None = NC_EINVALCOORDS /\
  check_scs 5 false false true API_VARA [4; 5] 0 (Some [4; 0]) (Some [1; 5]) None = NC_EINVALCOORDS /\
  check_scs 5 false true true API_VARA [0; 5] 0 (Some [0; 0]) (Some [1; 5]) None = NC_EINVALCOORDS /\
  check_scs 5 false true true API_VARA [0; 5] 0 (Some [0; 0]) (Some [0; 5]) None = NC_NOERR /\
  check_scs 5 true true true API_VARA [0; 5] 0 (Some [0; 0]) (Some [0; 5]) None = NC_EINVALCOORDS /\
  check_scs 5 false false true API_VARA [4; 5] 0 (Some [4; 0]) (Some [-1; 5]) None = NC_ENEGATIVECNT /\
  check_scs 2 false true false API_VARA [0; 5] 0 (Some [4294967296; 0]) (Some [1; 5]) None
  = NC_EINVALCOORDS /\
  check_scs 5 false true false API_VARA [0; 5] 0 (Some [4294967296; 0]) (Some [1; 5]) None = NC_NOERR /\
  check_scs 5 false false true API_VAR1 [4; 5] 0 (Some [3; 4]) None (Some [0; -1]) = NC_NOERR /\
  check_scs 5 false false true API_VARA [4; 5] 0 (Some [3; 4]) None None = NC_EEDGE.
Proof. vm_compute. repeat split; reflexivity. Qed.

(* the accepted example request under both predicates (in general: fits_req_ok) *)
Example ex_sound_and_complete :
  fits 2 false true true ex_shape 5 ex_st ex_cn (Some ex_sd) /\
  req_ok ex_shape ex_st ex_cn ex_sd.
Proof.
  destruct ex_accept as [Hacc _]. split.
  - apply (check_scs_iff_fits_prop 2 false true true API_VARS); [exact ex_lengths | exact Hacc].
  - apply (check_scs_req_ok 2 false true API_VARS ex_shape 5 ex_st ex_cn (Some ex_sd));
      try reflexivity.
Qed.

Print Assumptions check_scs_decomp.
Print Assumptions check_scs_iff_fits.
Print Assumptions check_scs_iff_fits_prop.
Print Assumptions check_scs_complete.
Print Assumptions check_scs_codes.
Print Assumptions check_scs_einvalcoords_iff.
Print Assumptions check_scs_neg_start.
Print Assumptions check_scs_start_too_large.
Print Assumptions check_scs_first_bad_dim.
Print Assumptions check_scs_neg_count.
Print Assumptions check_scs_count_too_large.
Print Assumptions check_scs_stride_reach.
Print Assumptions check_scs_bad_stride.
Print Assumptions perturb_neg_start.
Print Assumptions perturb_start_too_large.
Print Assumptions perturb_neg_count.
Print Assumptions perturb_count_too_large.
Print Assumptions perturb_count_at_end.
Print Assumptions perturb_bad_stride.
