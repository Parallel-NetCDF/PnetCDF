(* Proofs_Header.v — the header ENCODER of Header.v (encode_header, hdr_len) against the
   independent grammar DECODER of HeaderSpec.v (decode, strict_valid).

   Main results (all for arbitrary headers: any number of dims/attrs/vars, formats 1, 2, 5):
     decode_encode_full   decode (encode_header h ++ rest) = Some (decoded_of h)
     decode_encode        the same, naming only the header (hdr_content h) and the length read
     encode_strict_valid  the decoded value of an encoder output is strictly valid
     hdr_len_encode       hdr_len h = Zlen (encode_header h)
     hdr_len_mod4         hdr_len h mod 4 = 0   (hdr_len_mod4_all: even without wf_hdr)
     encode_header_bytes  every emitted byte is in [0,256) when the bytes of the names and
                          of the attribute data are *)
From Pnc Require Import Base Header HeaderSpec Proofs_Lists Proofs_Base.
Local Open Scope Z_scope.

Local Arguments Z.mul : simpl never.
Local Arguments Z.add : simpl never.
Local Arguments Z.sub : simpl never.
Local Arguments Z.div : simpl never.
Local Arguments Z.modulo : simpl never.
Local Arguments Z.pow : simpl never.
Local Arguments Z.of_nat : simpl never.
Local Arguments Z.to_nat : simpl never.

(** * Well-formedness (boolean, executable) *)

(* the three classic formats: CDF-1, CDF-2, CDF-5.  Needed because [magic] maps every
   other number to version byte 1 and [put_nn]/[sz_nn] split at different thresholds
   ([fmt <? 5] versus [fmt =? 5]). *)
Definition fmt_ok (fmt : Z) : bool := (fmt =? 1) || (fmt =? 2) || (fmt =? 5).

(* a NON_NEG field: unsigned 32 bit for CDF-1/2, unsigned 64 bit for CDF-5.
   Needed for every value written with [put_nn]: outside the range the big-endian
   encoder wraps and the decoder reads a different number. *)
Definition nn_ok (fmt x : Z) : bool :=
  (0 <=? x) && (x <? (if fmt <? 5 then 4294967296 else 18446744073709551616)).

(* the OFFSET field ([begin]): unsigned 32 bit for CDF-1, unsigned 64 bit otherwise *)
Definition off_ok (fmt x : Z) : bool :=
  (0 <=? x) && (x <? (if fmt =? 1 then 4294967296 else 18446744073709551616)).

(* a name: only its LENGTH has to fit the NON_NEG field.  The name bytes themselves
   are copied verbatim by encoder and decoder, so no range condition on them is needed
   for the round trip (see [bytes_ok] for the separate byte-range statement). *)
Definition wf_name (fmt : Z) (nm : list byte) : bool := nn_ok fmt (Zlen nm).

(* dimension: name length and size fit NON_NEG (size 0 = unlimited is allowed) *)
Definition wf_dim (fmt : Z) (d : dim) : bool :=
  wf_name fmt (d_name d) && nn_ok fmt (d_size d).

(* attribute:
   - name length fits;
   - the type is a legal external type of the format (the decoder rejects others; also
     gives 1 <= xlen_type, and that the type number fits its u32 field);
   - nelems fits NON_NEG (in particular nelems >= 0);
   - the payload has exactly nelems * xlen_type bytes: the encoder writes [a_data]
     verbatim while the decoder reads nelems * xlen_type bytes, and the encoder writes
     nothing at all when nelems = 0. *)
Definition wf_att (fmt : Z) (a : att) : bool :=
  wf_name fmt (a_name a) && valid_type fmt (a_type a) && nn_ok fmt (a_nelems a) &&
  (Zlen (a_data a) =? a_nelems a * xlen_type (a_type a)).

(* variable: name length, rank, every dimid, attribute count fit NON_NEG; attributes
   well-formed; type legal for the format; begin fits the OFFSET field.
   Nothing is required of [var_len] (the vsize field): the decoder returns whatever
   number is stored, see [dec_vsize]. Dimids need NOT index an existing dimension. *)
Definition wf_var (fmt : Z) (v : var) : bool :=
  wf_name fmt (v_name v) && nn_ok fmt (Zlen (v_dimids v)) && forallb (nn_ok fmt) (v_dimids v) &&
  nn_ok fmt (Zlen (v_atts v)) && forallb (wf_att fmt) (v_atts v) &&
  valid_type fmt (v_type v) && off_ok fmt (v_begin v).

Definition wf_hdr (h : hdr) : bool :=
  let fmt := h_format h in
  fmt_ok fmt && nn_ok fmt (h_numrecs h) &&
  nn_ok fmt (Zlen (h_dims h)) && forallb (wf_dim fmt) (h_dims h) &&
  nn_ok fmt (Zlen (h_gatts h)) && forallb (wf_att fmt) (h_gatts h) &&
  nn_ok fmt (Zlen (h_vars h)) && forallb (wf_var fmt) (h_vars h).

(* Extra hypotheses of [encode_strict_valid] (format-level validity that the encoder does
   not enforce by itself). *)
Definition dimids_ok (h : hdr) : bool :=
  forallb (fun v => forallb (fun i => (0 <=? i) && (i <? Zlen (h_dims h))) (v_dimids v))
          (h_vars h).

Definition unlim_ok (h : hdr) : bool :=
  Zlen (filter (fun dd => d_size dd =? 0) (h_dims h)) <=? 1.

(* CDF-5 stores vsize in 64 bits without saturation: var_len must fit.  (For CDF-1/2 the
   saturation rule of [vsize_field] and [expected_vsize] agree for every var_len >= 0,
   and var_len >= 0 follows from wf_hdr.) *)
Definition vsize_ok (h : hdr) : bool :=
  forallb (fun v => (h_format h <? 5) || (var_len (h_dims h) v <? 18446744073709551616))
          (h_vars h).

(* Byte-range of the verbatim-copied material; NOT needed by the round-trip theorems,
   only by [encode_header_bytes]. *)
Definition att_bytes_ok (a : att) : bool := forallb is_byte (a_name a) && forallb is_byte (a_data a).
Definition bytes_ok (h : hdr) : bool :=
  forallb (fun d => forallb is_byte (d_name d)) (h_dims h) &&
  forallb att_bytes_ok (h_gatts h) &&
  forallb (fun v => forallb is_byte (v_name v) && forallb att_bytes_ok (v_atts v)) (h_vars h).

(** * What the decoder is expected to return *)

(* v_nofill is not stored in the file; the decoder sets it to true *)
Definition var_content (v : var) : var :=
  mkvar (v_name v) (v_dimids v) (v_atts v) (v_type v) (v_begin v) true.

Definition hdr_content (h : hdr) : hdr :=
  mkhdr (h_format h) (h_numrecs h) (h_dims h) (h_gatts h) (map var_content (h_vars h)).

Definition dec_dim_of (d : dim) : dec_dim := mkddim d (pad4 (Zlen (d_name d))).

Definition dec_att_of (a : att) : dec_att :=
  mkdatt a (pad4 (Zlen (a_name a)) ++ pad4 (Zlen (a_data a))).

(* the number read back from the vsize field, for EVERY integer var_len *)
Definition dec_vsize (fmt len : Z) : Z :=
  if fmt <? 5 then (if len >? 4294967292 then 4294967295 else len mod 4294967296)
  else len mod 18446744073709551616.

Definition dec_var_of (fmt : Z) (dims : list dim) (v : var) : dec_var :=
  mkdvar (var_content v) (dec_vsize fmt (var_len dims v)) (pad4 (Zlen (v_name v)))
         (map dec_att_of (v_atts v)).

Definition decoded_of (h : hdr) : decoded :=
  mkdec (hdr_content h) (map dec_dim_of (h_dims h)) (map dec_att_of (h_gatts h))
        (map (dec_var_of (h_format h) (h_dims h)) (h_vars h)) (Zlen (encode_header h)).

(** * Small facts about formats and types *)

Lemma fmt_ok_cases : forall fmt, fmt_ok fmt = true -> fmt = 1 \/ fmt = 2 \/ fmt = 5.
Proof. intros fmt H. unfold fmt_ok in H. lia. Qed.

Lemma valid_type_range : forall fmt t, valid_type fmt t = true -> 1 <= t <= 11.
Proof.
  intros fmt t H. unfold valid_type in H. destruct (fmt =? 5) eqn:E; lia.
Qed.

Lemma xlen_type_pos : forall t, 1 <= t <= 11 -> 1 <= xlen_type t <= 8.
Proof. intros t Ht. pose proof (xlen_type_cases t). lia. Qed.

Lemma valid_type_xlen : forall fmt t, valid_type fmt t = true -> 1 <= xlen_type t <= 8.
Proof. intros fmt t H. apply xlen_type_pos. exact (valid_type_range fmt t H). Qed.

Lemma nn_ok_nonneg : forall fmt x, nn_ok fmt x = true -> 0 <= x.
Proof. intros fmt x H. unfold nn_ok in H. lia. Qed.

(** * Piecewise parser lemmas: p_X (put_X x ++ r) = Some (x', r) *)

Lemma p_nn_put_nn : forall fmt x r, nn_ok fmt x = true ->
  p_nn fmt (put_nn fmt x ++ r) = Some (x, r).
Proof.
  intros fmt x r H. unfold nn_ok in H. unfold p_nn, put_nn, p_u32, p_u64.
  destruct (fmt <? 5); [apply get_put_u32|apply get_put_u64]; lia.
Qed.

Lemma Zlen_put_nn_pos : forall fmt x, 1 <= Zlen (put_nn fmt x).
Proof.
  intros fmt x. unfold put_nn. destruct (fmt <? 5) eqn:E.
  - rewrite Zlen_put_u32. lia.
  - rewrite Zlen_put_u64. lia.
Qed.

Lemma p_name_put_name : forall fmt nm r, wf_name fmt nm = true ->
  p_name fmt (put_name fmt nm ++ r) = Some ((nm, pad4 (Zlen nm)), r).
Proof.
  intros fmt nm r H. unfold p_name, put_name. rewrite <- !app_assoc.
  rewrite (p_nn_put_nn fmt (Zlen nm) _ H). apply p_padded_app. reflexivity.
Qed.

Lemma Zlen_put_name_pos : forall fmt nm, 1 <= Zlen (put_name fmt nm).
Proof. intros fmt nm. unfold put_name. apply Zlen_app_pos, Zlen_put_nn_pos. Qed.

Lemma p_dim_put_dim : forall fmt d r, wf_dim fmt d = true ->
  p_dim fmt (put_dim fmt d ++ r) = Some (dec_dim_of d, r).
Proof.
  intros fmt [nm sz] r H. unfold wf_dim in H. cbn [d_name d_size] in H.
  apply andb_true_iff in H. destruct H as [Hnm Hsz].
  unfold p_dim, put_dim, dec_dim_of. cbn [d_name d_size]. rewrite <- app_assoc.
  rewrite (p_name_put_name fmt nm _ Hnm). rewrite (p_nn_put_nn fmt sz r Hsz). reflexivity.
Qed.

Lemma Zlen_put_dim_pos : forall fmt d, 1 <= Zlen (put_dim fmt d).
Proof. intros fmt d. unfold put_dim. apply Zlen_app_pos, Zlen_put_name_pos. Qed.

Lemma wf_att_inv : forall fmt nm t n data, wf_att fmt (mkatt nm t n data) = true ->
  wf_name fmt nm = true /\ valid_type fmt t = true /\ nn_ok fmt n = true /\
  Zlen data = n * xlen_type t.
Proof.
  intros fmt nm t n data H. unfold wf_att in H. cbn [a_name a_type a_nelems a_data] in H.
  rewrite !andb_true_iff, Z.eqb_eq in H. tauto.
Qed.

Lemma p_att_put_att : forall fmt a r, wf_att fmt a = true ->
  p_att fmt (put_att fmt a ++ r) = Some (dec_att_of a, r).
Proof.
  intros fmt [nm t n data] r H.
  destruct (wf_att_inv fmt nm t n data H) as (Hnm & Ht & Hn & Hd).
  pose proof (valid_type_range fmt t Ht) as Htr.
  pose proof (valid_type_xlen fmt t Ht) as Hx.
  pose proof (nn_ok_nonneg fmt n Hn) as Hn0.
  unfold p_att, put_att, dec_att_of, p_u32. cbn [a_name a_type a_nelems a_data].
  rewrite <- !app_assoc.
  rewrite (p_name_put_name fmt nm _ Hnm).
  rewrite get_put_u32 by lia.
  rewrite Ht. cbn [negb].
  rewrite (p_nn_put_nn fmt n _ Hn).
  rewrite <- Hd.
  destruct (n >? 0) eqn:En.
  - (* payload present *)
    rewrite <- !app_assoc.
    pose proof (Zlen_nonneg (pad4 (Zlen data) ++ r)) as Hr.
    rewrite Zlen_app.
    destruct ((n <? 0) || (Zlen data + Zlen (pad4 (Zlen data) ++ r) <? n)) eqn:Eb; [nia|].
    rewrite p_padded_app by reflexivity. reflexivity.
  - (* nelems = 0: nothing is written, nothing is read *)
    assert (n = 0) by lia. subst n.
    assert (Hd0 : Zlen data = 0) by lia.
    apply Zlen_zero_nil in Hd0. subst data.
    cbn [app]. rewrite Zlen_nil.
    pose proof (Zlen_nonneg r) as Hr.
    destruct ((0 <? 0) || (Zlen r <? 0)) eqn:Eb; [lia|].
    rewrite p_padded_0. reflexivity.
Qed.

Lemma Zlen_put_att_pos : forall fmt a, 1 <= Zlen (put_att fmt a).
Proof. intros fmt a. unfold put_att. apply Zlen_app_pos, Zlen_put_name_pos. Qed.

Lemma p_vsize_field : forall fmt len r,
  p_nn fmt (vsize_field fmt len ++ r) = Some (dec_vsize fmt len, r).
Proof.
  intros fmt len r. unfold p_nn, vsize_field, dec_vsize, p_u32, p_u64.
  destruct (fmt <? 5) eqn:E.
  - destruct (len >? 4294967292) eqn:El.
    + apply get_put_u32. lia.
    + rewrite get_put_u32_mod. rewrite Z.mod_mod by lia. reflexivity.
  - apply get_put_u64_mod.
Qed.

Lemma p_off_put_off : forall fmt b r, off_ok fmt b = true ->
  (if fmt =? 1 then p_u32 ((if fmt =? 1 then put_u32 b else put_u64 b) ++ r)
   else p_u64 ((if fmt =? 1 then put_u32 b else put_u64 b) ++ r)) = Some (b, r).
Proof.
  intros fmt b r H. unfold off_ok in H. unfold p_u32, p_u64.
  destruct (fmt =? 1) eqn:E.
  - apply get_put_u32. lia.
  - apply get_put_u64. lia.
Qed.

Lemma map_da_att_dec : forall l, map da_att (map dec_att_of l) = l.
Proof.
  intros l. rewrite map_map. cbn [da_att dec_att_of]. apply map_id.
Qed.

Lemma p_list_put_wf : forall A B (p : parser B) (f : A -> list byte) (g : A -> B) (wf : A -> bool)
    fmt tag l r,
  (forall a r', wf a = true -> p (f a ++ r') = Some (g a, r')) ->
  (forall a, 1 <= Zlen (f a)) -> 0 < tag < 4294967296 ->
  nn_ok fmt (Zlen l) = true -> forallb wf l = true ->
  p_list fmt tag p (put_list fmt tag f l ++ r) = Some (map g l, r).
Proof.
  intros A B p f g wf fmt tag l r Hp Hlen Htag Hn Hl.
  apply (p_list_put_list p f g (fun a => wf a = true) Hp (fun a _ => Hlen a)).
  - exact Htag.
  - intros r'. apply p_nn_put_nn. exact Hn.
  - apply forallb_Forall. exact Hl.
Qed.

Lemma p_atts_put_atts : forall fmt l r,
  nn_ok fmt (Zlen l) = true -> forallb (wf_att fmt) l = true ->
  p_list fmt 12 (p_att fmt) (put_list fmt NC_ATTRIBUTE_TAG (put_att fmt) l ++ r)
  = Some (map dec_att_of l, r).
Proof.
  intros fmt l r. change NC_ATTRIBUTE_TAG with 12.
  apply p_list_put_wf; [apply p_att_put_att|apply Zlen_put_att_pos|lia].
Qed.

Lemma wf_var_inv : forall fmt nm ids atts t b nf, wf_var fmt (mkvar nm ids atts t b nf) = true ->
  wf_name fmt nm = true /\ nn_ok fmt (Zlen ids) = true /\ forallb (nn_ok fmt) ids = true /\
  nn_ok fmt (Zlen atts) = true /\ forallb (wf_att fmt) atts = true /\
  valid_type fmt t = true /\ off_ok fmt b = true.
Proof.
  intros fmt nm ids atts t b nf H. unfold wf_var in H.
  cbn [v_name v_dimids v_atts v_type v_begin] in H.
  rewrite !andb_true_iff in H. tauto.
Qed.

Lemma p_var_put_var : forall fmt dims v r, wf_var fmt v = true ->
  p_var fmt (put_var fmt dims v ++ r) = Some (dec_var_of fmt dims v, r).
Proof.
  intros fmt dims [nm ids atts t b nf] r H.
  destruct (wf_var_inv fmt nm ids atts t b nf H) as (Hnm & Hin & Hil & Han & Hal & Ht & Hb).
  pose proof (valid_type_range fmt t Ht) as Htr.
  unfold p_var, put_var, dec_var_of, var_content.
  cbn [v_name v_dimids v_atts v_type v_begin].
  set (len := var_len dims (mkvar nm ids atts t b nf)).
  rewrite <- !app_assoc.
  rewrite (p_name_put_name fmt nm _ Hnm).
  rewrite (p_nn_put_nn fmt (Zlen ids) _ Hin).
  pose proof (fun r' => p_counted_flat_map (p_nn fmt) (put_nn fmt) (fun x => x)
                (fun x => nn_ok fmt x = true) (fun x r'' Hx => p_nn_put_nn fmt x r'' Hx)
                (fun x _ => Zlen_put_nn_pos fmt x) ids r' (forallb_Forall _ _ _ Hil)) as Hids.
  rewrite (proj1 (Hids _)), (proj2 (Hids _)).
  rewrite map_id.
  rewrite (p_atts_put_atts fmt atts _ Han Hal).
  unfold p_u32 at 1. rewrite get_put_u32 by lia.
  rewrite Ht. cbn [negb].
  rewrite p_vsize_field.
  rewrite (p_off_put_off fmt b r Hb).
  rewrite map_da_att_dec. reflexivity.
Qed.

Lemma Zlen_put_var_pos : forall fmt dims v, 1 <= Zlen (put_var fmt dims v).
Proof. intros fmt dims v. unfold put_var. apply Zlen_app_pos, Zlen_put_name_pos. Qed.

(** * The whole header *)

(* [decode] after the magic number, for the three legal formats *)
Lemma decode_magic : forall fmt r, fmt_ok fmt = true ->
  decode (magic fmt ++ r) =
  match p_nn fmt r with
  | Some (numrecs, r1) =>
      match p_list fmt 10 (p_dim fmt) r1 with
      | Some (dims, r2) =>
          match p_list fmt 12 (p_att fmt) r2 with
          | Some (gatts, r3) =>
              match p_list fmt 11 (p_var fmt) r3 with
              | Some (vars, r4) =>
                  Some (mkdec (mkhdr fmt numrecs (map dd_dim dims) (map da_att gatts)
                                     (map dv_var vars))
                              dims gatts vars (Zlen (magic fmt ++ r) - Zlen r4))
              | None => None
              end
          | None => None
          end
      | None => None
      end
  | None => None
  end.
Proof.
  intros fmt r H.
  destruct (fmt_ok_cases fmt H) as [E|[E|E]]; subst fmt; reflexivity.
Qed.

Lemma wf_hdr_inv : forall fmt nr dims gatts vars, wf_hdr (mkhdr fmt nr dims gatts vars) = true ->
  fmt_ok fmt = true /\ nn_ok fmt nr = true /\
  nn_ok fmt (Zlen dims) = true /\ forallb (wf_dim fmt) dims = true /\
  nn_ok fmt (Zlen gatts) = true /\ forallb (wf_att fmt) gatts = true /\
  nn_ok fmt (Zlen vars) = true /\ forallb (wf_var fmt) vars = true.
Proof.
  intros fmt nr dims gatts vars H. unfold wf_hdr in H.
  cbn [h_format h_numrecs h_dims h_gatts h_vars] in H.
  rewrite !andb_true_iff in H. tauto.
Qed.

Lemma p_dims_put_dims : forall fmt l r,
  nn_ok fmt (Zlen l) = true -> forallb (wf_dim fmt) l = true ->
  p_list fmt 10 (p_dim fmt) (put_list fmt NC_DIMENSION_TAG (put_dim fmt) l ++ r)
  = Some (map dec_dim_of l, r).
Proof.
  intros fmt l r. change NC_DIMENSION_TAG with 10.
  apply p_list_put_wf; [apply p_dim_put_dim|apply Zlen_put_dim_pos|lia].
Qed.

Lemma p_vars_put_vars : forall fmt dims l r,
  nn_ok fmt (Zlen l) = true -> forallb (wf_var fmt) l = true ->
  p_list fmt 11 (p_var fmt) (put_list fmt NC_VARIABLE_TAG (put_var fmt dims) l ++ r)
  = Some (map (dec_var_of fmt dims) l, r).
Proof.
  intros fmt dims l r. change NC_VARIABLE_TAG with 11.
  apply p_list_put_wf; [apply p_var_put_var|apply Zlen_put_var_pos|lia].
Qed.

Lemma map_dd_dim_dec : forall l, map dd_dim (map dec_dim_of l) = l.
Proof. intros l. rewrite map_map. cbn [dd_dim dec_dim_of]. apply map_id. Qed.

Lemma map_dv_var_dec : forall fmt dims l,
  map dv_var (map (dec_var_of fmt dims) l) = map var_content l.
Proof. intros fmt dims l. rewrite map_map. cbn [dv_var dec_var_of]. reflexivity. Qed.

(** Main round trip, in its most informative form: the decoder returns exactly
    [decoded_of h] (header modulo v_nofill, every padding run, every raw vsize, and the
    number of bytes consumed), whatever follows the header. *)
Theorem decode_encode_full : forall h rest, wf_hdr h = true ->
  decode (encode_header h ++ rest) = Some (decoded_of h).
Proof.
  intros [fmt nr dims gatts vars] rest H.
  destruct (wf_hdr_inv fmt nr dims gatts vars H)
    as (Hf & Hnr & Hdn & Hdl & Han & Hal & Hvn & Hvl).
  unfold decoded_of, hdr_content, encode_header.
  cbn [h_format h_numrecs h_dims h_gatts h_vars].
  rewrite <- !app_assoc.
  rewrite (decode_magic fmt _ Hf).
  rewrite (p_nn_put_nn fmt nr _ Hnr).
  rewrite (p_dims_put_dims fmt dims _ Hdn Hdl).
  rewrite (p_atts_put_atts fmt gatts _ Han Hal).
  rewrite (p_vars_put_vars fmt dims vars rest Hvn Hvl).
  rewrite map_dd_dim_dec, map_da_att_dec, map_dv_var_dec.
  do 2 f_equal.
  rewrite !Zlen_app. lia.
Qed.

(* the data section's bytes are untouched: the decoder stops exactly at [rest] *)
Theorem decode_encode : forall h rest, wf_hdr h = true ->
  exists d, decode (encode_header h ++ rest) = Some d /\
            dc_hdr d = hdr_content h /\ dc_len d = Zlen (encode_header h).
Proof.
  intros h rest H. exists (decoded_of h). split; [|split].
  - apply decode_encode_full. exact H.
  - reflexivity.
  - reflexivity.
Qed.

Corollary decode_encode_nil : forall h, wf_hdr h = true ->
  decode (encode_header h) = Some (decoded_of h).
Proof.
  intros h H. rewrite <- (app_nil_r (encode_header h)) at 1. apply decode_encode_full. exact H.
Qed.

(** * hdr_len versus the encoded length *)

Lemma Zlen_put_nn : forall fmt x, fmt_ok fmt = true -> Zlen (put_nn fmt x) = sz_nn fmt.
Proof.
  intros fmt x H. destruct (fmt_ok_cases fmt H) as [E|[E|E]]; subst fmt; reflexivity.
Qed.

Lemma Zlen_put_name : forall fmt nm, fmt_ok fmt = true ->
  Zlen (put_name fmt nm) = sz_nn fmt + rndup (Zlen nm) 4.
Proof.
  intros fmt nm H. unfold put_name. rewrite !Zlen_app, (Zlen_put_nn fmt _ H), Zlen_pad4.
  rewrite rndup4_padlen. reflexivity.
Qed.

Lemma Zlen_put_dim : forall fmt d, fmt_ok fmt = true -> Zlen (put_dim fmt d) = len_dim fmt d.
Proof.
  intros fmt d H. unfold put_dim, len_dim.
  rewrite Zlen_app, (Zlen_put_name fmt _ H), (Zlen_put_nn fmt _ H). reflexivity.
Qed.

Lemma Zlen_put_att : forall fmt a, fmt_ok fmt = true -> wf_att fmt a = true ->
  Zlen (put_att fmt a) = len_att fmt a.
Proof.
  intros fmt [nm t n data] Hf H.
  destruct (wf_att_inv fmt nm t n data H) as (Hnm & Ht & Hn & Hd).
  pose proof (nn_ok_nonneg fmt n Hn) as Hn0.
  unfold put_att, len_att. cbn [a_name a_type a_nelems a_data].
  rewrite !Zlen_app, (Zlen_put_name fmt _ Hf), (Zlen_put_nn fmt _ Hf), Zlen_put_u32.
  rewrite <- Hd. rewrite (rndup4_padlen (Zlen data)).
  destruct (n >? 0) eqn:En.
  - rewrite Zlen_app, Zlen_pad4. lia.
  - assert (n = 0) by lia. subst n.
    assert (Hd0 : Zlen data = 0) by lia. rewrite Hd0, padlen_0, Zlen_nil. lia.
Qed.

Lemma Zlen_put_list : forall A fmt tag (f : A -> list byte) (len : A -> Z) (P : A -> Prop) l,
  fmt_ok fmt = true -> (forall a, P a -> Zlen (f a) = len a) -> Forall P l ->
  Zlen (put_list fmt tag f l) = 4 + sz_nn fmt + zsum (map len l).
Proof.
  intros A fmt tag f len P l Hf Hlen Hl. unfold put_list. destruct l as [|a l].
  - rewrite Zlen_app, Zlen_put_u32, (Zlen_put_nn fmt _ Hf). cbn [map zsum]. lia.
  - rewrite !Zlen_app, Zlen_put_u32, (Zlen_put_nn fmt _ Hf).
    rewrite (Zlen_flat_map_zsum A f len P (a :: l) Hlen Hl). lia.
Qed.

Lemma Zlen_put_atts : forall fmt l, fmt_ok fmt = true -> forallb (wf_att fmt) l = true ->
  Zlen (put_list fmt NC_ATTRIBUTE_TAG (put_att fmt) l) = len_attarray fmt l.
Proof.
  intros fmt l Hf Hl. unfold len_attarray.
  apply (Zlen_put_list att fmt NC_ATTRIBUTE_TAG (put_att fmt) (len_att fmt)
           (fun a => wf_att fmt a = true) l Hf).
  - intros a Ha. apply Zlen_put_att; assumption.
  - apply forallb_Forall. exact Hl.
Qed.

Lemma Zlen_vsize_field : forall fmt len, fmt_ok fmt = true ->
  Zlen (vsize_field fmt len) = sz_nn fmt.
Proof.
  intros fmt len H. unfold vsize_field.
  destruct (fmt_ok_cases fmt H) as [E|[E|E]]; subst fmt; cbn [Z.ltb Z.compare Pos.compare Pos.compare_cont].
  - destruct (len >? 4294967292); reflexivity.
  - destruct (len >? 4294967292); reflexivity.
  - reflexivity.
Qed.

Lemma Zlen_put_off : forall fmt b,
  Zlen (if fmt =? 1 then put_u32 b else put_u64 b) = sz_off fmt.
Proof. intros fmt b. unfold sz_off. destruct (fmt =? 1); reflexivity. Qed.

Lemma Zlen_put_var : forall fmt dims v, fmt_ok fmt = true -> wf_var fmt v = true ->
  Zlen (put_var fmt dims v) = len_var fmt v.
Proof.
  intros fmt dims [nm ids atts t b nf] Hf H.
  destruct (wf_var_inv fmt nm ids atts t b nf H) as (Hnm & Hin & Hil & Han & Hal & Ht & Hb).
  unfold put_var, len_var. cbn [v_name v_dimids v_atts v_type v_begin].
  rewrite !Zlen_app, (Zlen_put_name fmt _ Hf), (Zlen_put_nn fmt _ Hf), Zlen_put_u32.
  rewrite (Zlen_put_atts fmt atts Hf Hal), (Zlen_vsize_field fmt _ Hf), Zlen_put_off.
  rewrite (Zlen_flat_map_zsum Z (put_nn fmt) (fun _ => sz_nn fmt) (fun _ => True) ids).
  - rewrite zsum_map_const. lia.
  - intros x _. apply Zlen_put_nn. exact Hf.
  - apply Forall_forall. intros x _. exact I.
Qed.

Theorem hdr_len_encode : forall h, wf_hdr h = true -> hdr_len h = Zlen (encode_header h).
Proof.
  intros [fmt nr dims gatts vars] H.
  destruct (wf_hdr_inv fmt nr dims gatts vars H)
    as (Hf & Hnr & Hdn & Hdl & Han & Hal & Hvn & Hvl).
  unfold hdr_len, encode_header. cbn [h_format h_numrecs h_dims h_gatts h_vars].
  rewrite !Zlen_app, (Zlen_put_nn fmt _ Hf).
  rewrite (Zlen_put_list dim fmt NC_DIMENSION_TAG (put_dim fmt) (len_dim fmt)
             (fun _ => True) dims Hf).
  - rewrite (Zlen_put_atts fmt gatts Hf Hal).
    rewrite (Zlen_put_list var fmt NC_VARIABLE_TAG (put_var fmt dims) (len_var fmt)
               (fun v => wf_var fmt v = true) vars Hf).
    + change (Zlen (magic fmt)) with 4. lia.
    + intros v Hv. apply Zlen_put_var; assumption.
    + apply forallb_Forall. exact Hvl.
  - intros d _. apply Zlen_put_dim. exact Hf.
  - apply Forall_forall. intros d _. exact I.
Qed.

Lemma mod4_add : forall a b, a mod 4 = 0 -> b mod 4 = 0 -> (a + b) mod 4 = 0.
Proof. intros a b Ha Hb. lia. Qed.

Lemma mod4_mul : forall a b, a mod 4 = 0 -> (a * b) mod 4 = 0.
Proof. intros a b Ha. rewrite <- Z.mul_mod_idemp_l, Ha by lia. reflexivity. Qed.

Lemma sz_nn_mod4 : forall fmt, sz_nn fmt mod 4 = 0.
Proof. intros fmt. unfold sz_nn. destruct (fmt =? 5); reflexivity. Qed.

Lemma sz_off_mod4 : forall fmt, sz_off fmt mod 4 = 0.
Proof. intros fmt. unfold sz_off. destruct (fmt =? 1); reflexivity. Qed.

(* The length formulas are left-nested sums, so [mod4_add] is applied once per summand, each
   application one level deeper: [auto]'s default depth 5 is too small for len_att (8 levels),
   len_var and hdr_len (12). *)
Create HintDb mod4.
#[local] Hint Resolve mod4_add mod4_mul sz_nn_mod4 sz_off_mod4 rndup4_mod4 zsum_map_mod4 : mod4.

Lemma len_att_mod4 : forall fmt a, len_att fmt a mod 4 = 0.
Proof. intros fmt a. unfold len_att. auto 8 with mod4. Qed.
#[local] Hint Resolve len_att_mod4 : mod4.

Lemma len_attarray_mod4 : forall fmt l, len_attarray fmt l mod 4 = 0.
Proof. intros fmt l. unfold len_attarray. auto with mod4. Qed.
#[local] Hint Resolve len_attarray_mod4 : mod4.

Lemma len_dim_mod4 : forall fmt d, len_dim fmt d mod 4 = 0.
Proof. intros fmt d. unfold len_dim. auto with mod4. Qed.

Lemma len_var_mod4 : forall fmt v, len_var fmt v mod 4 = 0.
Proof. intros fmt v. unfold len_var. auto 12 with mod4. Qed.

(* hdr_len is a multiple of 4 for EVERY header, well-formed or not: every summand is one *)
Theorem hdr_len_mod4_all : forall h, hdr_len h mod 4 = 0.
Proof. intros h. unfold hdr_len. auto 12 using len_dim_mod4, len_var_mod4 with mod4. Qed.

Theorem hdr_len_mod4 : forall h, wf_hdr h = true -> hdr_len h mod 4 = 0.
Proof. intros h _. apply hdr_len_mod4_all. Qed.

Corollary encode_header_len_mod4 : forall h, wf_hdr h = true ->
  Zlen (encode_header h) mod 4 = 0.
Proof. intros h H. rewrite <- (hdr_len_encode h H). apply hdr_len_mod4_all. Qed.

(** * Strict validity of what the encoder writes *)

Lemma wf_dims_nonneg : forall fmt dims, forallb (wf_dim fmt) dims = true ->
  Forall (fun d => 0 <= d_size d) dims.
Proof.
  intros fmt dims H. apply forallb_Forall in H.
  revert H. apply Forall_impl.
  intros d Hd. unfold wf_dim in Hd. apply andb_true_iff in Hd. destruct Hd as [_ Hs].
  exact (nn_ok_nonneg fmt _ Hs).
Qed.

Lemma dim_size_nonneg : forall dims id, Forall (fun d => 0 <= d_size d) dims ->
  0 <= dim_size dims id.
Proof.
  intros dims id H. unfold dim_size.
  apply (znth_Forall (fun d => 0 <= d_size d)); [cbn [d_size]; lia|exact H].
Qed.

Lemma var_shape_nonneg : forall dims v, Forall (fun d => 0 <= d_size d) dims ->
  Forall (fun x => 0 <= x) (var_shape dims v).
Proof.
  intros dims v H. unfold var_shape. apply Forall_forall. intros x Hx.
  apply in_map_iff in Hx. destruct Hx as [id [Hid _]]. subst x. apply dim_size_nonneg. exact H.
Qed.

Lemma var_nelems_per_rec_nonneg : forall shape, Forall (fun x => 0 <= x) shape ->
  0 <= var_nelems_per_rec shape.
Proof.
  intros shape H. unfold var_nelems_per_rec. destruct shape as [|s0 r]; [lia|].
  destruct (s0 =? 0) eqn:E.
  - apply zprod_nonneg. inversion H; assumption.
  - apply zprod_nonneg. exact H.
Qed.

Lemma var_len_of_nonneg : forall xsz shape, 0 <= xsz -> Forall (fun x => 0 <= x) shape ->
  0 <= var_len_of xsz shape.
Proof.
  intros xsz shape Hx Hs. unfold var_len_of.
  pose proof (var_nelems_per_rec_nonneg shape Hs) as Hn.
  assert (Hl : 0 <= var_nelems_per_rec shape * xsz) by nia.
  set (l := var_nelems_per_rec shape * xsz) in *. cbv zeta.
  destruct (l mod 4 >? 0) eqn:E; lia.
Qed.

(* var_len >= 0 is a consequence of wf_hdr (dimension sizes are non-negative) *)
Lemma var_len_nonneg : forall fmt dims v,
  forallb (wf_dim fmt) dims = true -> valid_type fmt (v_type v) = true ->
  0 <= var_len dims v.
Proof.
  intros fmt dims v Hd Ht. unfold var_len.
  pose proof (valid_type_xlen fmt _ Ht) as Hx.
  apply var_len_of_nonneg; [lia|].
  apply var_shape_nonneg. exact (wf_dims_nonneg fmt dims Hd).
Qed.

(* the stored vsize is the format's expected vsize *)
Lemma dec_vsize_expected : forall fmt len, 0 <= len ->
  (fmt <? 5) || (len <? 18446744073709551616) = true ->
  dec_vsize fmt len = expected_vsize fmt len.
Proof.
  intros fmt len H0 H. unfold dec_vsize, expected_vsize.
  destruct (fmt <? 5) eqn:E.
  - destruct (len >? 4294967292) eqn:El; [reflexivity|]. apply Z.mod_small. lia.
  - apply Z.mod_small. cbn [orb] in H. lia.
Qed.

Theorem strict_valid_decoded_of : forall h,
  wf_hdr h = true -> dimids_ok h = true -> unlim_ok h = true -> vsize_ok h = true ->
  strict_valid (decoded_of h) = true.
Proof.
  intros [fmt nr dims gatts vars] H Hdim Hun Hvs.
  destruct (wf_hdr_inv fmt nr dims gatts vars H)
    as (Hf & Hnr & Hdn & Hdl & Han & Hal & Hvn & Hvl).
  unfold dimids_ok in Hdim. unfold unlim_ok in Hun. unfold vsize_ok in Hvs.
  cbn [h_format h_dims h_vars] in Hdim, Hun, Hvs.
  unfold strict_valid, decoded_of, hdr_content.
  cbn [dc_hdr dc_dims dc_gatts dc_vars h_format h_numrecs h_dims h_gatts h_vars].
  rewrite Hun, andb_true_r.
  assert (Hatts : forall l, forallb (fun y => all_zero (da_pad y)) (map dec_att_of l) = true).
  { intros l. apply forallb_map_all. intros a. cbn [da_pad dec_att_of].
    rewrite all_zero_app, !all_zero_pad4. reflexivity. }
  rewrite (Hatts gatts), andb_true_r.
  apply andb_true_iff. split.
  - apply forallb_map_all. intros d. cbn [dd_pad dec_dim_of]. apply all_zero_pad4.
  - apply forallb_map_Forall.
    apply forallb_Forall in Hdim. apply forallb_Forall in Hvs. apply forallb_Forall in Hvl.
    rewrite Forall_forall in Hdim, Hvs, Hvl. apply Forall_forall. intros v Hv.
    specialize (Hdim v Hv). specialize (Hvs v Hv). specialize (Hvl v Hv). cbv beta in *.
    cbn [dv_pad dv_atts dv_var dv_vsize dec_var_of].
    rewrite all_zero_pad4, (Hatts (v_atts v)).
    change (v_dimids (var_content v)) with (v_dimids v). rewrite Hdim.
    change (var_len dims (var_content v)) with (var_len dims v).
    assert (Hty : valid_type fmt (v_type v) = true).
    { destruct v as [nm ids atts t b nf].
      destruct (wf_var_inv fmt nm ids atts t b nf Hvl) as (_ & _ & _ & _ & _ & Ht & _).
      exact Ht. }
    rewrite (dec_vsize_expected fmt (var_len dims v) (var_len_nonneg fmt dims v Hdl Hty) Hvs).
    rewrite Z.eqb_refl. reflexivity.
Qed.

Theorem encode_strict_valid : forall h rest d,
  wf_hdr h = true -> dimids_ok h = true -> unlim_ok h = true -> vsize_ok h = true ->
  decode (encode_header h ++ rest) = Some d -> strict_valid d = true.
Proof.
  intros h rest d H Hdim Hun Hvs Hdec.
  rewrite (decode_encode_full h rest H) in Hdec. injection Hdec as Hd. subst d.
  apply strict_valid_decoded_of; assumption.
Qed.

(** * Every emitted byte is a byte *)

Local Notation bytes l := (Forall (fun b => is_byte b = true) l).

Lemma bytes_app : forall a b, bytes a -> bytes b -> bytes (a ++ b).
Proof. intros a b Ha Hb. apply Forall_app. split; assumption. Qed.

Lemma forallb_bytes : forall l, forallb is_byte l = true -> bytes l.
Proof. intros l. apply forallb_Forall. Qed.

Lemma pad4_bytes : forall n, bytes (pad4 n).
Proof. intros n. apply zeros_bytes. Qed.

(* the encoders concatenate pieces: split with [bytes_app], each piece is in the database *)
Create HintDb bytes.
#[local] Hint Resolve put_u32_bytes put_u64_bytes pad4_bytes forallb_bytes Forall_nil : bytes.

Lemma put_nn_bytes : forall fmt x, bytes (put_nn fmt x).
Proof. intros fmt x. unfold put_nn. destruct (fmt <? 5); auto with bytes. Qed.
#[local] Hint Resolve put_nn_bytes : bytes.

Lemma put_name_bytes : forall fmt nm, forallb is_byte nm = true -> bytes (put_name fmt nm).
Proof. intros fmt nm H. unfold put_name. repeat apply bytes_app; auto with bytes. Qed.
#[local] Hint Resolve put_name_bytes : bytes.

Lemma put_list_bytes : forall A fmt tag (f : A -> list byte) l,
  (forall a, In a l -> bytes (f a)) -> bytes (put_list fmt tag f l).
Proof.
  intros A fmt tag f l H.
  assert (Hf : bytes (flat_map f l)) by (apply Forall_flat_map, Forall_forall; exact H).
  unfold put_list. destruct l; auto using bytes_app with bytes.
Qed.

Lemma put_att_bytes : forall fmt a, att_bytes_ok a = true -> bytes (put_att fmt a).
Proof.
  intros fmt a H. unfold att_bytes_ok in H. apply andb_true_iff in H. destruct H as [Hn Hd].
  unfold put_att. destruct (a_nelems a >? 0); repeat apply bytes_app; auto with bytes.
Qed.

Lemma put_atts_bytes : forall fmt l, forallb att_bytes_ok l = true ->
  bytes (put_list fmt NC_ATTRIBUTE_TAG (put_att fmt) l).
Proof.
  intros fmt l H. apply put_list_bytes. intros a Ha. apply put_att_bytes.
  rewrite forallb_forall in H. exact (H a Ha).
Qed.
#[local] Hint Resolve put_atts_bytes : bytes.

Lemma vsize_field_bytes : forall fmt len, bytes (vsize_field fmt len).
Proof.
  intros fmt len. unfold vsize_field.
  destruct (fmt <? 5); [destruct (len >? 4294967292)|]; auto with bytes.
Qed.

Lemma put_var_bytes : forall fmt dims v,
  forallb is_byte (v_name v) && forallb att_bytes_ok (v_atts v) = true ->
  bytes (put_var fmt dims v).
Proof.
  intros fmt dims v H. apply andb_true_iff in H. destruct H as [Hn Ha].
  unfold put_var. destruct (fmt =? 1); repeat apply bytes_app; auto using vsize_field_bytes with bytes.
  all: apply Forall_flat_map, Forall_forall; auto with bytes.
Qed.

(* No range condition on any NUMBER is needed here: the big-endian writers reduce
   modulo 256 bytewise.  Only the verbatim-copied names and attribute data matter. *)
Theorem encode_header_bytes : forall h, bytes_ok h = true -> bytes (encode_header h).
Proof.
  intros h H. unfold bytes_ok in H. rewrite !andb_true_iff, !forallb_forall in H.
  destruct H as [[Hd Ha] Hv].
  unfold encode_header. repeat apply bytes_app; auto with bytes.
  - unfold magic, is_byte. repeat (apply Forall_cons; [try reflexivity|]); [|apply Forall_nil].
    destruct (h_format h =? 5); [reflexivity|]. destruct (h_format h =? 2); reflexivity.
  - apply put_list_bytes. intros d Hin. unfold put_dim. auto using bytes_app with bytes.
  - apply put_atts_bytes, forallb_forall. exact Ha.
  - apply put_list_bytes. intros v Hin. apply put_var_bytes, Hv, Hin.
Qed.

(** * Examples: the hypotheses are satisfiable on a non-trivial header *)

(* dims: "time" (unlimited) and "x"=5; global attribute title="hello" (5 chars, 3 bytes of
   padding); variables  float t(time)  and  double temp(time,x)  with units="K". *)
Definition ex_hdr (fmt : Z) : hdr :=
  mkhdr fmt 3
    [ mkdim [116;105;109;101] 0; mkdim [120] 5 ]
    [ mkatt [116;105;116;108;101] 2 5 [104;101;108;108;111] ]
    [ mkvar [116] [0] [] 5 200 false;
      mkvar [116;101;109;112] [0;1] [ mkatt [117;110;105;116;115] 2 1 [75] ] 6 204 true ].

(* the same header as the decoder must return it: every v_nofill is true *)
Definition ex_hdr_read (fmt : Z) : hdr :=
  mkhdr fmt 3
    [ mkdim [116;105;109;101] 0; mkdim [120] 5 ]
    [ mkatt [116;105;116;108;101] 2 5 [104;101;108;108;111] ]
    [ mkvar [116] [0] [] 5 200 true;
      mkvar [116;101;109;112] [0;1] [ mkatt [117;110;105;116;115] 2 1 [75] ] 6 204 true ].

Example ex_wf_1 : wf_hdr (ex_hdr 1) = true. Proof. vm_compute. reflexivity. Qed.
Example ex_wf_2 : wf_hdr (ex_hdr 2) = true. Proof. vm_compute. reflexivity. Qed.
Example ex_wf_5 : wf_hdr (ex_hdr 5) = true. Proof. vm_compute. reflexivity. Qed.

Example ex_side_1 :
  dimids_ok (ex_hdr 1) && unlim_ok (ex_hdr 1) && vsize_ok (ex_hdr 1) && bytes_ok (ex_hdr 1) = true.
Proof. vm_compute. reflexivity. Qed.
Example ex_side_5 :
  dimids_ok (ex_hdr 5) && unlim_ok (ex_hdr 5) && vsize_ok (ex_hdr 5) && bytes_ok (ex_hdr 5) = true.
Proof. vm_compute. reflexivity. Qed.

Example ex_content : hdr_content (ex_hdr 1) = ex_hdr_read 1 /\ hdr_content (ex_hdr 5) = ex_hdr_read 5.
Proof. split; reflexivity. Qed.

(* the bytes of the CDF-1 header *)
Example ex_bytes_1 : encode_header (ex_hdr 1) =
  [67; 68; 70; 1;  0; 0; 0; 3;
   0; 0; 0; 10;  0; 0; 0; 2;
     0; 0; 0; 4;  116; 105; 109; 101;  0; 0; 0; 0;
     0; 0; 0; 1;  120; 0; 0; 0;  0; 0; 0; 5;
   0; 0; 0; 12;  0; 0; 0; 1;
     0; 0; 0; 5;  116; 105; 116; 108; 101; 0; 0; 0;  0; 0; 0; 2;  0; 0; 0; 5;
     104; 101; 108; 108; 111; 0; 0; 0;
   0; 0; 0; 11;  0; 0; 0; 2;
     0; 0; 0; 1;  116; 0; 0; 0;  0; 0; 0; 1;  0; 0; 0; 0;  0; 0; 0; 0;  0; 0; 0; 0;
     0; 0; 0; 5;  0; 0; 0; 4;  0; 0; 0; 200;
     0; 0; 0; 4;  116; 101; 109; 112;  0; 0; 0; 2;  0; 0; 0; 0;  0; 0; 0; 1;
     0; 0; 0; 12;  0; 0; 0; 1;
       0; 0; 0; 5;  117; 110; 105; 116; 115; 0; 0; 0;  0; 0; 0; 2;  0; 0; 0; 1;  75; 0; 0; 0;
     0; 0; 0; 6;  0; 0; 0; 40;  0; 0; 0; 204].
Proof. vm_compute. reflexivity. Qed.

(* decode by computation, with three bytes of "data section" behind the header *)
Example ex_decode_1 :
  option_map (fun d => (dc_hdr d, dc_len d, strict_valid d))
             (decode (encode_header (ex_hdr 1) ++ [1;2;3])) = Some (ex_hdr_read 1, 184, true).
Proof. vm_compute. reflexivity. Qed.

Example ex_decode_2 :
  option_map (fun d => (dc_hdr d, dc_len d, strict_valid d))
             (decode (encode_header (ex_hdr 2) ++ [1;2;3])) = Some (ex_hdr_read 2, 192, true).
Proof. vm_compute. reflexivity. Qed.

Example ex_decode_5 :
  option_map (fun d => (dc_hdr d, dc_len d, strict_valid d))
             (decode (encode_header (ex_hdr 5) ++ [1;2;3])) = Some (ex_hdr_read 5, 284, true).
Proof. vm_compute. reflexivity. Qed.

(* ... and the complete decoder output (paddings, raw vsize fields) is [decoded_of] *)
Example ex_decode_full_1 :
  decode (encode_header (ex_hdr 1) ++ [1;2;3]) = Some (decoded_of (ex_hdr 1)).
Proof. vm_compute. reflexivity. Qed.
Example ex_decode_full_5 :
  decode (encode_header (ex_hdr 5) ++ [1;2;3]) = Some (decoded_of (ex_hdr 5)).
Proof. vm_compute. reflexivity. Qed.

Example ex_hdr_len :
  (hdr_len (ex_hdr 1), hdr_len (ex_hdr 2), hdr_len (ex_hdr 5)) = (184, 192, 284).
Proof. vm_compute. reflexivity. Qed.

(** * Sharpness: each hypothesis is needed (counterexamples, by computation) *)

(* vsize_ok: CDF-5, double v(x,y) with x = y = 2^32: var_len = 2^67 wraps in the 64-bit
   vsize field; everything else is fine, yet the decoded header is not strictly valid. *)
Definition sharp_big5 : hdr :=
  mkhdr 5 0 [mkdim [120] 4294967296; mkdim [121] 4294967296] []
        [mkvar [118] [0;1] [] 6 1000 false].
Example sharp_vsize_ok :
  wf_hdr sharp_big5 = true /\ dimids_ok sharp_big5 = true /\ unlim_ok sharp_big5 = true /\
  vsize_ok sharp_big5 = false /\
  option_map strict_valid (decode (encode_header sharp_big5)) = Some false.
Proof. vm_compute. repeat split; reflexivity. Qed.

(* nn_ok on numrecs: 2^32 records in CDF-1 read back as 0 *)
Example sharp_numrecs :
  let h := mkhdr 1 4294967296 [] [] [] in
  wf_hdr h = false /\
  option_map dc_hdr (decode (encode_header h)) = Some (mkhdr 1 0 [] [] []).
Proof. vm_compute. split; reflexivity. Qed.

(* valid_type: an NC_UBYTE attribute in a CDF-1 header is written but cannot be read *)
Example sharp_att_type :
  let h := mkhdr 1 0 [] [mkatt [97] 7 1 [1]] [] in
  wf_hdr h = false /\ decode (encode_header h) = None.
Proof. vm_compute. split; reflexivity. Qed.

(* fmt_ok: any other format number is written with version byte 1 *)
Example sharp_fmt :
  let h := mkhdr 3 0 [] [] [] in
  wf_hdr h = false /\
  option_map dc_hdr (decode (encode_header h)) = Some (mkhdr 1 0 [] [] []).
Proof. vm_compute. split; reflexivity. Qed.

(* payload length: nelems = 0 with a non-empty payload loses the payload *)
Example sharp_att_data :
  let h := mkhdr 1 0 [] [mkatt [97] 2 0 [1]] [] in
  wf_hdr h = false /\
  option_map dc_hdr (decode (encode_header h)) = Some (mkhdr 1 0 [] [mkatt [97] 2 0 []] []).
Proof. vm_compute. split; reflexivity. Qed.

(* off_ok: a begin of 2^32 in CDF-1 reads back as 0 *)
Example sharp_begin :
  let h := mkhdr 1 0 [] [] [mkvar [118] [] [] 4 4294967296 true] in
  wf_hdr h = false /\
  option_map dc_hdr (decode (encode_header h)) =
  Some (mkhdr 1 0 [] [] [mkvar [118] [] [] 4 0 true]).
Proof. vm_compute. split; reflexivity. Qed.

(** * Assumption audit *)
Print Assumptions decode_encode_full.
Print Assumptions decode_encode.
Print Assumptions encode_strict_valid.
Print Assumptions hdr_len_encode.
Print Assumptions hdr_len_mod4.
Print Assumptions hdr_len_mod4_all.
Print Assumptions encode_header_bytes.
