(* Proofs_Layout.v — the offset assignment of ncmpi_enddef (Header.begins = NC_begins of
   ncmpio_enddef.c, Header.resolve_align = the alignment resolution of ncmpio__enddef):

     resolve_align_ok        the three resolved alignments are >= 4 and multiples of 4
     begins_eq               begins = an explicit, accumulator-free closed form
     begins_layout_ok        NEW file: the layout is well formed (HeaderSpec.layout_ok), honours
                             h_minfree / v_minfree / h_align / r_align, recsize rule
     begins_lay_inv_redef    REDEFINITION: the invariant lay_inv is preserved
     begins_monotone         no variable, begin_var, begin_rec, recsize ever decreases
     begins_layout_ok_redef  layout_ok after a redefinition
     begins_redef_facts      the index-level facts needed by the data mover (Proofs_Redef.v)
     begins_none_iff / begins_none_iff_new / enddef_size_verdict / enddef_fails_iff
                             C18: when does enddef fail with NC_EVARSIZE
     vsize_saturation        the vsize field read back is expected_vsize
     hdr_extends_append      appending dimensions / variables extends the header
     reachable_lay_inv       the invariant holds after EVERY history
                             create; enddef; (redef; extend; enddef | close; open)*
     layout_of_hdr_agrees    the layout re-derived from the header at open agrees
     begin_var_minfree_refuted, redef_needs_contig_cex   two plausible statements that are false

   All statements are about the model functions of Header.v, for every header (any number of
   variables), every alignment request and every redefinition history. *)
From Pnc Require Import HeaderSpec Proofs_Lists Proofs_Base Proofs_Header.
From Pnc Require Proofs_Vlen.
Local Open Scope Z_scope.

Local Arguments Z.mul : simpl never.
Local Arguments Z.add : simpl never.
Local Arguments Z.sub : simpl never.
Local Arguments Z.div : simpl never.
Local Arguments Z.modulo : simpl never.
Local Arguments Z.max : simpl never.
Local Arguments Z.of_nat : simpl never.
Local Arguments Z.to_nat : simpl never.

(** * 0. Small facts                                                       *)

Lemma zmax_if : forall a b, (if a <? b then b else a) = Z.max a b.
Proof. intros a b. destruct (Z.ltb_spec a b); lia. Qed.

Lemma rndup_id : forall x a, 0 < a -> x mod a = 0 -> rndup x a = x.
Proof.
  intros x a Ha H. destruct (rndup_pos x a Ha) as [Hb Hm].
  apply Z.mod_divide in H; [|lia]. apply Z.mod_divide in Hm; [|lia].
  destruct H as [k Hk]. destruct Hm as [k' Hk'].
  set (r := rndup x a) in *. clearbody r. subst x r.
  assert (k' = k) by nia. subst k'. reflexivity.
Qed.

Lemma last_opt_nil : forall A, last_opt (@nil A) = None.
Proof. reflexivity. Qed.

(** * 1. resolve_align                                                     *)

Lemma fin_align_ok : forall x, 0 <= x ->
  4 <= (if x =? 0 then 4 else rndup x 4) /\ (if x =? 0 then 4 else rndup x 4) mod 4 = 0.
Proof.
  intros x Hx. destruct (Z.eqb_spec x 0) as [E|E]; [split; [lia|reflexivity]|].
  pose proof (rndup4_bounds x). lia.
Qed.

Lemma if_nonneg : forall (b : bool) x y, 0 <= x -> 0 <= y -> 0 <= (if b then x else y).
Proof. intros [|] x y Hx Hy; assumption. Qed.

(** every resolved alignment is at least 4 and a multiple of 4, whatever hints and arguments
    (non-negative: negative arguments are rejected with NC_EINVAL before) are given *)
Theorem resolve_align_ok : forall cfg ea nfix is_new ha va ra,
  0 <= env_h_align cfg -> 0 <= env_v_align cfg -> 0 <= env_r_align cfg ->
  0 <= e_v_align ea -> 0 <= e_r_align ea ->
  resolve_align cfg ea nfix is_new = (ha, va, ra) ->
  (4 <= ha /\ ha mod 4 = 0) /\ (4 <= va /\ va mod 4 = 0) /\ (4 <= ra /\ ra mod 4 = 0).
Proof.
  intros cfg ea nfix is_new ha va ra Hh Hv Hr Hev Her H.
  unfold resolve_align in H. cbv zeta in H.
  injection H as H1 H2 H3. subst ha va ra.
  assert (0 <= FILE_ALIGNMENT_DEFAULT) by (unfold FILE_ALIGNMENT_DEFAULT; lia).
  (* each alignment is picked, by nested tests, among the non-negative inputs *)
  split; [|split]; apply fin_align_ok; repeat apply if_nonneg; assumption.
Qed.

Example resolve_align_ex :
  resolve_align (mkalign 0 0 0) (mkeargs 0 0 0 0) 2 true = (512, 4, 4) /\
  resolve_align (mkalign 0 0 0) (mkeargs 0 0 0 0) 2 false = (4, 4, 4) /\
  resolve_align (mkalign 0 0 0) (mkeargs 0 513 0 62) 2 true = (516, 516, 64) /\
  resolve_align (mkalign 0 0 0) (mkeargs 0 0 0 62) 0 true = (64, 4, 64) /\
  resolve_align (mkalign 1000 0 30) (mkeargs 0 513 0 62) 0 true = (1000, 516, 32).
Proof. vm_compute. repeat split. Qed.

(** * 2. Accumulator-free closed forms of the two passes of NC_begins      *)

Notation vlist := (list (bool * Z)).            (* (is record variable, len) *)

(* begin of the next fixed variable: round the running end up to 4, never below the old begin *)
Definition fix_b (e : Z) (oldb : list Z) : Z :=
  match oldb with ob :: _ => Z.max (rndup e 4) ob | [] => rndup e 4 end.

(* begin of the next record variable: the running end, never below the old begin *)
Definition rec_b (e : Z) (oldb : list Z) : Z :=
  match oldb with ob :: _ => Z.max e ob | [] => e end.

Fixpoint fbegins (vs : vlist) (oldb : list Z) (e : Z) : list (option Z) :=
  match vs with
  | [] => []
  | (true, _) :: r => None :: fbegins r oldb e
  | (false, len) :: r => Some (fix_b e oldb) :: fbegins r (tl oldb) (fix_b e oldb + len)
  end.

Fixpoint fend (vs : vlist) (oldb : list Z) (e : Z) : Z :=
  match vs with
  | [] => e
  | (true, _) :: r => fend r oldb e
  | (false, len) :: r => fend r (tl oldb) (fix_b e oldb + len)
  end.

(* the values of end_var that NC_begins compares with NC_MAX_INT, fixed pass *)
Fixpoint fstarts (vs : vlist) (oldb : list Z) (e : Z) : list Z :=
  match vs with
  | [] => []
  | (true, _) :: r => fstarts r oldb e
  | (false, len) :: r => e :: fstarts r (tl oldb) (fix_b e oldb + len)
  end.

Fixpoint rbegins (vs : vlist) (oldb : list Z) (e : Z) : list (option Z) :=
  match vs with
  | [] => []
  | (false, _) :: r => None :: rbegins r oldb e
  | (true, len) :: r => Some (rec_b e oldb) :: rbegins r (tl oldb) (e + len)
  end.

Fixpoint rsum (vs : vlist) : Z :=
  match vs with
  | [] => 0
  | (false, _) :: r => rsum r
  | (true, len) :: r => len + rsum r
  end.

Fixpoint rlast (vs : vlist) (d : option Z) : option Z :=
  match vs with
  | [] => d
  | (false, _) :: r => rlast r d
  | (true, len) :: r => rlast r (Some len)
  end.

(* the values of end_var compared with NC_MAX_INT, record pass *)
Fixpoint rstarts (vs : vlist) (e : Z) : list Z :=
  match vs with
  | [] => []
  | (false, _) :: r => rstarts r e
  | (true, len) :: r => e :: rstarts r (e + len)
  end.

Definition over_int (l : list Z) : bool := existsb (fun s => s >? NC_MAX_INT) l.

Lemma begins_fixed_eq : forall fmt vs oldb e acc,
  begins_fixed fmt vs oldb e acc =
  if (fmt =? 1) && over_int (fstarts vs oldb e) then None
  else Some (fend vs oldb e, rev acc ++ fbegins vs oldb e).
Proof.
  intros fmt vs. induction vs as [|[[|] len] r IH]; intros oldb e acc;
    cbn [begins_fixed fstarts fend fbegins].
  - unfold over_int. cbn [existsb]. rewrite andb_false_r, app_nil_r. reflexivity.
  - rewrite IH. cbn [rev]. rewrite <- app_assoc. reflexivity.
  - unfold over_int. cbn [existsb]. rewrite andb_orb_distrib_r.
    destruct ((fmt =? 1) && (e >? NC_MAX_INT)); [reflexivity|]. cbn [orb].
    destruct oldb as [|ob ro]; cbn [fix_b tl]; rewrite ?zmax_if, IH; cbn [rev];
      rewrite <- app_assoc; reflexivity.
Qed.

Lemma begins_rec_eq : forall fmt vs oldb e rs ll acc,
  begins_rec fmt vs oldb e rs ll acc =
  if (fmt =? 1) && over_int (rstarts vs e) then None
  else Some (e + rsum vs, rs + rsum vs, rlast vs ll, rev acc ++ rbegins vs oldb e).
Proof.
  intros fmt vs. induction vs as [|[[|] len] r IH]; intros oldb e rs ll acc;
    cbn [begins_rec rstarts rsum rlast rbegins].
  - unfold over_int. cbn [existsb]. rewrite andb_false_r, app_nil_r, !Z.add_0_r. reflexivity.
  - unfold over_int. cbn [existsb]. rewrite andb_orb_distrib_r.
    destruct ((fmt =? 1) && (e >? NC_MAX_INT)); [reflexivity|]. cbn [orb].
    destruct oldb as [|ob ro]; cbn [rec_b tl]; rewrite ?zmax_if, IH; cbn [rev];
      rewrite <- app_assoc, !Z.add_assoc; reflexivity.
  - rewrite IH. cbn [rev]. rewrite <- app_assoc. reflexivity.
Qed.

(* the begins list, computed in one pass *)
Fixpoint assign (vs : vlist) (oldf oldr : list Z) (ef er : Z) : list Z :=
  match vs with
  | [] => []
  | (false, len) :: r => fix_b ef oldf :: assign r (tl oldf) oldr (fix_b ef oldf + len) er
  | (true, len) :: r => rec_b er oldr :: assign r oldf (tl oldr) ef (er + len)
  end.

Lemma merge_assign : forall vs oldf oldr ef er,
  merge_opts (fbegins vs oldf ef) (rbegins vs oldr er) = assign vs oldf oldr ef er.
Proof.
  induction vs as [|[k len] r IH]; intros oldf oldr ef er; [reflexivity|].
  destruct k; cbn [fbegins rbegins merge_opts assign]; rewrite IH; reflexivity.
Qed.

Lemma assign_length : forall vs oldf oldr ef er,
  length (assign vs oldf oldr ef er) = length vs.
Proof.
  induction vs as [|[k len] r IH]; intros oldf oldr ef er; [reflexivity|].
  destruct k; cbn [assign length]; rewrite IH; reflexivity.
Qed.

(** * 3. Closed form of [begins]                                           *)

(* (is record variable, len) per variable, definition order *)
Definition vsof (h : hdr) : vlist :=
  map (fun v => (is_recvar (h_dims h) v, var_len (h_dims h) v)) (h_vars h).

Definition old_fixed_of (old : option (layout * list bool)) : list Z :=
  match old with
  | Some (ol, recs) => map snd (filter (fun p => negb (fst p)) (zip recs (l_begins ol)))
  | None => [] end.

Definition old_rec_of (old : option (layout * list bool)) : list Z :=
  match old with
  | Some (ol, recs) => map snd (filter (fun p => fst p) (zip recs (l_begins ol)))
  | None => [] end.

(* where the fixed section may start: header size + h_minfree rounded to h_align, never
   below the old begin_var *)
Definition bv1_of (h : hdr) (hm ha : Z) (old : option (layout * list bool)) : Z :=
  let bv0 := match h_vars h with [] => hdr_len h | _ => rndup (hdr_len h + hm) ha end in
  match old with Some (ol, _) => Z.max bv0 (l_begin_var ol) | None => bv0 end.

(* begin_rec: end of the fixed section + v_minfree (never below the previous begin_rec),
   rounded to 4, then to r_align, never below the old begin_rec *)
Definition br3_of (end_fixed vm ra pbr : Z) (old : option (layout * list bool)) : Z :=
  let br1 := rndup (Z.max pbr (end_fixed + vm)) 4 in
  let br2 := if ra >? 1 then rndup br1 ra else br1 in
  match old with Some (ol, _) => Z.max br2 (l_begin_rec ol) | None => br2 end.

(* unpadded size of one record of a variable: product of the non-record dims * xsz *)
Definition unpadded (dims : list dim) (v : var) : Z :=
  var_nelems_per_rec (var_shape dims v) * xlen_type (v_type v).

(* the recsize rule *)
Definition recsize_of (h : hdr) : Z :=
  let s := rsum (vsof h) in
  match last_opt (filter (fun v => is_recvar (h_dims h) v) (h_vars h)), rlast (vsof h) None with
  | Some lv, Some ll => if s =? ll then unpadded (h_dims h) lv else s
  | _, _ => s
  end.

Definition begin_var_of (vs : vlist) (bl : list Z) (br : Z) : Z :=
  match find_index (fun p : bool * Z => negb (fst p)) vs 0 with
  | Some i => znth bl i 0
  | None => br end.

Definition end_fixed_of (h : hdr) (hm ha : Z) (old : option (layout * list bool)) : Z :=
  fend (vsof h) (old_fixed_of old) (bv1_of h hm ha old).

Definition begin_rec_of (h : hdr) (hm vm ha ra : Z) (old : option (layout * list bool))
           (pbr : Z) : Z :=
  br3_of (end_fixed_of h hm ha old) vm ra pbr old.

Definition layout_of_begins (h : hdr) (hm vm ha ra : Z) (old : option (layout * list bool))
           (pbr : Z) : layout :=
  let vs := vsof h in
  let br := begin_rec_of h hm vm ha ra old pbr in
  let bl := assign vs (old_fixed_of old) (old_rec_of old) (bv1_of h hm ha old) br in
  mklayout (hdr_len h) (begin_var_of vs bl br) br (recsize_of h) bl.

(* the CDF-1 offset test of NC_begins fires *)
Definition begins_overflow (h : hdr) (hm vm ha ra : Z) (old : option (layout * list bool))
           (pbr : Z) : bool :=
  (h_format h =? 1) &&
  (over_int (fstarts (vsof h) (old_fixed_of old) (bv1_of h hm ha old)) ||
   over_int (rstarts (vsof h) (begin_rec_of h hm vm ha ra old pbr))).

Theorem begins_eq : forall h hm vm ha ra old pbr,
  begins h hm vm ha ra old pbr =
  if begins_overflow h hm vm ha ra old pbr then None
  else Some (layout_of_begins h hm vm ha ra old pbr).
Proof.
  intros h hm vm ha ra old pbr.
  unfold begins, begins_overflow, layout_of_begins, begin_rec_of, end_fixed_of, br3_of, bv1_of,
    old_fixed_of, old_rec_of, recsize_of, unpadded.
  fold (vsof h). cbv zeta. rewrite andb_orb_distrib_r.
  (* the comparisons sit under the binders of [old] and of the result of the fixed pass *)
  destruct old as [[ol recs]|].
  all: rewrite ?zmax_if, begins_fixed_eq.
  all: destruct ((h_format h =? 1) && over_int (fstarts _ _ _)); [reflexivity|].
  all: rewrite ?zmax_if, begins_rec_eq.
  all: destruct ((h_format h =? 1) && over_int (rstarts _ _)); [reflexivity|].
  all: cbn [orb rev app]; rewrite merge_assign; reflexivity.
Qed.

(** * 4. Layouts as lists of (begin, len): generic facts                   *)

(* the (begin, len) pairs of the variables of kind k (false = fixed, true = record) *)
Fixpoint sel (k : bool) (vs : vlist) (bl : list Z) : list (Z * Z) :=
  match vs, bl with
  | (k', len) :: r, b :: bl' =>
      if Bool.eqb k' k then (b, len) :: sel k r bl' else sel k r bl'
  | _, _ => []
  end.

(* end of the last pair (e when there is none) *)
Fixpoint last_end (e : Z) (l : list (Z * Z)) : Z :=
  match l with [] => e | (b, len) :: r => last_end (b + len) r end.

(* every variable starts exactly where the previous one ends *)
Fixpoint contig (e : Z) (l : list (Z * Z)) : Prop :=
  match l with [] => True | (b, len) :: r => b = e /\ contig (e + len) r end.

Definition dvs : bool * Z := (false, 0).

Lemma bi_cons : forall e b len r,
  begins_increasing e ((b, len) :: r) = true <->
  e <= b /\ b mod 4 = 0 /\ begins_increasing (b + len) r = true.
Proof.
  intros. cbn [begins_increasing]. rewrite !andb_true_iff, Z.leb_le, Z.eqb_eq. tauto.
Qed.

Lemma bi_weaken : forall l e e', e' <= e ->
  begins_increasing e l = true -> begins_increasing e' l = true.
Proof.
  intros [|[b len] r] e e' He H; [reflexivity|].
  apply bi_cons in H. apply bi_cons. destruct H as (H1 & H2 & H3). repeat split; [lia|assumption..].
Qed.

Lemma last_end_mono : forall l e e', e' <= e -> last_end e' l <= last_end e l.
Proof. intros [|[b len] r] e e' He; cbn [last_end]; lia. Qed.

Lemma last_end_app : forall l1 l2 e, last_end e (l1 ++ l2) = last_end (last_end e l1) l2.
Proof.
  induction l1 as [|[b len] r IH]; intros l2 e; [reflexivity|]. cbn [app last_end]. apply IH.
Qed.

Lemma last_end_ge : forall l e, Forall (fun p => 0 <= snd p) l ->
  begins_increasing e l = true -> e <= last_end e l.
Proof.
  induction l as [|[b len] r IH]; intros e Hl H; cbn [last_end]; [lia|].
  apply bi_cons in H. destruct H as (H1 & H2 & H3).
  inversion Hl as [|? ? Hp Hr]; subst. cbn [snd] in Hp.
  specialize (IH (b + len) Hr H3). lia.
Qed.

(* layout_ok's running maximum is the end of the last variable *)
Lemma fold_max_last_end : forall l e, Forall (fun p => 0 <= snd p) l ->
  begins_increasing e l = true ->
  fold_left (fun e p => Z.max e (fst p + snd p)) l e = last_end e l.
Proof.
  induction l as [|[b len] r IH]; intros e Hl H; [reflexivity|].
  apply bi_cons in H. destruct H as (H1 & H2 & H3).
  inversion Hl as [|? ? Hp Hr]; subst. cbn [snd] in Hp.
  cbn [fold_left last_end fst snd]. replace (Z.max e (b + len)) with (b + len) by lia.
  apply IH; assumption.
Qed.

Lemma contig_bi : forall l e, e mod 4 = 0 -> Forall (fun p => snd p mod 4 = 0) l ->
  contig e l -> begins_increasing e l = true.
Proof.
  induction l as [|[b len] r IH]; intros e He Hl H; [reflexivity|].
  cbn [contig] in H. destruct H as [Hb Hc]. subst b.
  inversion Hl as [|? ? Hp Hr]; subst. cbn [snd] in Hp.
  apply bi_cons. repeat split; [lia|exact He|]. apply IH; [lia|exact Hr|exact Hc].
Qed.

Lemma contig_last_end : forall l e, contig e l -> last_end e l = e + zsum (map snd l).
Proof.
  induction l as [|[b len] r IH]; intros e H; cbn [last_end map zsum snd]; [lia|].
  cbn [contig] in H. destruct H as [Hb Hc]. subst b. rewrite (IH _ Hc). lia.
Qed.

Lemma sel_length_le : forall k vs bl, (length (sel k vs bl) <= length vs)%nat.
Proof.
  intros k vs. induction vs as [|[k' len] r IH]; intros [|b bl]; cbn [sel length]; try lia.
  destruct (Bool.eqb k' k); cbn [length]; specialize (IH bl); lia.
Qed.

Lemma sel_lens_Forall : forall (P : Z -> Prop) k vs bl,
  Forall (fun p => P (snd p)) vs -> Forall (fun p => P (snd p)) (sel k vs bl).
Proof.
  intros P k vs. induction vs as [|[k' len] r IH]; intros [|b bl] H; cbn [sel]; try constructor.
  inversion H as [|? ? Hp Hr]; subst.
  destruct (Bool.eqb k' k); [constructor; [exact Hp|]|]; apply IH; exact Hr.
Qed.

Lemma sel_app : forall k vo ext obl nbl, length obl = length vo ->
  sel k (vo ++ ext) (obl ++ nbl) = sel k vo obl ++ sel k ext nbl.
Proof.
  intros k vo. induction vo as [|[k' len] r IH]; intros ext [|b obl] nbl Hl;
    cbn [length] in Hl; try discriminate; [reflexivity|].
  cbn [app sel]. injection Hl as Hl.
  destruct (Bool.eqb k' k); cbn [app]; rewrite (IH ext obl nbl Hl); reflexivity.
Qed.

(* sum of the record lens is the sum over the selected record pairs *)
Lemma rsum_sel : forall vs bl, length bl = length vs -> zsum (map snd (sel true vs bl)) = rsum vs.
Proof.
  induction vs as [|[k len] r IH]; intros [|b bl] Hl; cbn [length] in Hl; try discriminate;
    [reflexivity|].
  injection Hl as Hl. cbn [sel rsum]. destruct k; cbn [Bool.eqb map zsum snd]; rewrite (IH bl Hl);
    reflexivity.
Qed.

(** index-level reading of [begins_increasing] over the variables of one kind *)
Lemma bi_sel_at : forall k vs bl e,
  length bl = length vs ->
  Forall (fun p => 0 <= snd p) vs ->
  begins_increasing e (sel k vs bl) = true ->
  forall i, 0 <= i < Zlen vs -> fst (znth vs i dvs) = k ->
    e <= znth bl i 0 /\ znth bl i 0 mod 4 = 0 /\
    znth bl i 0 + snd (znth vs i dvs) <= last_end e (sel k vs bl).
Proof.
  intros k vs. induction vs as [|[k' len] r IH]; intros [|b bl] e Hl Hnn H i Hi;
    cbn [length] in Hl; try discriminate Hl.
  - rewrite Zlen_nil in Hi. lia.
  - injection Hl as Hl. inversion Hnn as [|? ? Hp Hr]; subst. cbn [snd] in Hp.
    rewrite Zlen_cons in Hi. cbn [sel znth] in *.
    destruct (Z.eqb_spec i 0) as [->|E]; cbn [fst snd]; intros Hk.
    + subst k'. rewrite Bool.eqb_reflx in *. apply bi_cons in H. destruct H as (H1 & H2 & H3).
      pose proof (last_end_ge _ _ (sel_lens_Forall (fun x => 0 <= x) k r bl Hr) H3).
      cbn [last_end]. lia.
    + destruct (Bool.eqb k' k).
      * apply bi_cons in H. destruct H as (H1 & H2 & H3).
        destruct (IH bl (b + len) Hl Hr H3 (i - 1) ltac:(lia) Hk) as (A & B & C).
        cbn [last_end]. lia.
      * exact (IH bl e Hl Hr H (i - 1) ltac:(lia) Hk).
Qed.

Lemma bi_sel_order : forall k vs bl e,
  length bl = length vs ->
  Forall (fun p => 0 <= snd p) vs ->
  begins_increasing e (sel k vs bl) = true ->
  forall i j, 0 <= i -> i < j -> j < Zlen vs ->
    fst (znth vs i dvs) = k -> fst (znth vs j dvs) = k ->
    znth bl i 0 + snd (znth vs i dvs) <= znth bl j 0.
Proof.
  intros k vs. induction vs as [|[k' len] r IH]; intros [|b bl] e Hl Hnn H i j Hi Hij Hj;
    cbn [length] in Hl; try discriminate Hl.
  - rewrite Zlen_nil in Hj. lia.
  - injection Hl as Hl. inversion Hnn as [|? ? Hp Hr]; subst. cbn [snd] in Hp.
    rewrite Zlen_cons in Hj. cbn [sel znth] in *.
    destruct (Z.eqb_spec j 0) as [->|Ej]; [lia|].
    destruct (Z.eqb_spec i 0) as [->|Ei]; cbn [fst snd]; intros Hki Hkj.
    + (* the later one lies in the tail, which starts at the end of the head *)
      subst k'. rewrite Bool.eqb_reflx in H. apply bi_cons in H. destruct H as (_ & _ & H3).
      exact (proj1 (bi_sel_at k r bl (b + len) Hl Hr H3 (j - 1) ltac:(lia) Hkj)).
    + destruct (Bool.eqb k' k).
      * apply bi_cons in H. destruct H as (_ & _ & H3).
        apply (IH bl (b + len) Hl Hr H3 (i - 1) (j - 1)); (assumption || lia).
      * apply (IH bl e Hl Hr H (i - 1) (j - 1)); (assumption || lia).
Qed.

Lemma rsum_nonneg : forall vs, Forall (fun p : bool * Z => 0 <= snd p) vs -> 0 <= rsum vs.
Proof.
  induction vs as [|[k len] r IH]; intros H; cbn [rsum]; [lia|].
  inversion H as [|? ? Hp Hr]; subst. cbn [snd] in Hp. specialize (IH Hr). destruct k; lia.
Qed.

(* offset of variable i inside a record: sum of the lens of the record variables before it *)
Definition roff (vs : vlist) (i : Z) : Z := rsum (zfirstn i vs).

Lemma roff_cons_pos : forall p r i, 0 < i ->
  roff (p :: r) i = (if fst p then snd p else 0) + roff r (i - 1).
Proof.
  intros [k len] r i Hi. unfold roff. cbn [zfirstn]. replace (i <=? 0) with false by lia.
  cbn [rsum fst snd]. destruct k; lia.
Qed.

Lemma roff_0 : forall vs, roff vs 0 = 0.
Proof. intros [|p r]; reflexivity. Qed.

Lemma roff_app_l : forall vo ext i, 0 <= i <= Zlen vo -> roff (vo ++ ext) i = roff vo i.
Proof.
  induction vo as [|p r IH]; intros ext i Hi.
  - rewrite Zlen_nil in Hi. assert (i = 0) by lia. subst i. rewrite !roff_0. reflexivity.
  - rewrite Zlen_cons in Hi. destruct (Z.eq_dec i 0) as [E|E].
    + subst i. rewrite !roff_0. reflexivity.
    + cbn [app]. rewrite !roff_cons_pos by lia. rewrite IH by lia. reflexivity.
Qed.

Lemma roff_bounds : forall vs i, Forall (fun p => 0 <= snd p) vs -> 0 <= i < Zlen vs ->
  0 <= roff vs i /\
  (fst (znth vs i dvs) = true -> roff vs i + snd (znth vs i dvs) <= rsum vs).
Proof.
  induction vs as [|[k len] r IH]; intros i Hnn Hi.
  - rewrite Zlen_nil in Hi. lia.
  - rewrite Zlen_cons in Hi. inversion Hnn as [|? ? Hp Hr]; subst. cbn [snd] in Hp.
    pose proof (rsum_nonneg r Hr) as Hrs.
    destruct (Z.eq_dec i 0) as [E|E].
    + subst i. rewrite roff_0, znth_cons_0. cbn [fst snd rsum]. split; [lia|].
      intros ->. lia.
    + rewrite roff_cons_pos by lia. rewrite znth_cons_pos by exact E.
      destruct (IH (i - 1) Hr ltac:(lia)) as [A B]. cbn [fst snd rsum].
      destruct k; split; try lia; intros Hk; specialize (B Hk); lia.
Qed.

(** index-level reading of [contig] over the record variables *)
Lemma contig_sel_index : forall vs bl e,
  length bl = length vs -> contig e (sel true vs bl) ->
  forall i, 0 <= i < Zlen vs -> fst (znth vs i dvs) = true -> znth bl i 0 = e + roff vs i.
Proof.
  induction vs as [|[k len] r IH]; intros [|b bl] e Hl H i Hi;
    cbn [length] in Hl; try discriminate Hl.
  - rewrite Zlen_nil in Hi. lia.
  - injection Hl as Hl. rewrite Zlen_cons in Hi. cbn [sel] in H. cbn [znth].
    destruct (Z.eqb_spec i 0) as [->|E]; cbn [fst]; intros Hk.
    + subst k. cbn [Bool.eqb contig] in H. rewrite roff_0. lia.
    + rewrite roff_cons_pos by lia. cbn [fst snd]. destruct k; cbn [Bool.eqb contig] in H.
      * destruct H as [Hb Hc]. rewrite (IH bl (e + len) Hl Hc (i - 1)) by (assumption || lia). lia.
      * rewrite (IH bl e Hl H (i - 1)) by (assumption || lia). lia.
Qed.

(* begin_var_of is the begin of the first fixed variable *)
Lemma begin_var_of_sel_gen : forall vs bl br k, length bl = length vs ->
  match find_index (fun p : bool * Z => negb (fst p)) vs k with
  | Some i => znth bl (i - k) 0
  | None => br end =
  match sel false vs bl with (b, _) :: _ => b | [] => br end.
Proof.
  induction vs as [|[k' len] r IH]; intros [|b bl] br k Hl; cbn [length] in Hl; try discriminate;
    [reflexivity|].
  injection Hl as Hl. cbn [find_index sel fst]. destruct k'; cbn [negb Bool.eqb].
  - specialize (IH bl br (k + 1) Hl).
    destruct (find_index (fun p : bool * Z => negb (fst p)) r (k + 1)) as [i|] eqn:Ef.
    + pose proof (find_index_bounds _ _ _ _ Ef) as Hge.
      rewrite znth_cons_pos by lia. replace (i - k - 1) with (i - (k + 1)) by lia. exact IH.
    + exact IH.
  - replace (k - k) with 0 by lia. reflexivity.
Qed.

Lemma begin_var_of_sel : forall vs bl br, length bl = length vs ->
  begin_var_of vs bl br = match sel false vs bl with (b, _) :: _ => b | [] => br end.
Proof.
  intros vs bl br Hl. unfold begin_var_of.
  pose proof (begin_var_of_sel_gen vs bl br 0 Hl) as H.
  destruct (find_index (fun p : bool * Z => negb (fst p)) vs 0) as [i|]; [|exact H].
  replace (i - 0) with i in H by lia. exact H.
Qed.

(** * 5. What [assign] produces                                            *)

(* the fixed / record (begin, len) pairs, each computed from its own inputs only *)
Fixpoint fpairs (vs : vlist) (oldf : list Z) (e : Z) : list (Z * Z) :=
  match vs with
  | [] => []
  | (true, _) :: r => fpairs r oldf e
  | (false, len) :: r => (fix_b e oldf, len) :: fpairs r (tl oldf) (fix_b e oldf + len)
  end.

Fixpoint rpairs (vs : vlist) (oldr : list Z) (e : Z) : list (Z * Z) :=
  match vs with
  | [] => []
  | (false, _) :: r => rpairs r oldr e
  | (true, len) :: r => (rec_b e oldr, len) :: rpairs r (tl oldr) (e + len)
  end.

Lemma sel_false_assign : forall vs oldf oldr ef er,
  sel false vs (assign vs oldf oldr ef er) = fpairs vs oldf ef.
Proof.
  induction vs as [|[k len] r IH]; intros oldf oldr ef er; [reflexivity|].
  destruct k; cbn [assign sel Bool.eqb fpairs]; rewrite IH; reflexivity.
Qed.

Lemma sel_true_assign : forall vs oldf oldr ef er,
  sel true vs (assign vs oldf oldr ef er) = rpairs vs oldr er.
Proof.
  induction vs as [|[k len] r IH]; intros oldf oldr ef er; [reflexivity|].
  destruct k; cbn [assign sel Bool.eqb rpairs]; rewrite IH; reflexivity.
Qed.

Lemma fend_last_end : forall vs oldf e, fend vs oldf e = last_end e (fpairs vs oldf e).
Proof.
  induction vs as [|[k len] r IH]; intros oldf e; [reflexivity|].
  destruct k; cbn [fend fpairs last_end]; apply IH.
Qed.

Lemma fix_b_ok : forall e oldf, Forall (fun b => b mod 4 = 0) oldf ->
  e <= fix_b e oldf /\ fix_b e oldf mod 4 = 0.
Proof.
  intros e [|ob ro] H; cbn [fix_b]; pose proof (rndup4_bounds e) as Hr; [lia|].
  inversion H as [|? ? Hob Hro]; subst.
  destruct (Z.max_spec (rndup e 4) ob) as [[? ->]|[? ->]]; lia.
Qed.

(** the fixed pass: definition order, 4-byte aligned, non-overlapping, at or after e *)
Lemma fpairs_bi : forall vs oldf e, Forall (fun b => b mod 4 = 0) oldf ->
  begins_increasing e (fpairs vs oldf e) = true.
Proof.
  induction vs as [|[k len] r IH]; intros oldf e H; [reflexivity|].
  destruct k; cbn [fpairs]; [apply IH; exact H|].
  destruct (fix_b_ok e oldf H) as [H1 H2].
  apply bi_cons. repeat split; [exact H1|exact H2|]. apply IH. apply Forall_tl. exact H.
Qed.

Lemma rpairs_contig_nil : forall vs e, contig e (rpairs vs [] e).
Proof.
  induction vs as [|[k len] r IH]; intros e; [exact I|].
  destruct k; cbn [rpairs rec_b tl contig]; [split; [reflexivity|]|]; apply IH.
Qed.

(* the old begins handed to the two passes are the begins of the selected old pairs *)
Lemma old_fixed_sel : forall vo obl,
  map snd (filter (fun p : bool * Z => negb (fst p)) (zip (map fst vo) obl)) =
  map fst (sel false vo obl).
Proof.
  induction vo as [|[k len] r IH]; intros [|b obl]; try reflexivity.
  cbn [map fst zip filter sel]. destruct k; cbn [negb Bool.eqb map fst snd]; rewrite IH; reflexivity.
Qed.

Lemma old_rec_sel : forall (vo : vlist) obl,
  map snd (filter (fun p : bool * Z => fst p) (zip (map fst vo) obl)) =
  map fst (sel true vo obl).
Proof.
  induction vo as [|[k len] r IH]; intros [|b obl]; try reflexivity.
  cbn [map fst zip filter sel]. destruct k; cbn [negb Bool.eqb map fst snd]; rewrite IH; reflexivity.
Qed.

Lemma bi_fst_mod4 : forall l e, begins_increasing e l = true ->
  Forall (fun b => b mod 4 = 0) (map fst l).
Proof.
  induction l as [|[b len] r IH]; intros e H; [constructor|].
  apply bi_cons in H. destruct H as (H1 & H2 & H3). cbn [map fst]. constructor; [exact H2|].
  apply (IH _ H3).
Qed.

(** the record pass after a redefinition: if the old record variables were contiguous from
    obr and the new begin_rec is not below obr, the new ones are contiguous from er *)
Lemma rpairs_contig : forall vo obl ext obr er, length obl = length vo ->
  contig obr (sel true vo obl) -> obr <= er ->
  contig er (rpairs (vo ++ ext) (map fst (sel true vo obl)) er).
Proof.
  induction vo as [|[k len] r IH]; intros [|b obl] ext obr er Hl Hc Hle;
    cbn [length] in Hl; try discriminate Hl.
  - cbn [app sel map]. apply rpairs_contig_nil.
  - injection Hl as Hl. cbn [app sel] in *. destruct k; cbn [Bool.eqb] in *.
    + cbn [contig] in Hc. destruct Hc as [Hb Hc]. subst b.
      cbn [map fst rpairs rec_b tl contig]. split; [lia|].
      apply (IH obl ext (obr + len) (er + len) Hl Hc). lia.
    + cbn [rpairs]. apply (IH obl ext obr er Hl Hc Hle).
Qed.

(** a fixed variable of the old header never moves down; it does not move at all if the fixed
    section may start at or below the first old fixed variable *)
Lemma assign_fixed_old : forall vo obl ext oldr ef er i, length obl = length vo ->
  0 <= i < Zlen vo -> fst (znth vo i dvs) = false ->
  let nb := znth (assign (vo ++ ext) (map fst (sel false vo obl)) oldr ef er) i 0 in
  znth obl i 0 <= nb /\
  (begins_increasing ef (sel false vo obl) = true -> nb = znth obl i 0).
Proof.
  induction vo as [|[k len] r IH]; intros [|b obl] ext oldr ef er i Hl Hi;
    cbn [length] in Hl; try discriminate Hl.
  - rewrite Zlen_nil in Hi. lia.
  - injection Hl as Hl. rewrite Zlen_cons in Hi.
    destruct k; cbn [app sel assign Bool.eqb map fst tl znth];
      destruct (Z.eqb_spec i 0) as [->|E]; cbn [fst]; intros Hk; try discriminate Hk.
    + apply IH; (assumption || lia).
    + cbn [fix_b]. split; [lia|]. intros Hbi. apply bi_cons in Hbi. destruct Hbi as (H1 & H2 & _).
      pose proof (rndup4_le ef b H1 H2). lia.
    + destruct (IH obl ext oldr (fix_b ef (b :: map fst (sel false r obl)) + len) er (i - 1)
                  Hl ltac:(lia) Hk) as [A B].
      split; [exact A|]. intros Hbi. apply bi_cons in Hbi. destruct Hbi as (H1 & H2 & H3).
      apply B. replace (fix_b ef (b :: map fst (sel false r obl))) with b; [exact H3|].
      cbn [fix_b]. pose proof (rndup4_le ef b H1 H2). lia.
Qed.

(** * 6. The layout invariant                                              *)

Notation tlist := (list (bool * Z * Z)).      (* (is record, len, unpadded record size) *)

(* recsize: sum of the lens of the record variables; when that sum is the len of the last
   record variable (exactly one record variable, the others - if any - being empty) the
   unpadded size of that variable *)
Definition rs_rule (t3 : tlist) : Z :=
  let s := rsum (map fst t3) in
  match last_opt (filter (fun t : bool * Z * Z => fst (fst t)) t3) with
  | Some (_, ll, u) => if s =? ll then u else s
  | None => s
  end.

(* len is the unpadded size rounded up to 4 *)
Definition wf_t3 (t3 : tlist) : Prop :=
  Forall (fun t : bool * Z * Z => 0 <= snd t <= snd (fst t) /\ snd (fst t) mod 4 = 0) t3.

(** what every layout computed by [begins] satisfies (and what a redefinition relies on):
    - one begin per variable;
    - begin_var is at or after the header and is the begin of the first fixed variable
      (begin_rec when there is none);
    - fixed variables in definition order, 4-byte aligned, non-overlapping, ending at or
      before begin_rec;
    - begin_rec 4-byte aligned; record variables contiguous from begin_rec, in definition
      order;
    - the recsize rule. *)
Definition lay_inv (t3 : tlist) (lay : layout) : Prop :=
  let vs := map fst t3 in
  let fl := sel false vs (l_begins lay) in
  let rl := sel true vs (l_begins lay) in
  length (l_begins lay) = length vs /\
  l_xsz lay <= l_begin_var lay /\
  begins_increasing (l_begin_var lay) fl = true /\
  l_begin_var lay = match fl with (b, _) :: _ => b | [] => l_begin_rec lay end /\
  last_end (l_begin_var lay) fl <= l_begin_rec lay /\
  l_begin_rec lay mod 4 = 0 /\
  contig (l_begin_rec lay) rl /\
  l_recsize lay = rs_rule t3.

Lemma wf_t3_lens : forall t3, wf_t3 t3 ->
  Forall (fun p : bool * Z => 0 <= snd p) (map fst t3) /\
  Forall (fun p : bool * Z => snd p mod 4 = 0) (map fst t3).
Proof.
  intros t3 H. induction H as [|t l Ht Hl [IH1 IH2]]; [split; constructor|].
  cbn [map]. split; constructor; try assumption; lia.
Qed.

Lemma wf_t3_app : forall a b, wf_t3 (a ++ b) <-> wf_t3 a /\ wf_t3 b.
Proof. intros a b. unfold wf_t3. apply Forall_app. Qed.

(** the common core of the new-file and the redefinition case *)
Lemma mk_lay_inv : forall t3 vs rs xsz bv1 br oldf oldr,
  vs = map fst t3 -> rs = rs_rule t3 ->
  let bl := assign vs oldf oldr bv1 br in
  xsz <= bv1 ->
  Forall (fun b => b mod 4 = 0) oldf ->
  contig br (rpairs vs oldr br) ->
  fend vs oldf bv1 <= br ->
  br mod 4 = 0 ->
  lay_inv t3 (mklayout xsz (begin_var_of vs bl br) br rs bl).
Proof.
  intros t3 vs rs xsz bv1 br oldf oldr Evs -> bl Hx Hof Hc Hfe Hbr.
  unfold lay_inv. cbn [l_begins l_xsz l_begin_var l_begin_rec l_recsize]. rewrite <- Evs.
  assert (Hlen : length bl = length vs) by apply assign_length.
  rewrite (begin_var_of_sel vs bl br Hlen). subst bl.
  rewrite !sel_false_assign, !sel_true_assign.
  pose proof (fpairs_bi vs oldf bv1 Hof) as Hbi.
  rewrite fend_last_end in Hfe.
  destruct (fpairs vs oldf bv1) as [|[b len] rest] eqn:Ep.
  - cbn [last_end] in *. repeat split; try assumption; try reflexivity; lia.
  - apply bi_cons in Hbi. destruct Hbi as (H1 & H2 & H3). cbn [last_end] in *.
    repeat split; try assumption; try reflexivity; try lia.
    apply bi_cons. repeat split; [lia|exact H2|exact H3].
Qed.

(** * 7. From headers to the abstract lists                                *)

Definition t3of (h : hdr) : tlist :=
  map (fun v => (is_recvar (h_dims h) v, var_len (h_dims h) v, unpadded (h_dims h) v)) (h_vars h).

(* the only well-formedness needed: dimension sizes are not negative *)
Definition hdr_wf (h : hdr) : Prop := Forall (fun d => 0 <= d_size d) (h_dims h).

Definition fixed_vars (h : hdr) : list var :=
  filter (fun v => negb (is_recvar (h_dims h) v)) (h_vars h).
Definition rec_vars (h : hdr) : list var := filter (is_recvar (h_dims h)) (h_vars h).
Definition fixed_pairs (h : hdr) : list (Z * Z) :=
  map (fun v => (v_begin v, var_len (h_dims h) v)) (fixed_vars h).
Definition rec_pairs (h : hdr) : list (Z * Z) :=
  map (fun v => (v_begin v, var_len (h_dims h) v)) (rec_vars h).

Lemma vsof_t3of : forall h, vsof h = map fst (t3of h).
Proof. intros h. unfold vsof, t3of. rewrite map_map. reflexivity. Qed.

Lemma var_len_unpadded : forall dims v,
  unpadded dims v <= var_len dims v < unpadded dims v + 4 /\ var_len dims v mod 4 = 0.
Proof.
  intros dims v. unfold var_len, var_len_of, unpadded.
  set (l := var_nelems_per_rec (var_shape dims v) * xlen_type (v_type v)). cbv zeta.
  destruct (l mod 4 >? 0) eqn:E; lia.
Qed.

Lemma unpadded_nonneg : forall dims v, Forall (fun d => 0 <= d_size d) dims -> 0 <= unpadded dims v.
Proof.
  intros dims v H. unfold unpadded.
  pose proof (var_nelems_per_rec_nonneg _ (var_shape_nonneg dims v H)).
  pose proof (xlen_type_nonneg (v_type v)). nia.
Qed.

Lemma wf_t3of : forall h, hdr_wf h -> wf_t3 (t3of h).
Proof.
  intros h H. unfold wf_t3, t3of. apply Forall_forall. intros t Ht.
  apply in_map_iff in Ht. destruct Ht as [v [<- _]]. cbn [fst snd].
  pose proof (var_len_unpadded (h_dims h) v). pose proof (unpadded_nonneg (h_dims h) v H). lia.
Qed.

Lemma rlast_map : forall A (g : A -> bool * Z) l d,
  rlast (map g l) d =
  match last_opt (filter (fun x => fst (g x)) l) with Some y => Some (snd (g y)) | None => d end.
Proof.
  intros A g l. induction l as [|x l IH]; intros d; [reflexivity|].
  cbn [map filter]. destruct (g x) as [k len] eqn:Eg. cbn [rlast fst].
  destruct k.
  - rewrite IH, last_opt_cons.
    destruct (last_opt (filter (fun x0 => fst (g x0)) l)); [reflexivity|]. rewrite Eg. reflexivity.
  - apply IH.
Qed.

Lemma rlast_vsof : forall h,
  rlast (vsof h) None = option_map (var_len (h_dims h)) (last_opt (rec_vars h)).
Proof.
  intros h. unfold vsof. rewrite rlast_map. cbn [fst snd].
  change (filter _ (h_vars h)) with (rec_vars h). destruct (last_opt (rec_vars h)); reflexivity.
Qed.

Lemma recsize_of_rule : forall h, recsize_of h = rs_rule (t3of h).
Proof.
  intros h. unfold recsize_of, rs_rule. rewrite <- vsof_t3of, rlast_vsof.
  unfold t3of. rewrite filter_map_comm, last_opt_map. cbn [fst].
  change (filter _ (h_vars h)) with (rec_vars h). destruct (last_opt (rec_vars h)); reflexivity.
Qed.

(* set_begins changes nothing but the begins *)
Lemma is_recvar_set_begin : forall dims v b,
  is_recvar dims (mkvar (v_name v) (v_dimids v) (v_atts v) (v_type v) b (v_nofill v)) =
  is_recvar dims v.
Proof. reflexivity. Qed.

Lemma var_len_set_begin : forall dims v b,
  var_len dims (mkvar (v_name v) (v_dimids v) (v_atts v) (v_type v) b (v_nofill v)) =
  var_len dims v.
Proof. reflexivity. Qed.

Lemma pairs_set_begins_gen : forall dims k vars bl,
  map (fun v => (v_begin v, var_len dims v))
      (filter (fun v => Bool.eqb (is_recvar dims v) k)
         (map (fun p : var * Z => let v := fst p in
                 mkvar (v_name v) (v_dimids v) (v_atts v) (v_type v) (snd p) (v_nofill v))
              (zip vars bl))) =
  sel k (map (fun v => (is_recvar dims v, var_len dims v)) vars) bl.
Proof.
  intros dims k vars. induction vars as [|v vars IH]; intros [|b bl]; try reflexivity.
  cbn [zip map filter sel fst snd]. cbv zeta. rewrite is_recvar_set_begin.
  destruct (Bool.eqb (is_recvar dims v) k); cbn [map v_begin]; rewrite IH; reflexivity.
Qed.

(* the two kinds, selected as [sel] does *)
Lemma fixed_vars_eqb : forall h,
  fixed_vars h = filter (fun v => Bool.eqb (is_recvar (h_dims h) v) false) (h_vars h).
Proof. intros h. apply filter_ext. intros v. destruct (is_recvar (h_dims h) v); reflexivity. Qed.

Lemma rec_vars_eqb : forall h,
  rec_vars h = filter (fun v => Bool.eqb (is_recvar (h_dims h) v) true) (h_vars h).
Proof. intros h. apply filter_ext. intros v. destruct (is_recvar (h_dims h) v); reflexivity. Qed.

Lemma fixed_pairs_set_begins : forall h bl,
  fixed_pairs (set_begins h bl) = sel false (vsof h) bl.
Proof.
  intros h bl. unfold fixed_pairs. rewrite fixed_vars_eqb.
  apply (pairs_set_begins_gen (h_dims h) false (h_vars h) bl).
Qed.

Lemma rec_pairs_set_begins : forall h bl,
  rec_pairs (set_begins h bl) = sel true (vsof h) bl.
Proof.
  intros h bl. unfold rec_pairs. rewrite rec_vars_eqb.
  apply (pairs_set_begins_gen (h_dims h) true (h_vars h) bl).
Qed.

Lemma layout_ok_pairs : forall h xsz,
  layout_ok h xsz =
  begins_increasing xsz (fixed_pairs h) &&
  begins_increasing (fold_left (fun e p => Z.max e (fst p + snd p)) (fixed_pairs h) xsz)
                    (rec_pairs h).
Proof. reflexivity. Qed.

(* set_begins / set_numrecs do not change the header size *)
Lemma len_var_set_begins : forall fmt vars bl, length bl = length vars ->
  map (len_var fmt)
      (map (fun p : var * Z => let v := fst p in
              mkvar (v_name v) (v_dimids v) (v_atts v) (v_type v) (snd p) (v_nofill v))
           (zip vars bl)) = map (len_var fmt) vars.
Proof.
  intros fmt vars. induction vars as [|v vars IH]; intros [|b bl] Hl;
    cbn [length] in Hl; try discriminate Hl; [reflexivity|].
  injection Hl as Hl. cbn [zip]. rewrite !map_cons. f_equal. apply (IH bl Hl).
Qed.

Lemma hdr_len_set_begins : forall h bl, length bl = length (h_vars h) ->
  hdr_len (set_begins h bl) = hdr_len h.
Proof.
  intros h bl Hl. unfold hdr_len, set_begins. cbn [h_format h_dims h_gatts h_vars].
  rewrite (len_var_set_begins _ _ _ Hl). reflexivity.
Qed.

Lemma hdr_len_set_numrecs : forall h n, hdr_len (set_numrecs h n) = hdr_len h.
Proof. reflexivity. Qed.

(** a layout satisfying the invariant is well formed in the sense of HeaderSpec.layout_ok *)
Lemma lay_inv_layout_ok : forall h lay, wf_t3 (t3of h) ->
  lay_inv (t3of h) lay ->
  layout_ok (set_begins h (l_begins lay)) (l_xsz lay) = true.
Proof.
  intros h lay Hwf (Hlen & Hx & Hbi & Hbv & Hle & Hbr & Hc & _).
  rewrite <- vsof_t3of in *.
  destruct (wf_t3_lens _ Hwf) as [Hnn H4]. rewrite <- vsof_t3of in *.
  rewrite layout_ok_pairs, fixed_pairs_set_begins, rec_pairs_set_begins.
  set (fl := sel false (vsof h) (l_begins lay)) in *.
  set (rl := sel true (vsof h) (l_begins lay)) in *.
  assert (Hbi' : begins_increasing (l_xsz lay) fl = true) by (apply (bi_weaken fl _ _ Hx Hbi)).
  rewrite Hbi'. cbn [andb].
  rewrite fold_max_last_end; [|apply (sel_lens_Forall (fun x => 0 <= x)); exact Hnn|exact Hbi'].
  apply (bi_weaken rl (l_begin_rec lay)).
  - pose proof (last_end_mono fl _ _ Hx). lia.
  - apply contig_bi; [exact Hbr|apply (sel_lens_Forall (fun x => x mod 4 = 0)); exact H4|exact Hc].
Qed.

Lemma lay_inv_index : forall h lay, hdr_wf h -> lay_inv (t3of h) lay ->
  let vs := vsof h in
  let b := fun i => znth (l_begins lay) i 0 in
  let kind := fun i => fst (znth vs i dvs) in
  let len := fun i => snd (znth vs i dvs) in
  length (l_begins lay) = length (h_vars h) /\
  l_xsz lay <= l_begin_var lay /\ l_begin_var lay <= l_begin_rec lay /\
  (forall i, 0 <= i < Zlen (h_vars h) -> kind i = false ->
     l_begin_var lay <= b i /\ b i mod 4 = 0 /\ b i + len i <= l_begin_rec lay) /\
  (forall i j, 0 <= i -> i < j -> j < Zlen (h_vars h) -> kind i = false -> kind j = false ->
     b i + len i <= b j) /\
  (forall i, 0 <= i < Zlen (h_vars h) -> kind i = true ->
     b i = l_begin_rec lay + roff vs i /\ 0 <= roff vs i /\ roff vs i + len i <= rsum vs).
Proof.
  intros h lay Hwf (Hlen & Hx & Hbi & _ & Hle & _ & Hc & _). cbv zeta.
  destruct (wf_t3_lens _ (wf_t3of h Hwf)) as [Hnn _]. rewrite <- vsof_t3of in *.
  pose proof (last_end_ge _ _ (sel_lens_Forall (fun x => 0 <= x) false _ _ Hnn) Hbi) as Hge.
  replace (Zlen (h_vars h)) with (Zlen (vsof h)) by (unfold vsof; apply Zlen_map).
  split; [rewrite Hlen; apply map_length|]. split; [exact Hx|]. split; [lia|].
  split.
  { intros i Hi Hk. destruct (bi_sel_at false _ _ _ Hlen Hnn Hbi i Hi Hk) as (A & B & C). lia. }
  split; [exact (bi_sel_order false _ _ _ Hlen Hnn Hbi)|].
  intros i Hi Hk. destruct (roff_bounds (vsof h) i Hnn Hi) as [R0 R1].
  split; [exact (contig_sel_index _ _ _ Hlen Hc i Hi Hk)|]. auto.
Qed.

Lemma rsum_vsof : forall h, rsum (vsof h) = zsum (map (var_len (h_dims h)) (rec_vars h)).
Proof.
  intros h. unfold vsof, rec_vars. induction (h_vars h) as [|v vars IH]; [reflexivity|].
  cbn [map rsum filter]. destruct (is_recvar (h_dims h) v); cbn [map zsum]; rewrite IH; reflexivity.
Qed.

Lemma recsize_of_rec_vars : forall h,
  recsize_of h =
  let s := zsum (map (var_len (h_dims h)) (rec_vars h)) in
  match last_opt (rec_vars h) with
  | Some lv => if s =? var_len (h_dims h) lv then unpadded (h_dims h) lv else s
  | None => s
  end.
Proof.
  intros h. unfold recsize_of. rewrite rlast_vsof, rsum_vsof.
  change (filter _ (h_vars h)) with (rec_vars h). destruct (last_opt (rec_vars h)); reflexivity.
Qed.

(** exactly one record variable: recsize is its unpadded size *)
Corollary recsize_single : forall h v, rec_vars h = [v] -> recsize_of h = unpadded (h_dims h) v.
Proof.
  intros h v H. rewrite recsize_of_rec_vars, H. cbn [last_opt rev app map zsum].
  rewrite Z.add_0_r, Z.eqb_refl. reflexivity.
Qed.

(** no record variable: recsize 0 *)
Corollary recsize_none : forall h, rec_vars h = [] -> recsize_of h = 0.
Proof. intros h H. rewrite recsize_of_rec_vars, H. reflexivity. Qed.

(** two or more record variables, none empty: recsize is the sum of their (padded) lens *)
Corollary recsize_multi : forall h, hdr_wf h ->
  (2 <= length (rec_vars h))%nat -> (forall v, In v (rec_vars h) -> 0 < var_len (h_dims h) v) ->
  recsize_of h = zsum (map (var_len (h_dims h)) (rec_vars h)).
Proof.
  intros h Hwf H2 Hpos. rewrite recsize_of_rec_vars.
  destruct (snoc_cases (rec_vars h)) as [En|[l [x El]]]; rewrite ?En, ?El in *; [reflexivity|].
  rewrite last_opt_snoc. cbv zeta.
  (* the last one is not the only one: the sum exceeds its len *)
  destruct l as [|y l]; [cbn [app length] in H2; lia|].
  rewrite map_app, zsum_app. cbn [app map zsum].
  assert (0 < var_len (h_dims h) y) by (apply Hpos; left; reflexivity).
  assert (0 <= zsum (map (var_len (h_dims h)) l)).
  { apply zsum_map_nonneg. intros v Hv. apply Z.lt_le_incl, Hpos. right. apply in_or_app. left. exact Hv. }
  destruct (Z.eqb_spec (var_len (h_dims h) y + zsum (map (var_len (h_dims h)) l) +
                        (var_len (h_dims h) x + 0)) (var_len (h_dims h) x)); [lia|reflexivity].
Qed.

(** * 8. NEW file: the layout computed at the first enddef                 *)

Lemma begins_some : forall h hm vm ha ra old pbr lay,
  begins h hm vm ha ra old pbr = Some lay ->
  lay = layout_of_begins h hm vm ha ra old pbr /\ begins_overflow h hm vm ha ra old pbr = false.
Proof.
  intros h hm vm ha ra old pbr lay H. rewrite begins_eq in H.
  destruct (begins_overflow h hm vm ha ra old pbr); [discriminate H|].
  injection H as H. split; [symmetry; exact H|reflexivity].
Qed.

Lemma fpairs_head : forall vs oldf e b len rest,
  fpairs vs oldf e = (b, len) :: rest -> b = fix_b e oldf.
Proof.
  induction vs as [|[k l] r IH]; intros oldf e b len rest H; [discriminate H|].
  destruct k; cbn [fpairs] in H; [exact (IH _ _ _ _ _ H)|]. injection H as H _ _. symmetry; exact H.
Qed.

Lemma fpairs_nil_fend : forall vs oldf e, fpairs vs oldf e = [] -> fend vs oldf e = e.
Proof. intros vs oldf e H. rewrite fend_last_end, H. reflexivity. Qed.

(* where the fixed section may start in a new file *)
Definition bv1_new (h : hdr) (hm ha : Z) : Z :=
  match h_vars h with [] => hdr_len h | _ => rndup (hdr_len h + hm) ha end.

Lemma bv1_new_ok : forall h hm ha, 0 <= hm -> 0 < ha -> ha mod 4 = 0 ->
  hdr_len h <= bv1_new h hm ha /\ bv1_new h hm ha mod 4 = 0 /\
  (h_vars h <> [] -> hdr_len h + hm <= bv1_new h hm ha /\ bv1_new h hm ha mod ha = 0).
Proof.
  intros h hm ha Hhm Hha H4. unfold bv1_new. pose proof (hdr_len_mod4_all h) as Hx.
  destruct (h_vars h) as [|v vars].
  - split; [lia|]. split; [exact Hx|]. intros C. exfalso. apply C. reflexivity.
  - destruct (rndup_pos (hdr_len h + hm) ha Hha) as [Hb Hm].
    pose proof (rndup_mult4 (hdr_len h + hm) ha Hha H4).
    split; [lia|]. split; [assumption|]. intros _. split; [lia|exact Hm].
Qed.

(** For EVERY header, on a new file (no old header, begin_rec = 0 on entry):
    the layout computed at enddef satisfies the invariant, is well formed (layout_ok: fixed
    variables in definition order, 4-byte aligned, non-overlapping, at or after the header;
    record variables after the fixed section, non-overlapping), honours h_minfree, h_align,
    v_minfree, r_align, and follows the recsize rule. *)
Theorem begins_layout_ok : forall h hm vm ha ra lay,
  hdr_wf h -> 0 <= hm -> 0 <= vm -> 4 <= ha -> ha mod 4 = 0 -> 4 <= ra -> ra mod 4 = 0 ->
  begins h hm vm ha ra None 0 = Some lay ->
  let h' := set_begins h (l_begins lay) in
  let bv1 := bv1_new h hm ha in
  lay_inv (t3of h) lay /\
  layout_ok h' (l_xsz lay) = true /\
  l_xsz lay = hdr_len h /\
  Zlen (l_begins lay) = Zlen (h_vars h) /\
  (* the fixed section starts at bv1 = header size + h_minfree rounded up to h_align *)
  hdr_len h <= bv1 /\
  (h_vars h <> [] -> hdr_len h + hm <= bv1 /\ bv1 mod ha = 0) /\
  bv1 <= l_begin_var lay /\
  match fixed_pairs h' with
  | (b, _) :: _ => l_begin_var lay = b /\ b = bv1 /\ l_begin_var lay mod ha = 0
  | [] => l_begin_var lay = l_begin_rec lay
  end /\
  begins_increasing bv1 (fixed_pairs h') = true /\
  (* the record section starts v_minfree after the fixed section, rounded to 4 and r_align *)
  last_end bv1 (fixed_pairs h') + vm <= l_begin_rec lay /\
  l_begin_rec lay = rndup (rndup (Z.max 0 (last_end bv1 (fixed_pairs h') + vm)) 4) ra /\
  l_begin_rec lay mod 4 = 0 /\ l_begin_rec lay mod ra = 0 /\
  (* record variables are laid out contiguously, in definition order, from begin_rec *)
  contig (l_begin_rec lay) (rec_pairs h') /\
  l_recsize lay = recsize_of h.
Proof.
  intros h hm vm ha ra lay Hwf Hhm Hvm Hha Hha4 Hra Hra4 H h' bv1.
  apply begins_some in H. destruct H as [-> _].
  destruct (bv1_new_ok h hm ha Hhm ltac:(lia) Hha4) as (Hb1 & Hb2 & Hb3). fold bv1 in Hb1, Hb2, Hb3.
  set (fe := fend (vsof h) [] bv1).
  destruct (rndup2_ok (Z.max 0 (fe + vm)) ra Hra Hra4) as (Hbr1 & Hbr4 & Hbr2).
  set (br := rndup (rndup (Z.max 0 (fe + vm)) 4) ra) in *.
  set (bl := assign (vsof h) [] [] bv1 br).
  (* the layout, spelled out *)
  assert (Elay : layout_of_begins h hm vm ha ra None 0 =
                 mklayout (hdr_len h) (begin_var_of (vsof h) bl br) br (recsize_of h) bl).
  { unfold layout_of_begins, begin_rec_of, end_fixed_of, br3_of. cbn [old_fixed_of old_rec_of].
    change (bv1_of h hm ha None) with bv1. fold fe. replace (ra >? 1) with true by lia. reflexivity. }
  subst h'. rewrite Elay. clear Elay.
  assert (Hinv : lay_inv (t3of h)
                   (mklayout (hdr_len h) (begin_var_of (vsof h) bl br) br (recsize_of h) bl)).
  { apply (mk_lay_inv (t3of h) (vsof h) _ (hdr_len h) bv1 br [] [] (vsof_t3of h) (recsize_of_rule h)).
    - exact Hb1.
    - constructor.
    - apply rpairs_contig_nil.
    - fold fe. lia.
    - exact Hbr4. }
  split; [exact Hinv|].
  split; [apply lay_inv_layout_ok; [apply wf_t3of; exact Hwf|exact Hinv]|]. clear Hinv.
  assert (Hlen : length bl = length (vsof h)) by apply assign_length.
  cbn [l_xsz l_begins l_begin_var l_begin_rec l_recsize].
  rewrite fixed_pairs_set_begins, rec_pairs_set_begins, (begin_var_of_sel _ _ br Hlen).
  unfold bl. rewrite sel_false_assign, sel_true_assign, <- fend_last_end. fold fe.
  pose proof (fpairs_bi (vsof h) [] bv1 (Forall_nil _)) as Hbi.
  pose proof (rpairs_contig_nil (vsof h) br) as Hct.
  split; [reflexivity|].
  split. { rewrite !length_Zlen, assign_length. unfold vsof. rewrite map_length. reflexivity. }
  split; [exact Hb1|]. split; [exact Hb3|].
  destruct (fpairs (vsof h) [] bv1) as [|[b len] rest] eqn:Ep.
  - pose proof (fpairs_nil_fend _ _ _ Ep) as Efe. fold fe in Efe.
    repeat split; try assumption; try reflexivity; lia.
  - (* the first fixed variable sits at bv1, which is aligned *)
    assert (b = bv1) by (rewrite (fpairs_head _ _ _ _ _ _ Ep); apply rndup4_id, Hb2). subst b.
    assert (Hne : h_vars h <> []) by (intros C; unfold vsof in Ep; rewrite C in Ep; discriminate Ep).
    destruct (Hb3 Hne) as [Hb4 Hb5].
    repeat split; try assumption; try reflexivity; lia.
Qed.

(** * 9. REDEFINITION: abstract core                                       *)

Lemma rsum_app : forall a b, rsum (a ++ b) = rsum a + rsum b.
Proof.
  induction a as [|[k len] a IH]; intros b; cbn [app rsum]; [lia|]. rewrite IH. destruct k; lia.
Qed.

Lemma rsum_no_rec : forall t3 : tlist,
  filter (fun t : bool * Z * Z => fst (fst t)) t3 = [] -> rsum (map fst t3) = 0.
Proof.
  induction t3 as [|[[k len] u] r IH]; intros H; [reflexivity|].
  cbn [filter fst] in H. destruct k; [discriminate H|]. cbn [map fst rsum]. exact (IH H).
Qed.

Lemma rsum_ge_in : forall (t3 : tlist) t, wf_t3 t3 ->
  In t (filter (fun t : bool * Z * Z => fst (fst t)) t3) -> snd (fst t) <= rsum (map fst t3).
Proof.
  induction t3 as [|[[k len] u] r IH]; intros t Hwf Hin; [destruct Hin|].
  inversion Hwf as [|? ? Hp Hr]; subst. cbn [fst snd] in Hp.
  pose proof (rsum_nonneg _ (proj1 (wf_t3_lens r Hr))) as Hnn.
  cbn [filter fst] in Hin. cbn [map fst rsum]. destruct k.
  - destruct Hin as [<-|Hin]; [cbn [fst snd]; lia|]. specialize (IH t Hr Hin). lia.
  - exact (IH t Hr Hin).
Qed.

Lemma rs_rule_bounds : forall t3, wf_t3 t3 -> 0 <= rs_rule t3 <= rsum (map fst t3).
Proof.
  intros t3 Hwf. unfold rs_rule.
  pose proof (rsum_nonneg _ (proj1 (wf_t3_lens t3 Hwf))) as Hnn.
  destruct (last_opt (filter (fun t : bool * Z * Z => fst (fst t)) t3)) as [[[k ll] u]|] eqn:El;
    [|lia].
  apply last_opt_In, filter_In in El. destruct El as [Hin _].
  unfold wf_t3 in Hwf. rewrite Forall_forall in Hwf. specialize (Hwf _ Hin). cbn [fst snd] in Hwf.
  destruct (Z.eqb_spec (rsum (map fst t3)) ll); lia.
Qed.

(** the record size never shrinks when variables are appended *)
Lemma rs_rule_mono : forall t3o ext3, wf_t3 (t3o ++ ext3) -> rs_rule t3o <= rs_rule (t3o ++ ext3).
Proof.
  intros t3o ext3 Hwf. destruct (proj1 (wf_t3_app _ _) Hwf) as [Hwo Hwe].
  pose proof (rs_rule_bounds t3o Hwo) as Hbo.
  unfold rs_rule at 2. rewrite map_app, rsum_app, filter_app.
  destruct (snoc_cases (filter (fun t : bool * Z * Z => fst (fst t)) ext3))
    as [En|[l [x El]]].
  - rewrite En, app_nil_r, (rsum_no_rec ext3 En), Z.add_0_r. unfold rs_rule. lia.
  - rewrite El, app_assoc, last_opt_snoc. destruct x as [[k ll] u].
    assert (Hin : In (k, ll, u) (filter (fun t : bool * Z * Z => fst (fst t)) ext3))
      by (rewrite El; apply in_or_app; right; left; reflexivity).
    pose proof (rsum_ge_in ext3 _ Hwe Hin) as Hge. cbn [fst snd] in Hge.
    apply filter_In in Hin. destruct Hin as [Hin _].
    unfold wf_t3 in Hwe. rewrite Forall_forall in Hwe. specialize (Hwe _ Hin). cbn [fst snd] in Hwe.
    destruct (Z.eqb_spec (rsum (map fst t3o) + rsum (map fst ext3)) ll); lia.
Qed.

Section RedefCore.
  Variables (t3o ext3 : tlist) (obl : list Z) (obv obr xsz bv1 br : Z).
  Let vo := map fst t3o.
  Let vs := map fst (t3o ++ ext3).
  Let oldf := map fst (sel false vo obl).
  Let oldr := map fst (sel true vo obl).
  Let bl := assign vs oldf oldr bv1 br.
  Let nbv := begin_var_of vs bl br.

  Hypothesis Hwf : wf_t3 (t3o ++ ext3).
  (* the old layout *)
  Hypothesis Holen : length obl = length vo.
  Hypothesis Hobi : begins_increasing obv (sel false vo obl) = true.
  Hypothesis Hobv : obv = match sel false vo obl with (b, _) :: _ => b | [] => obr end.
  Hypothesis Hoend : last_end obv (sel false vo obl) <= obr.
  Hypothesis Hobr4 : obr mod 4 = 0.
  Hypothesis Hoc : contig obr (sel true vo obl).
  (* the new section starts *)
  Hypothesis Hbv_x : xsz <= bv1.
  Hypothesis Hbv_o : obv <= bv1.
  Hypothesis Hbr_o : obr <= br.
  Hypothesis Hbr_f : fend vs oldf bv1 <= br.
  Hypothesis Hbr4 : br mod 4 = 0.

  Lemma rc_vs : vs = vo ++ map fst ext3.
  Proof. unfold vs, vo. apply map_app. Qed.

  Lemma rc_inv : lay_inv (t3o ++ ext3) (mklayout xsz nbv br (rs_rule (t3o ++ ext3)) bl).
  Proof.
    apply (mk_lay_inv (t3o ++ ext3) vs _ xsz bv1 br oldf oldr eq_refl eq_refl); try assumption.
    - unfold oldf. exact (bi_fst_mod4 _ _ Hobi).
    - fold vs. rewrite rc_vs. unfold oldr. apply (rpairs_contig vo obl _ obr br Holen Hoc Hbr_o).
  Qed.

  Lemma rc_bl_len : length bl = length vs.
  Proof. apply assign_length. Qed.

  Lemma rc_lens_nonneg : Forall (fun p : bool * Z => 0 <= snd p) vs /\
                         Forall (fun p : bool * Z => 0 <= snd p) vo.
  Proof.
    destruct (wf_t3_lens _ Hwf) as [Hnn _]. fold vs in Hnn. split; [exact Hnn|].
    rewrite rc_vs in Hnn. apply Forall_app in Hnn. exact (proj1 Hnn).
  Qed.

  Lemma rc_new : begins_increasing nbv (sel false vs bl) = true /\
                 last_end nbv (sel false vs bl) <= br /\ contig br (sel true vs bl).
  Proof.
    destruct rc_inv as (_ & _ & Hbi & _ & Hle & _ & Hc & _). repeat split; assumption.
  Qed.

  Lemma rc_nbv_ge : bv1 <= nbv /\ nbv <= br.
  Proof.
    destruct rc_new as (Hbi & Hle & _). destruct rc_lens_nonneg as [Hnn _].
    pose proof (last_end_ge _ nbv (sel_lens_Forall (fun x => 0 <= x) false vs bl Hnn) Hbi) as Hge.
    split; [|lia]. unfold nbv, bl. rewrite (begin_var_of_sel _ _ _ rc_bl_len). fold bl.
    unfold bl at 1. rewrite sel_false_assign.
    destruct (fpairs vs oldf bv1) as [|[b len] rest] eqn:Ep.
    - pose proof (fpairs_nil_fend _ _ _ Ep). lia.
    - rewrite (fpairs_head _ _ _ _ _ _ Ep).
      exact (proj1 (fix_b_ok bv1 oldf (bi_fst_mod4 _ _ Hobi))).
  Qed.

  Lemma rc_old_index : forall i, 0 <= i < Zlen vo ->
    0 <= i < Zlen vs /\ znth vs i dvs = znth vo i dvs.
  Proof.
    intros i Hi. rewrite rc_vs, Zlen_app. pose proof (Zlen_nonneg (map fst ext3)).
    split; [lia|apply znth_app_l; lia].
  Qed.

  (** old fixed variables: never move down, stay ordered and disjoint, inside their sections *)
  Lemma rc_fixed : forall i, 0 <= i < Zlen vo -> fst (znth vo i dvs) = false ->
    0 <= snd (znth vo i dvs) /\
    znth obl i 0 <= znth bl i 0 /\
    obv <= znth obl i 0 /\ znth obl i 0 + snd (znth vo i dvs) <= obr /\
    nbv <= znth bl i 0 /\ znth bl i 0 + snd (znth vo i dvs) <= br.
  Proof.
    intros i Hi Hk. destruct rc_lens_nonneg as [Hnn Hnno]. destruct rc_new as (Hbi & Hle & _).
    destruct (bi_sel_at false vo obl obv Holen Hnno Hobi i Hi Hk) as (A & B & C).
    destruct (rc_old_index i Hi) as [Hi' Ei].
    pose proof (bi_sel_at false vs bl nbv rc_bl_len Hnn Hbi i Hi') as Hn.
    rewrite Ei in Hn. destruct (Hn Hk) as (A' & B' & C').
    split; [apply (znth_Forall (fun p => 0 <= snd p)); [cbn [dvs snd]; lia|exact Hnno]|].
    split; [unfold bl; rewrite rc_vs; apply assign_fixed_old; assumption|]. lia.
  Qed.

  Lemma rc_fixed_order : forall i j, 0 <= i -> i < j -> j < Zlen vo ->
    fst (znth vo i dvs) = false -> fst (znth vo j dvs) = false ->
    znth obl i 0 + snd (znth vo i dvs) <= znth obl j 0 /\
    znth bl i 0 + snd (znth vo i dvs) <= znth bl j 0.
  Proof.
    intros i j Hi Hij Hj Hki Hkj. destruct rc_lens_nonneg as [Hnn Hnno]. destruct rc_new as (Hbi & _).
    split; [apply (bi_sel_order false vo obl obv Holen Hnno Hobi); assumption|].
    destruct (rc_old_index i ltac:(lia)) as [_ Ei]. destruct (rc_old_index j ltac:(lia)) as [Hj' Ej].
    rewrite <- Ei. apply (bi_sel_order false vs bl nbv rc_bl_len Hnn Hbi); rewrite ?Ei, ?Ej;
      try assumption; lia.
  Qed.

  (** old record variables keep their offset inside the record *)
  Lemma rc_rec : forall i, 0 <= i < Zlen vo -> fst (znth vo i dvs) = true ->
    znth obl i 0 = obr + roff vo i /\ znth bl i 0 = br + roff vo i /\
    0 <= roff vo i /\ roff vo i + snd (znth vo i dvs) <= rsum vo.
  Proof.
    intros i Hi Hk. destruct rc_lens_nonneg as [_ Hnno]. destruct rc_new as (_ & _ & Hc).
    destruct (rc_old_index i Hi) as [Hi' Ei].
    pose proof (contig_sel_index vs bl br rc_bl_len Hc i Hi') as E2.
    rewrite Ei, rc_vs, roff_app_l in E2 by lia.
    destruct (roff_bounds vo i Hnno Hi) as [B1 B2].
    split; [exact (contig_sel_index vo obl obr Holen Hoc i Hi Hk)|]. auto.
  Qed.

  (** if begin_var does not grow, no old fixed variable moves *)
  Lemma rc_fixed_same : nbv <= obv ->
    forall i, 0 <= i < Zlen vo -> fst (znth vo i dvs) = false -> znth bl i 0 = znth obl i 0.
  Proof.
    intros Hle i Hi Hk. destruct rc_nbv_ge as [Hge _].
    unfold bl. rewrite rc_vs. apply assign_fixed_old; try assumption.
    apply (bi_weaken _ obv); [lia|exact Hobi].
  Qed.
End RedefCore.

(** * 10. REDEFINITION: headers                                            *)

(** the new header extends the old one: the old variables are the first variables of the new
    header, with the same kinds (fixed/record), the same lens and the same unpadded sizes;
    new variables are appended *)
Definition hdr_extends (oh h : hdr) : Prop := exists ext3, t3of h = t3of oh ++ ext3.

(* what ncmpio__enddef hands to NC_begins after a redef: the saved old header's layout and
   variable kinds *)
Definition redef_old (oh : hdr) (ol : layout) : option (layout * list bool) :=
  Some (ol, map (is_recvar (h_dims oh)) (h_vars oh)).

Lemma recs_vo : forall oh, map (is_recvar (h_dims oh)) (h_vars oh) = map fst (map fst (t3of oh)).
Proof. intros oh. unfold t3of. rewrite !map_map. reflexivity. Qed.

Lemma Zlen_t3of : forall h, Zlen (map fst (t3of h)) = Zlen (h_vars h).
Proof. intros h. unfold t3of. rewrite !Zlen_map. reflexivity. Qed.

Section Redef.
  Variables (oh h : hdr) (ol lay : layout) (hm vm ha ra : Z).
  Hypothesis Hwf : hdr_wf h.
  Hypothesis Hhm : 0 <= hm.
  Hypothesis Hvm : 0 <= vm.
  Hypothesis Hha : 0 < ha.
  Hypothesis Hra : 4 <= ra.
  Hypothesis Hra4 : ra mod 4 = 0.
  Hypothesis Hinv : lay_inv (t3of oh) ol.
  Hypothesis Hext : hdr_extends oh h.
  Hypothesis Hbeg : begins h hm vm ha ra (redef_old oh ol) (l_begin_rec ol) = Some lay.

  (* the computed layout over the variable list t3of oh ++ ext3, and what RedefCore asks of
     the starts of the two sections *)
  Lemma redef_setup : forall ext3, t3of h = t3of oh ++ ext3 ->
    let old := redef_old oh ol in
    let vs := map fst (t3of oh ++ ext3) in
    let oldf := map fst (sel false (map fst (t3of oh)) (l_begins ol)) in
    let oldr := map fst (sel true (map fst (t3of oh)) (l_begins ol)) in
    let bv1 := bv1_of h hm ha old in
    let br := begin_rec_of h hm vm ha ra old (l_begin_rec ol) in
    let bl := assign vs oldf oldr bv1 br in
    lay = mklayout (hdr_len h) (begin_var_of vs bl br) br (rs_rule (t3of oh ++ ext3)) bl /\
    wf_t3 (t3of oh ++ ext3) /\
    hdr_len h <= bv1 /\ l_begin_var ol <= bv1 /\ l_begin_rec ol <= br /\
    fend vs oldf bv1 <= br /\ br mod 4 = 0.
  Proof using Hwf Hhm Hvm Hha Hra Hra4 Hinv Hbeg.
    intros ext3 He old vs oldf oldr bv1 br bl.
    assert (Eof : old_fixed_of old = oldf).
    { unfold old, redef_old, old_fixed_of. rewrite recs_vo. apply old_fixed_sel. }
    assert (Eor : old_rec_of old = oldr).
    { unfold old, redef_old, old_rec_of. rewrite recs_vo. apply old_rec_sel. }
    assert (Evs : vsof h = vs) by (rewrite vsof_t3of, He; reflexivity).
    split.
    { destruct (begins_some _ _ _ _ _ _ _ _ Hbeg) as [-> _]. unfold layout_of_begins.
      fold old. fold br. fold bv1. rewrite Eof, Eor, Evs, recsize_of_rule, He. reflexivity. }
    split. { rewrite <- He. apply wf_t3of. exact Hwf. }
    assert (Ebv : bv1 = Z.max (bv1_new h hm ha) (l_begin_var ol)) by reflexivity.
    assert (Hbv0 : hdr_len h <= bv1_new h hm ha).
    { unfold bv1_new. destruct (h_vars h); [lia|]. destruct (rndup_pos (hdr_len h + hm) ha Hha). lia. }
    split; [lia|]. split; [lia|].
    set (fe := fend vs oldf bv1).
    assert (Ebr : br = Z.max (rndup (rndup (Z.max (l_begin_rec ol) (fe + vm)) 4) ra) (l_begin_rec ol)).
    { unfold br, begin_rec_of, end_fixed_of, br3_of. fold old. fold bv1. rewrite Eof, Evs. fold fe.
      replace (ra >? 1) with true by lia. reflexivity. }
    destruct (rndup2_ok (Z.max (l_begin_rec ol) (fe + vm)) ra Hra Hra4) as (R1 & R2 & _).
    destruct Hinv as (_ & _ & _ & _ & _ & Hobr4 & _). rewrite Ebr. lia.
  Qed.

  (** the invariant is preserved by a redefinition, hence holds after every
      history create; enddef; (redef; enddef)^n *)
  Theorem begins_lay_inv_redef : lay_inv (t3of h) lay.
  Proof.
    destruct Hext as [ext3 He]. destruct (redef_setup ext3 He) as (-> & Hw & B1 & B2 & B3 & B4 & B5).
    destruct Hinv as (Holen & Hox & Hobi & Hobv & Hoend & Hobr4 & Hoc & Hors).
    rewrite He. apply (rc_inv (t3of oh) ext3 (l_begins ol) (l_begin_var ol) (l_begin_rec ol)); assumption.
  Qed.

  (** layout_ok after a redefinition *)
  Theorem begins_layout_ok_redef :
    layout_ok (set_begins h (l_begins lay)) (l_xsz lay) = true /\
    l_xsz lay = hdr_len h /\ Zlen (l_begins lay) = Zlen (h_vars h) /\
    l_recsize lay = recsize_of h.
  Proof.
    pose proof begins_lay_inv_redef as Hi.
    split; [apply lay_inv_layout_ok; [apply wf_t3of; exact Hwf|exact Hi]|].
    destruct Hi as (Hl & _ & _ & _ & _ & _ & _ & Hrs).
    apply begins_some in Hbeg. destruct Hbeg as [E _].
    split; [rewrite E; reflexivity|].
    split; [rewrite !length_Zlen, Hl, <- !length_Zlen; apply Zlen_t3of|].
    rewrite Hrs. symmetry. apply recsize_of_rule.
  Qed.

  (** the index-level facts the data mover needs (Proofs_Redef.v); old variable i is
      variable i of both headers, kind and len read from the old header *)
  Theorem begins_redef_facts :
    let vo := vsof oh in
    let ob := fun i => znth (l_begins ol) i 0 in
    let nb := fun i => znth (l_begins lay) i 0 in
    let kind := fun i => fst (znth vo i dvs) in
    let len := fun i => snd (znth vo i dvs) in
    (* the first variables of the new header are the old ones *)
    (forall i, 0 <= i < Zlen (h_vars oh) -> znth (vsof h) i dvs = znth vo i dvs) /\
    Zlen (h_vars oh) <= Zlen (h_vars h) /\
    (* fixed variables *)
    (forall i, 0 <= i < Zlen (h_vars oh) -> kind i = false ->
       0 <= len i /\ ob i <= nb i /\
       l_begin_var ol <= ob i /\ ob i + len i <= l_begin_rec ol /\
       l_begin_var lay <= nb i /\ nb i + len i <= l_begin_rec lay) /\
    (forall i j, 0 <= i -> i < j -> j < Zlen (h_vars oh) -> kind i = false -> kind j = false ->
       ob i + len i <= ob j /\ nb i + len i <= nb j) /\
    (* record variables: same offset inside the record before and after *)
    (forall i, 0 <= i < Zlen (h_vars oh) -> kind i = true ->
       ob i = l_begin_rec ol + roff vo i /\ nb i = l_begin_rec lay + roff vo i /\
       0 <= roff vo i /\ roff vo i + len i <= rsum vo) /\
    (* sections *)
    hdr_len h <= l_begin_var lay /\ l_begin_var lay <= l_begin_rec lay /\
    l_begin_var ol <= l_begin_var lay /\ l_begin_rec ol <= l_begin_rec lay /\
    0 <= l_recsize ol /\ l_recsize ol <= l_recsize lay /\ l_recsize ol <= rsum vo /\
    (* if begin_var does not grow, no old fixed variable moves *)
    (l_begin_var lay <= l_begin_var ol ->
       forall i, 0 <= i < Zlen (h_vars oh) -> kind i = false -> nb i = ob i).
  Proof.
    cbv zeta. destruct Hext as [ext3 He].
    destruct (redef_setup ext3 He) as (-> & Hw & B1 & B2 & B3 & B4 & B5).
    destruct Hinv as (Holen & Hox & Hobi & Hobv & Hoend & Hobr4 & Hoc & Hors).
    cbn [l_begins l_begin_var l_begin_rec l_recsize].
    assert (Evs : vsof h = map fst (t3of oh) ++ map fst ext3)
      by (rewrite vsof_t3of, He; apply map_app).
    assert (Enn : Zlen (h_vars h) = Zlen (map fst (t3of oh)) + Zlen (map fst ext3))
      by (rewrite <- Zlen_t3of, He, map_app; apply Zlen_app).
    rewrite Evs, (vsof_t3of oh), <- (Zlen_t3of oh), Enn.
    pose proof (Zlen_nonneg (map fst ext3)) as Hen.
    pose proof (rs_rule_bounds _ (proj1 (proj1 (wf_t3_app _ _) Hw))) as Hrb.
    pose proof (rs_rule_mono _ _ Hw) as Hrm.
    pose proof (rc_nbv_ge (t3of oh) ext3 (l_begins ol) (l_begin_var ol) (l_begin_rec ol)
                  (hdr_len h) _ _ Hw Holen Hobi Hoc B1 B3 B4 B5) as Hnbv.
    split; [intros i Hi; apply znth_app_l; lia|].
    split; [lia|].
    split; [eapply rc_fixed; eassumption|].
    split; [eapply rc_fixed_order; eassumption|].
    split; [eapply rc_rec; eassumption|].
    rewrite Hors. repeat (split; [lia|]).
    eapply rc_fixed_same; eassumption.
  Qed.

  (** nothing ever moves towards the beginning of the file *)
  Theorem begins_monotone :
    (forall i, 0 <= i < Zlen (h_vars oh) ->
       znth (l_begins ol) i 0 <= znth (l_begins lay) i 0) /\
    l_begin_var ol <= l_begin_var lay /\
    l_begin_rec ol <= l_begin_rec lay /\
    l_recsize ol <= l_recsize lay /\ 0 <= l_recsize ol.
  Proof.
    pose proof begins_redef_facts as F. cbv zeta in F.
    destruct F as (_ & _ & Hfix & _ & Hrec & _ & _ & Hbv & Hbr & Hrs0 & Hrs & _).
    split; [|auto]. intros i Hi.
    (* a record variable moves with begin_rec, a fixed one by rc_fixed *)
    destruct (fst (znth (vsof oh) i dvs)) eqn:Ek.
    - destruct (Hrec i Hi Ek) as (E1 & E2 & _). rewrite E1, E2. lia.
    - apply (Hfix i Hi Ek).
  Qed.
End Redef.

(** * 11. C18: when does enddef fail with NC_EVARSIZE                      *)

Lemma over_int_Exists : forall l, over_int l = true <-> Exists (fun s => s > NC_MAX_INT) l.
Proof.
  intros l. unfold over_int. rewrite existsb_exists, Exists_exists.
  split; intros [x [Hin Hx]]; exists x; split; try assumption; lia.
Qed.

(** the exact failure condition of NC_begins, every case (new file or redefinition):
    CDF-1 and the running end offset seen when some fixed or record variable is placed
    exceeds NC_MAX_INT = 2^31-1 *)
Theorem begins_none_iff : forall h hm vm ha ra old pbr,
  begins h hm vm ha ra old pbr = None <->
  h_format h = 1 /\
  (Exists (fun s => s > NC_MAX_INT) (fstarts (vsof h) (old_fixed_of old) (bv1_of h hm ha old)) \/
   Exists (fun s => s > NC_MAX_INT) (rstarts (vsof h) (begin_rec_of h hm vm ha ra old pbr))).
Proof.
  intros h hm vm ha ra old pbr. rewrite begins_eq, <- !over_int_Exists.
  transitivity (begins_overflow h hm vm ha ra old pbr = true).
  - destruct (begins_overflow h hm vm ha ra old pbr); split; congruence.
  - unfold begins_overflow. rewrite andb_true_iff, orb_true_iff, Z.eqb_eq. reflexivity.
Qed.

Corollary begins_not_none_fmt : forall h hm vm ha ra old pbr,
  h_format h <> 1 -> begins h hm vm ha ra old pbr <> None.
Proof. intros h hm vm ha ra old pbr Hf C. apply begins_none_iff in C. destruct C as [C _]. contradiction. Qed.

(* the running end offsets are the ends of the preceding variables *)
Fixpoint prev_ends (e : Z) (l : list (Z * Z)) : list Z :=
  match l with [] => [] | (b, len) :: r => e :: prev_ends (b + len) r end.

Lemma fstarts_prev_ends : forall vs oldf e, fstarts vs oldf e = prev_ends e (fpairs vs oldf e).
Proof.
  induction vs as [|[k len] r IH]; intros oldf e; [reflexivity|].
  destruct k; cbn [fstarts fpairs prev_ends]; rewrite IH; reflexivity.
Qed.

Lemma rstarts_rpairs : forall vs e, rstarts vs e = map fst (rpairs vs [] e).
Proof.
  induction vs as [|[k len] r IH]; intros e; [reflexivity|].
  destruct k; cbn [rstarts rpairs rec_b tl map fst]; rewrite IH; reflexivity.
Qed.

(* new file, aligned start: a fixed variable begins exactly at the end of the previous one *)
Lemma fstarts_new : forall vs e, e mod 4 = 0 -> Forall (fun p : bool * Z => snd p mod 4 = 0) vs ->
  fstarts vs [] e = map fst (fpairs vs [] e).
Proof.
  induction vs as [|[k len] r IH]; intros e He H; [reflexivity|].
  inversion H as [|? ? Hp Hr]; subst. cbn [snd] in Hp.
  destruct k; cbn [fstarts fpairs fix_b tl map fst].
  - apply IH; assumption.
  - rewrite (rndup4_id e He). rewrite IH; [reflexivity|lia|exact Hr].
Qed.

Lemma Exists_sel_split : forall (P : Z -> Prop) vs bl, length bl = length vs ->
  (Exists P bl <-> Exists P (map fst (sel false vs bl)) \/ Exists P (map fst (sel true vs bl))).
Proof.
  intros P vs. induction vs as [|[k len] r IH]; intros [|b bl] Hl; cbn [length] in Hl;
    try discriminate Hl.
  - cbn [sel map]. split; [intros H; inversion H|intros [H|H]; inversion H].
  - injection Hl as Hl. specialize (IH bl Hl). cbn [sel].
    destruct k; cbn [Bool.eqb map fst]; rewrite !Exists_cons, IH; tauto.
Qed.

(** NEW file: enddef's offset test fails exactly for CDF-1 when some variable of the layout
    that would be computed begins beyond NC_MAX_INT *)
Theorem begins_none_iff_new : forall h hm vm ha ra,
  0 <= hm -> 0 < ha -> ha mod 4 = 0 ->
  (begins h hm vm ha ra None 0 = None <->
   h_format h = 1 /\
   Exists (fun b => b > NC_MAX_INT) (l_begins (layout_of_begins h hm vm ha ra None 0))).
Proof.
  intros h hm vm ha ra Hhm Hha Hha4. rewrite begins_none_iff.
  cbn [old_fixed_of]. change (bv1_of h hm ha None) with (bv1_new h hm ha).
  destruct (bv1_new_ok h hm ha Hhm Hha Hha4) as (_ & Hb4 & _).
  assert (H4 : Forall (fun p : bool * Z => snd p mod 4 = 0) (vsof h)).
  { unfold vsof. apply Forall_forall. intros p Hp. apply in_map_iff in Hp.
    destruct Hp as [v [<- _]]. cbn [snd]. apply var_len_unpadded. }
  rewrite (fstarts_new _ _ Hb4 H4), rstarts_rpairs.
  unfold layout_of_begins. cbn [l_begins old_fixed_of old_rec_of].
  change (bv1_of h hm ha None) with (bv1_new h hm ha).
  rewrite (Exists_sel_split _ (vsof h) _ (assign_length _ _ _ _ _)).
  rewrite sel_false_assign, sel_true_assign. reflexivity.
Qed.

(** "enddef succeeds exactly when the size rules hold" (new file) *)
Definition enddef_ok (h : hdr) (hm vm ha ra : Z) : Prop :=
  check_vlens h = NC_NOERR /\ begins h hm vm ha ra None 0 <> None.

Definition size_rules (h : hdr) (hm vm ha ra : Z) : Prop :=
  Proofs_Vlen.check_vlens_rule h /\
  (h_format h = 1 ->
   Forall (fun b => b <= NC_MAX_INT) (l_begins (layout_of_begins h hm vm ha ra None 0))).

Theorem enddef_size_verdict : forall h hm vm ha ra,
  0 <= hm -> 0 < ha -> ha mod 4 = 0 ->
  (enddef_ok h hm vm ha ra <-> size_rules h hm vm ha ra).
Proof.
  intros h hm vm ha ra Hhm Hha Hha4. unfold enddef_ok, size_rules.
  rewrite Proofs_Vlen.check_vlens_iff_rule, (begins_none_iff_new h hm vm ha ra Hhm Hha Hha4).
  set (bl := l_begins (layout_of_begins h hm vm ha ra None 0)).
  assert (E : Forall (fun b => b <= NC_MAX_INT) bl <-> ~ Exists (fun b => b > NC_MAX_INT) bl).
  { rewrite <- Forall_Exists_neg. split; apply Forall_impl; intros b; lia. }
  rewrite E. tauto.
Qed.

(** and which error: NC_EVARSIZE in both failing cases (see Exec.do_enddef) *)
Corollary enddef_fails_iff : forall h hm vm ha ra,
  0 <= hm -> 0 < ha -> ha mod 4 = 0 ->
  (check_vlens h = NC_EVARSIZE \/ begins h hm vm ha ra None 0 = None <->
   ~ size_rules h hm vm ha ra).
Proof.
  intros h hm vm ha ra Hhm Hha Hha4.
  rewrite <- (enddef_size_verdict h hm vm ha ra Hhm Hha Hha4). unfold enddef_ok.
  pose proof Proofs_Vlen.NC_NOERR_ne_EVARSIZE as Hne.
  destruct (Proofs_Vlen.check_vlens_two_values h) as [E|E]; rewrite E;
    destruct (begins h hm vm ha ra None 0); intuition congruence.
Qed.

(** the vsize field written for a variable reads back as the format's expected vsize
    (saturation at 2^32-1 for CDF-1/2) *)
Theorem vsize_saturation : forall fmt len r, 0 <= len ->
  (fmt <? 5) || (len <? 18446744073709551616) = true ->
  p_nn fmt (vsize_field fmt len ++ r) = Some (expected_vsize fmt len, r).
Proof.
  intros fmt len r H0 H. rewrite p_vsize_field, (dec_vsize_expected fmt len H0 H). reflexivity.
Qed.

(** * 12. hdr_extends holds for what ncmpi_redef allows                    *)

(** appending dimensions and variables (and changing attributes, numrecs, begins in any way)
    extends the header, provided the old variables only use existing dimensions *)
Lemma var_shape_app_dims : forall dims nd v,
  Forall (fun id => 0 <= id < Zlen dims) (v_dimids v) ->
  var_shape (dims ++ nd) v = var_shape dims v.
Proof.
  intros dims nd v H. unfold var_shape. apply map_ext_in. intros id Hid.
  rewrite Forall_forall in H. specialize (H id Hid). unfold dim_size. rewrite znth_app_l by lia.
  reflexivity.
Qed.

Theorem hdr_extends_append : forall oh fmt nr nd gatts vars' nv,
  Forall (fun v => Forall (fun id => 0 <= id < Zlen (h_dims oh)) (v_dimids v)) (h_vars oh) ->
  (* the old variables, up to attributes / begin / fill mode *)
  map (fun v => (v_dimids v, v_type v)) vars' = map (fun v => (v_dimids v, v_type v)) (h_vars oh) ->
  hdr_extends oh (mkhdr fmt nr (h_dims oh ++ nd) gatts (vars' ++ nv)).
Proof.
  intros oh fmt nr nd gatts vars' nv Hids Hsame.
  exists (map (fun v => (is_recvar (h_dims oh ++ nd) v, var_len (h_dims oh ++ nd) v,
                         unpadded (h_dims oh ++ nd) v)) nv).
  unfold t3of. cbn [h_dims h_vars]. rewrite map_app. f_equal.
  revert vars' Hsame. induction Hids as [|v vars Hv Hvars IH]; intros [|v' vars'] Hsame;
    cbn [map] in Hsame; try discriminate Hsame; [reflexivity|].
  injection Hsame as Hd Ht Hrest. cbn [map]. rewrite (IH vars' Hrest). f_equal.
  assert (Hs : var_shape (h_dims oh ++ nd) v' = var_shape (h_dims oh) v).
  { unfold var_shape. rewrite Hd. apply (var_shape_app_dims (h_dims oh) nd v Hv). }
  unfold is_recvar, var_len, unpadded. rewrite Hs, Ht. reflexivity.
Qed.

(** * 13. Examples: a concrete header (2 fixed + 2 record variables, CDF-1) and its redefinition *)
Definition ex_dims0 : list dim := [mkdim [116] 0; mkdim [120] 5; mkdim [121] 3].

Definition ex_h0 : hdr :=
  mkhdr 1 0 ex_dims0 []
    [ mkvar [97] [1] [] 3 0 false;           (* short a(x)     fixed   10 -> 12 bytes *)
      mkvar [114; 49] [0; 2] [] 4 0 false;   (* int   r1(t,y)  record  12 bytes       *)
      mkvar [98] [1; 2] [] 1 0 false;        (* byte  b(x,y)   fixed   15 -> 16 bytes *)
      mkvar [114; 50] [0; 1] [] 3 0 false ]. (* short r2(t,x)  record  10 -> 12 bytes *)

(* ncmpi__enddef(ncid, 0, 512, 0, 64) on a new file: h_align 512, r_align 64 *)
Example ex_align0 : resolve_align (mkalign 0 0 0) (mkeargs 0 512 0 64) 4 true = (512, 512, 64).
Proof. vm_compute. reflexivity. Qed.

Definition ex_l0 : layout := mklayout 224 512 576 24 [512; 576; 524; 588].

Example ex_begins0 : begins ex_h0 0 0 512 64 None 0 = Some ex_l0.
Proof. vm_compute. reflexivity. Qed.

Example ex_hdr_wf0 : hdr_wf ex_h0.
Proof. unfold hdr_wf. cbn [h_dims ex_h0 ex_dims0]. repeat (apply Forall_cons; [cbn [d_size]; lia|]). apply Forall_nil. Qed.

(* every hypothesis of begins_layout_ok is satisfied; its conclusions on the instance *)
Example ex_layout_ok0 :=
  begins_layout_ok ex_h0 0 0 512 64 ex_l0 ex_hdr_wf0 ltac:(lia) ltac:(lia) ltac:(lia)
    eq_refl ltac:(lia) eq_refl ex_begins0.

Example ex_layout_ok0_direct :
  layout_ok (set_begins ex_h0 (l_begins ex_l0)) (l_xsz ex_l0) = true /\
  fixed_pairs (set_begins ex_h0 (l_begins ex_l0)) = [(512, 12); (524, 16)] /\
  rec_pairs (set_begins ex_h0 (l_begins ex_l0)) = [(576, 12); (588, 12)] /\
  recsize_of ex_h0 = 24.
Proof. vm_compute. repeat split; reflexivity. Qed.

(* exactly one record variable: unpadded record size *)
Example ex_single_rec :
  let h := mkhdr 1 0 ex_dims0 [] [mkvar [114; 50] [0; 1] [] 3 0 false] in
  begins h 0 0 4 4 None 0 = Some (mklayout 108 108 108 10 [108]).
Proof. vm_compute. reflexivity. Qed.

(* ---------- redefinition: the header grows beyond 512 bytes (a 600-byte attribute), one new
   dimension, one new fixed and one new record variable ---------- *)
Definition ex_oh : hdr := set_numrecs (set_begins ex_h0 (l_begins ex_l0)) 3.

Definition ex_h1 : hdr :=
  mkhdr 1 3 (ex_dims0 ++ [mkdim [122] 4]) [mkatt [99] 2 600 (repeat 65 600%nat)]
    (h_vars ex_oh ++ [ mkvar [99] [3] [] 6 0 false;          (* double c(z)   fixed  32 bytes *)
                       mkvar [114; 51] [0] [] 5 0 false ]).  (* float  r3(t)  record  4 bytes *)

Definition ex_l1 : layout := mklayout 924 1024 1088 28 [1024; 1088; 1036; 1100; 1052; 1112].

Example ex_align1 : resolve_align (mkalign 0 0 0) (mkeargs 0 512 0 64) 3 false = (512, 512, 64).
Proof. vm_compute. reflexivity. Qed.

Example ex_begins1 :
  begins ex_h1 0 0 512 64 (redef_old ex_oh ex_l0) (l_begin_rec ex_l0) = Some ex_l1.
Proof. vm_compute. reflexivity. Qed.

Example ex_hdr_wf1 : hdr_wf ex_h1.
Proof.
  unfold hdr_wf. cbn [h_dims ex_h1 ex_dims0 app].
  repeat (apply Forall_cons; [cbn [d_size]; lia|]). apply Forall_nil.
Qed.

Example ex_extends1 : hdr_extends ex_oh ex_h1.
Proof.
  apply (hdr_extends_append ex_oh 1 3 [mkdim [122] 4] _ (h_vars ex_oh) _).
  - cbn. change (Zlen ex_dims0) with 3.
    repeat (apply Forall_cons; [repeat (apply Forall_cons; [lia|]); apply Forall_nil|]).
    apply Forall_nil.
  - reflexivity.
Qed.

Example ex_lay_inv0 : lay_inv (t3of ex_oh) ex_l0.
Proof. exact (proj1 ex_layout_ok0). Qed.

Example ex_lay_inv1 : lay_inv (t3of ex_h1) ex_l1 :=
  begins_lay_inv_redef ex_oh ex_h1 ex_l0 ex_l1 0 0 512 64 ex_hdr_wf1 ltac:(lia) ltac:(lia)
    ltac:(lia) ltac:(lia) eq_refl ex_lay_inv0 ex_extends1 ex_begins1.

Example ex_monotone1 :=
  begins_monotone ex_oh ex_h1 ex_l0 ex_l1 0 0 512 64 ex_hdr_wf1 ltac:(lia) ltac:(lia)
    ltac:(lia) ltac:(lia) eq_refl ex_lay_inv0 ex_extends1 ex_begins1.

Example ex_layout_ok1 :=
  begins_layout_ok_redef ex_oh ex_h1 ex_l0 ex_l1 0 0 512 64 ex_hdr_wf1 ltac:(lia) ltac:(lia)
    ltac:(lia) ltac:(lia) eq_refl ex_lay_inv0 ex_extends1 ex_begins1.

(* second redefinition shape: the header does not grow, one new fixed variable: only the
   record section moves (begin_var stays 512) *)
Definition ex_h2 : hdr :=
  mkhdr 1 3 ex_dims0 [] (h_vars ex_oh ++ [ mkvar [99] [1] [] 6 0 false ]).
Definition ex_l2 : layout := mklayout 260 512 640 24 [512; 640; 524; 652; 540].
Example ex_begins2 :
  begins ex_h2 0 0 512 64 (redef_old ex_oh ex_l0) (l_begin_rec ex_l0) = Some ex_l2.
Proof. vm_compute. reflexivity. Qed.

(* C18 on instances: CDF-1, a fixed variable of 2^31-4 bytes followed by a second variable:
   the second one would begin beyond NC_MAX_INT -> NC_EVARSIZE; alone it is accepted *)
Definition ex_big_dims : list dim := [mkdim [120] 2147483644].
Example ex_c18_reject :
  begins (mkhdr 1 0 ex_big_dims [] [mkvar [97] [0] [] 1 0 false; mkvar [98] [] [] 1 0 false])
         0 0 512 4 None 0 = None.
Proof. vm_compute. reflexivity. Qed.
Example ex_c18_accept :
  begins (mkhdr 1 0 ex_big_dims [] [mkvar [97] [0] [] 1 0 false]) 0 0 512 4 None 0 <> None /\
  begins (mkhdr 2 0 ex_big_dims [] [mkvar [97] [0] [] 1 0 false; mkvar [98] [] [] 1 0 false])
         0 0 512 4 None 0 <> None.
Proof. vm_compute. split; discriminate. Qed.

(** * 14. The layout the library re-derives from the header when the file is opened *)

Lemma pairs_sel_v_begin : forall dims k vars,
  map (fun v => (v_begin v, var_len dims v))
      (filter (fun v => Bool.eqb (is_recvar dims v) k) vars) =
  sel k (map (fun v => (is_recvar dims v, var_len dims v)) vars) (map v_begin vars).
Proof.
  intros dims k vars. induction vars as [|v vars IH]; [reflexivity|].
  cbn [filter map sel]. destruct (Bool.eqb (is_recvar dims v) k); cbn [map]; rewrite IH; reflexivity.
Qed.

Lemma fixed_pairs_sel : forall h, fixed_pairs h = sel false (vsof h) (map v_begin (h_vars h)).
Proof. intros h. unfold fixed_pairs. rewrite fixed_vars_eqb. apply pairs_sel_v_begin. Qed.

Lemma rec_pairs_sel : forall h, rec_pairs h = sel true (vsof h) (map v_begin (h_vars h)).
Proof. intros h. unfold rec_pairs. rewrite rec_vars_eqb. apply pairs_sel_v_begin. Qed.

Lemma last_opt_last_end : forall A (f g : A -> Z) l e,
  match last_opt l with Some v => f v + g v | None => e end =
  last_end e (map (fun v => (f v, g v)) l).
Proof.
  intros A f g l. induction l as [|x l IH]; intros e; [reflexivity|].
  rewrite last_opt_cons. cbn [map last_end]. rewrite <- IH.
  destruct (last_opt l); reflexivity.
Qed.

Lemma last_end_mod4 : forall l e, begins_increasing e l = true -> l <> [] ->
  Forall (fun p => snd p mod 4 = 0) l -> last_end e l mod 4 = 0.
Proof.
  induction l as [|[b len] r IH]; intros e Hbi Hne H4; [contradiction|].
  apply bi_cons in Hbi. destruct Hbi as (H1 & H2 & H3).
  inversion H4 as [|? ? Hp Hr]; subst. cbn [snd] in Hp. cbn [last_end].
  destruct r as [|p r]; [cbn [last_end]; lia|]. apply IH; [exact H3|discriminate|exact Hr].
Qed.

(* with no empty record variable the "first" and the "last" reading of the recsize rule agree *)
Lemma rs_rule_first : forall h, hdr_wf h ->
  (forall v, In v (rec_vars h) -> 0 < var_len (h_dims h) v) ->
  rs_rule (t3of h) =
  match rec_vars h with
  | fr :: _ => if zsum (map (var_len (h_dims h)) (rec_vars h)) =? var_len (h_dims h) fr
               then unpadded (h_dims h) fr else zsum (map (var_len (h_dims h)) (rec_vars h))
  | [] => 0 end.
Proof.
  intros h Hwf Hpos. rewrite <- recsize_of_rule.
  destruct (rec_vars h) as [|fr [|v2 rest]] eqn:Er.
  - apply recsize_none. exact Er.
  - rewrite (recsize_single h fr Er). cbn [map zsum]. rewrite Z.add_0_r, Z.eqb_refl. reflexivity.
  - rewrite (recsize_multi h Hwf); [|rewrite Er; cbn [length]; lia|rewrite Er; exact Hpos].
    rewrite Er. cbn [map zsum].
    assert (0 < var_len (h_dims h) v2) by (apply Hpos; right; left; reflexivity).
    assert (0 <= zsum (map (var_len (h_dims h)) rest)).
    { apply zsum_map_nonneg. intros v Hv. apply Z.lt_le_incl, Hpos. right. right. exact Hv. }
    rewrite (proj2 (Z.eqb_neq _ _)) by lia. reflexivity.
Qed.

Lemma no_rec_fixed : forall h, h_vars h <> [] -> rec_vars h = [] -> fixed_vars h <> [].
Proof.
  intros h Hne Er C. apply Hne. unfold rec_vars, fixed_vars in *.
  destruct (h_vars h) as [|v vars]; [reflexivity|]. cbn [filter] in *.
  destruct (is_recvar (h_dims h) v); discriminate.
Qed.

(** C03 "the library's own reports equal what is in the file", and the close/reopen step of a
    redefinition history: the layout HeaderSpec.layout_of_hdr re-derives from a header whose
    begins were assigned by enddef (at least one variable, no empty record variable) has the
    same begin_var, recsize, begins - and begin_rec when there is a record variable, the end of
    the fixed section otherwise - and again satisfies the invariant. *)
Theorem layout_of_hdr_agrees : forall h lay, hdr_wf h ->
  lay_inv (t3of h) lay -> map v_begin (h_vars h) = l_begins lay -> h_vars h <> [] ->
  (forall v, In v (rec_vars h) -> 0 < var_len (h_dims h) v) ->
  let br' := match rec_vars h with
             | [] => last_end (l_begin_var lay) (fixed_pairs h)
             | _ => l_begin_rec lay end in
  layout_of_hdr h (l_xsz lay) =
    mklayout (l_xsz lay) (l_begin_var lay) br' (l_recsize lay) (l_begins lay) /\
  lay_inv (t3of h) (layout_of_hdr h (l_xsz lay)).
Proof.
  intros h lay Hwf Hinv Hbl Hne Hpos br'.
  pose proof (wf_t3of h Hwf) as Hwf3. destruct (wf_t3_lens _ Hwf3) as [Hnn H4].
  destruct Hinv as (Hlen & Hx & Hbi & Hbv & Hle & Hbr4 & Hc & Hrs).
  rewrite <- vsof_t3of in *. rewrite <- Hbl in *.
  rewrite <- fixed_pairs_sel, <- rec_pairs_sel in *.
  assert (Erec : zsum (map (var_len (h_dims h)) (rec_vars h)) = rsum (vsof h))
    by (symmetry; apply rsum_vsof).
  assert (Elay : layout_of_hdr h (l_xsz lay) =
                 mklayout (l_xsz lay) (l_begin_var lay) br' (l_recsize lay) (map v_begin (h_vars h))).
  { unfold layout_of_hdr. fold (fixed_vars h). fold (rec_vars h).
    rewrite (last_opt_last_end var v_begin (var_len (h_dims h)) (fixed_vars h) (l_xsz lay)).
    fold (fixed_pairs h).
    rewrite Hrs, (rs_rule_first h Hwf Hpos). unfold br'.
    unfold rec_pairs in Hc. unfold fixed_pairs in Hbv |- *.
    destruct (rec_vars h) as [|fr rrest] eqn:Er.
    - (* no record variable: there is a fixed one *)
      destruct (fixed_vars h) as [|fv frest] eqn:Efx.
      + destruct (no_rec_fixed h Hne Er Efx).
      + destruct (h_vars h); [contradiction|]. cbn [map] in Hbv |- *. cbn [last_end].
        rewrite Hbv. reflexivity.
    - cbn [map contig] in Hc. destruct Hc as [Hb0 _].
      destruct (h_vars h) eqn:Ev; [contradiction|]. rewrite <- Ev.
      destruct (fixed_vars h) as [|fv frest]; cbn [map] in Hbv |- *; rewrite Hb0, Hbv; reflexivity. }
  split; [rewrite Elay, Hbl; reflexivity|].
  rewrite Elay. unfold lay_inv. cbn [l_begins l_xsz l_begin_var l_begin_rec l_recsize].
  rewrite <- vsof_t3of, <- fixed_pairs_sel, <- rec_pairs_sel.
  split; [exact Hlen|]. split; [exact Hx|]. split; [exact Hbi|].
  unfold br'. destruct (rec_vars h) as [|fr rrest] eqn:Er.
  - assert (Hfne : fixed_pairs h <> []).
    { unfold fixed_pairs. intros C. apply map_eq_nil in C. exact (no_rec_fixed h Hne Er C). }
    split. { destruct (fixed_pairs h) as [|[b l] r]; [contradiction|exact Hbv]. }
    split; [lia|].
    split. { apply last_end_mod4; [exact Hbi|exact Hfne|].
             rewrite fixed_pairs_sel. apply (sel_lens_Forall (fun x => x mod 4 = 0)). exact H4. }
    split; [|exact Hrs]. unfold rec_pairs. rewrite Er. exact I.
  - unfold rec_pairs in Hc |- *. rewrite Er in Hc |- *.
    split; [exact Hbv|]. split; [exact Hle|]. split; [exact Hbr4|]. split; [exact Hc|exact Hrs].
Qed.

Lemma map_v_begin_set_begins : forall h bl, length bl = length (h_vars h) ->
  map v_begin (h_vars (set_begins h bl)) = bl.
Proof.
  intros h bl. unfold set_begins. cbn [h_vars]. rewrite map_map.
  revert bl. induction (h_vars h) as [|v vars IH]; intros [|b bl] Hl;
    cbn [length] in Hl; try discriminate Hl; [reflexivity|].
  injection Hl as Hl. cbn [zip]. rewrite map_cons. f_equal. apply (IH bl Hl).
Qed.

Example ex_reopen0 :
  layout_of_hdr (set_begins ex_h0 (l_begins ex_l0)) 224 = ex_l0.
Proof. vm_compute. reflexivity. Qed.

(* the header kept after enddef (begins and numrecs filled in) has the same variables *)
Lemma t3of_set_begins : forall h bl, length bl = length (h_vars h) ->
  t3of (set_begins h bl) = t3of h.
Proof.
  intros h bl. unfold t3of, set_begins. cbn [h_dims h_vars]. rewrite map_map.
  revert bl. induction (h_vars h) as [|v vars IH]; intros [|b bl] Hl;
    cbn [length] in Hl; try discriminate Hl; [reflexivity|].
  injection Hl as Hl. cbn [zip map fst snd]. rewrite (IH bl Hl). reflexivity.
Qed.

Lemma t3of_set_numrecs : forall h n, t3of (set_numrecs h n) = t3of h.
Proof. reflexivity. Qed.

(** * 15. Every history *)

(** the layouts reachable by create; enddef; (redef; extend the header; enddef | close; open)*  with any
    non-negative minfree and any alignments >= 4, multiples of 4 (resolve_align_ok), indexed by
    the variable list (kind, len, unpadded size) of the header *)
Inductive reachable : tlist -> layout -> Prop :=
| reach_new : forall h hm vm ha ra lay,
    hdr_wf h -> 0 <= hm -> 0 <= vm -> 4 <= ha -> ha mod 4 = 0 -> 4 <= ra -> ra mod 4 = 0 ->
    begins h hm vm ha ra None 0 = Some lay -> reachable (t3of h) lay
| reach_redef : forall oh ol h hm vm ha ra lay,
    reachable (t3of oh) ol ->
    hdr_wf h -> hdr_extends oh h ->
    0 <= hm -> 0 <= vm -> 4 <= ha -> ha mod 4 = 0 -> 4 <= ra -> ra mod 4 = 0 ->
    begins h hm vm ha ra (redef_old oh ol) (l_begin_rec ol) = Some lay -> reachable (t3of h) lay
(* close and reopen: the layout is re-derived from the header in the file *)
| reach_reopen : forall h lay,
    reachable (t3of h) lay -> hdr_wf h -> map v_begin (h_vars h) = l_begins lay ->
    h_vars h <> [] -> (forall v, In v (rec_vars h) -> 0 < var_len (h_dims h) v) ->
    reachable (t3of h) (layout_of_hdr h (l_xsz lay)).

Theorem reachable_lay_inv : forall t3 lay, reachable t3 lay -> lay_inv t3 lay.
Proof.
  intros t3 lay H. induction H as [h hm vm ha ra lay Hwf Hhm Hvm Hha Hha4 Hra Hra4 Hb
                                  |oh ol h hm vm ha ra lay _ IH Hwf Hext Hhm Hvm Hha Hha4 Hra Hra4 Hb
                                  |h lay _ IH Hwf Hbl Hne Hpos].
  - exact (proj1 (begins_layout_ok h hm vm ha ra lay Hwf Hhm Hvm Hha Hha4 Hra Hra4 Hb)).
  - exact (begins_lay_inv_redef oh h ol lay hm vm ha ra Hwf Hhm Hvm ltac:(lia) Hra Hra4 IH Hext Hb).
  - exact (proj2 (layout_of_hdr_agrees h lay Hwf IH Hbl Hne Hpos)).
Qed.

Corollary reachable_layout_ok : forall h lay, hdr_wf h -> reachable (t3of h) lay ->
  layout_ok (set_begins h (l_begins lay)) (l_xsz lay) = true.
Proof.
  intros h lay Hwf H. apply lay_inv_layout_ok; [apply wf_t3of; exact Hwf|].
  apply reachable_lay_inv. exact H.
Qed.

Example ex_reachable1 : reachable (t3of ex_h1) ex_l1.
Proof.
  apply (reach_redef ex_oh ex_l0 ex_h1 0 0 512 64 ex_l1); try lia; try reflexivity.
  - change (t3of ex_oh) with (t3of ex_h0).
    apply (reach_new ex_h0 0 0 512 64 ex_l0); try lia; try reflexivity. exact ex_hdr_wf0.
  - exact ex_hdr_wf1.
  - exact ex_extends1.
Qed.

(** * 16. Two plausible statements that are FALSE of the model (and of the C code) *)

(* 1. "l_begin_var >= hdr_len + h_minfree" fails when NO variable is defined: NC_begins then
   ignores h_minfree and h_align ("no variable defined, ignore alignment and set header extent
   to header size").  begins_layout_ok therefore states it under h_vars h <> []. *)
Definition begin_var_minfree_full : Prop :=
  forall h hm vm ha ra lay, hdr_wf h -> 0 <= hm -> 0 <= vm -> 4 <= ha -> ha mod 4 = 0 ->
    4 <= ra -> ra mod 4 = 0 -> begins h hm vm ha ra None 0 = Some lay ->
    hdr_len h + hm <= l_begin_var lay.

Example begin_var_minfree_novars_cex :
  let h := mkhdr 1 0 [] [] [] in
  hdr_len h = 32 /\
  begins h 100 0 512 4 None 0 = Some (mklayout 32 32 32 0 []).
Proof. vm_compute. split; reflexivity. Qed.

Theorem begin_var_minfree_refuted : ~ begin_var_minfree_full.
Proof.
  intros H.
  specialize (H (mkhdr 1 0 [] [] []) 100 0 512 4 (mklayout 32 32 32 0 [])
                (Forall_nil _) ltac:(lia) ltac:(lia) ltac:(lia) eq_refl ltac:(lia) eq_refl
                (proj2 begin_var_minfree_novars_cex)).
  vm_compute in H. apply H. reflexivity.
Qed.

(* 2. HeaderSpec.layout_ok of the OLD layout is not enough for a redefinition: layout_ok allows a
   gap between two record variables (a file not written by this library), while NC_begins
   advances its running offset by len, not to begin+len, in the record pass.  Old record
   variables at 200 and 220 (8 bytes each), a third one added: it lands at 216 and overlaps
   the second.  The invariant lay_inv (record variables contiguous), which every layout
   computed by begins satisfies, is what begins_layout_ok_redef assumes. *)
Definition ex_gap_dims : list dim := [mkdim [116] 0; mkdim [120] 2].
Definition ex_gap_oh : hdr :=
  mkhdr 1 0 ex_gap_dims [] [mkvar [97] [0; 1] [] 4 200 false; mkvar [98] [0; 1] [] 4 220 false].
Definition ex_gap_h : hdr :=
  mkhdr 1 0 ex_gap_dims [] (h_vars ex_gap_oh ++ [mkvar [99] [0; 1] [] 4 0 false]).

Example redef_needs_contig_cex :
  let ol := layout_of_hdr ex_gap_oh 136 in
  hdr_len ex_gap_oh = 136 /\ layout_ok ex_gap_oh 136 = true /\
  ol = mklayout 136 200 200 16 [200; 220] /\
  begins ex_gap_h 0 0 4 4 (redef_old ex_gap_oh ol) (l_begin_rec ol)
    = Some (mklayout 176 200 200 24 [200; 220; 216]) /\
  layout_ok (set_begins ex_gap_h [200; 220; 216]) 176 = false.
Proof. vm_compute. repeat split; reflexivity. Qed.

Print Assumptions resolve_align_ok.
Print Assumptions begin_var_minfree_refuted.
Print Assumptions reachable_lay_inv.
Print Assumptions layout_of_hdr_agrees.
Print Assumptions reachable_layout_ok.
Print Assumptions begins_eq.
Print Assumptions begins_layout_ok.
Print Assumptions begins_lay_inv_redef.
Print Assumptions begins_layout_ok_redef.
Print Assumptions begins_monotone.
Print Assumptions begins_redef_facts.
Print Assumptions begins_none_iff.
Print Assumptions begins_none_iff_new.
Print Assumptions enddef_size_verdict.
Print Assumptions enddef_fails_iff.
Print Assumptions vsize_saturation.
Print Assumptions hdr_extends_append.
Print Assumptions recsize_single.
Print Assumptions recsize_multi.
