(* Proofs_Redef.v — C06 "redefinition preserves existing data":
   the offset assignment at enddef after a redef (Proofs_Layout.v) composed with the data
   mover (Proofs_Move.v), exactly as ncmpio__enddef / Exec.do_enddef compose them:

       if   new begin_var > old begin_var            move_record_vars; move_fixed_vars
       elif new begin_rec > old begin_rec
            or new recsize > old recsize             move_record_vars
       else                                          nothing
       then write the new header at offset 0.

   Main results, for EVERY old header/layout satisfying the layout invariant, every extending
   new header, all alignment requests, nprocs >= 1, move unit >= 1, numrecs >= 0 and every file
   content:
     moved_disk_blocks        fixed variables and whole records arrive intact
     moved_disk_preserves     every byte of every old variable is found at its new place
     redef_preserves_data     the same after the header has been written over the old one
     triggers_complete        the three-way trigger misses no case: whenever any old variable
                              or record moves, the mover runs *)
From Pnc Require Import Base Header Disk Move.
From Pnc Require Import Proofs_Lists Proofs_Disk Proofs_Move Proofs_Layout.
From Pnc Require Proofs_Header.
Require Import Lia ZArith List Bool ZifyBool.
Import ListNotations.
Local Open Scope Z_scope.

Local Arguments Z.mul : simpl never.
Local Arguments Z.add : simpl never.
Local Arguments Z.sub : simpl never.
Local Arguments Z.div : simpl never.
Local Arguments Z.modulo : simpl never.

(* ====================================================================== *)
(** * 1. What enddef does to the file after a redefinition                 *)
(* ====================================================================== *)

(** the data movement of Exec.do_enddef (d1 there), verbatim *)
Definition moved_disk (d0 : disk) (np unit_ numrecs : Z) (oh h : hdr) (ol lay : layout) : disk :=
  match h_vars h with
  | [] => d0
  | _ =>
    let lens := map (var_len (h_dims h)) (h_vars h) in
    if l_begin_var lay >? l_begin_var ol then
      move_fixed_vars (move_record_vars d0 np unit_ numrecs lay ol) np unit_ oh lay ol lens
    else if (l_begin_rec lay >? l_begin_rec ol) || (l_recsize lay >? l_recsize ol) then
      move_record_vars d0 np unit_ numrecs lay ol
    else d0
  end.

(** ... followed by the header write (d2 of Exec.do_enddef; Exec.write_header is
    [dk_write d 0 (encode_header h)]) *)
Definition new_header (h : hdr) (lay : layout) (numrecs : Z) : hdr :=
  set_numrecs (set_begins h (l_begins lay)) numrecs.

Definition enddef_disk (d0 : disk) (np unit_ numrecs : Z) (oh h : hdr) (ol lay : layout) : disk :=
  dk_write (moved_disk d0 np unit_ numrecs oh h ol lay) 0
           (encode_header (new_header h lay numrecs)).

Lemma moved_disk_nil : forall d0 np unit_ numrecs oh h ol lay, h_vars h = [] ->
  moved_disk d0 np unit_ numrecs oh h ol lay = d0.
Proof. intros. unfold moved_disk. rewrite H. reflexivity. Qed.

Lemma moved_disk_nonnil : forall d0 np unit_ numrecs oh h ol lay, h_vars h <> [] ->
  moved_disk d0 np unit_ numrecs oh h ol lay =
  if l_begin_var lay >? l_begin_var ol then
    move_fixed_vars (move_record_vars d0 np unit_ numrecs lay ol) np unit_ oh lay ol
                    (map (var_len (h_dims h)) (h_vars h))
  else if (l_begin_rec lay >? l_begin_rec ol) || (l_recsize lay >? l_recsize ol) then
    move_record_vars d0 np unit_ numrecs lay ol
  else d0.
Proof.
  intros d0 np unit_ numrecs oh h ol lay H. unfold moved_disk.
  destruct (h_vars h) as [|v vars]; [contradiction|reflexivity].
Qed.

Definition dv : var := mkvar [] [] [] 0 0 true.     (* the default of Move.move_fixed_vars *)

(* ---------- the fv_ views of Proofs_Move against those of Proofs_Layout ---------- *)
Lemma znth_vsof : forall h i, 0 <= i < Zlen (h_vars h) ->
  znth (vsof h) i dvs =
  (is_recvar (h_dims h) (znth (h_vars h) i dv), var_len (h_dims h) (znth (h_vars h) i dv)).
Proof.
  intros h i Hi. unfold vsof.
  exact (znth_map (fun v => (is_recvar (h_dims h) v, var_len (h_dims h) v))
           (h_vars h) i dv dvs Hi).
Qed.

Lemma fv_isfix_kind : forall oh i, 0 <= i < Zlen (h_vars oh) ->
  fv_isfix oh i = negb (fst (znth (vsof oh) i dvs)).
Proof. intros oh i Hi. rewrite (znth_vsof oh i Hi). reflexivity. Qed.

Lemma fv_len_new : forall h i, 0 <= i < Zlen (h_vars h) ->
  fv_len (map (var_len (h_dims h)) (h_vars h)) i = snd (znth (vsof h) i dvs).
Proof.
  intros h i Hi. unfold fv_len. rewrite (znth_vsof h i Hi). cbn [snd].
  exact (znth_map (var_len (h_dims h)) (h_vars h) i dv 0 Hi).
Qed.

(* ====================================================================== *)
(** * 2. One redefinition: old header oh / layout ol, new header h / lay   *)
(* ====================================================================== *)

Section RedefData.
  Variables (oh h : hdr) (ol lay : layout) (hm vm ha ra : Z).
  Variables (d0 : disk) (np unit_ numrecs : Z).
  Hypothesis Hwf : hdr_wf h.
  Hypothesis Hhm : 0 <= hm.
  Hypothesis Hvm : 0 <= vm.
  Hypothesis Hha : 0 < ha.
  Hypothesis Hra : 4 <= ra.
  Hypothesis Hra4 : ra mod 4 = 0.
  Hypothesis Hinv : lay_inv (t3of oh) ol.
  Hypothesis Hext : hdr_extends oh h.
  Hypothesis Hbeg : begins h hm vm ha ra (redef_old oh ol) (l_begin_rec ol) = Some lay.
  Hypothesis Hnp : np >= 1.
  Hypothesis Hu : unit_ >= 1.
  Hypothesis Hnr : 0 <= numrecs.

  Let vo := vsof oh.
  Let ob := fun i => znth (l_begins ol) i 0.
  Let nb := fun i => znth (l_begins lay) i 0.
  Let kind := fun i => fst (znth vo i dvs).
  Let len := fun i => snd (znth vo i dvs).
  Let nold := Zlen (h_vars oh).
  Let lens := map (var_len (h_dims h)) (h_vars h).
  Let d1 := moved_disk d0 np unit_ numrecs oh h ol lay.

  Let Facts := begins_redef_facts oh h ol lay hm vm ha ra Hwf Hhm Hvm Hha Hra Hra4 Hinv Hext Hbeg.

  Lemma rd_fv_len : forall i, 0 <= i < nold -> fv_len lens i = len i.
  Proof.
    intros i Hi. destruct Facts as (Fz & Fn & _). unfold lens, len, vo.
    rewrite fv_len_new by (fold nold in Fn; unfold nold in Hi; lia).
    rewrite (Fz i Hi). reflexivity.
  Qed.

  Lemma rd_fv_isfix : forall i, 0 <= i < nold -> (fv_isfix oh i = true <-> kind i = false).
  Proof.
    intros i Hi. rewrite (fv_isfix_kind oh i Hi). unfold kind, vo.
    destruct (fst (znth (vsof oh) i dvs)); cbn [negb]; split; congruence.
  Qed.

  (** the new layout satisfies the hypothesis of move_fixed_vars_correct *)
  Lemma rd_fixed_move_ok : fixed_move_ok oh lay ol lens.
  Proof.
    destruct Facts as (Fz & Fn & Ff & Fo & _). split.
    - intros i Hi Hfix. fold nold in Hi. rewrite (rd_fv_len i Hi).
      apply (rd_fv_isfix i Hi) in Hfix. destruct (Ff i Hi Hfix) as (A & B & _).
      unfold fv_from, fv_to. split; assumption.
    - intros i j Hi Hij Hj Hfi Hfj. fold nold in Hj.
      rewrite (rd_fv_len i ltac:(lia)).
      apply (rd_fv_isfix i ltac:(lia)) in Hfi. apply (rd_fv_isfix j ltac:(lia)) in Hfj.
      unfold fv_from, fv_to. exact (Fo i j Hi Hij Hj Hfi Hfj).
  Qed.

  (** Block level: after the data movement
      - every old fixed variable is found at its new begin,
      - every old record r (all l_recsize ol bytes of it) is found at the new record slot r. *)
  Theorem moved_disk_blocks :
    (forall i o, 0 <= i < nold -> kind i = false -> 0 <= o < len i ->
       dk_get d1 (nb i + o) = dk_get d0 (ob i + o)) /\
    (forall r x, 0 <= r < numrecs -> 0 <= x < l_recsize ol ->
       dk_get d1 (l_begin_rec lay + r * l_recsize lay + x)
       = dk_get d0 (l_begin_rec ol + r * l_recsize ol + x)).
  Proof.
    pose proof rd_fv_len as Hfl. pose proof rd_fv_isfix as Hfi.
    pose proof rd_fixed_move_ok as Hfmo.
    destruct Facts as (Fz & Fn & Ff & Fo & Fr & Fx & Fvr & Fbv & Fbr & Frs0 & Frs & Frsum & Fsame).
    unfold ob, nb, kind, len, vo in *.
    fold nold in Fn, Ff, Fo, Fr, Fsame.
    destruct (move_record_vars_correct d0 np unit_ numrecs lay ol Hnp Hu Hnr
                ltac:(lia) ltac:(lia) ltac:(lia)) as (R1 & R2 & R3).
    unfold d1.
    destruct (Z.eq_dec (Zlen (h_vars h)) 0) as [Ez|Ez].
    { (* no variable in the new header: there is no old variable either *)
      pose proof (Zlen_nonneg (h_vars oh)) as Hn0. fold nold in Hn0.
      split; [intros i o Hi; lia|].
      (* records: the old header has no variable: recsize 0 *)
      intros r x Hr Hx. exfalso.
      assert (Evo : vsof oh = []).
      { unfold vsof. assert (E : h_vars oh = []) by (apply Zlen_zero_nil; unfold nold in *; lia).
        rewrite E. reflexivity. }
      rewrite Evo in Frsum. cbn [rsum] in Frsum. lia. }
    rewrite moved_disk_nonnil by (intros C; rewrite C in Ez; apply Ez; reflexivity).
    fold lens.
    destruct (Z.gtb_spec (l_begin_var lay) (l_begin_var ol)) as [Hgv|Hgv].
    - (* header extent grew: records, then fixed variables *)
      set (dr := move_record_vars d0 np unit_ numrecs lay ol) in *.
      destruct (move_fixed_vars_correct dr np unit_ oh lay ol lens Hnp Hu Hfmo) as (M1 & M2).
      split.
      + intros i o Hi Hk Ho. destruct (Ff i Hi Hk) as (A & B & C & D & E & F).
        pose proof (proj2 (Hfi i Hi) Hk) as Hfix.
        specialize (M1 i o Hi Hfix). rewrite (Hfl i Hi) in M1. specialize (M1 Ho).
        unfold fv_to, fv_from in M1. rewrite M1.
        apply R3. lia.
      + intros r x Hr Hx. rewrite M2; [apply R1; assumption|].
        intros [j [Hj [Hfj [Hmv Hin]]]]. fold nold in Hj.
        apply (Hfi j Hj) in Hfj. destruct (Ff j Hj Hfj) as (A & B & C & D & E & F).
        rewrite (Hfl j Hj) in Hin. unfold fv_to in Hin.
        assert (0 <= r * l_recsize lay) by nia. lia.
    - destruct ((l_begin_rec lay >? l_begin_rec ol) || (l_recsize lay >? l_recsize ol)) eqn:Et.
      + (* only the record section moves *)
        split.
        * intros i o Hi Hk Ho. destruct (Ff i Hi Hk) as (A & B & C & D & E & F).
          rewrite (Fsame ltac:(lia) i Hi Hk).
          apply R3. lia.
        * intros r x Hr Hx. apply R1; assumption.
      + (* nothing moves *)
        apply orb_false_iff in Et. destruct Et as [Et1 Et2].
        assert (Ebr : l_begin_rec lay = l_begin_rec ol) by lia.
        assert (Ers : l_recsize lay = l_recsize ol) by lia.
        split.
        * intros i o Hi Hk Ho. rewrite (Fsame ltac:(lia) i Hi Hk). reflexivity.
        * intros r x Hr Hx. rewrite Ebr, Ers. reflexivity.
  Qed.

  (** Variable level.  For every old variable i and every byte of its data:
      - fixed: offset o < len;
      - record: record r < numrecs, offset o < len inside the variable's slot of record r
        (the slot of variable i starts roff bytes into the record, the same before and after;
        the side condition keeps o inside the record: it only matters when the record size is
        the unpadded size of a single record variable, see [rec_slot_inside]);
      the byte at the NEW location in the moved disk is the byte at the OLD location in the
      original disk. *)
  Theorem moved_disk_preserves :
    forall i, 0 <= i < nold ->
      (kind i = false ->
         forall o, 0 <= o < len i -> dk_get d1 (nb i + o) = dk_get d0 (ob i + o)) /\
      (kind i = true ->
         nb i - l_begin_rec lay = ob i - l_begin_rec ol /\
         forall r o, 0 <= r < numrecs -> 0 <= o < len i ->
           (ob i - l_begin_rec ol) + o < l_recsize ol ->
           dk_get d1 (nb i + r * l_recsize lay + o) = dk_get d0 (ob i + r * l_recsize ol + o)).
  Proof.
    intros i Hi. destruct moved_disk_blocks as [B1 B2].
    destruct Facts as (_ & _ & _ & _ & Fr & _).
    unfold ob, nb, kind, len, vo in *. fold nold in Fr.
    split.
    - intros Hk o Ho. apply B1; assumption.
    - intros Hk. destruct (Fr i Hi Hk) as (E1 & E2 & E3 & E4).
      split; [lia|].
      intros r o Hr Ho Hin.
      replace (znth (l_begins lay) i 0 + r * l_recsize lay + o)
        with (l_begin_rec lay + r * l_recsize lay + (roff (vsof oh) i + o)) by lia.
      replace (znth (l_begins ol) i 0 + r * l_recsize ol + o)
        with (l_begin_rec ol + r * l_recsize ol + (roff (vsof oh) i + o)) by lia.
      apply B2; [exact Hr|]. lia.
  Qed.

  (** when the old record size is the sum of the record variables' lens (always, except for
      the single-record-variable packing) every byte of every record variable is inside the
      record, so the side condition of [moved_disk_preserves] holds for all o < len *)
  Lemma rec_slot_inside : l_recsize ol = rsum vo ->
    forall i o, 0 <= i < nold -> kind i = true -> 0 <= o < len i ->
      (ob i - l_begin_rec ol) + o < l_recsize ol.
  Proof.
    intros Hrs i o Hi Hk Ho. destruct Facts as (_ & _ & _ & _ & Fr & _).
    unfold ob, nb, kind, len, vo in *. fold nold in Fr.
    destruct (Fr i Hi Hk) as (E1 & E2 & E3 & E4). lia.
  Qed.

  (** the three-way trigger of ncmpio__enddef misses no case: when the fixed-variable mover is
      skipped no old fixed variable has moved, and when the mover is skipped altogether no old
      variable and no record has moved *)
  Theorem triggers_complete :
    (l_begin_var lay <= l_begin_var ol ->
       forall i, 0 <= i < nold -> kind i = false -> nb i = ob i) /\
    (l_begin_var lay <= l_begin_var ol -> l_begin_rec lay <= l_begin_rec ol ->
     l_recsize lay <= l_recsize ol ->
       (forall i, 0 <= i < nold -> nb i = ob i) /\
       l_begin_rec lay = l_begin_rec ol /\ l_recsize lay = l_recsize ol).
  Proof.
    destruct Facts as (Fz & Fn & Ff & Fo & Fr & Fx & Fvr & Fbv & Fbr & Frs0 & Frs & Frsum & Fsame).
    unfold ob, nb, kind, len, vo in *. fold nold in Fr, Fsame.
    split; [exact Fsame|].
    intros H1 H2 H3. split; [|split; lia].
    intros i Hi. destruct (fst (znth (vsof oh) i dvs)) eqn:Hk.
    - destruct (Fr i Hi Hk) as (E1 & E2 & _). lia.
    - exact (Fsame H1 i Hi Hk).
  Qed.

  (** the header write touches no variable data: the encoded header ends at or before
      begin_var (discharged from wf_hdr in [new_header_fits] below) *)
  Hypothesis Hhlen : Zlen (encode_header (new_header h lay numrecs)) <= l_begin_var lay.

  Let d2 := enddef_disk d0 np unit_ numrecs oh h ol lay.

  Lemma rd_header_frame : forall x, l_begin_var lay <= x -> dk_get d2 x = dk_get d1 x.
  Proof.
    intros x Hx. unfold d2, enddef_disk. fold d1. rewrite dk_get_write.
    replace ((0 <=? x) && (x <? 0 + Zlen (encode_header (new_header h lay numrecs))))
      with false by lia.
    reflexivity.
  Qed.

  (** The file as enddef leaves it (data moved, new header written) *)
  Theorem redef_preserves_data_sec :
    forall i, 0 <= i < nold ->
      (kind i = false ->
         forall o, 0 <= o < len i -> dk_get d2 (nb i + o) = dk_get d0 (ob i + o)) /\
      (kind i = true ->
         nb i - l_begin_rec lay = ob i - l_begin_rec ol /\
         forall r o, 0 <= r < numrecs -> 0 <= o < len i ->
           (ob i - l_begin_rec ol) + o < l_recsize ol ->
           dk_get d2 (nb i + r * l_recsize lay + o) = dk_get d0 (ob i + r * l_recsize ol + o)).
  Proof.
    intros i Hi. destruct (moved_disk_preserves i Hi) as [P1 P2].
    pose proof rd_header_frame as Hframe.
    destruct Facts as (Fz & Fn & Ff & Fo & Fr & Fx & Fvr & Fbv & Fbr & Frs0 & Frs & Frsum & Fsame).
    unfold ob, nb, kind, len, vo in *. fold nold in Ff, Fr.
    split.
    - intros Hk o Ho. destruct (Ff i Hi Hk) as (A & B & C & D & E & F).
      rewrite Hframe by lia. apply P1; assumption.
    - intros Hk. destruct (P2 Hk) as [Q1 Q2]. split; [exact Q1|].
      intros r o Hr Ho Hin. destruct (Fr i Hi Hk) as (E1 & E2 & E3 & E4).
      assert (0 <= r * l_recsize lay) by nia.
      rewrite Hframe by lia. apply Q2; assumption.
  Qed.
End RedefData.

(* ====================================================================== *)
(** * 3. The statements without section abbreviations                      *)
(* ====================================================================== *)

(** the new header, as written, fits below begin_var *)
Lemma new_header_fits : forall oh h ol lay hm vm ha ra numrecs,
  hdr_wf h -> 0 <= hm -> 0 <= vm -> 0 < ha -> 4 <= ra -> ra mod 4 = 0 ->
  lay_inv (t3of oh) ol -> hdr_extends oh h ->
  begins h hm vm ha ra (redef_old oh ol) (l_begin_rec ol) = Some lay ->
  Proofs_Header.wf_hdr (new_header h lay numrecs) = true ->
  Zlen (encode_header (new_header h lay numrecs)) = hdr_len h /\
  hdr_len h <= l_begin_var lay.
Proof.
  intros oh h ol lay hm vm ha ra numrecs Hwf Hhm Hvm Hha Hra Hra4 Hinv Hext Hbeg Hwfh.
  pose proof (begins_redef_facts oh h ol lay hm vm ha ra Hwf Hhm Hvm Hha Hra Hra4 Hinv Hext Hbeg)
    as (_ & _ & _ & _ & _ & Fx & _).
  destruct (begins_layout_ok_redef oh h ol lay hm vm ha ra Hwf Hhm Hvm Hha Hra Hra4 Hinv Hext Hbeg)
    as (_ & _ & Hlen & _).
  split; [|exact Fx].
  rewrite <- (Proofs_Header.hdr_len_encode _ Hwfh). unfold new_header.
  rewrite hdr_len_set_numrecs. apply hdr_len_set_begins.
  apply length_eq_Zlen. exact Hlen.
Qed.

(** C06.  After ncmpi_redef + any extension of the header + ncmpi_enddef, for
    every old variable and every byte of its data the byte at the NEW location in the file
    enddef leaves behind (data moved, new header written) equals the byte at the OLD location
    in the file as it was, for all nprocs >= 1, move unit >= 1, numrecs >= 0. *)
Theorem redef_preserves_data : forall oh h ol lay hm vm ha ra d0 np unit_ numrecs,
  hdr_wf h -> 0 <= hm -> 0 <= vm -> 0 < ha -> 4 <= ra -> ra mod 4 = 0 ->
  lay_inv (t3of oh) ol -> hdr_extends oh h ->
  begins h hm vm ha ra (redef_old oh ol) (l_begin_rec ol) = Some lay ->
  np >= 1 -> unit_ >= 1 -> 0 <= numrecs ->
  Proofs_Header.wf_hdr (new_header h lay numrecs) = true ->
  let d2 := enddef_disk d0 np unit_ numrecs oh h ol lay in
  forall i, 0 <= i < Zlen (h_vars oh) ->
    let ov := znth (h_vars oh) i dv in
    let len := var_len (h_dims oh) ov in
    let ob := znth (l_begins ol) i 0 in
    let nb := znth (l_begins lay) i 0 in
    (is_recvar (h_dims oh) ov = false ->
       forall o, 0 <= o < len -> dk_get d2 (nb + o) = dk_get d0 (ob + o)) /\
    (is_recvar (h_dims oh) ov = true ->
       nb - l_begin_rec lay = ob - l_begin_rec ol /\
       forall r o, 0 <= r < numrecs -> 0 <= o < len ->
         (ob - l_begin_rec ol) + o < l_recsize ol ->
         dk_get d2 (nb + r * l_recsize lay + o) = dk_get d0 (ob + r * l_recsize ol + o)).
Proof.
  intros oh h ol lay hm vm ha ra d0 np unit_ numrecs Hwf Hhm Hvm Hha Hra Hra4 Hinv Hext Hbeg
         Hnp Hu Hnr Hwfh d2 i Hi ov len ob nb.
  destruct (new_header_fits oh h ol lay hm vm ha ra numrecs Hwf Hhm Hvm Hha Hra Hra4 Hinv Hext
              Hbeg Hwfh) as [E1 E2].
  pose proof (redef_preserves_data_sec oh h ol lay hm vm ha ra d0 np unit_ numrecs
                Hwf Hhm Hvm Hha Hra Hra4 Hinv Hext Hbeg Hnp Hu Hnr ltac:(lia) i Hi) as H.
  cbv beta zeta in H. rewrite (znth_vsof oh i Hi) in H. cbn [fst snd] in H. exact H.
Qed.

(** the same for the data movement alone (before the header write) *)
Theorem moved_disk_preserves_data : forall oh h ol lay hm vm ha ra d0 np unit_ numrecs,
  hdr_wf h -> 0 <= hm -> 0 <= vm -> 0 < ha -> 4 <= ra -> ra mod 4 = 0 ->
  lay_inv (t3of oh) ol -> hdr_extends oh h ->
  begins h hm vm ha ra (redef_old oh ol) (l_begin_rec ol) = Some lay ->
  np >= 1 -> unit_ >= 1 -> 0 <= numrecs ->
  let d1 := moved_disk d0 np unit_ numrecs oh h ol lay in
  forall i, 0 <= i < Zlen (h_vars oh) ->
    let ov := znth (h_vars oh) i dv in
    let len := var_len (h_dims oh) ov in
    let ob := znth (l_begins ol) i 0 in
    let nb := znth (l_begins lay) i 0 in
    (is_recvar (h_dims oh) ov = false ->
       forall o, 0 <= o < len -> dk_get d1 (nb + o) = dk_get d0 (ob + o)) /\
    (is_recvar (h_dims oh) ov = true ->
       nb - l_begin_rec lay = ob - l_begin_rec ol /\
       forall r o, 0 <= r < numrecs -> 0 <= o < len ->
         (ob - l_begin_rec ol) + o < l_recsize ol ->
         dk_get d1 (nb + r * l_recsize lay + o) = dk_get d0 (ob + r * l_recsize ol + o)).
Proof.
  intros oh h ol lay hm vm ha ra d0 np unit_ numrecs Hwf Hhm Hvm Hha Hra Hra4 Hinv Hext Hbeg
         Hnp Hu Hnr d1 i Hi ov len ob nb.
  pose proof (moved_disk_preserves oh h ol lay hm vm ha ra d0 np unit_ numrecs
                Hwf Hhm Hvm Hha Hra Hra4 Hinv Hext Hbeg Hnp Hu Hnr i Hi) as H.
  cbv beta zeta in H. rewrite (znth_vsof oh i Hi) in H. cbn [fst snd] in H. exact H.
Qed.

(** whole records: the old record r (all l_recsize ol bytes) is found in the new slot r *)
Theorem redef_preserves_records : forall oh h ol lay hm vm ha ra d0 np unit_ numrecs,
  hdr_wf h -> 0 <= hm -> 0 <= vm -> 0 < ha -> 4 <= ra -> ra mod 4 = 0 ->
  lay_inv (t3of oh) ol -> hdr_extends oh h ->
  begins h hm vm ha ra (redef_old oh ol) (l_begin_rec ol) = Some lay ->
  np >= 1 -> unit_ >= 1 -> 0 <= numrecs ->
  forall r x, 0 <= r < numrecs -> 0 <= x < l_recsize ol ->
    dk_get (moved_disk d0 np unit_ numrecs oh h ol lay) (l_begin_rec lay + r * l_recsize lay + x)
    = dk_get d0 (l_begin_rec ol + r * l_recsize ol + x).
Proof.
  intros oh h ol lay hm vm ha ra d0 np unit_ numrecs Hwf Hhm Hvm Hha Hra Hra4 Hinv Hext Hbeg
         Hnp Hu Hnr.
  exact (proj2 (moved_disk_blocks oh h ol lay hm vm ha ra d0 np unit_ numrecs
                  Hwf Hhm Hvm Hha Hra Hra4 Hinv Hext Hbeg Hnp Hu Hnr)).
Qed.

(* ====================================================================== *)
(** * 4. Example: the redefinition of Proofs_Layout on a small disk        *)
(* ====================================================================== *)

(* the file after the first enddef and some writes: byte x holds (x * 7 + 3) mod 251 in the
   data area [512, 576 + 3*24), UNDEF elsewhere *)
Definition ex_d0 : disk :=
  mkdisk true 648 (fun x => if (512 <=? x) && (x <? 648) then (x * 7 + 3) mod 251 else UNDEF).

Example ex_wf_new_header : Proofs_Header.wf_hdr (new_header ex_h1 ex_l1 3) = true.
Proof. vm_compute. reflexivity. Qed.

(* all hypotheses of redef_preserves_data hold on the instance (3 processes, move unit 5) *)
Example ex_redef_preserves :=
  redef_preserves_data ex_oh ex_h1 ex_l0 ex_l1 0 0 512 64 ex_d0 3 5 3
    ex_hdr_wf1 ltac:(lia) ltac:(lia) ltac:(lia) ltac:(lia) eq_refl ex_lay_inv0 ex_extends1
    ex_begins1 ltac:(lia) ltac:(lia) ltac:(lia) ex_wf_new_header.

(* ... and, computed: fixed variables a (12 bytes at 512 -> 1024) and b (16 bytes at
   524 -> 1036); record variables r1 (12 bytes at 576 + 24 r -> 1088 + 28 r) and r2 (12 bytes
   at 588 + 24 r -> 1100 + 28 r), r = 0, 1, 2 *)
Example ex_redef_bytes :
  let d2 := enddef_disk ex_d0 3 5 3 ex_oh ex_h1 ex_l0 ex_l1 in
  dk_read d2 1024 12 = dk_read ex_d0 512 12 /\
  dk_read d2 1036 16 = dk_read ex_d0 524 16 /\
  forallb (fun r => list_eqb Z.eqb (dk_read d2 (1088 + 28 * r) 12) (dk_read ex_d0 (576 + 24 * r) 12)
                 && list_eqb Z.eqb (dk_read d2 (1100 + 28 * r) 12) (dk_read ex_d0 (588 + 24 * r) 12))
          [0; 1; 2] = true /\
  (* the header is the new one *)
  dk_read d2 0 924 = encode_header (new_header ex_h1 ex_l1 3).
Proof. vm_compute. repeat split; reflexivity. Qed.

(* second shape: header does not grow, only the record section moves (576 -> 640) *)
Example ex_redef_bytes2 :
  let d1 := moved_disk ex_d0 2 7 3 ex_oh ex_h2 ex_l0 ex_l2 in
  dk_read d1 512 28 = dk_read ex_d0 512 28 /\
  dk_read d1 640 72 = dk_read ex_d0 576 72.
Proof. vm_compute. split; reflexivity. Qed.

Print Assumptions moved_disk_blocks.
Print Assumptions moved_disk_preserves_data.
Print Assumptions redef_preserves_data.
Print Assumptions redef_preserves_records.
Print Assumptions triggers_complete.
Print Assumptions rec_slot_inside.
Print Assumptions new_header_fits.
