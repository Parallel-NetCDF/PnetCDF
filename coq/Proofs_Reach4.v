(* Proofs_Reach4.v — examples for Proofs_Reach*.v: a concrete multi-step history on which the
   invariant and its corollaries are instantiated (non-vacuity), and the counterexamples that
   show why the script contract step_ok is needed (findings about the model). *)
From Pnc Require Import Base Gen_consts Header HeaderSpec Data Disk Exec.
From Pnc Require Import Proofs_Header Proofs_Redef.
From Pnc Require Import Proofs_Exec2 Proofs_Exec Proofs_Reach Proofs_Reach3.
Require Import Lia ZArith List Bool ZifyBool.
Import ListNotations.
Local Open Scope Z_scope.

(* ====================================================================== *)
(** * 13. Examples: the theorems are not vacuous                            *)
(* ====================================================================== *)

(* 2 ranks, CDF-1, move unit 7, an alignment hint; create, dims (one unlimited), a fixed and a
   record variable, an attribute, enddef; collective put, independent put on rank 1 (vars),
   a grouped collective put (var1 on rank 0, varn on rank 1); redef, fill mode, two new variables,
   enddef with arguments (data movement); fill_var_rec; get; close; open for writing *)
Definition ex_cs : list cmd :=
  [ CMoveUnit 7;
    CStep (SAll (OHint 0 64));
    CStep (SAll (OCreate 0 1 1));
    CStep (SAll (ODefDim 0 [116] 0));
    CStep (SAll (ODefDim 0 [120] 4));
    CStep (SAll (ODefVar 0 [97] 4 [1]));
    CStep (SAll (ODefVar 0 [114] 3 [0; 1]));
    CStep (SAll (OPutAtt 0 0 [117] 2 [109; 47; 115]));
    CStep (SAll (OEnddef 0));
    CStep (SAll (OPut 0 true (mkacc 0 (FVara (Some [0]) (Some [4])) 4 false BTyped 3)));
    CStep (SAll (OBeginIndep 0));
    CStep (SOne 1 (OPut 0 false (mkacc 1 (FVars (Some [2; 1]) (Some [2; 2]) (Some [1; 2])) 3 false BTyped 5)));
    CStep (SAll (OEndIndep 0));
    CStep (SEach [OPut 0 true (mkacc 1 (FVar1 (Some [0; 0])) 3 false BTyped 1);
                  OPut 0 true (mkacc 1 (FVarn [([5; 0], [1; 4])]) 3 false BTyped 2)]);
    CStep (SAll (ORedef 0));
    CStep (SAll (OSetFill 0 0));
    CStep (SAll (ODefVar 0 [98] 6 [1]));
    CStep (SAll (ODefVar 0 [115] 4 [0]));
    CStep (SAll (OEnddefX 0 100 0 0 64));
    CStep (SAll (OFillVarRec 0 3 7));
    CStep (SAll (OGet 0 true (mkacc 0 FVar 4 false BTyped 0)));
    CStep (SAll (OClose 0));
    CStep (SAll (OOpen 0 1)) ].

Example ex_run_ok : run_ok (world0 2) ex_cs = true.
Proof. vm_compute. reflexivity. Qed.

Notation ex_w := (run (world0 2) ex_cs) (only parsing).
Definition ex_f : filest := match znth (w_files ex_w) 0 None with Some f => f | None => dflt_file end.

(* the final world has an open, untainted file in data mode, collective, with 4 variables, 8
   records, an encodable header of 224 bytes and the layout computed by the second enddef *)
Example ex_final :
  znth (w_files ex_w) 0 None = Some ex_f /\
  f_indef ex_f = false /\ f_tainted ex_f = false /\ f_indep ex_f = false /\
  Zlen (h_vars (f_hdr ex_f)) = 4 /\ h_numrecs (f_hdr ex_f) = 8 /\ wf_hdr (f_hdr ex_f) = true /\
  hdr_len (f_hdr ex_f) = 224 /\
  f_lay ex_f = mklayout 224 384 448 12 [384; 448; 400; 456] /\
  map rk_numrecs (f_ranks ex_f) = [8; 8].
Proof. vm_compute. repeat split; reflexivity. Qed.

Example ex_world_inv : world_inv ex_w := reachable_inv 2 ex_cs ltac:(lia) ex_run_ok.

Example ex_header_on_disk :=
  reachable_header_on_disk 2 ex_cs 0 ex_f ltac:(lia) ex_run_ok
    (proj1 ex_final) (proj1 (proj2 (proj2 ex_final))) (proj1 (proj2 ex_final))
    (proj1 (proj2 (proj2 (proj2 (proj2 (proj2 (proj2 ex_final))))))).

Example ex_layout :=
  reachable_layout_ok_all 2 ex_cs 0 ex_f ltac:(lia) ex_run_ok
    (proj1 ex_final) (proj1 (proj2 (proj2 ex_final))) (proj1 (proj2 ex_final)).

(* the state just before the second enddef: define mode after a redef, old header saved *)
Definition ex_cs_redef : list cmd := firstn 18 ex_cs.
Notation ex_w_redef := (run (world0 2) ex_cs_redef) (only parsing).
Definition ex_f_redef : filest :=
  match znth (w_files ex_w_redef) 0 None with Some f => f | None => dflt_file end.

Example ex_redef_state :
  run_ok (world0 2) ex_cs_redef = true /\
  znth (w_files ex_w_redef) 0 None = Some ex_f_redef /\
  f_indef ex_f_redef = true /\ f_tainted ex_f_redef = false /\
  match f_old ex_f_redef with
  | Some (oh, ol) => Zlen (h_vars oh) = 2 /\ h_numrecs oh = 6 /\ l_begins ol = [192; 208]
  | None => False end /\
  Zlen (h_vars (f_hdr ex_f_redef)) = 4.
Proof. vm_compute. repeat split; reflexivity. Qed.

(* ====================================================================== *)
(** * 14. Why the contract step_ok is needed: counterexamples (model findings) *)
(* ====================================================================== *)

(* the witness of "exists f, znth (w_files w) 0 None = Some f /\ ..." *)
Ltac file_witness :=
  cbv zeta;
  match goal with |- exists f, znth (w_files ?w) 0 None = Some f /\ _ =>
    exists (match znth (w_files w) 0 None with Some f => f | None => dflt_file end) end.

(** (a) create with clobber on the slot of a file that is still open: the model resets the disk
    and leaves the first file open in data mode on an empty disk.  step_ok rejects the step. *)
Definition cex_alias_cs : list cmd :=
  [ CStep (SAll (OCreate 0 1 1)); CStep (SAll (ODefDim 0 [120] 4)); CStep (SAll (OEnddef 0));
    CStep (SAll (OCreate 0 1 1)) ].

Example cex_alias :
  run_ok (world0 1) cex_alias_cs = false /\
  let w := run (world0 1) cex_alias_cs in
  exists f, znth (w_files w) 0 None = Some f /\ f_indef f = false /\ f_tainted f = false /\
            wf_hdr (f_hdr f) = true /\ hdr_len (f_hdr f) = 44 /\ dk_size (disk_of w f) = 0.
Proof. split; [vm_compute; reflexivity|]. file_witness. vm_compute. repeat split; reflexivity. Qed.

Corollary cex_alias_not_inv : ~ world_inv (run (world0 1) cex_alias_cs).
Proof.
  intros Hw. destruct cex_alias as [_ (f & Hz & Hindef & Ht & Hwf & Hl & Hs)].
  destruct (inv_header_on_disk _ 0 f Hw Hz Ht Hindef Hwf) as [(_ & D2 & _) _]. lia.
Qed.

(** hence the unconditional statement "every step preserves the invariant" is FALSE of the
    model; exec_step_preserves_inv carries the hypothesis step_ok *)
Lemma run_snoc : forall w cs c, run w (cs ++ [c]) = run_cmd (run w cs) c.
Proof. intros w cs c. unfold run. rewrite fold_left_app. reflexivity. Qed.

Definition cex_alias_cs3 : list cmd :=
  [ CStep (SAll (OCreate 0 1 1)); CStep (SAll (ODefDim 0 [120] 4)); CStep (SAll (OEnddef 0)) ].

Theorem exec_step_preserves_inv_unconditional_false :
  ~ (forall w s, world_inv w -> world_inv (fst (exec_step w s))).
Proof.
  intros H. apply cex_alias_not_inv.
  assert (E : cex_alias_cs = cex_alias_cs3 ++ [CStep (SAll (OCreate 0 1 1))]) by reflexivity.
  rewrite E, run_snoc. cbn [run_cmd].
  apply H. apply reachable_inv; [lia|vm_compute; reflexivity].
Qed.

(* without step_ok the statement is false (exec_step_preserves_inv_unconditional_false) *)
Definition exec_step_preserves_inv_partial := exec_step_preserves_inv.

(** (b) a put whose count array is shorter than its start array: the model checks only the
    zipped entries, accepts start = [0; -3], count = [1] on a 2-D variable (return code NC_NOERR)
    and writes 12 bytes BELOW the variable's begin - into the header when the variable starts
    right after it (h_align 4).  The C arrays have ndims entries by contract; step_ok demands
    lists of ndims entries. *)
Definition cex_put_cs : list cmd :=
  [ CStep (SAll (OHint 0 4));
    CStep (SAll (OCreate 0 1 1)); CStep (SAll (ODefDim 0 [120] 4)); CStep (SAll (ODefDim 0 [121] 5));
    CStep (SAll (ODefVar 0 [118] 4 [0; 1])); CStep (SAll (OEnddef 0)) ].
Definition cex_put_step : step :=
  SAll (OPut 0 true (mkacc 0 (FVara (Some [0; -3]) (Some [1])) 4 false BTyped 1)).

Example cex_put :
  run_ok (world0 1) cex_put_cs = true /\
  step_ok (run (world0 1) cex_put_cs) cex_put_step = false /\
  let w := run (world0 1) cex_put_cs in
  let w' := fst (exec_step w cex_put_step) in
  map (fun o : obs => snd (fst o)) (snd (exec_step w cex_put_step)) = [NC_NOERR] /\
  exists f, znth (w_files w') 0 None = Some f /\ f_tainted f = false /\ wf_hdr (f_hdr f) = true /\
    hdr_len (f_hdr f) = 96 /\ l_begins (f_lay f) = [96] /\
    bytes_eqb (dk_read (disk_of w f) 0 96) (encode_header (f_hdr f)) = true /\
    bytes_eqb (dk_read (disk_of w' f) 0 96) (encode_header (f_hdr f)) = false.
Proof.
  split; [vm_compute; reflexivity|]. split; [vm_compute; reflexivity|].
  cbv zeta. split; [vm_compute; reflexivity|]. file_witness. vm_compute. repeat split; reflexivity.
Qed.

(** (c) the model's create accepts any format number; with format 3 the encoder writes version
    byte 1 but 8-byte begins, and the file does not decode to the header in memory.  The
    on-disk clause of the invariant is conditional on wf_hdr, which demands format 1, 2 or 5. *)
Example cex_format :
  let cs := [ CStep (SAll (OCreate 0 3 1)); CStep (SAll (ODefDim 0 [120] 4));
              CStep (SAll (ODefVar 0 [118] 4 [0])); CStep (SAll (OEnddef 0)) ] in
  run_ok (world0 1) cs = true /\
  let w := run (world0 1) cs in
  exists f, znth (w_files w) 0 None = Some f /\ f_indef f = false /\ wf_hdr (f_hdr f) = false /\
    map v_begin (h_vars (f_hdr f)) = [512] /\
    option_map (fun dc => map v_begin (h_vars (dc_hdr dc)))
               (decode (dk_read (disk_of w f) 0 (dk_size (disk_of w f)))) = Some [0].
Proof. cbv zeta. split; [vm_compute; reflexivity|]. file_witness. vm_compute. repeat split; reflexivity. Qed.

(** (d) sizes the format cannot hold are accepted by the model's guards: a CDF-5 dimension of
    2^64 (def_dim has no upper bound for format 5) reads back as 0; a CDF-1 record count of 2^32
    (start 2^32 - 1 passes the NC_MAX_UINT check) reads back as 0.  wf_hdr is false in both
    states, so the invariant claims nothing about the bytes on disk. *)
Example cex_dim_size :
  let w := run (world0 1) [CStep (SAll (OCreate 0 5 1));
                           CStep (SAll (ODefDim 0 [120] 18446744073709551616)); CStep (SAll (OEnddef 0))] in
  exists f, znth (w_files w) 0 None = Some f /\ f_indef f = false /\ f_tainted f = false /\
    wf_hdr (f_hdr f) = false /\ map d_size (h_dims (f_hdr f)) = [18446744073709551616] /\
    option_map (fun dc => map d_size (h_dims (dc_hdr dc)))
               (decode (dk_read (disk_of w f) 0 (dk_size (disk_of w f)))) = Some [0].
Proof. cbv zeta. file_witness. vm_compute. repeat split; reflexivity. Qed.

Example cex_numrecs :
  let w := run (world0 1) [CStep (SAll (OCreate 0 1 1)); CStep (SAll (ODefDim 0 [116] 0));
      CStep (SAll (ODefVar 0 [118] 1 [0])); CStep (SAll (OEnddef 0));
      CStep (SAll (OPut 0 true (mkacc 0 (FVar1 (Some [4294967295])) 1 false BTyped 1)))] in
  exists f, znth (w_files w) 0 None = Some f /\ f_indef f = false /\ f_tainted f = false /\
    wf_hdr (f_hdr f) = false /\ h_numrecs (f_hdr f) = 4294967296 /\
    option_map (fun dc => h_numrecs (dc_hdr dc)) (decode (dk_read (disk_of w f) 0 200)) = Some 0.
Proof. cbv zeta. file_witness. vm_compute. repeat split; reflexivity. Qed.

(* ====================================================================== *)
(** * 15. The corollaries instantiated on states of the run                 *)
(* ====================================================================== *)

(* the state after enddef + begin_indep (first 11 commands): an independent put of rank 1 on the
   record variable through a strided request, read back by the same rank *)
Definition ex_cs_put : list cmd := firstn 11 ex_cs.
Notation ex_w_put := (run (world0 2) ex_cs_put) (only parsing).
Definition ex_f_put : filest :=
  match znth (w_files ex_w_put) 0 None with Some f => f | None => dflt_file end.
Definition ex_a : access := mkacc 1 (FVars (Some [2; 1]) (Some [2; 2]) (Some [1; 2])) 3 false BTyped 5.
Definition ex_r : rreq := mkrreq [2; 1] [2; 2] (Some [1; 2]) None.

Example ex_put_hyps :
  run_ok (world0 2) ex_cs_put = true /\
  znth (w_files ex_w_put) 0 None = Some ex_f_put /\ f_tainted ex_f_put = false /\
  sanity ex_f_put true true false ex_a = NC_NOERR /\
  check_request ex_w_put ex_f_put 1 false ex_a = (NC_NOERR, Some [ex_r]) /\
  iomismatch ex_a [ex_r] = false.
Proof. vm_compute. repeat split; reflexivity. Qed.

Example ex_put_get :
  let w'' := fst (indep_put ex_w_put 0 ex_f_put 1 ex_a) in
  let f' := indep_numrecs ex_f_put 1 (put_newrecs ex_f_put ex_a ex_r) in
  get_rank_op w'' f' 1 false ex_a =
  (NC_NOERR,
   [THex (guard_bytes ++
          flat_map (fun k => mem_of_be (put_elem ex_a (acc_xt ex_f_put ex_a) k)) (zrange 0 (nelems_of ex_r)) ++
          guard_bytes)]).
Proof.
  destruct ex_put_hyps as (H0 & H1 & H2 & H3 & H4 & H5). cbv zeta.
  apply (reachable_put_get 2 ex_cs_put 0 ex_f_put 1 ex_a ex_r _ (snd (indep_put ex_w_put 0 ex_f_put 1 ex_a))
           1 false ex_a ltac:(lia) H0 H1 H2 H3 H4 H5).
  - vm_compute. repeat split; reflexivity.
  - apply surjective_pairing.
  - reflexivity.
  - vm_compute. reflexivity.
  - vm_compute. reflexivity.
  - reflexivity.
  - vm_compute. reflexivity.
  - vm_compute. repeat split; reflexivity.
Qed.

(* ... and the value, computed *)
Example ex_put_get_compute :
  get_rank_op (fst (indep_put ex_w_put 0 ex_f_put 1 ex_a))
              (indep_numrecs ex_f_put 1 (put_newrecs ex_f_put ex_a ex_r)) 1 false ex_a =
  (NC_NOERR, [THex (guard_bytes ++ [124; 37; 5; 95; 94; 35; 231; 92] ++ guard_bytes)]).
Proof. vm_compute. reflexivity. Qed.

(* the second enddef (after redef, fill mode, two new variables; h_minfree 100, r_align 64, move
   unit 7): every byte of the two old variables, in each of the 6 records, survives the move *)
Definition ex_ea : enddef_args := mkeargs 100 0 0 64.

Example ex_redef_enddef_ok :
  option_map snd (do_enddef ex_w_redef 0 ex_f_redef ex_ea) = Some NC_NOERR.
Proof. vm_compute. reflexivity. Qed.

Example ex_redef_preserves :
  match do_enddef ex_w_redef 0 ex_f_redef ex_ea, f_old ex_f_redef with
  | Some (w', rc), Some (oh, ol) =>
      rc = NC_NOERR ->
      exists lay, znth (w_files w') 0 None = Some (enddef_file ex_f_redef lay) /\
        (wf_hdr (enddef_hdr ex_f_redef lay) = true ->
         forall i, 0 <= i < Zlen (h_vars oh) ->
           let ov := znth (h_vars oh) i dv in
           (is_recvar (h_dims oh) ov = false ->
              forall o, 0 <= o < var_len (h_dims oh) ov ->
                dk_get (get_disk w' (f_slot ex_f_redef)) (znth (l_begins lay) i 0 + o) =
                dk_get (get_disk ex_w_redef (f_slot ex_f_redef)) (znth (l_begins ol) i 0 + o)) /\
           (is_recvar (h_dims oh) ov = true ->
              forall r o, 0 <= r < h_numrecs oh -> 0 <= o < var_len (h_dims oh) ov ->
                (znth (l_begins ol) i 0 - l_begin_rec ol) + o < l_recsize ol ->
                dk_get (get_disk w' (f_slot ex_f_redef)) (znth (l_begins lay) i 0 + r * l_recsize lay + o) =
                dk_get (get_disk ex_w_redef (f_slot ex_f_redef)) (znth (l_begins ol) i 0 + r * l_recsize ol + o)))
  | _, _ => True
  end.
Proof.
  destruct ex_redef_state as (H0 & H1 & H2 & H3 & _).
  destruct (do_enddef ex_w_redef 0 ex_f_redef ex_ea) as [[w' rc]|] eqn:E; [|exact I].
  destruct (f_old ex_f_redef) as [[oh ol]|] eqn:Eo; [|exact I].
  intros ->. exact (reachable_redef_preserves 2 ex_cs_redef 0 ex_f_redef ex_ea oh ol w' ltac:(lia) H0 H1 H3 H2 Eo E).
Qed.

(* the state before close (first 21 commands): closing leaves a world in which open is covered *)
Definition ex_cs_close : list cmd := firstn 21 ex_cs.
Notation ex_w_close := (run (world0 2) ex_cs_close) (only parsing).
Definition ex_f_close : filest :=
  match znth (w_files ex_w_close) 0 None with Some f => f | None => dflt_file end.

Example ex_close_hyps :
  run_ok (world0 2) ex_cs_close = true /\
  znth (w_files ex_w_close) 0 None = Some ex_f_close /\ f_tainted ex_f_close = false /\
  f_indef ex_f_close = false /\ negb (f_rdonly ex_f_close) && f_indep ex_f_close = false /\
  wf_hdr (f_hdr ex_f_close) = true /\ hdr_len (f_hdr ex_f_close) <= 65536.
Proof. vm_compute. repeat split; try reflexivity. discriminate. Qed.

Example ex_close_open_ok :=
  let H := ex_close_hyps in
  inv_close_open_ok ex_w_close 0 ex_f_close 1
    (reachable_inv 2 ex_cs_close ltac:(lia) (proj1 H))
    (proj1 (proj2 H)) (proj1 (proj2 (proj2 H))) (proj1 (proj2 (proj2 (proj2 H))))
    (proj1 (proj2 (proj2 (proj2 (proj2 H))))) (proj1 (proj2 (proj2 (proj2 (proj2 (proj2 H))))))
    (proj2 (proj2 (proj2 (proj2 (proj2 (proj2 H)))))).

Print Assumptions exec_step_preserves_inv.
Print Assumptions reachable_inv.
Print Assumptions reachable_header_on_disk.
Print Assumptions reachable_layout_ok_all.
Print Assumptions reachable_put_get.
Print Assumptions reachable_redef_preserves.
Print Assumptions inv_layout.
Print Assumptions inv_close_open_ok.
Print Assumptions exec_step_preserves_inv_unconditional_false.
Print Assumptions ex_put_get.
Print Assumptions ex_redef_preserves.
