(* Proofs_RoundTrip.v — disk-level round trip of a put followed by gets (property C01).
   Disk.dk_scatter d xsz offs bs  models a put  (element stream bs written at the element
                                   byte offsets offs, in order),
   Disk.dk_gather  d xsz offs     models a get.
   Main results (all closed under the global context, no axioms)
     scatter_get_in / scatter_get_out      the bytes of a scatter; frame
     scatter_size_char                     dk_size after a scatter is the max of the ends
     gather_scatter                        get (same request) after put returns the stream
     gather_after_scatter(_in/_out)        get through ANY other offset list, per element
     scatter_perm, decomposition_irrelevant(_scatter)
                                           the (offset, element) pairs may be applied in any order
                                           and split into any number of shares
     scatter_commute                       puts on disjoint element sets commute
     elem_off_apart, request_offsets_disjoint
                                           the elements of one request occupy disjoint bytes
     put_get_roundtrip, put_get_element, get_other_request, put_frame,
     two_vars_disjoint                     the same for (start,count,stride) requests *)
From Pnc Require Import Base Access Disk Proofs_Lists Proofs_Access Proofs_Disk.
Require Import Lia ZArith List Bool ZifyBool Permutation.
Import ListNotations.
Local Open Scope Z_scope.
Local Arguments Z.mul : simpl never.
Local Arguments Z.add : simpl never.
Local Arguments Z.sub : simpl never.

(* ================================================================== *)
(* 1. Z-indexed list helpers                                           *)
(* ================================================================== *)
Lemma znth_oob {A} (l : list A) i d : i < 0 \/ Zlen l <= i -> znth l i d = d.
Proof. apply Proofs_Lists.znth_oob. Qed.

Lemma split_index xsz n i : 0 < xsz -> 0 <= i < xsz * n ->
  exists k j, 0 <= k < n /\ 0 <= j < xsz /\ i = k * xsz + j.
Proof.
  intros Hx Hi. exists (i / xsz), (i mod xsz).
  pose proof (Z.div_mod i xsz ltac:(lia)) as E.
  pose proof (Z.mod_pos_bound i xsz Hx) as Hm.
  assert (H0 : 0 <= i / xsz) by (apply Z.div_pos; lia).
  assert (H1 : i / xsz < n) by (apply Z.div_lt_upper_bound; lia).
  repeat split; try lia.
Qed.

Lemma mul_succ_le k n x : 0 <= k < n -> 0 <= x -> (k + 1) * x <= x * n.
Proof. intros Hk Hx. nia. Qed.

(* the k-th element (xsz bytes) of an element stream *)
Definition stream_elem (xsz : Z) (bs : list byte) (k : Z) : list byte :=
  zfirstn xsz (zskipn (k * xsz) bs).

Lemma Zlen_stream_elem xsz (bs : list byte) k :
  0 <= xsz -> 0 <= k -> (k + 1) * xsz <= Zlen bs -> Zlen (stream_elem xsz bs k) = xsz.
Proof.
  intros Hx Hk Hl. unfold stream_elem. rewrite Zlen_zfirstn, Zlen_zskipn.
  assert (0 <= k * xsz) by nia. lia.
Qed.

Lemma znth_stream_elem xsz (bs : list byte) k j :
  0 <= xsz -> 0 <= k -> 0 <= j < xsz ->
  znth (stream_elem xsz bs k) j 0 = znth bs (k * xsz + j) 0.
Proof.
  intros Hx Hk Hj. unfold stream_elem. rewrite znth_zfirstn by lia.
  apply znth_zskipn; nia.
Qed.

Lemma stream_elem_ext xsz (a : list byte) ka (b : list byte) kb :
  0 <= xsz -> 0 <= ka -> 0 <= kb -> (ka + 1) * xsz <= Zlen a -> (kb + 1) * xsz <= Zlen b ->
  (forall j, 0 <= j < xsz -> znth a (ka * xsz + j) 0 = znth b (kb * xsz + j) 0) ->
  stream_elem xsz a ka = stream_elem xsz b kb.
Proof.
  intros Hx Hka Hkb Ha Hb H. apply (@znth_ext byte _ _ 0).
  - rewrite !Zlen_stream_elem by assumption. reflexivity.
  - intros j Hj. rewrite Zlen_stream_elem in Hj by assumption.
    rewrite !znth_stream_elem by assumption. apply H. assumption.
Qed.

(* ================================================================== *)
(* 2. Disjoint elements; the bytes of a scatter                        *)
(* ================================================================== *)
(* byte x belongs to the element at offset o *)
Definition in_elem (xsz o x : Z) : Prop := o <= x < o + xsz.
(* the byte ranges [a,a+xsz) and [b,b+xsz) do not meet *)
Definition apart (xsz a b : Z) : Prop := a + xsz <= b \/ b + xsz <= a.

(* the byte ranges of the elements at two different POSITIONS of the list are disjoint *)
Definition elems_disjoint (xsz : Z) (offs : list Z) : Prop :=
  0 < xsz /\
  forall i j, 0 <= i < Zlen offs -> 0 <= j < Zlen offs -> i <> j ->
    apart xsz (znth offs i 0) (znth offs j 0).

Fixpoint disj_rec (xsz : Z) (offs : list Z) : Prop :=
  match offs with
  | [] => True
  | o :: r => Forall (apart xsz o) r /\ disj_rec xsz r
  end.

Lemma apart_sym xsz a b : apart xsz a b -> apart xsz b a.
Proof. unfold apart. lia. Qed.

Lemma elems_disjoint_rec xsz offs : elems_disjoint xsz offs <-> 0 < xsz /\ disj_rec xsz offs.
Proof.
  unfold elems_disjoint. split; intros [Hx H]; (split; [exact Hx|]).
  - induction offs as [|o r IH]; [exact I|]. pose proof (Zlen_nonneg r) as Hr.
    cbn [disj_rec]. split.
    + apply (Forall_znth _ _ 0). intros i Hi.
      specialize (H 0 (i + 1)). rewrite znth_cons_0, znth_cons_pos in H by lia.
      replace (i + 1 - 1) with i in H by lia. apply H; rewrite ?Zlen_cons; lia.
    + apply IH. intros i j Hi Hj Hne. specialize (H (i + 1) (j + 1)).
      rewrite !znth_cons_pos in H by lia.
      replace (i + 1 - 1) with i in H by lia. replace (j + 1 - 1) with j in H by lia.
      apply H; rewrite ?Zlen_cons; lia.
  - induction offs as [|o r IH]; intros i j Hi Hj Hne.
    + rewrite Zlen_nil in Hi. lia.
    + rewrite Zlen_cons in Hi, Hj. destruct H as [Hfa Hd].
      rewrite (Forall_znth _ _ 0) in Hfa.
      destruct (Z.eq_dec i 0) as [->|Hi0]; destruct (Z.eq_dec j 0) as [->|Hj0].
      * lia.
      * rewrite znth_cons_0, znth_cons_pos by assumption. apply Hfa. lia.
      * rewrite znth_cons_0, znth_cons_pos by assumption. apply apart_sym. apply Hfa. lia.
      * rewrite !znth_cons_pos by assumption. apply IH; [assumption | lia | lia | lia].
Qed.

Lemma elems_disjoint_cons xsz o r :
  elems_disjoint xsz (o :: r) <-> Forall (apart xsz o) r /\ elems_disjoint xsz r.
Proof. rewrite !elems_disjoint_rec. cbn [disj_rec]. tauto. Qed.

Lemma elems_disjoint_In xsz offs a b :
  elems_disjoint xsz offs -> In a offs -> In b offs -> a = b \/ apart xsz a b.
Proof.
  intros [Hx H] Ha Hb.
  destruct (In_znth _ _ 0 Ha) as [i [Hi Ei]]. destruct (In_znth _ _ 0 Hb) as [j [Hj Ej]].
  destruct (Z.eq_dec i j) as [->|Hne]; [left; congruence|].
  right. rewrite <- Ei, <- Ej. apply H; assumption.
Qed.

(* FRAME: a byte that lies in no addressed element keeps its value *)
Theorem scatter_get_out : forall offs d xsz bs x,
  (forall o, In o offs -> ~ in_elem xsz o x) ->
  dk_get (dk_scatter d xsz offs bs) x = dk_get d x.
Proof.
  induction offs as [|o r IH]; intros d xsz bs x H; [reflexivity|].
  cbn [dk_scatter]. rewrite IH by (intros o' Ho'; apply H; now right).
  rewrite dk_get_write.
  destruct ((o <=? x) && (x <? o + Zlen (zfirstn xsz bs))) eqn:E; [|reflexivity].
  exfalso. apply (H o); [now left|]. unfold in_elem. rewrite Zlen_zfirstn in E. lia.
Qed.

Lemma scatter_get_in_rec : forall offs d xsz bs k j,
  0 < xsz -> disj_rec xsz offs -> Zlen bs = xsz * Zlen offs ->
  0 <= k < Zlen offs -> 0 <= j < xsz ->
  dk_get (dk_scatter d xsz offs bs) (znth offs k 0 + j) = znth bs (k * xsz + j) 0.
Proof.
  induction offs as [|o r IH]; intros d xsz bs k j Hx Hd Hlen Hk Hj.
  - rewrite Zlen_nil in Hk. lia.
  - rewrite Zlen_cons in Hlen, Hk. destruct Hd as [Hfa Hd]. cbn [dk_scatter].
    pose proof (Zlen_nonneg r) as Hr.
    assert (Hge : xsz <= Zlen bs) by nia.
    assert (Hf : Zlen (zfirstn xsz bs) = xsz) by (rewrite Zlen_zfirstn; lia).
    destruct (Z.eq_dec k 0) as [->|Hk0].
    + rewrite znth_cons_0. rewrite scatter_get_out.
      * rewrite dk_get_write, Hf.
        replace ((o <=? o + j) && (o + j <? o + xsz)) with true by lia.
        rewrite znth_zfirstn by lia. f_equal. lia.
      * intros o' Ho'. rewrite Forall_forall in Hfa. specialize (Hfa o' Ho').
        unfold apart in Hfa. unfold in_elem. lia.
    + rewrite znth_cons_pos by assumption.
      rewrite IH; try assumption; try lia.
      * rewrite znth_zskipn by nia. f_equal. lia.
      * rewrite Zlen_zskipn. lia.
Qed.

(* the k-th addressed element holds the k-th element of the stream *)
Theorem scatter_get_in : forall offs d xsz bs k j,
  elems_disjoint xsz offs -> Zlen bs = xsz * Zlen offs ->
  0 <= k < Zlen offs -> 0 <= j < xsz ->
  dk_get (dk_scatter d xsz offs bs) (znth offs k 0 + j) = znth bs (k * xsz + j) 0.
Proof.
  intros offs d xsz bs k j Hd. apply elems_disjoint_rec in Hd. destruct Hd as [Hx Hd].
  apply scatter_get_in_rec; assumption.
Qed.

(* the file extent after a put: the maximum of the old extent and the ends of the elements *)
Theorem scatter_size_char : forall offs d xsz bs B,
  0 < xsz -> Zlen bs = xsz * Zlen offs ->
  (dk_size (dk_scatter d xsz offs bs) <= B <->
   dk_size d <= B /\ forall o, In o offs -> o + xsz <= B).
Proof.
  induction offs as [|o r IH]; intros d xsz bs B Hx Hlen.
  - cbn [dk_scatter In]. split; [intros H; split; [exact H | intros o []] | tauto].
  - rewrite Zlen_cons in Hlen. pose proof (Zlen_nonneg r) as Hr. cbn [dk_scatter].
    assert (Hge : xsz <= Zlen bs) by nia.
    rewrite IH by (try assumption; rewrite Zlen_zskipn; lia).
    rewrite dk_size_write, Zlen_zfirstn.
    replace (0 <? Z.max 0 (Z.min xsz (Zlen bs))) with true by lia.
    replace (Z.max 0 (Z.min xsz (Zlen bs))) with xsz by lia.
    split.
    + intros [H1 H2]. split; [lia|]. intros o' [<-|Ho']; [lia | now apply H2].
    + intros [H1 H2]. split.
      * specialize (H2 o (or_introl eq_refl)). lia.
      * intros o' Ho'. apply H2. now right.
Qed.

Lemma scatter_size_mono d xsz offs bs :
  0 < xsz -> Zlen bs = xsz * Zlen offs -> dk_size d <= dk_size (dk_scatter d xsz offs bs).
Proof.
  intros Hx Hl.
  destruct (proj1 (scatter_size_char offs d xsz bs _ Hx Hl) (Z.le_refl _)) as [H _]. exact H.
Qed.

Lemma scatter_size_ge d xsz offs bs o :
  0 < xsz -> Zlen bs = xsz * Zlen offs -> In o offs ->
  o + xsz <= dk_size (dk_scatter d xsz offs bs).
Proof.
  intros Hx Hl Ho.
  destruct (proj1 (scatter_size_char offs d xsz bs _ Hx Hl) (Z.le_refl _)) as [_ H]. now apply H.
Qed.

(* ================================================================== *)
(* 3. gather                                                           *)
(* ================================================================== *)
Lemma dk_gather_cons d xsz o r :
  dk_gather d xsz (o :: r) = dk_read d o xsz ++ dk_gather d xsz r.
Proof. reflexivity. Qed.

Lemma Zlen_gather d xsz offs : 0 <= xsz -> Zlen (dk_gather d xsz offs) = xsz * Zlen offs.
Proof.
  intros Hx. induction offs as [|o r IH].
  - rewrite Zlen_nil. cbn. lia.
  - rewrite dk_gather_cons, Zlen_app, IH, Zlen_dk_read, Zlen_cons. lia.
Qed.

Lemma znth_gather : forall offs d xsz k j,
  0 < xsz -> 0 <= k < Zlen offs -> 0 <= j < xsz ->
  znth (dk_gather d xsz offs) (k * xsz + j) 0 = dk_get d (znth offs k 0 + j).
Proof.
  induction offs as [|o r IH]; intros d xsz k j Hx Hk Hj.
  - rewrite Zlen_nil in Hk. lia.
  - rewrite Zlen_cons in Hk. rewrite dk_gather_cons.
    destruct (Z.eq_dec k 0) as [->|Hk0].
    + rewrite znth_app_l by (rewrite Zlen_dk_read; lia).
      replace (0 * xsz + j) with j by lia. rewrite znth_cons_0. apply znth_dk_read. assumption.
    + rewrite znth_app_r by (rewrite Zlen_dk_read; nia).
      rewrite Zlen_dk_read. rewrite znth_cons_pos by assumption.
      replace (k * xsz + j - Z.max 0 xsz) with ((k - 1) * xsz + j) by lia.
      apply IH; lia.
Qed.

(* an element read back, as a list *)
Lemma stream_elem_gather d xsz offs k :
  0 < xsz -> 0 <= k < Zlen offs ->
  stream_elem xsz (dk_gather d xsz offs) k = dk_read d (znth offs k 0) xsz.
Proof.
  intros Hx Hk.
  assert (Hle : (k + 1) * xsz <= Zlen (dk_gather d xsz offs))
    by (rewrite Zlen_gather by lia; apply mul_succ_le; lia).
  apply (@znth_ext byte _ _ 0).
  - rewrite Zlen_stream_elem, Zlen_dk_read; try lia.
  - intros j Hj. rewrite Zlen_stream_elem in Hj; try lia.
    rewrite znth_stream_elem, znth_gather, znth_dk_read by lia. reflexivity.
Qed.

(* ROUND TRIP, same request *)
Theorem gather_scatter : forall d xsz offs bs,
  elems_disjoint xsz offs -> Zlen bs = xsz * Zlen offs ->
  dk_gather (dk_scatter d xsz offs bs) xsz offs = bs.
Proof.
  intros d xsz offs bs Hd Hlen. pose proof Hd as [Hx _].
  apply (@znth_ext byte _ _ 0).
  - rewrite Zlen_gather by lia. symmetry. exact Hlen.
  - intros i Hi. rewrite Zlen_gather in Hi by lia.
    destruct (split_index xsz (Zlen offs) i Hx Hi) as (k & j & Hk & Hj & ->).
    rewrite znth_gather by assumption. apply scatter_get_in; assumption.
Qed.

(* A get through ANY offset list offs' after the put (offs, bs): byte level. *)
Theorem gather_after_scatter_in : forall d xsz offs bs offs' k' k j,
  elems_disjoint xsz offs -> Zlen bs = xsz * Zlen offs ->
  0 <= k' < Zlen offs' -> 0 <= k < Zlen offs -> 0 <= j < xsz ->
  znth offs' k' 0 = znth offs k 0 ->
  znth (dk_gather (dk_scatter d xsz offs bs) xsz offs') (k' * xsz + j) 0 =
  znth bs (k * xsz + j) 0.
Proof.
  intros d xsz offs bs offs' k' k j Hd Hlen Hk' Hk Hj E. pose proof Hd as [Hx _].
  rewrite znth_gather by assumption. rewrite E. apply scatter_get_in; assumption.
Qed.

Theorem gather_after_scatter_out : forall d xsz offs bs offs' k' j,
  0 < xsz -> 0 <= k' < Zlen offs' -> 0 <= j < xsz ->
  (forall o, In o offs -> apart xsz o (znth offs' k' 0)) ->
  znth (dk_gather (dk_scatter d xsz offs bs) xsz offs') (k' * xsz + j) 0 =
  dk_get d (znth offs' k' 0 + j).
Proof.
  intros d xsz offs bs offs' k' j Hx Hk' Hj Hap.
  rewrite znth_gather by assumption. apply scatter_get_out.
  intros o Ho. specialize (Hap o Ho). unfold apart in Hap. unfold in_elem. lia.
Qed.

(* ... and per element: the element read at position k' of offs' is the stream element last
   written to that offset when the offset is one of offs, and the old disk content when its
   byte range meets none of them *)
Theorem gather_after_scatter : forall d xsz offs bs offs' k',
  elems_disjoint xsz offs -> Zlen bs = xsz * Zlen offs -> 0 <= k' < Zlen offs' ->
  let got := dk_gather (dk_scatter d xsz offs bs) xsz offs' in
  (forall k, 0 <= k < Zlen offs -> znth offs' k' 0 = znth offs k 0 ->
     stream_elem xsz got k' = stream_elem xsz bs k) /\
  ((forall o, In o offs -> apart xsz o (znth offs' k' 0)) ->
     stream_elem xsz got k' = dk_read d (znth offs' k' 0) xsz).
Proof.
  intros d xsz offs bs offs' k' Hd Hlen Hk' got. pose proof Hd as [Hx _].
  assert (Hgl : Zlen got = xsz * Zlen offs') by (apply Zlen_gather; lia).
  split.
  - intros k Hk E. apply stream_elem_ext; try lia.
    + rewrite Hgl. apply mul_succ_le; lia.
    + rewrite Hlen. apply mul_succ_le; lia.
    + intros j Hj. apply gather_after_scatter_in; assumption.
  - intros Hap.
    assert (Hle : (k' + 1) * xsz <= Zlen got) by (rewrite Hgl; apply mul_succ_le; lia).
    apply (@znth_ext byte _ _ 0).
    + rewrite Zlen_stream_elem, Zlen_dk_read; try lia.
    + intros j Hj. rewrite Zlen_stream_elem in Hj; try lia.
      rewrite znth_stream_elem, znth_dk_read by lia.
      apply gather_after_scatter_out; assumption.
Qed.

(* a get whose elements meet none of the put's elements is not affected by the put *)
Lemma gather_scatter_frame d xa offsA xb offsB bsB :
  (forall a b x, In a offsA -> In b offsB -> in_elem xa a x -> in_elem xb b x -> False) ->
  dk_gather (dk_scatter d xb offsB bsB) xa offsA = dk_gather d xa offsA.
Proof.
  intros H. unfold dk_gather. apply flat_map_ext_In. intros a Ha.
  unfold dk_read. apply map_ext_in. intros x Hx. apply In_zrange in Hx.
  apply scatter_get_out. intros b Hb Hin. apply (H a b x Ha Hb); [exact Hx | exact Hin].
Qed.

Lemma in_elems_dec xsz offs x :
  (exists k, 0 <= k < Zlen offs /\ in_elem xsz (znth offs k 0) x) \/
  (forall o, In o offs -> ~ in_elem xsz o x).
Proof.
  induction offs as [|o r IH].
  - right. intros o [].
  - pose proof (Zlen_nonneg r) as Hr. destruct IH as [[k [Hk Hin]]|IH].
    + left. exists (k + 1). rewrite Zlen_cons, znth_cons_pos by lia.
      replace (k + 1 - 1) with k by lia. split; [lia | exact Hin].
    + assert (Hdec : in_elem xsz o x \/ ~ in_elem xsz o x) by (unfold in_elem; lia).
      destruct Hdec as [H|H].
      * left. exists 0. rewrite Zlen_cons, znth_cons_0. split; [lia | exact H].
      * right. intros o' [<-|Ho']; [exact H | now apply IH].
Qed.

(* two puts whose element sets do not meet commute *)
Theorem scatter_commute : forall d xa offsA bsA xb offsB bsB,
  elems_disjoint xa offsA -> Zlen bsA = xa * Zlen offsA ->
  elems_disjoint xb offsB -> Zlen bsB = xb * Zlen offsB ->
  (forall a b x, In a offsA -> In b offsB -> in_elem xa a x -> in_elem xb b x -> False) ->
  forall x, dk_get (dk_scatter (dk_scatter d xa offsA bsA) xb offsB bsB) x =
            dk_get (dk_scatter (dk_scatter d xb offsB bsB) xa offsA bsA) x.
Proof.
  intros d xa offsA bsA xb offsB bsB HdA HlA HdB HlB Hcross x.
  destruct (in_elems_dec xb offsB x) as [[k [Hk Hin]]|HoutB].
  - assert (HoutA : forall a, In a offsA -> ~ in_elem xa a x).
    { intros a Ha HinA. apply (Hcross a (znth offsB k 0) x); try assumption.
      apply znth_In. assumption. }
    rewrite (scatter_get_out offsA) by assumption.
    unfold in_elem in Hin.
    replace x with (znth offsB k 0 + (x - znth offsB k 0)) by lia.
    rewrite !scatter_get_in by (try assumption; lia). reflexivity.
  - rewrite (scatter_get_out offsB) by assumption.
    destruct (in_elems_dec xa offsA x) as [[k [Hk Hin]]|HoutA].
    + unfold in_elem in Hin.
      assert (Ex : x = znth offsA k 0 + (x - znth offsA k 0)) by lia.
      rewrite Ex. rewrite !scatter_get_in by (try assumption; lia). reflexivity.
    + rewrite !(scatter_get_out offsA) by assumption.
      rewrite (scatter_get_out offsB) by assumption. reflexivity.
Qed.

(* ================================================================== *)
(* 4. (offset, element) pairs: order and decomposition are irrelevant  *)
(* ================================================================== *)
Definition tile_apart (p q : Z * list byte) : Prop :=
  fst p + Zlen (snd p) <= fst q \/ fst q + Zlen (snd q) <= fst p.

Definition tiles_disjoint (data : list (Z * list byte)) : Prop :=
  ForallOrdPairs tile_apart data.

Lemma tiles_disjoint_agree data x : tiles_disjoint data -> tiles_agree data x.
Proof.
  intros Hd p q Hp Hq Hcp Hcq.
  destruct (ForallOrdPairs_In Hd _ _ Hp Hq) as [E|[E|E]];
    [subst; reflexivity | |]; unfold tile_apart, covers in *; lia.
Qed.

(* a put of the elements [elems] at [offs] is the fold of the (offset, element) tiles *)
Lemma dk_scatter_tiles : forall offs elems d xsz,
  length elems = length offs -> Forall (fun e : list byte => Zlen e = xsz) elems ->
  dk_scatter d xsz offs (concat elems) = write_tiles (combine offs elems) d.
Proof.
  induction offs as [|o r IH]; intros elems d xsz Hl Hall.
  - reflexivity.
  - destruct elems as [|e es]; [discriminate|]. cbn [length] in Hl.
    inversion Hall as [|? ? He Hes]; subst.
    cbn [dk_scatter concat combine]. rewrite write_tiles_cons. cbn [fst snd].
    rewrite zfirstn_app_exact, zskipn_app_exact. apply IH; [lia | assumption].
Qed.

Lemma tiles_disjoint_combine xsz : forall offs elems,
  disj_rec xsz offs -> length elems = length offs ->
  Forall (fun e : list byte => Zlen e = xsz) elems ->
  tiles_disjoint (combine offs elems).
Proof.
  induction offs as [|o r IH]; intros elems Hd Hl Hall.
  - constructor.
  - destruct elems as [|e es]; [discriminate|]. cbn [length] in Hl.
    inversion Hall as [|? ? He Hes]; subst. destruct Hd as [Hfa Hd].
    cbn [combine]. constructor.
    + apply Forall_forall. intros [o' e'] Hin.
      pose proof (in_combine_l _ _ _ _ Hin) as Ho'. pose proof (in_combine_r _ _ _ _ Hin) as He'.
      rewrite Forall_forall in Hfa, Hes. specialize (Hfa o' Ho'). specialize (Hes e' He').
      unfold tile_apart, apart in *. cbn [fst snd]. lia.
    + apply IH; [assumption | lia | assumption].
Qed.

Lemma in_combine_r_ex {A B} : forall (a : list A) (b : list B) y,
  length a = length b -> In y b -> exists x, In (x, y) (combine a b).
Proof.
  induction a as [|x a IH]; intros b y Hl Hy; destruct b as [|y0 b]; try discriminate.
  - destruct Hy.
  - cbn [length] in Hl. cbn [combine]. destruct Hy as [<-|Hy].
    + exists x. now left.
    + destruct (IH b y ltac:(lia) Hy) as [x' Hx']. exists x'. now right.
Qed.

(* extensional equality of two disks *)
Definition disk_eq (d1 d2 : disk) : Prop :=
  (forall x, dk_get d1 x = dk_get d2 x) /\ dk_size d1 = dk_size d2 /\ dk_exists d1 = dk_exists d2.

Lemma disk_eq_sym d1 d2 : disk_eq d1 d2 -> disk_eq d2 d1.
Proof. intros (H1 & H2 & H3). repeat split; auto. Qed.

Lemma existsb_Permutation {A} (f : A -> bool) l l' : Permutation l l' -> existsb f l = existsb f l'.
Proof.
  induction 1 as [|a l l' _ IH|a b l|l l' l'' _ IH1 _ IH2]; cbn [existsb].
  - reflexivity.
  - now rewrite IH.
  - now rewrite !orb_assoc, (orb_comm (f b)).
  - now rewrite IH1.
Qed.

Lemma write_tiles_size_incl data data' d :
  incl data data' -> dk_size (write_tiles data d) <= dk_size (write_tiles data' d).
Proof.
  intros H. apply write_tiles_size_le_iff. split; [apply write_tiles_size_mono|].
  intros p Hp. apply write_tiles_size_ge. now apply H.
Qed.

(* the file does not depend on the order of the writes (for the extent and existence
   nothing at all is needed) *)
Lemma write_tiles_perm data data' d :
  (forall x, tiles_agree data x) -> Permutation data data' ->
  disk_eq (write_tiles data d) (write_tiles data' d).
Proof.
  intros Ha Hp. split; [|split].
  - intros x. apply write_tiles_perm_get; auto.
  - apply Z.le_antisymm; apply write_tiles_size_incl; intros p; apply Permutation_in;
      [assumption | now apply Permutation_sym].
  - rewrite !write_tiles_exists, (existsb_Permutation _ _ _ Hp). reflexivity.
Qed.

(* ORDER IRRELEVANT: the same (offset, element) pairs written in another order (e.g. the
   sorted order of an aggregated write) give the same file *)
Theorem scatter_perm : forall d xsz offs elems offs2 elems2,
  elems_disjoint xsz offs ->
  length elems = length offs -> length elems2 = length offs2 ->
  Forall (fun e : list byte => Zlen e = xsz) elems ->
  Permutation (combine offs elems) (combine offs2 elems2) ->
  disk_eq (dk_scatter d xsz offs (concat elems)) (dk_scatter d xsz offs2 (concat elems2)).
Proof.
  intros d xsz offs elems offs2 elems2 Hd Hl Hl2 Hall Hp.
  apply elems_disjoint_rec in Hd. destruct Hd as [Hx Hd].
  assert (Hall2 : Forall (fun e : list byte => Zlen e = xsz) elems2).
  { apply Forall_forall. intros e He.
    destruct (in_combine_r_ex offs2 elems2 e ltac:(lia) He) as [o Ho].
    apply Permutation_sym in Hp. pose proof (Permutation_in _ Hp Ho) as Ho'.
    apply in_combine_r in Ho'. rewrite Forall_forall in Hall. now apply Hall. }
  rewrite !dk_scatter_tiles by assumption.
  apply write_tiles_perm; [|assumption].
  intros x. apply tiles_disjoint_agree, (tiles_disjoint_combine xsz); assumption.
Qed.

(* the ranks' shares of the pairs, applied one after the other *)
Definition apply_shares (shares : list (list (Z * list byte))) (d : disk) : disk :=
  fold_left (fun acc sh => write_tiles sh acc) shares d.

Lemma apply_shares_concat : forall shares d,
  apply_shares shares d = write_tiles (concat shares) d.
Proof.
  induction shares as [|sh shares IH]; intros d; [reflexivity|].
  cbn [concat]. rewrite write_tiles_app. unfold apply_shares in *. cbn [fold_left]. apply IH.
Qed.

(* DECOMPOSITION IRRELEVANT: split the pairs of one request into any number of shares (with
   any assignment of pairs to shares, in any order inside a share and any order of the shares):
   the result is the file the single put produces *)
Theorem decomposition_irrelevant : forall d xsz offs elems shares,
  elems_disjoint xsz offs -> length elems = length offs ->
  Forall (fun e : list byte => Zlen e = xsz) elems ->
  Permutation (concat shares) (combine offs elems) ->
  disk_eq (apply_shares shares d) (dk_scatter d xsz offs (concat elems)).
Proof.
  intros d xsz offs elems shares Hd Hl Hall Hp.
  apply elems_disjoint_rec in Hd. destruct Hd as [Hx Hd].
  rewrite apply_shares_concat, dk_scatter_tiles by assumption.
  apply disk_eq_sym, write_tiles_perm;
    [intros x; apply tiles_disjoint_agree, (tiles_disjoint_combine xsz); assumption|].
  now apply Permutation_sym.
Qed.

(* the same with every share written by dk_scatter (a rank's put of its own sub-request) *)
Definition scatter_shares (xsz : Z) (shares : list (list Z * list (list byte))) (d : disk) : disk :=
  fold_left (fun acc s => dk_scatter acc xsz (fst s) (concat (snd s))) shares d.

Definition share_wf (xsz : Z) (s : list Z * list (list byte)) : Prop :=
  length (snd s) = length (fst s) /\ Forall (fun e : list byte => Zlen e = xsz) (snd s).

Lemma scatter_shares_tiles xsz : forall shares d,
  Forall (share_wf xsz) shares ->
  scatter_shares xsz shares d =
  apply_shares (map (fun s => combine (fst s) (snd s)) shares) d.
Proof.
  induction shares as [|s shares IH]; intros d Hwf; [reflexivity|].
  inversion Hwf as [|? ? [Hs1 Hs2] Hrest]; subst.
  unfold scatter_shares, apply_shares in *. cbn [fold_left map].
  rewrite dk_scatter_tiles by assumption. apply IH. assumption.
Qed.

Theorem decomposition_irrelevant_scatter : forall d xsz offs elems shares,
  elems_disjoint xsz offs -> length elems = length offs ->
  Forall (fun e : list byte => Zlen e = xsz) elems ->
  Forall (share_wf xsz) shares ->
  Permutation (flat_map (fun s => combine (fst s) (snd s)) shares) (combine offs elems) ->
  disk_eq (scatter_shares xsz shares d) (dk_scatter d xsz offs (concat elems)).
Proof.
  intros d xsz offs elems shares Hd Hl Hall Hwf Hp.
  rewrite scatter_shares_tiles by assumption.
  apply decomposition_irrelevant; try assumption.
  rewrite <- flat_map_concat_map. exact Hp.
Qed.

(* every stream is the concatenation of its elements *)
Fixpoint chunks (xsz : Z) (n : nat) (bs : list byte) : list (list byte) :=
  match n with
  | O => []
  | S k => zfirstn xsz bs :: chunks xsz k (zskipn xsz bs)
  end.

Lemma chunks_spec xsz : forall n bs, 0 <= xsz -> Zlen bs = xsz * Z.of_nat n ->
  length (chunks xsz n bs) = n /\
  Forall (fun e : list byte => Zlen e = xsz) (chunks xsz n bs) /\
  concat (chunks xsz n bs) = bs.
Proof.
  induction n as [|n IH]; intros bs Hx Hl.
  - cbn [chunks length concat]. split; [reflexivity|]. split; [constructor|].
    symmetry. apply Zlen_zero_nil. lia.
  - cbn [chunks length concat].
    assert (Hge : xsz <= Zlen bs) by nia.
    destruct (IH (zskipn xsz bs) Hx) as (H1 & H2 & H3); [rewrite Zlen_zskipn; lia|].
    split; [now rewrite H1|]. split.
    + constructor; [rewrite Zlen_zfirstn; lia | assumption].
    + rewrite H3. apply zfirstn_zskipn.
Qed.

(* ================================================================== *)
(* 5. (start, count, stride) requests                                  *)
(* ================================================================== *)
Theorem elem_off_apart : forall g i j,
  wf_geom g -> rec_fits g -> idx_ok g i -> idx_ok g j -> i <> j ->
  apart (g_xsz g) (elem_off g i) (elem_off g j).
Proof.
  intros g i j (Hx & _). apply elem_off_sep. exact Hx.
Qed.

Lemma disj_rec_map_NoDup {A} (f : A -> Z) xsz : forall l,
  NoDup l -> (forall a b, In a l -> In b l -> a <> b -> apart xsz (f a) (f b)) ->
  disj_rec xsz (map f l).
Proof.
  induction l as [|a l IH]; intros Hnd H; [exact I|].
  inversion Hnd as [|? ? Hnotin Hnd']; subst. cbn [map disj_rec]. split.
  - apply Forall_forall. intros y Hy. apply in_map_iff in Hy. destruct Hy as [b [<- Hb]].
    apply H; [now left | now right | intros ->; contradiction].
  - apply IH; [assumption|]. intros x y Hx Hy. apply H; now right.
Qed.

Lemma spec_offsets_disjoint : forall g start count stride,
  wf_geom g -> rec_fits g -> req_ok (g_shape g) start count stride ->
  elems_disjoint (g_xsz g) (spec_offsets g start count stride).
Proof.
  intros g start count stride Hwf Hfit Hreq. apply elems_disjoint_rec.
  split; [destruct Hwf as [Hx _]; exact Hx|].
  unfold spec_offsets. apply disj_rec_map_NoDup.
  - apply req_indices_NoDup. eapply req_ok_stride_pos; eassumption.
  - intros a b Ha Hb Hne.
    apply elem_off_apart; try assumption; eapply req_indices_idx_ok; eassumption.
Qed.

(* the elements addressed by one accepted request occupy pairwise disjoint bytes *)
Theorem request_offsets_disjoint : forall g start count stride,
  wf_geom g -> rec_fits g -> req_ok (g_shape g) start count stride ->
  elems_disjoint (g_xsz g) (model_offsets g start count (Some stride)).
Proof.
  intros. rewrite model_offsets_eq_spec by assumption. apply spec_offsets_disjoint; assumption.
Qed.

Lemma Zlen_model_offsets : forall g start count stride,
  wf_geom g -> req_ok (g_shape g) start count stride ->
  Zlen (model_offsets g start count (Some stride)) = zprod count.
Proof.
  intros g start count stride Hwf Hreq. unfold Zlen.
  rewrite model_offsets_length by assumption.
  pose proof (zprod_nonneg count (req_ok_count_nonneg _ _ _ _ Hreq)). lia.
Qed.

Lemma Zlen_req_indices : forall shape start count stride,
  req_ok shape start count stride -> Zlen (req_indices start count stride) = zprod count.
Proof.
  intros shape start count stride Hreq. unfold Zlen.
  destruct (req_ok_lengths _ _ _ _ Hreq) as (Hls & Hlc & Hlt).
  pose proof (req_ok_count_nonneg _ _ _ _ Hreq) as Hc.
  rewrite req_indices_length by (try assumption; lia).
  pose proof (zprod_nonneg count Hc). lia.
Qed.

(* the k-th offset of the request is the offset of its k-th index vector *)
Lemma znth_model_offsets : forall g start count stride k,
  wf_geom g -> req_ok (g_shape g) start count stride -> 0 <= k < zprod count ->
  znth (model_offsets g start count (Some stride)) k 0 =
  elem_off g (znth (req_indices start count stride) k []).
Proof.
  intros g start count stride k Hwf Hreq Hk.
  rewrite model_offsets_eq_spec by assumption. unfold spec_offsets.
  apply znth_map. rewrite (Zlen_req_indices (g_shape g)) by assumption. exact Hk.
Qed.

Lemma In_model_offsets : forall g start count stride o,
  wf_geom g -> req_ok (g_shape g) start count stride ->
  In o (model_offsets g start count (Some stride)) ->
  exists idx, In idx (req_indices start count stride) /\ idx_ok g idx /\ o = elem_off g idx.
Proof.
  intros g start count stride o Hwf Hreq Ho.
  rewrite model_offsets_eq_spec in Ho by assumption. apply in_map_iff in Ho.
  destruct Ho as [idx [<- Hidx]]. exists idx. split; [assumption|]. split; [|reflexivity].
  eapply req_indices_idx_ok; eassumption.
Qed.

(* ROUND TRIP for a request: what a put stored is what a get of the same request returns *)
Theorem put_get_roundtrip : forall g start count stride d bs,
  wf_geom g -> rec_fits g -> req_ok (g_shape g) start count stride ->
  Zlen bs = g_xsz g * zprod count ->
  let offs := model_offsets g start count (Some stride) in
  dk_gather (dk_scatter d (g_xsz g) offs bs) (g_xsz g) offs = bs.
Proof.
  intros g start count stride d bs Hwf Hfit Hreq Hlen offs. apply gather_scatter.
  - apply request_offsets_disjoint; assumption.
  - unfold offs. rewrite Zlen_model_offsets by assumption. exact Hlen.
Qed.

(* ... and the element with the k-th index vector holds the k-th stream element *)
Theorem put_get_element : forall g start count stride d bs k,
  wf_geom g -> rec_fits g -> req_ok (g_shape g) start count stride ->
  Zlen bs = g_xsz g * zprod count -> 0 <= k < zprod count ->
  let D := dk_scatter d (g_xsz g) (model_offsets g start count (Some stride)) bs in
  dk_read D (elem_off g (znth (req_indices start count stride) k [])) (g_xsz g) =
  stream_elem (g_xsz g) bs k.
Proof.
  intros g start count stride d bs k Hwf Hfit Hreq Hlen Hk D.
  pose proof Hwf as (Hx & _).
  pose proof (Zlen_model_offsets g start count stride Hwf Hreq) as Hzl.
  rewrite <- znth_model_offsets by assumption.
  rewrite <- stream_elem_gather by lia.
  unfold D. rewrite gather_scatter; [reflexivity | |].
  - apply request_offsets_disjoint; assumption.
  - rewrite Hzl. exact Hlen.
Qed.

(* A get through ANY other accepted request on the same variable (another start/count/stride
   reading overlapping elements): every element it returns is the stream element the put
   stored for that index vector, or, for an index vector the put did not address, the
   previous content of the file. *)
Theorem get_other_request : forall g st cn sd st' cn' sd' d bs k',
  wf_geom g -> rec_fits g ->
  req_ok (g_shape g) st cn sd -> req_ok (g_shape g) st' cn' sd' ->
  Zlen bs = g_xsz g * zprod cn -> 0 <= k' < zprod cn' ->
  let D := dk_scatter d (g_xsz g) (model_offsets g st cn (Some sd)) bs in
  let got := dk_gather D (g_xsz g) (model_offsets g st' cn' (Some sd')) in
  let idx' := znth (req_indices st' cn' sd') k' [] in
  (forall k, 0 <= k < zprod cn -> znth (req_indices st cn sd) k [] = idx' ->
     stream_elem (g_xsz g) got k' = stream_elem (g_xsz g) bs k) /\
  (~ In idx' (req_indices st cn sd) ->
     stream_elem (g_xsz g) got k' = dk_read d (elem_off g idx') (g_xsz g)).
Proof.
  intros g st cn sd st' cn' sd' d bs k' Hwf Hfit Hreq Hreq' Hlen Hk' D got idx'.
  pose proof (Zlen_model_offsets g st cn sd Hwf Hreq) as Hzl.
  pose proof (Zlen_model_offsets g st' cn' sd' Hwf Hreq') as Hzl'.
  pose proof (request_offsets_disjoint g st cn sd Hwf Hfit Hreq) as Hdis.
  destruct (gather_after_scatter d (g_xsz g) (model_offsets g st cn (Some sd)) bs
              (model_offsets g st' cn' (Some sd')) k' Hdis) as [Hin Hout];
    [rewrite Hzl; exact Hlen | rewrite Hzl'; exact Hk' |].
  fold D in Hin, Hout. fold got in Hin, Hout.
  rewrite znth_model_offsets in Hin, Hout by assumption. fold idx' in Hin, Hout.
  assert (Hidx' : idx_ok g idx').
  { eapply req_indices_idx_ok; [exact Hreq'|]. apply znth_In.
    rewrite (Zlen_req_indices (g_shape g)) by assumption. exact Hk'. }
  split.
  - intros k Hk E. apply Hin; [rewrite Hzl; exact Hk|].
    rewrite znth_model_offsets by assumption. now rewrite E.
  - intros Hnot. apply Hout. intros o Ho.
    destruct (In_model_offsets g st cn sd o Hwf Hreq Ho) as (idx & Hidx & Hok & ->).
    apply elem_off_apart; try assumption.
    intros E. apply Hnot. rewrite <- E. exact Hidx.
Qed.

(* FRAME for a request: a byte that belongs to no addressed element keeps its value *)
Theorem put_frame : forall g start count stride d bs x,
  wf_geom g -> req_ok (g_shape g) start count stride ->
  (forall idx, In idx (req_indices start count stride) ->
     ~ in_elem (g_xsz g) (elem_off g idx) x) ->
  dk_get (dk_scatter d (g_xsz g) (model_offsets g start count (Some stride)) bs) x = dk_get d x.
Proof.
  intros g start count stride d bs x Hwf Hreq H. apply scatter_get_out.
  intros o Ho. destruct (In_model_offsets g start count stride o Hwf Hreq Ho) as (idx & Hidx & _ & ->).
  now apply H.
Qed.

(* in particular every other element of the same variable is untouched *)
Corollary put_frame_element : forall g start count stride d bs idx,
  wf_geom g -> rec_fits g -> req_ok (g_shape g) start count stride ->
  idx_ok g idx -> ~ In idx (req_indices start count stride) ->
  dk_read (dk_scatter d (g_xsz g) (model_offsets g start count (Some stride)) bs)
          (elem_off g idx) (g_xsz g) =
  dk_read d (elem_off g idx) (g_xsz g).
Proof.
  intros g start count stride d bs idx Hwf Hfit Hreq Hidx Hnot.
  unfold dk_read. apply map_ext_in. intros x Hx. apply In_zrange in Hx.
  apply put_frame; try assumption. intros idx2 Hin2 Hin.
  assert (Hap : apart (g_xsz g) (elem_off g idx2) (elem_off g idx)).
  { apply elem_off_apart; try assumption.
    - eapply req_indices_idx_ok; eassumption.
    - intros ->. contradiction. }
  unfold apart in Hap. unfold in_elem in Hin. lia.
Qed.

(* ---------- two variables ---------- *)
(* the bytes that belong to a variable: one block for a fixed-size variable, one slot in
   every record for a record variable *)
Definition var_region (g : geom) (x : Z) : Prop :=
  if g_isrec g then
    exists i0, 0 <= i0 /\
      g_begin g + i0 * g_recsize g <= x <
      g_begin g + i0 * g_recsize g + zprod (tl (g_shape g)) * g_xsz g
  else g_begin g <= x < g_begin g + zprod (g_shape g) * g_xsz g.

Definition regions_disjoint (g1 g2 : geom) : Prop :=
  forall x, var_region g1 x -> var_region g2 x -> False.

Lemma regions_disjoint_sym g1 g2 : regions_disjoint g1 g2 -> regions_disjoint g2 g1.
Proof. unfold regions_disjoint. intros H x H2 H1. exact (H x H1 H2). Qed.

(* (begin, size) of two fixed-size variables *)
Lemma regions_disjoint_fixed_fixed g1 g2 :
  g_isrec g1 = false -> g_isrec g2 = false ->
  g_begin g1 + zprod (g_shape g1) * g_xsz g1 <= g_begin g2 \/
  g_begin g2 + zprod (g_shape g2) * g_xsz g2 <= g_begin g1 ->
  regions_disjoint g1 g2.
Proof.
  intros H1 H2 H x. unfold var_region. rewrite H1, H2. lia.
Qed.

(* a fixed-size variable lies before the record section *)
Lemma regions_disjoint_fixed_rec g1 g2 :
  g_isrec g1 = false -> g_isrec g2 = true -> 0 <= g_recsize g2 ->
  g_begin g1 + zprod (g_shape g1) * g_xsz g1 <= g_begin g2 ->
  regions_disjoint g1 g2.
Proof.
  intros H1 H2 Hrs H x. unfold var_region. rewrite H1, H2. intros Hx1 [i0 [Hi0 Hx2]].
  assert (0 <= i0 * g_recsize g2) by nia. lia.
Qed.

(* two record variables of one file: their slots inside the record do not overlap *)
Lemma regions_disjoint_rec_rec g1 g2 :
  g_isrec g1 = true -> g_isrec g2 = true ->
  g_recsize g1 = g_recsize g2 -> 0 <= g_recsize g1 ->
  g_begin g1 + zprod (tl (g_shape g1)) * g_xsz g1 <= g_begin g2 ->
  g_begin g2 + zprod (tl (g_shape g2)) * g_xsz g2 <= g_begin g1 + g_recsize g1 ->
  regions_disjoint g1 g2.
Proof.
  intros H1 H2 Ers Hrs Ha Hb x. unfold var_region. rewrite H1, H2, <- Ers.
  intros [i [Hi Hx1]] [k [Hk Hx2]].
  destruct (Z_le_gt_dec i k) as [Hik|Hik].
  - assert (i * g_recsize g1 <= k * g_recsize g1) by nia. lia.
  - assert ((k + 1) * g_recsize g1 <= i * g_recsize g1) by nia. lia.
Qed.

Lemma elem_in_region : forall g idx x,
  0 <= g_xsz g -> idx_ok g idx -> in_elem (g_xsz g) (elem_off g idx) x -> var_region g x.
Proof.
  intros g idx x Hx Hidx Hin. unfold idx_ok in Hidx. unfold var_region, in_elem in *.
  destruct (g_isrec g) eqn:Erec.
  - destruct idx as [|i0 r]; [contradiction|]. destruct Hidx as [Hi0 Hr].
    destruct (elem_off_bounds_rec g i0 r Hx Erec Hr) as [B1 B2].
    exists i0. split; [assumption | lia].
  - destruct (elem_off_bounds_fixed g idx Hx Erec Hidx) as [B1 B2]. lia.
Qed.

Lemma request_in_region : forall g start count stride a x,
  wf_geom g -> req_ok (g_shape g) start count stride ->
  In a (model_offsets g start count (Some stride)) -> in_elem (g_xsz g) a x -> var_region g x.
Proof.
  intros g start count stride a x Hwf Hreq Ha Hin.
  destruct (In_model_offsets g start count stride a Hwf Hreq Ha) as (idx & _ & Hok & ->).
  destruct Hwf as (Hx & _). eapply elem_in_region; [lia | eassumption | eassumption].
Qed.

(* requests on two variables whose regions do not meet do not disturb each other: after both
   puts (in either order: the two orders give the same file) each request reads back its own
   stream *)
Theorem two_vars_disjoint : forall g1 st1 cn1 sd1 bs1 g2 st2 cn2 sd2 bs2 d,
  wf_geom g1 -> rec_fits g1 -> req_ok (g_shape g1) st1 cn1 sd1 ->
  Zlen bs1 = g_xsz g1 * zprod cn1 ->
  wf_geom g2 -> rec_fits g2 -> req_ok (g_shape g2) st2 cn2 sd2 ->
  Zlen bs2 = g_xsz g2 * zprod cn2 ->
  regions_disjoint g1 g2 ->
  let offs1 := model_offsets g1 st1 cn1 (Some sd1) in
  let offs2 := model_offsets g2 st2 cn2 (Some sd2) in
  let D := dk_scatter (dk_scatter d (g_xsz g1) offs1 bs1) (g_xsz g2) offs2 bs2 in
  dk_gather D (g_xsz g1) offs1 = bs1 /\
  dk_gather D (g_xsz g2) offs2 = bs2 /\
  (forall x, dk_get D x =
             dk_get (dk_scatter (dk_scatter d (g_xsz g2) offs2 bs2) (g_xsz g1) offs1 bs1) x) /\
  (forall x, ~ var_region g1 x -> ~ var_region g2 x -> dk_get D x = dk_get d x).
Proof.
  intros g1 st1 cn1 sd1 bs1 g2 st2 cn2 sd2 bs2 d Hwf1 Hfit1 Hreq1 Hl1 Hwf2 Hfit2 Hreq2 Hl2
         Hdisj offs1 offs2 D.
  pose proof (request_offsets_disjoint g1 st1 cn1 sd1 Hwf1 Hfit1 Hreq1) as Hd1.
  pose proof (request_offsets_disjoint g2 st2 cn2 sd2 Hwf2 Hfit2 Hreq2) as Hd2.
  fold offs1 in Hd1. fold offs2 in Hd2.
  assert (Hz1 : Zlen bs1 = g_xsz g1 * Zlen offs1)
    by (unfold offs1; rewrite Zlen_model_offsets by assumption; exact Hl1).
  assert (Hz2 : Zlen bs2 = g_xsz g2 * Zlen offs2)
    by (unfold offs2; rewrite Zlen_model_offsets by assumption; exact Hl2).
  pose proof (fun a x => request_in_region g1 st1 cn1 sd1 a x Hwf1 Hreq1) as Hreg1.
  pose proof (fun a x => request_in_region g2 st2 cn2 sd2 a x Hwf2 Hreq2) as Hreg2.
  assert (Hcross : forall a b x, In a offs1 -> In b offs2 ->
                     in_elem (g_xsz g1) a x -> in_elem (g_xsz g2) b x -> False).
  { intros a b x Ha Hb Hia Hib. apply (Hdisj x); eauto. }
  split; [|split; [|split]].
  - unfold D. rewrite gather_scatter_frame by exact Hcross. apply gather_scatter; assumption.
  - unfold D. apply gather_scatter; assumption.
  - intros x. unfold D. apply scatter_commute; assumption.
  - intros x Hn1 Hn2. unfold D.
    rewrite scatter_get_out by (intros o Ho Hin; apply Hn2; eapply Hreg2; eassumption).
    apply scatter_get_out. intros o Ho Hin. apply Hn1. eapply Hreg1; eassumption.
Qed.

(* ================================================================== *)
(* 6. Examples: a file with two 2-D record variables and a fixed one   *)
(* ================================================================== *)
(* record size 20; x: unlimited x 3 of 4-byte elements in record bytes [0,12);
   y: unlimited x 4 of 2-byte elements in record bytes [12,20); records start at byte 64;
   f: fixed 2 x 3 of 4-byte elements at bytes [16,40) *)
Definition ex_gx : geom := mkgeom 64 4 [0; 3] 20 2.
Definition ex_gy : geom := mkgeom 76 2 [0; 4] 20 2.
Definition ex_gf : geom := mkgeom 16 4 [2; 3] 0 0.

Example ex_gx_wf : wf_geom ex_gx /\ rec_fits ex_gx.
Proof. split; [apply geom_ok_b_wf | apply rec_fits_b_ok]; reflexivity. Qed.

Example ex_gy_wf : wf_geom ex_gy /\ rec_fits ex_gy.
Proof. split; [apply geom_ok_b_wf | apply rec_fits_b_ok]; reflexivity. Qed.

Example ex_gf_wf : wf_geom ex_gf /\ rec_fits ex_gf.
Proof. split; [apply geom_ok_b_wf | apply rec_fits_b_ok]; reflexivity. Qed.

(* strided request on x: records 1 and 3, columns 0 and 2 *)
Example ex_req : req_ok (g_shape ex_gx) [1; 0] [2; 2] [2; 2].
Proof. cbn [ex_gx g_shape req_ok dims_ok]. lia. Qed.

Definition ex_offs : list Z := model_offsets ex_gx [1; 0] [2; 2] (Some [2; 2]).
Definition ex_bs : list byte := [1; 2; 3; 4; 5; 6; 7; 8; 9; 10; 11; 12; 13; 14; 15; 16].
(* a file whose byte x in [64,144) holds 100 + (x - 64) *)
Definition ex_d0 : disk := dk_write empty_disk 64 (map (Z.add 100) (zrange 0 80)).

Example ex_offs_value : ex_offs = [84; 92; 124; 132].
Proof. vm_compute. reflexivity. Qed.

Example ex_offs_disjoint : elems_disjoint 4 ex_offs.
Proof.
  destruct ex_gx_wf as [Hwf Hfit].
  exact (request_offsets_disjoint ex_gx [1; 0] [2; 2] [2; 2] Hwf Hfit ex_req).
Qed.

Example ex_scatter_get_in_out :
  let D := dk_scatter ex_d0 4 ex_offs ex_bs in
  dk_get D (92 + 1) = 6 /\ dk_get D 88 = dk_get ex_d0 88 /\ dk_get D 88 = 124 /\
  dk_size D = 144 /\ dk_size (dk_scatter empty_disk 4 ex_offs ex_bs) = 136.
Proof. vm_compute. repeat split; reflexivity. Qed.

Example ex_roundtrip_compute :
  dk_gather (dk_scatter ex_d0 4 ex_offs ex_bs) 4 ex_offs = ex_bs.
Proof. vm_compute. reflexivity. Qed.

Example ex_roundtrip_by_theorem : forall d,
  dk_gather (dk_scatter d 4 ex_offs ex_bs) 4 ex_offs = ex_bs.
Proof.
  intros d. destruct ex_gx_wf as [Hwf Hfit].
  apply (put_get_roundtrip ex_gx [1; 0] [2; 2] [2; 2] d ex_bs Hwf Hfit ex_req).
  vm_compute. reflexivity.
Qed.

(* another access form: the whole record 1 (columns 0,1,2, stride 1) read after the put
   returns the put's elements 0 and 1 in columns 0 and 2, and the old bytes in column 1 *)
Example ex_other_request_compute :
  dk_gather (dk_scatter ex_d0 4 ex_offs ex_bs) 4 (model_offsets ex_gx [1; 0] [1; 3] (Some [1; 1]))
  = [1; 2; 3; 4; 124; 125; 126; 127; 5; 6; 7; 8].
Proof. vm_compute. reflexivity. Qed.

Example ex_other_request_by_theorem : forall d,
  let got := dk_gather (dk_scatter d 4 ex_offs ex_bs) 4
                       (model_offsets ex_gx [1; 0] [1; 3] (Some [1; 1])) in
  stream_elem 4 got 2 = [5; 6; 7; 8] /\ stream_elem 4 got 1 = dk_read d 88 4.
Proof.
  intros d got. destruct ex_gx_wf as [Hwf Hfit].
  assert (Hreq' : req_ok (g_shape ex_gx) [1; 0] [1; 3] [1; 1])
    by (cbn [ex_gx g_shape req_ok dims_ok]; lia).
  assert (Hlen : Zlen ex_bs = g_xsz ex_gx * zprod [2; 2]) by (vm_compute; reflexivity).
  split.
  - destruct (get_other_request ex_gx [1; 0] [2; 2] [2; 2] [1; 0] [1; 3] [1; 1] d ex_bs 2
                Hwf Hfit ex_req Hreq' Hlen ltac:(vm_compute; split; congruence)) as [Hin _].
    apply (Hin 1); [vm_compute; split; congruence | vm_compute; reflexivity].
  - destruct (get_other_request ex_gx [1; 0] [2; 2] [2; 2] [1; 0] [1; 3] [1; 1] d ex_bs 1
                Hwf Hfit ex_req Hreq' Hlen ltac:(vm_compute; split; congruence)) as [_ Hout].
    apply Hout. vm_compute. intros [H|[H|[H|[H|[]]]]]; discriminate.
Qed.

(* the four (offset, element) pairs in reverse order, and split over three ranks *)
Definition ex_elems : list (list byte) := chunks 4 4 ex_bs.

Example ex_elems_value :
  ex_elems = [[1; 2; 3; 4]; [5; 6; 7; 8]; [9; 10; 11; 12]; [13; 14; 15; 16]] /\
  concat ex_elems = ex_bs.
Proof. vm_compute. split; reflexivity. Qed.

Example ex_perm : forall d,
  disk_eq (dk_scatter d 4 ex_offs (concat ex_elems))
          (dk_scatter d 4 (rev ex_offs) (concat (rev ex_elems))).
Proof.
  intros d. apply scatter_perm.
  - exact ex_offs_disjoint.
  - reflexivity.
  - reflexivity.
  - vm_compute. repeat constructor.
  - replace (combine (rev ex_offs) (rev ex_elems)) with (rev (combine ex_offs ex_elems))
      by (vm_compute; reflexivity).
    apply Permutation_rev.
Qed.

Example ex_decomposition : forall d,
  let p0 := (84, [1; 2; 3; 4]) in let p1 := (92, [5; 6; 7; 8]) in
  let p2 := (124, [9; 10; 11; 12]) in let p3 := (132, [13; 14; 15; 16]) in
  disk_eq (apply_shares [[p0; p3]; [p2]; [p1]] d) (dk_scatter d 4 ex_offs ex_bs).
Proof.
  intros d p0 p1 p2 p3.
  replace ex_bs with (concat ex_elems) by (vm_compute; reflexivity).
  apply decomposition_irrelevant.
  - exact ex_offs_disjoint.
  - reflexivity.
  - vm_compute. repeat constructor.
  - replace (combine ex_offs ex_elems) with [p0; p1; p2; p3] by (vm_compute; reflexivity).
    cbn [concat app]. apply perm_skip.
    apply Permutation_sym. apply (Permutation_rev [p1; p2; p3]).
Qed.

Example ex_decomposition_compute :
  let D := apply_shares [[(84, [1; 2; 3; 4]); (132, [13; 14; 15; 16])];
                         [(124, [9; 10; 11; 12])]; [(92, [5; 6; 7; 8])]] ex_d0 in
  dk_read D 64 80 = dk_read (dk_scatter ex_d0 4 ex_offs ex_bs) 64 80.
Proof. vm_compute. reflexivity. Qed.

(* x and y share the records; f precedes them *)
Example ex_regions : regions_disjoint ex_gx ex_gy /\ regions_disjoint ex_gf ex_gx.
Proof.
  split.
  - apply regions_disjoint_rec_rec; vm_compute; try reflexivity; discriminate.
  - apply regions_disjoint_fixed_rec; vm_compute; try reflexivity; discriminate.
Qed.

Example ex_two_vars : forall d,
  let offs2 := model_offsets ex_gy [0; 1] [3; 2] (Some [1; 2]) in
  let bs2 := [21; 22; 23; 24; 25; 26; 27; 28; 29; 30; 31; 32] in
  let D := dk_scatter (dk_scatter d 4 ex_offs ex_bs) 2 offs2 bs2 in
  dk_gather D 4 ex_offs = ex_bs /\ dk_gather D 2 offs2 = bs2.
Proof.
  intros d offs2 bs2 D.
  destruct ex_gx_wf as [Hwf1 Hfit1]. destruct ex_gy_wf as [Hwf2 Hfit2].
  assert (Hreq2 : req_ok (g_shape ex_gy) [0; 1] [3; 2] [1; 2])
    by (cbn [ex_gy g_shape req_ok dims_ok]; lia).
  destruct (two_vars_disjoint ex_gx [1; 0] [2; 2] [2; 2] ex_bs ex_gy [0; 1] [3; 2] [1; 2] bs2 d
              Hwf1 Hfit1 ex_req ltac:(vm_compute; reflexivity)
              Hwf2 Hfit2 Hreq2 ltac:(vm_compute; reflexivity) (proj1 ex_regions))
    as (H1 & H2 & _).
  split; assumption.
Qed.

Example ex_two_vars_compute :
  let offs2 := model_offsets ex_gy [0; 1] [3; 2] (Some [1; 2]) in
  let bs2 := [21; 22; 23; 24; 25; 26; 27; 28; 29; 30; 31; 32] in
  offs2 = [78; 82; 98; 102; 118; 122] /\
  dk_gather (dk_scatter (dk_scatter ex_d0 4 ex_offs ex_bs) 2 offs2 bs2) 4 ex_offs = ex_bs.
Proof. vm_compute. split; reflexivity. Qed.

(* the hypothesis elems_disjoint is necessary for the round trip: an offset list with a
   repeated element reads back the LAST value for both positions *)
Example ex_overlap_not_roundtrip :
  dk_gather (dk_scatter empty_disk 2 [10; 10] [1; 2; 3; 4]) 2 [10; 10] = [3; 4; 3; 4].
Proof. vm_compute. reflexivity. Qed.

Print Assumptions scatter_get_in.
Print Assumptions scatter_get_out.
Print Assumptions gather_scatter.
Print Assumptions gather_after_scatter.
Print Assumptions scatter_perm.
Print Assumptions decomposition_irrelevant_scatter.
Print Assumptions scatter_commute.
Print Assumptions request_offsets_disjoint.
Print Assumptions put_get_roundtrip.
Print Assumptions put_get_element.
Print Assumptions get_other_request.
Print Assumptions put_frame_element.
Print Assumptions two_vars_disjoint.
