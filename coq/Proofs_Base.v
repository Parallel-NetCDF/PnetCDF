(* Proofs_Base.v — byte-level lemmas: big-endian codec round trips, padding, byte-string
   equality, external type sizes, and the parser-combinator lemmas (p_bytes / p_padded /
   p_many / p_list) of HeaderSpec.v.  The list lemmas they rest on are in Proofs_Lists.v. *)
From Pnc Require Import Base Header HeaderSpec Data Proofs_Lists.
Require Import ZifyBool.
(* From here on, and in every file that imports this one, [lia] first turns each [a / b] and
   [a mod b] into its defining equations (quotient and remainder as fresh variables), so it
   also decides linear goals with division or remainder by a literal.  Importing Zify or
   ZifyBool AFTER this file puts the empty hook back. *)
Ltac Zify.zify_post_hook ::= Z.div_mod_to_equations.
Local Open Scope Z_scope.

Local Arguments Z.mul : simpl never.
Local Arguments Z.add : simpl never.
Local Arguments Z.sub : simpl never.
Local Arguments Z.div : simpl never.
Local Arguments Z.modulo : simpl never.
Local Arguments Z.pow : simpl never.
Local Arguments Z.of_nat : simpl never.
Local Arguments Z.to_nat : simpl never.

Lemma Zlen_zeros : forall n, 0 <= n -> Zlen (zeros n) = n.
Proof. intros n Hn. unfold zeros. rewrite Zlen_repeat. lia. Qed.

(* ------------------------------------------------------------------ *)
(** * padding *)

Lemma padlen_range : forall n, 0 <= padlen n < 4.
Proof. intros n. unfold padlen. lia. Qed.

Lemma padlen_mod4 : forall n, (n + padlen n) mod 4 = 0.
Proof. intros n. unfold padlen. lia. Qed.

Lemma padlen_0 : padlen 0 = 0.
Proof. reflexivity. Qed.

Lemma Zlen_pad4 : forall n, Zlen (pad4 n) = padlen n.
Proof. intros n. unfold pad4. apply Zlen_zeros. pose proof (padlen_range n). lia. Qed.

(* the library's rounding macro and the grammar's padding agree (for every integer) *)
Lemma rndup4_padlen : forall n, rndup n 4 = n + padlen n.
Proof. intros n. unfold rndup, padlen. cbn [Z.eqb]. lia. Qed.

Lemma rndup4_mod4 : forall n, rndup n 4 mod 4 = 0.
Proof. intros n. rewrite rndup4_padlen. apply padlen_mod4. Qed.

Lemma rndup_pos : forall x a, 0 < a ->
  x <= rndup x a < x + a /\ rndup x a mod a = 0.
Proof.
  intros x a Ha. unfold rndup. replace (a =? 0) with false by lia.
  pose proof (Z.div_mod (x + a - 1) a ltac:(lia)) as Hdm.
  pose proof (Z.mod_pos_bound (x + a - 1) a Ha) as Hm.
  split.
  - set (q := (x + a - 1) / a) in *. set (m := (x + a - 1) mod a) in *. clearbody q m. nia.
  - apply Z.mod_mul. lia.
Qed.

Lemma rndup_mult4 : forall x a, 0 < a -> a mod 4 = 0 -> rndup x a mod 4 = 0.
Proof.
  intros x a Ha H4. unfold rndup. replace (a =? 0) with false by lia.
  apply Z.mod_divide; [lia|]. apply Z.divide_mul_r. apply Z.mod_divide; [lia|exact H4].
Qed.

Lemma rndup4_bounds : forall x, x <= rndup x 4 < x + 4 /\ rndup x 4 mod 4 = 0.
Proof. intros x. apply rndup_pos. lia. Qed.

Lemma rndup4_id : forall x, x mod 4 = 0 -> rndup x 4 = x.
Proof. intros x H. pose proof (rndup4_bounds x). lia. Qed.

Lemma rndup4_le : forall x y, x <= y -> y mod 4 = 0 -> rndup x 4 <= y.
Proof. intros x y H H4. pose proof (rndup4_bounds x). lia. Qed.

(* the double rounding of begin_rec: to 4, then to r_align *)
Lemma rndup2_ok : forall x ra, 4 <= ra -> ra mod 4 = 0 ->
  x <= rndup (rndup x 4) ra /\ rndup (rndup x 4) ra mod 4 = 0 /\ rndup (rndup x 4) ra mod ra = 0.
Proof.
  intros x ra Hra H4. pose proof (rndup4_bounds x).
  destruct (rndup_pos (rndup x 4) ra ltac:(lia)) as [Hb Hm].
  pose proof (rndup_mult4 (rndup x 4) ra ltac:(lia) H4). lia.
Qed.

Lemma rndup4_mono : forall a b, a <= b -> rndup a 4 <= rndup b 4.
Proof. intros a b H. unfold rndup. cbn [Z.eqb]. lia. Qed.

Lemma zsum_mod4 : forall l, Forall (fun x => x mod 4 = 0) l -> zsum l mod 4 = 0.
Proof.
  intros l H. induction H as [|x l Hx Hl IH]; [reflexivity|].
  cbn [zsum]. lia.
Qed.

Lemma zsum_map_mod4 : forall A (len : A -> Z) l,
  (forall a, len a mod 4 = 0) -> zsum (map len l) mod 4 = 0.
Proof.
  intros A len l H. apply zsum_mod4. apply Forall_forall. intros x Hx.
  apply in_map_iff in Hx. destruct Hx as [a [Ha _]]. subst x. apply H.
Qed.

Lemma all_zero_repeat : forall n, all_zero (repeat 0 n) = true.
Proof. induction n as [|n IH]; [reflexivity|]. cbn [repeat all_zero forallb]. exact IH. Qed.

Lemma all_zero_zeros : forall n, all_zero (zeros n) = true.
Proof. intros n. unfold zeros. apply all_zero_repeat. Qed.

Lemma all_zero_pad4 : forall n, all_zero (pad4 n) = true.
Proof. intros n. unfold pad4. apply all_zero_zeros. Qed.

Lemma all_zero_app : forall a b, all_zero (a ++ b) = all_zero a && all_zero b.
Proof. intros a b. unfold all_zero. apply forallb_app. Qed.

(* ------------------------------------------------------------------ *)
(** * big-endian codecs *)

Lemma Zlen_put_u32 : forall x, Zlen (put_u32 x) = 4.
Proof. reflexivity. Qed.

Lemma Zlen_put_u64 : forall x, Zlen (put_u64 x) = 8.
Proof. reflexivity. Qed.

(* what the four emitted bytes denote, for EVERY integer x (two's complement wrap) *)
Lemma be32_value : forall x,
  (x / 16777216) mod 256 * 16777216 + (x / 65536) mod 256 * 65536 +
  (x / 256) mod 256 * 256 + x mod 256 = x mod 4294967296.
Proof. intros x. lia. Qed.

Lemma get_put_u32_mod : forall x r, get_u32 (put_u32 x ++ r) = Some (x mod 4294967296, r).
Proof.
  intros x r. unfold put_u32. cbn [app get_u32]. rewrite be32_value. reflexivity.
Qed.

Lemma get_put_u32 : forall x r, 0 <= x < 4294967296 -> get_u32 (put_u32 x ++ r) = Some (x, r).
Proof. intros x r Hx. rewrite get_put_u32_mod. rewrite Z.mod_small by lia. reflexivity. Qed.

Lemma be64_value : forall x,
  (x / 4294967296) mod 4294967296 * 4294967296 + (x mod 4294967296) mod 4294967296
  = x mod 18446744073709551616.
Proof. intros x. lia. Qed.

Lemma get_put_u64_mod : forall x r,
  get_u64 (put_u64 x ++ r) = Some (x mod 18446744073709551616, r).
Proof.
  intros x r. unfold put_u64, get_u64. rewrite <- app_assoc.
  rewrite get_put_u32_mod. rewrite get_put_u32_mod. rewrite be64_value. reflexivity.
Qed.

Lemma get_put_u64 : forall x r, 0 <= x < 18446744073709551616 ->
  get_u64 (put_u64 x ++ r) = Some (x, r).
Proof. intros x r Hx. rewrite get_put_u64_mod. rewrite Z.mod_small by lia. reflexivity. Qed.

Lemma put_u32_bytes : forall x, Forall (fun b => is_byte b = true) (put_u32 x).
Proof.
  intros x. unfold put_u32, is_byte.
  repeat (apply Forall_cons; [lia|]). apply Forall_nil.
Qed.

Lemma put_u64_bytes : forall x, Forall (fun b => is_byte b = true) (put_u64 x).
Proof. intros x. unfold put_u64. apply Forall_app. split; apply put_u32_bytes. Qed.

Lemma zeros_bytes : forall n, Forall (fun b => is_byte b = true) (zeros n).
Proof.
  intros n. unfold zeros. induction (Z.to_nat n) as [|k IH]; cbn [repeat].
  - apply Forall_nil.
  - apply Forall_cons; [reflexivity|exact IH].
Qed.

(* ------------------------------------------------------------------ *)
(** * byte strings, external type sizes *)

Lemma bytes_eqb_iff : forall a b, bytes_eqb a b = true <-> a = b.
Proof. exact (list_eqb_iff Z.eqb Z.eqb_eq). Qed.

Lemma bytes_eqb_refl : forall a, bytes_eqb a a = true.
Proof. intros a. apply bytes_eqb_iff. reflexivity. Qed.

Lemma bytes_eqb_neq : forall a b, bytes_eqb a b = false <-> a <> b.
Proof. intros a b. rewrite <- bytes_eqb_iff. destruct (bytes_eqb a b); intuition congruence. Qed.

Lemma Zlen_be_bytes : forall n x, Zlen (be_bytes n x) = Z.of_nat n.
Proof.
  induction n as [|n IH]; intros x; cbn [be_bytes]; [reflexivity|].
  rewrite Zlen_snoc, IH. lia.
Qed.

Lemma xlen_type_cases : forall t,
  (xlen_type t = 0 /\ ~ 1 <= t <= 11) \/ xlen_type t = 1 \/ xlen_type t = 2 \/
  xlen_type t = 4 \/ xlen_type t = 8.
Proof.
  intros t. unfold xlen_type.
  destruct ((t =? 1) || (t =? 2) || (t =? 7)) eqn:E1; [tauto|].
  destruct ((t =? 3) || (t =? 8)) eqn:E2; [tauto|].
  destruct ((t =? 4) || (t =? 5) || (t =? 9)) eqn:E4; [tauto|].
  destruct ((t =? 6) || (t =? 10) || (t =? 11)) eqn:E8; [tauto|].
  left. split; [reflexivity | lia].
Qed.

Lemma xlen_type_nonneg : forall t, 0 <= xlen_type t.
Proof. intro t. pose proof (xlen_type_cases t). lia. Qed.

Lemma Zlen_enc_value : forall t v, Zlen (enc_value t v) = xlen_type t.
Proof.
  intros t v. unfold enc_value. pose proof (xlen_type_nonneg t).
  destruct (is_float_type t); rewrite Zlen_be_bytes; lia.
Qed.

Lemma Zlen_fill_bytes : forall t, Zlen (fill_bytes t) = xlen_type t.
Proof. intro t. unfold fill_bytes. pose proof (xlen_type_nonneg t). rewrite Zlen_be_bytes. lia. Qed.

(* ------------------------------------------------------------------ *)
(** * parser combinators of HeaderSpec.v *)

Lemma p_bytes_app_eq : forall n l r, n = Zlen l -> p_bytes n (l ++ r) = Some (l, r).
Proof.
  intros n l r ->. unfold p_bytes. rewrite Zlen_app.
  pose proof (Zlen_nonneg l) as Hl. pose proof (Zlen_nonneg r) as Hr.
  destruct ((Zlen l <? 0) || (Zlen l + Zlen r <? Zlen l)) eqn:E; [lia|].
  rewrite zfirstn_app_exact, zskipn_app_exact. reflexivity.
Qed.

(* data followed by the encoder's zero padding *)
Lemma p_padded_app : forall n l r, n = Zlen l ->
  p_padded n (l ++ pad4 n ++ r) = Some ((l, pad4 n), r).
Proof.
  intros n l r Hn. unfold p_padded.
  rewrite (p_bytes_app_eq n l _ Hn).
  rewrite (p_bytes_app_eq (padlen n) (pad4 n) r) by (symmetry; apply Zlen_pad4).
  reflexivity.
Qed.

Lemma p_padded_0 : forall r, p_padded 0 r = Some (([], []), r).
Proof.
  intros r. unfold p_padded, p_bytes. rewrite padlen_0.
  pose proof (Zlen_nonneg r) as Hr.
  destruct ((0 <? 0) || (Zlen r <? 0)) eqn:E; [lia|].
  rewrite ?zfirstn_0, ?zskipn_0. rewrite E. rewrite ?zfirstn_0, ?zskipn_0. reflexivity.
Qed.

Section Many.
  Context {A B : Type}.
  Variable p : parser B.
  Variable f : A -> list byte.   (* encoder of one element *)
  Variable g : A -> B.           (* what the parser is expected to return *)
  Variable P : A -> Prop.        (* well-formedness of one element *)
  Hypothesis p_f : forall a r, P a -> p (f a ++ r) = Some (g a, r).

  Lemma p_many_flat_map : forall l r, Forall P l ->
    p_many p (length l) (flat_map f l ++ r) = Some (map g l, r).
  Proof.
    induction l as [|a l IH]; intros r Hl.
    - reflexivity.
    - inversion Hl as [|a' l' Ha Hl' Heq]; subst.
      cbn [length flat_map p_many map]. rewrite <- app_assoc.
      rewrite (p_f a _ Ha). rewrite (IH r Hl'). reflexivity.
  Qed.

  Hypothesis f_len : forall a, P a -> 1 <= Zlen (f a).

  (* after the element count: the decoder's "enough bytes remain" test passes (every element
     takes at least one byte) and the elements are read back *)
  Lemma p_counted_flat_map : forall l r, Forall P l ->
    (Zlen (flat_map f l ++ r) <? Zlen l) = false /\
    p_many p (Z.to_nat (Zlen l)) (flat_map f l ++ r) = Some (map g l, r).
  Proof.
    intros l r Hl. split.
    - pose proof (Zlen_flat_map_ge A f P f_len l Hl). pose proof (Zlen_nonneg r).
      rewrite Zlen_app. lia.
    - rewrite to_nat_Zlen. apply p_many_flat_map. exact Hl.
  Qed.

  (* tagged list.  The second hypothesis says the element count survives the NON_NEG
     field of the format. *)
  Lemma p_list_put_list : forall fmt tag l r,
    0 < tag < 4294967296 ->
    (forall r', p_nn fmt (put_nn fmt (Zlen l) ++ r') = Some (Zlen l, r')) ->
    Forall P l ->
    p_list fmt tag p (put_list fmt tag f l ++ r) = Some (map g l, r).
  Proof.
    intros fmt tag l r Htag Hnn Hl. unfold p_list, put_list, p_u32.
    destruct l as [|a l].
    - rewrite <- app_assoc. rewrite get_put_u32 by lia.
      change (put_nn fmt 0) with (put_nn fmt (Zlen (@nil A))). rewrite Hnn.
      reflexivity.
    - rewrite <- !app_assoc. rewrite get_put_u32 by lia. rewrite Hnn.
      destruct (tag =? 0) eqn:E0; [lia|]. rewrite Z.eqb_refl.
      destruct (p_counted_flat_map (a :: l) r Hl) as [E1 E2]. rewrite E1. exact E2.
  Qed.
End Many.
