(* Proofs_Numrecs.v — proofs about the record-count model Numrecs.v (property C05).
   Generic part: for any loop function L with  L a q fl <= commit_fixed a q fl  (commit_loop, over the
   first num_w_lead_reqs entries, and commit_fixed, over the whole queue, both satisfy this), then the
   instances. *)
From Coq Require Import ZArith List Bool Arith Lia.
Import ListNotations.
From Pnc Require Import Numrecs Proofs_Lists.
Local Open Scope Z_scope.

Lemma fold_right_max_ge : forall t y x, x = y \/ In x t -> x <= fold_right Z.max y t.
Proof.
  induction t as [|z t IH]; simpl; intros y x H; [destruct H as [->|[]]; lia|].
  destruct H as [H|[->|H]]; [specialize (IH y x (or_introl H)) | | specialize (IH y x (or_intror H))]; lia.
Qed.

Lemma zmaxl_ge : forall l x, In x l -> x <= zmaxl l.
Proof.
  intros [|y t] x Hin; [inversion Hin|]. apply fold_right_max_ge. destruct Hin; auto.
Qed.

Lemma fold_right_max_le : forall t y b, y <= b -> (forall x, In x t -> x <= b) -> fold_right Z.max y t <= b.
Proof.
  induction t as [|z t IH]; simpl; intros y b Hy H; [lia|].
  assert (z <= b) by (apply H; auto).
  assert (fold_right Z.max y t <= b) by (apply IH; auto). lia.
Qed.

Lemma zmaxl_le : forall l b, 0 <= b -> (forall x, In x l -> x <= b) -> zmaxl l <= b.
Proof.
  intros [|y t] b Hb H; simpl; [lia|].
  apply fold_right_max_le; [apply H; simpl; auto|intros x Hx; apply H; simpl; auto].
Qed.

Lemma written_ge : forall st r, In r (ranks st) -> g_own r <= written st.
Proof.
  intros st r Hin. unfold written. induction (ranks st) as [|x t IH]; [inversion Hin|].
  simpl. destruct Hin as [->|Hin]; [lia|]. specialize (IH Hin). lia.
Qed.

Lemma written_nonneg : forall st, 0 <= written st.
Proof. intros st. unfold written. induction (ranks st); simpl; lia. Qed.

Lemma written_le : forall st b, 0 <= b -> Forall (fun r => g_own r <= b) (ranks st) -> written st <= b.
Proof.
  intros st b Hb H. unfold written. induction H; simpl; lia.
Qed.

Lemma written_mono : forall l l', Forall2 (fun r r' => g_own r <= g_own r') l l' ->
  fold_right Z.max 0 (map g_own l) <= fold_right Z.max 0 (map g_own l').
Proof. intros l l' H. induction H; simpl; lia. Qed.

Lemma Forall2_map_map : forall {A B C} (P : B -> C -> Prop) (f : A -> B) (g : A -> C) (l : list A),
  (forall x, In x l -> P (f x) (g x)) -> Forall2 P (map f l) (map g l).
Proof. induction l; simpl; intros H; constructor; auto. Qed.

Lemma Forall2_upd_nth : forall {A} (P : A -> A -> Prop) (f : A -> A) i l,
  (forall x, P x x) -> (forall x, In x l -> P x (f x)) -> Forall2 P l (upd_nth i f l).
Proof.
  intros A P f i l Hr. revert i. induction l as [|x l IH]; intros i H; simpl; [constructor|].
  destruct i; constructor; auto using Forall2_refl_In.
  - apply H; simpl; auto.
  - apply IH. intros; apply H; simpl; auto.
Qed.

Lemma Forall2_trans : forall {A} (P : A -> A -> Prop) l1 l2 l3,
  (forall x y z, P x y -> P y z -> P x z) -> Forall2 P l1 l2 -> Forall2 P l2 l3 -> Forall2 P l1 l3.
Proof.
  intros A P l1 l2 l3 Ht H12. revert l3. induction H12; intros l3 H23; inversion H23; subst; constructor; eauto.
Qed.

Lemma In_upd_nth_nth : forall {A} (f : A -> A) i l y, In y (upd_nth i f l) ->
  In y l \/ exists x, nth_error l i = Some x /\ y = f x.
Proof.
  intros A f i l. revert i. induction l as [|x l IH]; intros i y H; simpl in *; [tauto|].
  destruct i; simpl in H.
  - destruct H as [<-|H]; [right; exists x; auto|left; auto].
  - destruct H as [<-|H]; [left; auto|]. destruct (IH _ _ H) as [H1|[z [Hz ->]]]; [left; auto|right; exists z; auto].
Qed.

Lemma existsb_false_in : forall {A} (f : A -> bool) l x, existsb f l = false -> In x l -> f x = false.
Proof.
  intros A f l x H Hin. destruct (f x) eqn:E; [|reflexivity].
  assert (existsb f l = true) by (apply existsb_exists; exists x; auto). congruence.
Qed.

Lemma length_upd_nth : forall {A} (f : A -> A) i l, length (upd_nth i f l) = length l.
Proof. intros A f i l. revert i. induction l; intros [|i]; simpl; auto. Qed.

(* the loop *)

Lemma loop_body_ge : forall a e, a <= loop_body a e.
Proof. intros a e. unfold loop_body. destruct (q_isrec (fst e) && snd e); lia. Qed.

Lemma fold_loop_ge : forall l a, a <= fold_left loop_body l a.
Proof.
  induction l as [|e l IH]; simpl; intros a; [lia|].
  pose proof (loop_body_ge a e). pose proof (IH (loop_body a e)). lia.
Qed.

Lemma fold_loop_mono : forall l a b, a <= b -> fold_left loop_body l a <= fold_left loop_body l b.
Proof.
  induction l as [|e l IH]; simpl; intros a b H; [lia|].
  apply IH. unfold loop_body. destruct (q_isrec (fst e) && snd e); lia.
Qed.

Lemma fold_loop_max : forall l a b, fold_left loop_body l a <= Z.max a (fold_left loop_body l b).
Proof.
  induction l as [|e l IH]; simpl; intros a b; [lia|].
  unfold loop_body at 2 4. destruct (q_isrec (fst e) && snd e).
  - pose proof (IH (Z.max a (q_maxrec (fst e))) (Z.max b (q_maxrec (fst e)))).
    pose proof (fold_loop_ge l (Z.max b (q_maxrec (fst e)))). lia.
  - apply IH.
Qed.

Lemma commit_fixed_eq : forall a q fl, commit_fixed a q fl = fold_left loop_body (combine q fl) a.
Proof.
  intros. unfold commit_fixed, loop_over. rewrite firstn_all2; [reflexivity|]. rewrite combine_length. lia.
Qed.

Lemma commit_fixed_split : forall k a q fl,
  commit_fixed a q fl = fold_left loop_body (skipn k (combine q fl)) (loop_over k a q fl).
Proof.
  intros. rewrite commit_fixed_eq. unfold loop_over. rewrite <- fold_left_app, firstn_skipn. reflexivity.
Qed.

Lemma loop_over_le_fixed : forall k a q fl, loop_over k a q fl <= commit_fixed a q fl.
Proof. intros k a q fl. rewrite (commit_fixed_split k). apply fold_loop_ge. Qed.

Lemma loop_over_ge : forall k a q fl, a <= loop_over k a q fl.
Proof. intros. unfold loop_over. apply fold_loop_ge. Qed.

Lemma fold_loop_noflag : forall l a, forallb (fun ef => negb (q_isrec (fst ef) && snd ef)) l = true ->
  fold_left loop_body l a = a.
Proof.
  induction l as [|e l IH]; simpl; intros a H; [reflexivity|].
  apply andb_true_iff in H. destruct H as [H1 H2]. unfold loop_body at 2.
  destruct (q_isrec (fst e) && snd e); [discriminate|]. now apply IH.
Qed.

Lemma fold_loop_nofl : forall q fl a, existsb (fun b => b) fl = false -> fold_left loop_body (combine q fl) a = a.
Proof.
  induction q as [|e q IH]; intros [|f fl] a H; simpl in *; try reflexivity.
  apply orb_false_iff in H. destruct H as [-> H]. unfold loop_body at 2. simpl. rewrite andb_false_r. now apply IH.
Qed.

(* the loop as written is exact when no flagged record request lies beyond the first k entries *)
Lemma head_ok_exact : forall q sel fl a, head_ok_q q sel = true -> extract q sel = Some fl ->
  commit_loop a q fl = commit_fixed a q fl.
Proof.
  intros q sel fl a H E. unfold head_ok_q in H. rewrite E in H.
  rewrite (commit_fixed_split (count_true fl)). symmetry. exact (fold_loop_noflag _ _ H).
Qed.

(* coll_update, sync_body *)

Definition bump (mx : Z) (r : rk) : rk := if numrecs r <? mx then set_numrecs r mx else r.

Lemma bump_numrecs : forall mx r, numrecs (bump mx r) = Z.max (numrecs r) mx.
Proof. intros. unfold bump. destruct (Z.ltb_spec (numrecs r) mx); simpl; lia. Qed.
Lemma bump_own : forall mx r, g_own (bump mx r) = g_own r.
Proof. intros. unfold bump. destruct (numrecs r <? mx); reflexivity. Qed.

Lemma upd_if_less_fst : forall b mx r, fst (upd_if_less b mx r) = bump mx r.
Proof.
  intros b mx r. unfold upd_if_less, bump, write_numrecs. rewrite Z.gtb_ltb.
  destruct (numrecs r <? mx) eqn:E; [|reflexivity].
  destruct b; simpl; reflexivity.
Qed.

Lemma upd_if_less_snd : forall mx r, snd (upd_if_less true mx r) = if numrecs r <? mx then Some mx else None.
Proof.
  intros mx r. unfold upd_if_less, write_numrecs. rewrite Z.gtb_ltb.
  destruct (numrecs r <? mx) eqn:E; reflexivity.
Qed.

Lemma coll_update_ranks : forall mx st, ranks (coll_update mx st) = map (bump mx) (ranks st).
Proof.
  intros mx st. unfold coll_update. destruct (ranks st) as [|r0 rest] eqn:E; [now rewrite E|].
  simpl. rewrite upd_if_less_fst. f_equal. apply map_ext. intros; apply upd_if_less_fst.
Qed.

Lemma coll_update_hdr : forall mx st, hdr (coll_update mx st) =
  match ranks st with r0 :: _ => if numrecs r0 <? mx then mx else hdr st | [] => hdr st end.
Proof.
  intros mx st. unfold coll_update. destruct (ranks st) as [|r0 rest]; [reflexivity|].
  simpl. rewrite upd_if_less_snd. destruct (numrecs r0 <? mx); reflexivity.
Qed.

Lemma coll_update_modes : forall mx st, indep (coll_update mx st) = indep st /\ indef (coll_update mx st) = indef st
  /\ hung (coll_update mx st) = hung st.
Proof. intros. unfold coll_update. destruct (ranks st); simpl; auto. Qed.

Definition synced (mx : Z) (r : rk) : rk := set_ndirty (set_numrecs r mx) false.

Lemma sync_body_spec : forall st, ranks st <> [] ->
  sync_body st = mkst (map (synced (zmaxl (map numrecs (ranks st)))) (ranks st)) (zmaxl (map numrecs (ranks st)))
                      (indep st) (indef st) (hung st).
Proof.
  intros st Hne. unfold sync_body.
  assert (Em : map numrecs (map (fun r => set_ndirty r true) (ranks st)) = map numrecs (ranks st)).
  { rewrite map_map. apply map_ext. reflexivity. }
  rewrite Em. set (mx := zmaxl (map numrecs (ranks st))).
  assert (Hge : forall r, In r (ranks st) -> numrecs r <= mx).
  { intros r Hr. apply zmaxl_ge. now apply in_map. }
  destruct (ranks st) as [|r0 rest]; [congruence|]. simpl map.
  unfold write_numrecs. simpl ndirty. rewrite orb_true_r. simpl fst. simpl snd.
  assert (H0 : numrecs r0 <= mx) by (apply Hge; simpl; auto).
  f_equal.
  - simpl. f_equal.
    + unfold synced. destruct (mx >? numrecs r0); reflexivity.
    + rewrite map_map. apply map_ext. reflexivity.
  - simpl. rewrite Z.gtb_ltb. destruct (Z.ltb_spec (numrecs r0) mx); simpl; lia.
Qed.

(* extract *)

Lemma mark1_length : forall q fl t fl', mark1 q fl t = Some fl' -> length fl' = length fl.
Proof.
  induction q as [|e q IH]; intros [|f fl] t fl' H; simpl in H; try discriminate.
  destruct (negb f && Nat.eqb (q_tag e) t).
  - inversion H; reflexivity.
  - destruct (mark1 q fl t) eqn:E; [|discriminate]. inversion H. simpl. f_equal. eauto.
Qed.

Lemma mark_ids_length : forall q ids fl fl', mark_ids q fl ids = Some fl' -> length fl' = length fl.
Proof.
  induction ids as [|[t|] ids IH]; intros fl fl' H; simpl in H.
  - inversion H; reflexivity.
  - destruct (mark1 q fl t) eqn:E; [|discriminate]. rewrite (IH _ _ H). eapply mark1_length; eauto.
  - eauto.
Qed.

Lemma extract_length : forall q sel fl, extract q sel = Some fl -> length fl = length q.
Proof.
  intros q [|ids] fl H; simpl in H.
  - inversion H. now rewrite map_length.
  - destruct (length ids =? length q)%nat.
    + inversion H. now rewrite map_length.
    + rewrite (mark_ids_length _ _ _ _ H). now rewrite map_length.
Qed.

Lemma extract_all_fst : forall l rfl, extract_all l = Some rfl -> map fst rfl = map fst l.
Proof.
  induction l as [|[r s] l IH]; intros rfl H; simpl in H.
  - inversion H; reflexivity.
  - destruct (extract (queue r) s); [|discriminate]. destruct (extract_all l) eqn:E; [|discriminate].
    inversion H. simpl. f_equal. auto.
Qed.

Lemma extract_all_in : forall l rfl rf, extract_all l = Some rfl -> In rf rfl ->
  exists s, In (fst rf, s) l /\ extract (queue (fst rf)) s = Some (snd rf).
Proof.
  induction l as [|[r s] l IH]; intros rfl rf H Hin; simpl in H.
  - inversion H; subst. inversion Hin.
  - destruct (extract (queue r) s) eqn:E1; [|discriminate]. destruct (extract_all l) eqn:E; [|discriminate].
    inversion H; subst. destruct Hin as [<-|Hin].
    + exists s. simpl. auto.
    + destruct (IH _ _ eq_refl Hin) as [s' [H1 H2]]. exists s'. simpl. auto.
Qed.

Lemma map_fst_combine : forall {A B} (l : list A) (l' : list B), length l' = length l -> map fst (combine l l') = l.
Proof.
  induction l as [|x l IH]; intros [|y l'] H; simpl in *; try discriminate; [reflexivity|].
  f_equal. apply IH. lia.
Qed.

Lemma Forall2_Forall_r : forall {A B} (R : A -> B -> Prop) (P : A -> Prop) (Q : B -> Prop) l l',
  Forall2 R l l' -> Forall P l -> (forall x y, R x y -> P x -> Q y) -> Forall Q l'.
Proof.
  intros A B R P Q l l' H. induction H; intros HP HQ; constructor; inversion HP; subst; eauto.
Qed.

Lemma Forall2_map_r2 : forall {A B C} (R : A -> B -> Prop) (R' : A -> C -> Prop) (f : B -> C) l l1,
  Forall2 R l l1 -> (forall x y, R x y -> R' x (f y)) -> Forall2 R' l (map f l1).
Proof. intros A B C R R' f l l1 H. induction H; intros HR; simpl; constructor; auto. Qed.

(* generic part *)

Section Gen.
Variable L : Z -> list preq -> list bool -> Z.
Hypothesis L_hi : forall a q fl, L a q fl <= commit_fixed a q fl.
Variable Er : bool.
Variable N0 : Z.

Definition Bd (st : state) : Z := Z.max N0 (written st).

Record InvW (st : state) : Prop := mkInvW {
  iw_n0 : 0 <= N0;
  iw_hdr : N0 <= hdr st <= Bd st;
  iw_rk : Forall (fun r => hdr st <= numrecs r <= Bd st) (ranks st);
  iw_coll : indep st = false -> Forall (fun r => numrecs r = hdr st) (ranks st);
  iw_def : indef st = true -> indep st = false }.

Definition InvS (st : state) : Prop := Forall (fun r => g_own r <= numrecs r) (ranks st).
Definition Agree (st : state) : Prop := Forall (fun r => numrecs r = hdr st) (ranks st).
Definition rk_le (r r' : rk) : Prop := numrecs r <= numrecs r' /\ g_own r <= g_own r'.
Definition st_le (st st' : state) : Prop := hdr st <= hdr st' /\ Forall2 rk_le (ranks st) (ranks st').

Lemma rk_le_refl : forall r, rk_le r r.
Proof. intros; unfold rk_le; lia. Qed.
Lemma st_le_refl : forall st, st_le st st.
Proof. intros; split; [lia|apply Forall2_refl_In; intros; apply rk_le_refl]. Qed.
Lemma st_le_trans : forall a b c, st_le a b -> st_le b c -> st_le a c.
Proof.
  intros a b c [H1 H2] [H3 H4]. split; [lia|].
  eapply Forall2_trans; eauto. unfold rk_le; intros; lia.
Qed.

Lemma st_le_Bd : forall st st', st_le st st' -> Bd st <= Bd st'.
Proof.
  intros st st' [_ H]. unfold Bd, written.
  assert (fold_right Z.max 0 (map g_own (ranks st)) <= fold_right Z.max 0 (map g_own (ranks st'))).
  { apply written_mono. eapply Forall2_impl; [|exact H]. unfold rk_le; intros; lia. }
  lia.
Qed.

Lemma Bd_nonneg : forall st, 0 <= N0 -> 0 <= Bd st.
Proof. intros. unfold Bd. lia. Qed.

Lemma upd_agree_noindep : forall st, InvW st -> indep st = false -> Agree st.
Proof. intros st I H. exact (iw_coll _ I H). Qed.

(* agreement + own writes visible  ==>  every count is exactly max(N0, written) *)
Lemma coh_of_agree : forall st, InvW st -> InvS st -> Agree st ->
  forall r, In r (ranks st) -> numrecs r = hdr st /\ hdr st = Bd st.
Proof.
  intros st I S A r Hr. unfold InvS, Agree in *. rewrite Forall_forall in *.
  split; [auto|]. destruct I as [Hn [Hh1 Hh2] _ _ _].
  assert (written st <= hdr st).
  { apply written_le; [lia|]. apply Forall_forall. intros r' Hr'. specialize (S r' Hr'). specialize (A r' Hr'). lia. }
  unfold Bd in *. lia.
Qed.

(* what every operation keeps: the bounds and monotonicity always, visibility of the own writes
   under the operation's side condition X, agreement of all ranks with the header under Q *)
Definition keeps (X Q : Prop) (st st' : state) : Prop :=
  (InvW st' /\ st_le st st') /\ (X -> InvS st -> InvS st') /\ (Q -> Agree st -> Agree st').

Lemma keeps_refl : forall X Q st, InvW st -> keeps X Q st st.
Proof. intros X Q st I. split; [split; [exact I | apply st_le_refl] | split; auto]. Qed.

Lemma keeps_trans : forall X Q a b c, keeps X Q a b -> keeps X Q b c -> keeps X Q a c.
Proof.
  intros X Q a b c [[I1 L1] [S1 A1]] [[I2 L2] [S2 A2]].
  split; [split; [exact I2 | eapply st_le_trans; eauto] | split; auto].
Qed.

(* steps that change no count *)

Definition same (r r1 : rk) : Prop := numrecs r1 = numrecs r /\ g_own r1 = g_own r.

Lemma same_refl : forall l, Forall2 same l l.
Proof. intro l. apply Forall2_refl_In. split; reflexivity. Qed.

Lemma same_keeps : forall X Q st st', InvW st ->
  hdr st' = hdr st -> Forall2 same (ranks st) (ranks st') ->
  (indep st' = false -> Agree st) -> (indef st' = true -> indep st' = false) ->
  keeps X Q st st'.
Proof.
  intros X Q st st' I Eh F Hc Hd.
  assert (HB : Bd st' = Bd st).
  { unfold Bd, written. f_equal. f_equal. clear -F. induction F as [|r r1 l l1 [_ E] _ IH]; simpl; congruence. }
  (* every invariant speaks of a rank through its count and its ghost only *)
  assert (T : forall P : Z -> Z -> Prop, Forall (fun r => P (numrecs r) (g_own r)) (ranks st) ->
                                          Forall (fun r => P (numrecs r) (g_own r)) (ranks st')).
  { intros P H. eapply Forall2_Forall_r; [exact F|exact H|]. intros x y [-> ->] Hx. exact Hx. }
  split; [split|split].
  - destruct I as [Hn Hh Hr _ _]. constructor; rewrite ?HB, ?Eh; auto.
    + apply (T (fun n _ => hdr st <= n <= Bd st)), Hr.
    + intros Hi. apply (T (fun n _ => n = hdr st)), (Hc Hi).
  - split; [lia|]. eapply Forall2_impl; [|exact F]. unfold rk_le. intros x y [-> ->]. lia.
  - intros _. apply (T (fun n o => o <= n)).
  - intros _. unfold Agree. rewrite Eh. apply (T (fun n _ => n = hdr st)).
Qed.

Lemma hung_keeps : forall X Q st, InvW st -> keeps X Q st (set_hung st).
Proof.
  intros X Q st I. apply same_keeps; auto using same_refl; [apply (iw_coll _ I) | apply (iw_def _ I)].
Qed.

(* a collective round *)

Definition ghost (r r1 : rk) : Prop := numrecs r1 = numrecs r /\ g_own r <= g_own r1.

(* the header after a collective update, when no rank is below it: the root writes mx iff mx is larger than its
   own count, and then every rank moves to mx *)
Lemma coll_update_hdr_spec : forall mx st, Forall (fun r => hdr st <= numrecs r) (ranks st) ->
  (hdr st <= hdr (coll_update mx st) <= Z.max (hdr st) mx) /\
  Forall (fun r => hdr (coll_update mx st) <= Z.max (numrecs r) mx) (ranks st) /\
  (Agree st -> Forall (fun r => Z.max (numrecs r) mx = hdr (coll_update mx st)) (ranks st)).
Proof.
  intros mx st Hr. rewrite coll_update_hdr. unfold Agree.
  destruct (ranks st) as [|r0 rest]; [repeat split; try lia; constructor|].
  assert (H0 : hdr st <= numrecs r0) by exact (Forall_inv Hr). rewrite !Forall_forall in *.
  destruct (Z.ltb_spec (numrecs r0) mx); cbv iota; (split; [lia|split]).
  - intros; lia.
  - intros A r Hin. pose proof (A r0 (or_introl eq_refl)). specialize (A r Hin). lia.
  - intros r Hin. specialize (Hr r Hin). lia.
  - intros A r Hin. pose proof (A r0 (or_introl eq_refl)). specialize (A r Hin). lia.
Qed.

(* the shape shared by put_varm, fill_var_rec and wait_all in collective mode.  xs pairs each rank with
   what it passes; the rank completes its writes (done: ghost only), proposes the count `new`, and all
   ranks adopt the maximum.  A proposal never exceeds what the rank had or has now written; under the
   side condition P it is not below it either *)
Lemma coll_round : forall {A} (xs : list (rk * A)) (done : rk * A -> rk) (new : rk * A -> Z) (P Q : Prop) st,
  InvW st -> map fst xs = ranks st ->
  (forall x, In x xs -> ghost (fst x) (done x) /\ new x <= Z.max (numrecs (fst x)) (g_own (done x))) ->
  (P -> forall x, In x xs -> g_own (fst x) <= numrecs (fst x) -> g_own (done x) <= Z.max (numrecs (fst x)) (new x)) ->
  keeps P Q st (coll_update (zmaxl (map new xs)) (set_ranks st (map done xs))).
Proof.
  intros A xs done new P Q st I Ef Hg Hs.
  set (mx := zmaxl (map new xs)). set (st1 := set_ranks st (map done xs)). set (st' := coll_update mx st1).
  assert (Hr : forall x, In x xs -> In (fst x) (ranks st)) by (intros x Hx; rewrite <- Ef; apply in_map, Hx).
  assert (Er' : ranks st' = map (fun x => bump mx (done x)) xs).
  { unfold st'. rewrite coll_update_ranks. apply map_map. }
  destruct I as [Hn Hh Hk Hc Hd]. rewrite Forall_forall in Hk.
  destruct (coll_update_hdr_spec mx st1) as [Hh' [Hall Hag]].
  { apply Forall_map, Forall_forall. intros x Hx. destruct (Hg x Hx) as [[En _] _]. rewrite En. apply Hk, Hr, Hx. }
  fold st' in Hh', Hall, Hag. simpl in Hh', Hall. rewrite Forall_map, Forall_forall in Hall.
  assert (Hle : st_le st st').
  { split; [lia|]. rewrite Er', <- Ef. apply Forall2_map_map. intros x Hx. destruct (Hg x Hx) as [[En Eo] _].
    unfold rk_le. rewrite bump_numrecs, bump_own, En. lia. }
  pose proof (st_le_Bd _ _ Hle) as HB.
  assert (Hmx : mx <= Bd st').
  { apply zmaxl_le; [apply Bd_nonneg, Hn|]. intros v Hv. apply in_map_iff in Hv. destruct Hv as [x [<- Hx]].
    destruct (Hg x Hx) as [_ Hnew]. specialize (Hk _ (Hr x Hx)).
    assert (Hw : g_own (bump mx (done x)) <= written st') by (apply written_ge; rewrite Er'; apply (in_map (fun x => bump mx (done x)) _ _ Hx)).
    rewrite bump_own in Hw. unfold Bd in *. lia. }
  assert (Ag : Agree st -> Agree st').
  { intros Ag. unfold Agree in *. rewrite Er', Forall_map. rewrite Forall_forall in Ag.
    assert (Ag1 : Agree st1).
    { apply Forall_map, Forall_forall. intros x Hx. destruct (Hg x Hx) as [[En _] _]. rewrite En. apply Ag, Hr, Hx. }
    specialize (Hag Ag1). simpl in Hag. rewrite Forall_map in Hag.
    eapply Forall_impl; [|exact Hag]. intros x. now rewrite bump_numrecs. }
  destruct (coll_update_modes mx st1) as [Ei [Ed _]]. fold st' in Ei, Ed. simpl in Ei, Ed.
  split; [split; [|exact Hle] | split; [|intros _; exact Ag]].
  - constructor; rewrite ?Ei, ?Ed; auto; [lia| |intros Hi; exact (Ag (Hc Hi))].
    rewrite Er', Forall_map. apply Forall_forall. intros x Hx. rewrite bump_numrecs.
    destruct (Hg x Hx) as [[En _] _]. specialize (Hall x Hx). specialize (Hk _ (Hr x Hx)). lia.
  - intros HP S. unfold InvS in *. rewrite Er', Forall_map. rewrite Forall_forall in S. apply Forall_forall. intros x Hx.
    rewrite bump_numrecs, bump_own. destruct (Hg x Hx) as [[En _] _].
    pose proof (Hs HP x Hx (S _ (Hr x Hx))). pose proof (zmaxl_ge (map new xs) (new x) (in_map new _ _ Hx)).
    fold mx in H0. lia.
Qed.

Definition exact_q (r : rk) (sel : wsel) : Prop :=
  forall fl, extract (queue r) sel = Some fl -> L (numrecs r) (queue r) fl = commit_fixed (numrecs r) (queue r) fl.

Definition exact_at (st : state) (o : op) : Prop :=
  match o with
  | WaitAll sels => Forall (fun rs => exact_q (fst rs) (snd rs)) (combine (ranks st) sels)
  | Wait i sel => forall r, nth_error (ranks st) i = Some r -> exact_q r sel
  | CollPutRec ps => Er = true \/ forallb erange_free_part ps = true
  | IndepPutRec _ p => Er = true \/ erange_free_part p = true
  | _ => True
  end.

Lemma coll_put_rec_keeps : forall Q st ps, InvW st ->
  keeps (exact_at st (CollPutRec ps)) Q st (coll_put_rec Er ps st).
Proof.
  intros Q st ps I. unfold coll_put_rec.
  destruct (indef st || indep st); [now apply keeps_refl|].
  destruct (negb (length ps =? length (ranks st))%nat) eqn:El; [now apply keeps_refl|].
  apply negb_false_iff, Nat.eqb_eq in El.
  destruct (length (filter is_invalid ps) =? length ps)%nat; [now apply keeps_refl|].
  destruct (0 <? length (filter is_invalid ps))%nat; [now apply hung_keeps|].
  apply (coll_round (combine (ranks st) ps) (fun x => part_done (fst x) (snd x)) (fun x => part_new Er (fst x) (snd x)));
    auto using map_fst_combine.
  - intros [r p] _. unfold ghost. destruct p; simpl; try lia. destruct Er; lia.
  - intros X [r p] Hin S. destruct p as [|hi|hi|]; simpl in *; try lia.
    destruct X as [->|X]; [lia|].
    rewrite forallb_forall in X. specialize (X _ (in_combine_r _ _ _ _ Hin)). discriminate X.
Qed.

Lemma fill_rec_keeps : forall X Q st rs, InvW st -> keeps X Q st (fill_rec rs st).
Proof.
  intros X Q st rs I. unfold fill_rec.
  destruct (indef st || indep st); [now apply keeps_refl|].
  destruct (negb (length rs =? length (ranks st))%nat) eqn:El; [now apply keeps_refl|].
  apply negb_false_iff, Nat.eqb_eq in El.
  apply (coll_round (combine (ranks st) rs) (fun x => set_own (fst x) (Z.max (g_own (fst x)) (snd x + 1))) (fun x => snd x + 1));
    auto using map_fst_combine; intros; unfold ghost; simpl; lia.
Qed.

(* post *)

Lemma post_keeps : forall X Q st i t b vb ro mr, InvW st -> keeps X Q st (post i t b vb ro mr st).
Proof.
  intros X Q st i t b vb ro mr I. unfold post.
  apply same_keeps; auto; [|apply (iw_coll _ I)|apply (iw_def _ I)].
  apply Forall2_upd_nth; split; reflexivity.
Qed.

(* wait_all *)

Lemma wait_all_keeps : forall Q st sels, InvW st -> keeps (exact_at st (WaitAll sels)) Q st (wait_all L sels st).
Proof.
  intros Q st sels I. unfold wait_all.
  destruct (indef st || indep st); [now apply keeps_refl|].
  destruct (negb (length sels =? length (ranks st))%nat) eqn:El; [now apply keeps_refl|].
  apply negb_false_iff, Nat.eqb_eq in El.
  destruct (extract_all (combine (ranks st) sels)) as [rfl|] eqn:E; [|now apply keeps_refl].
  assert (Ef : map fst rfl = ranks st) by (rewrite (extract_all_fst _ _ E); apply map_fst_combine, El).
  destruct (existsb (fun rf => existsb (fun b => b) (snd rf)) rfl) eqn:Ew.
  - apply (coll_round rfl (fun rf => complete (fst rf) (snd rf)) (fun rf => L (numrecs (fst rf)) (queue (fst rf)) (snd rf)));
      auto.
    + intros [r fl] _. unfold ghost. simpl.
      pose proof (L_hi (numrecs r) (queue r) fl) as H1. rewrite commit_fixed_eq in H1.
      pose proof (fold_loop_max (combine (queue r) fl) (numrecs r) (g_own r)).
      pose proof (fold_loop_ge (combine (queue r) fl) (g_own r)). lia.
    + intros X [r fl] Hin S. destruct (extract_all_in _ _ _ E Hin) as [s [Hs1 Hs2]].
      simpl in *. rewrite Forall_forall in X. specialize (X _ Hs1 fl Hs2). simpl in X.
      rewrite commit_fixed_eq in X. pose proof (fold_loop_mono (combine (queue r) fl) _ _ S). lia.
  - (* no rank completes anything *)
    apply same_keeps; auto; [|apply (iw_coll _ I)|apply (iw_def _ I)].
    simpl. rewrite <- Ef. apply Forall2_map_map. intros [r fl] Hin. split; simpl; [reflexivity|].
    apply fold_loop_nofl. exact (existsb_false_in _ _ _ Ew Hin).
Qed.

(* independent put, wait by one rank *)

Lemma upd_keeps : forall (X : Prop) st i f, InvW st -> indep st = true ->
  (forall r, numrecs r <= numrecs (f r) /\ g_own r <= g_own (f r) /\ numrecs (f r) <= Z.max (numrecs r) (g_own (f r))) ->
  (X -> forall r, nth_error (ranks st) i = Some r -> g_own r <= numrecs r -> g_own (f r) <= numrecs (f r)) ->
  keeps X (false = true) st (set_ranks st (upd_nth i f (ranks st))).
Proof.
  intros X st i f I Hi Hf Hs.
  assert (Hle : st_le st (set_ranks st (upd_nth i f (ranks st)))).
  { split; simpl; [lia|]. apply Forall2_upd_nth; [apply rk_le_refl|]. intros r _. unfold rk_le. specialize (Hf r). lia. }
  pose proof (st_le_Bd _ _ Hle) as HB.
  split; [split; [|exact Hle] | split; [|discriminate]].
  - destruct I as [Hn Hh Hr Hc Hd]. constructor; simpl; auto; [lia| |congruence].
    rewrite Forall_forall in *. intros r' Hin.
    destruct (In_upd_nth_nth _ _ _ _ Hin) as [H1|[r [H1 ->]]].
    + specialize (Hr r' H1). lia.
    + specialize (Hr r (nth_error_In _ _ H1)). specialize (Hf r).
      pose proof (written_ge (set_ranks st (upd_nth i f (ranks st))) _ Hin). unfold Bd in *. simpl in *. lia.
  - intros HX S. unfold InvS in *. simpl. rewrite Forall_forall in *. intros r' Hin.
    destruct (In_upd_nth_nth _ _ _ _ Hin) as [H1|[r [H1 ->]]]; [auto|].
    apply (Hs HX r H1), S, (nth_error_In _ _ H1).
Qed.

Lemma indep_put_f_spec : forall p r,
  numrecs r <= numrecs (indep_put_f Er p r) /\ g_own r <= g_own (indep_put_f Er p r) /\
  numrecs (indep_put_f Er p r) <= Z.max (numrecs r) (g_own (indep_put_f Er p r)) /\
  (Er = true \/ erange_free_part p = true -> g_own r <= numrecs r ->
   g_own (indep_put_f Er p r) <= numrecs (indep_put_f Er p r)).
Proof.
  intros p r. unfold indep_put_f.
  destruct p as [|hi|hi|]; simpl; try (rewrite Z.ltb_irrefl; simpl; repeat split; intros; lia).
  - destruct (Z.ltb_spec (numrecs r) (hi + 1)); simpl; repeat split; intros; lia.
  - destruct Er; simpl.
    + destruct (Z.ltb_spec (numrecs r) (hi + 1)); simpl; repeat split; intros; lia.
    + rewrite Z.ltb_irrefl. simpl. repeat split; try lia; intros [X|X]; discriminate X.
Qed.

Lemma indep_put_rec_keeps : forall st i p, InvW st ->
  keeps (exact_at st (IndepPutRec i p)) (false = true) st (indep_put_rec Er i p st).
Proof.
  intros st i p I. unfold indep_put_rec.
  destruct (indef st); simpl; [now apply keeps_refl|]. destruct (indep st) eqn:Ei; simpl; [|now apply keeps_refl].
  apply (upd_keeps _ st i (indep_put_f Er p)); auto.
  - intros r. pose proof (indep_put_f_spec p r). lia.
  - intros X r _. now apply indep_put_f_spec.
Qed.

Definition wait_f (sel : wsel) (r : rk) : rk :=
  match extract (queue r) sel with
  | None => r
  | Some fl =>
      let new := L (numrecs r) (queue r) fl in
      let r1 := complete r fl in
      if existsb (fun b => b) fl && (numrecs r1 <? new) then set_ndirty (set_numrecs r1 new) true else r1
  end.

Lemma wait_f_spec : forall sel r,
  numrecs r <= numrecs (wait_f sel r) /\ g_own r <= g_own (wait_f sel r) /\
  numrecs (wait_f sel r) <= Z.max (numrecs r) (g_own (wait_f sel r)) /\
  (exact_q r sel -> g_own r <= numrecs r -> g_own (wait_f sel r) <= numrecs (wait_f sel r)).
Proof.
  intros sel r. unfold wait_f, exact_q. destruct (extract (queue r) sel) as [fl|]; [|repeat split; intros; lia].
  pose proof (L_hi (numrecs r) (queue r) fl) as H1. rewrite commit_fixed_eq in *.
  pose proof (fold_loop_max (combine (queue r) fl) (numrecs r) (g_own r)) as H2.
  pose proof (fold_loop_ge (combine (queue r) fl) (g_own r)) as H3.
  assert (H4 : g_own r <= numrecs r ->
               fold_left loop_body (combine (queue r) fl) (g_own r) <= fold_left loop_body (combine (queue r) fl) (numrecs r))
    by apply fold_loop_mono.
  destruct (existsb (fun b => b) fl) eqn:Ee; simpl.
  - destruct (Z.ltb_spec (numrecs r) (L (numrecs r) (queue r) fl)); simpl; repeat split; try lia;
      intros X S; specialize (X fl eq_refl); rewrite commit_fixed_eq in X; lia.
  - rewrite (fold_loop_nofl _ _ _ Ee). repeat split; intros; lia.
Qed.

Lemma wait_indep_keeps : forall st i sel, InvW st ->
  keeps (exact_at st (Wait i sel)) (false = true) st (wait_indep L i sel st).
Proof.
  intros st i sel I. unfold wait_indep.
  destruct (indef st); simpl; [now apply keeps_refl|]. destruct (indep st) eqn:Ei; simpl; [|now apply keeps_refl].
  apply (upd_keeps _ st i (wait_f sel)); auto.
  - intros r. pose proof (wait_f_spec sel r). lia.
  - intros X r Hr. apply wait_f_spec, X, Hr.
Qed.

(* synchronisation calls *)

Lemma sync_body_agree : forall st, Agree (sync_body st).
Proof.
  intros st. destruct (ranks st) as [|r0 rest] eqn:E.
  - unfold sync_body, Agree. rewrite E. simpl. rewrite E. constructor.
  - rewrite sync_body_spec by (rewrite E; discriminate). unfold Agree. simpl.
    apply Forall_forall. intros r' Hi. apply in_map_iff in Hi. destruct Hi as [r [<- Hi]]. reflexivity.
Qed.

Lemma sync_body_modes : forall st, indep (sync_body st) = indep st /\ indef (sync_body st) = indef st.
Proof.
  intros st. unfold sync_body. destruct (map (fun r => set_ndirty r true) (ranks st)); simpl; auto.
Qed.

(* ncmpio_sync_numrecs: all ranks and the header take the maximum of the ranks' counts *)
Lemma sync_body_keeps : forall X Q st, InvW st -> keeps X Q st (sync_body st).
Proof.
  intros X Q st I. pose proof (sync_body_agree st) as Ag. revert Ag.
  destruct (ranks st) as [|r0 rest] eqn:E.
  - unfold sync_body. rewrite E. simpl. intros _. now apply keeps_refl.
  - assert (H0 : In r0 (ranks st)) by (rewrite E; left; reflexivity).
    rewrite sync_body_spec by (rewrite E; discriminate). set (mx := zmaxl (map numrecs (ranks st))).
    set (st' := mkst (map (synced mx) (ranks st)) mx (indep st) (indef st) (hung st)). intros Ag.
    assert (Hge : forall r, In r (ranks st) -> numrecs r <= mx) by (intros r Hr; apply zmaxl_ge, in_map, Hr).
    destruct I as [Hn Hh Hr Hc Hd]. rewrite Forall_forall in Hr.
    assert (Hmx : mx <= Bd st).
    { apply zmaxl_le; [apply Bd_nonneg, Hn|]. intros x Hx. apply in_map_iff in Hx. destruct Hx as [r [<- Hx]]. apply Hr, Hx. }
    assert (HB : Bd st' = Bd st). { unfold Bd, written, st'. simpl. rewrite map_map. reflexivity. }
    specialize (Hge r0 H0) as Hm. specialize (Hr r0 H0) as Hm'.
    split; [split|split].
    + constructor; rewrite ?HB; auto; simpl; [lia|].
      apply Forall_forall. intros r' Hi. apply in_map_iff in Hi. destruct Hi as [r [<- Hi]]. simpl. lia.
    + split; simpl; [lia|]. apply Forall2_map_r. intros r Hi. unfold rk_le. simpl. specialize (Hge r Hi). lia.
    + intros _ S. unfold InvS in *. simpl. rewrite Forall_forall in *. intros r' Hi. apply in_map_iff in Hi.
      destruct Hi as [r [<- Hi]]. simpl. specialize (S r Hi). specialize (Hge r Hi). lia.
    + intros _ _. exact Ag.
Qed.

Lemma sync_numrecs_keeps : forall X Q st, InvW st -> keeps X Q st (sync_numrecs st).
Proof.
  intros X Q st I. unfold sync_numrecs. destruct (indef st); [now apply keeps_refl|].
  destruct (indep st); [now apply sync_body_keeps|now apply keeps_refl].
Qed.

Lemma begin_indep_keeps : forall X Q st, InvW st -> keeps X Q st (begin_indep st).
Proof.
  intros X Q st I. unfold begin_indep. destruct (indef st) eqn:Ed; [now apply keeps_refl|].
  apply same_keeps; simpl; auto using same_refl; [discriminate | congruence].
Qed.

Lemma end_indep_keeps : forall X Q st, InvW st -> keeps X Q st (end_indep st).
Proof.
  intros X Q st I. unfold end_indep. destruct (indef st) eqn:Ed; [now apply keeps_refl|].
  destruct (indep st) eqn:Ei; [|now apply keeps_refl].
  pose proof (sync_body_keeps X Q st I) as K. apply (keeps_trans _ _ _ _ _ K).
  apply same_keeps; simpl; auto using same_refl; [apply K | intros _; apply sync_body_agree].
Qed.

Lemma end_indep_indep : forall st, indef st = false -> indep (end_indep st) = false.
Proof.
  intros st Ed. unfold end_indep. rewrite Ed. destruct (indep st) eqn:Ei; [reflexivity|exact Ei].
Qed.

Lemma end_indep_indef : forall st, indef (end_indep st) = indef st.
Proof.
  intros st. unfold end_indep. destruct (indef st) eqn:Ed; [exact Ed|]. destruct (indep st); [|exact Ed].
  simpl. destruct (sync_body_modes st) as [_ H]. now rewrite H.
Qed.

Lemma redef_keeps : forall X Q st, InvW st -> keeps X Q st (redef st).
Proof.
  intros X Q st I. unfold redef. destruct (indef st) eqn:Ed; [now apply keeps_refl|].
  pose proof (end_indep_keeps X Q st I) as K. apply (keeps_trans _ _ _ _ _ K).
  pose proof (end_indep_indep st Ed) as Ei.
  apply same_keeps; simpl; auto using same_refl; [apply K | intros _; apply (iw_coll _ (proj1 (proj1 K)) Ei)].
Qed.

Lemma enddef_keeps : forall X Q st, InvW st -> keeps X Q st (enddef st).
Proof.
  intros X Q st I. unfold enddef. destruct (indef st) eqn:Ed; simpl; [|now apply keeps_refl].
  pose proof (iw_coll _ I (iw_def _ I Ed)) as Ag.
  apply same_keeps; simpl; auto.
  - destruct (ranks st); [reflexivity|]. inversion Ag; auto.
  - apply Forall2_map_r. intros r _. split; reflexivity.
Qed.

Lemma enddef_indef : forall st, indef (enddef st) = false.
Proof. intros st. unfold enddef. destruct (indef st) eqn:E; simpl; auto. Qed.

(* close + open: every rank restarts from the header, which all ranks agreed with after end_indep *)
Lemma reopen_keeps : forall X Q st, InvW st -> keeps X Q st (reopen st).
Proof.
  intros X Q st I. unfold reopen.
  pose proof (enddef_keeps X Q st I) as K1. apply (keeps_trans _ _ _ _ _ K1).
  pose proof (end_indep_keeps X Q _ (proj1 (proj1 K1))) as K2. apply (keeps_trans _ _ _ _ _ K2).
  pose proof (iw_coll _ (proj1 (proj1 K2)) (end_indep_indep _ (enddef_indef st))) as Ag.
  set (s2 := end_indep (enddef st)) in *.
  apply same_keeps; simpl; auto; [apply K2|].
  apply Forall2_map_r. intros r Hr. split; simpl; [|reflexivity].
  unfold Agree in Ag. rewrite Forall_forall in Ag. symmetry. auto.
Qed.

(* one step, histories *)

(* operations that are not independent writes keep agreement *)
Definition quiet (o : op) : bool := match o with IndepPutRec _ _ | Wait _ _ => false | _ => true end.
(* the documented synchronisation calls *)
Definition sync_op (o : op) : bool :=
  match o with EndIndep | Sync | SyncNumrecs | Redef | Reopen => true | _ => false end.

Lemma step_keeps : forall st o, InvW st -> keeps (exact_at st o) (quiet o = true) st (step L Er st o).
Proof.
  intros st o I. unfold step. destruct (hung st); [now apply keeps_refl|].
  destruct o; try (now apply keeps_refl).
  - now apply coll_put_rec_keeps.
  - now apply indep_put_rec_keeps.
  - now apply fill_rec_keeps.
  - now apply post_keeps.
  - now apply wait_all_keeps.
  - now apply wait_indep_keeps.
  - now apply begin_indep_keeps.
  - now apply end_indep_keeps.
  - now apply sync_numrecs_keeps.
  - now apply sync_numrecs_keeps.
  - now apply redef_keeps.
  - now apply enddef_keeps.
  - now apply reopen_keeps.
Qed.

Lemma step_ok : forall st o, InvW st -> InvW (step L Er st o) /\ st_le st (step L Er st o).
Proof. intros st o I. apply (step_keeps st o I). Qed.

(* hung is set by a collective put only, hence in collective mode, and a hung state never changes *)
Lemma step_hung : forall st o, (hung st = true -> indep st = false) ->
  hung (step L Er st o) = true -> indep (step L Er st o) = false.
Proof.
  intros st o H. unfold step. destruct (hung st) eqn:Eh; [intros _; now apply H|]. clear H.
  assert (C : forall mx s, hung s = false -> hung (coll_update mx s) = true -> indep (coll_update mx s) = false).
  { intros mx s Es. destruct (coll_update_modes mx s) as (_ & _ & ->). congruence. }
  destruct o; try congruence.
  - unfold coll_put_rec. destruct (indef st || indep st) eqn:E1; [congruence|].
    apply orb_false_iff in E1. destruct E1 as [_ Ei].
    destruct (negb _); [congruence|]. destruct (_ =? _)%nat; [congruence|].
    destruct (0 <? _)%nat; [intros _; exact Ei | now apply C].
  - unfold indep_put_rec. destruct (_ || _); simpl; congruence.
  - unfold fill_rec. destruct (indef st || indep st); [congruence|]. destruct (negb _); [congruence | now apply C].
  - simpl. congruence.
  - unfold wait_all. destruct (indef st || indep st); [congruence|]. destruct (negb _); [congruence|].
    destruct (extract_all _); [|congruence]. destruct (existsb _ _); [now apply C | simpl; congruence].
  - unfold wait_indep. destruct (_ || _); simpl; congruence.
  - unfold begin_indep. destruct (indef st); simpl; congruence.
  - unfold end_indep. destruct (indef st); [congruence|]. destruct (indep st); [reflexivity | congruence].
  - unfold sync, sync_numrecs. destruct (indef st); [congruence|]. destruct (indep st); [|congruence].
    unfold sync_body. destruct (map _ (ranks st)); simpl; congruence.
  - unfold sync_numrecs. destruct (indef st); [congruence|]. destruct (indep st); [|congruence].
    unfold sync_body. destruct (map _ (ranks st)); simpl; congruence.
  - unfold redef. destruct (indef st) eqn:Ed; [congruence|]. intros _. simpl. now apply end_indep_indep.
  - unfold enddef. destruct (negb (indef st)); simpl; congruence.
  - intros _. reflexivity.
Qed.

Lemma run_hung : forall ops st, (hung st = true -> indep st = false) ->
  hung (run L Er st ops) = true -> indep (run L Er st ops) = false.
Proof. induction ops as [|o ops IH]; intros st H; simpl; [exact H|]. apply IH. now apply step_hung. Qed.

Lemma sync_agree : forall st o, InvW st -> (hung st = true -> indep st = false) -> sync_op o = true ->
  Agree (step L Er st o).
Proof.
  intros st o I Hh Q. pose proof (step_ok st o I) as [I' _]. revert I'. unfold step.
  destruct (hung st); [intros _; exact (iw_coll _ I (Hh eq_refl))|].
  destruct (indef st) eqn:Hd.
  - (* define mode is collective: the ranks agree, and only Reopen changes the state *)
    pose proof (iw_coll _ I (iw_def _ I Hd)) as A.
    destruct o; try discriminate; intros I'; unfold end_indep, sync, sync_numrecs, redef; rewrite ?Hd; try exact A.
    apply (iw_coll _ I'). reflexivity.
  - destruct o; try discriminate; intros I'.
    + apply (iw_coll _ I'). now apply end_indep_indep.
    + unfold sync, sync_numrecs in *. rewrite Hd in *. destruct (indep st) eqn:Ei; [apply sync_body_agree | exact (iw_coll _ I Ei)].
    + unfold sync_numrecs in *. rewrite Hd in *. destruct (indep st) eqn:Ei; [apply sync_body_agree | exact (iw_coll _ I Ei)].
    + unfold redef in *. rewrite Hd in *. apply (iw_coll _ I'). simpl. now apply end_indep_indep.
    + apply (iw_coll _ I'). reflexivity.
Qed.

Lemma init_InvW : forall n, 0 <= N0 -> InvW (init n N0).
Proof.
  intros n Hn.
  assert (Hw : written (init n N0) = 0).
  { unfold written, init. simpl. induction n; simpl; [reflexivity|]. rewrite IHn. reflexivity. }
  assert (HB : Bd (init n N0) = N0). { unfold Bd. rewrite Hw. lia. }
  constructor; rewrite ?HB; auto.
  - simpl. lia.
  - simpl. rewrite Forall_forall. intros r Hr. apply repeat_spec in Hr. subst. simpl. lia.
  - intros _. simpl. rewrite Forall_forall. intros r Hr. apply repeat_spec in Hr. subst. reflexivity.
Qed.

Lemma init_InvS : forall n, 0 <= N0 -> InvS (init n N0).
Proof.
  intros n Hn. unfold InvS. simpl. rewrite Forall_forall. intros r Hr. apply repeat_spec in Hr. subst. simpl. lia.
Qed.

Lemma run_app : forall ops1 ops2 st, run L Er st (ops1 ++ ops2) = run L Er (run L Er st ops1) ops2.
Proof. intros. unfold run. apply fold_left_app. Qed.

Lemma run_keeps : forall ops st, InvW st ->
  keeps (hist_all L Er exact_at st ops) (forallb quiet ops = true) st (run L Er st ops).
Proof.
  induction ops as [|o ops IH]; intros st I; simpl; [now apply keeps_refl|].
  destruct (step_keeps st o I) as [[I1 L1] [S1 A1]]. destruct (IH _ I1) as [[I2 L2] [S2 A2]].
  split; [split; [exact I2 | eapply st_le_trans; eauto] | split].
  - intros [X1 X2] S. auto.
  - intros Qs A. apply andb_true_iff in Qs. destruct Qs. auto.
Qed.

Lemma run_ok : forall ops st, InvW st -> InvW (run L Er st ops) /\ st_le st (run L Er st ops).
Proof. intros ops st I. apply (run_keeps ops st I). Qed.

Lemma hist_all_app : forall P ops1 ops2 st, hist_all L Er P st (ops1 ++ ops2) ->
  hist_all L Er P st ops1 /\ hist_all L Er P (run L Er st ops1) ops2.
Proof.
  induction ops1 as [|o ops1 IH]; intros ops2 st H; simpl in *; [auto|].
  destruct H as [H1 H2]. destruct (IH _ _ H2). auto.
Qed.

Lemma reach_keeps : forall n ops, 0 <= N0 ->
  let st := run L Er (init n N0) ops in
  InvW st /\ (hist_all L Er exact_at (init n N0) ops -> InvS st).
Proof.
  intros n ops Hn st. destruct (run_keeps ops _ (init_InvW n Hn)) as [[I _] [S _]].
  split; [exact I | intro X; apply S; [exact X | apply init_InvS, Hn]].
Qed.

Lemma sync_then_quiet : forall n ops o ops2, 0 <= N0 ->
  sync_op o = true -> forallb quiet ops2 = true -> Agree (run L Er (init n N0) (ops ++ o :: ops2)).
Proof.
  intros n ops o ops2 Hn Q Q2. rewrite run_app. simpl.
  destruct (reach_keeps n ops Hn) as [I0 _]. destruct (step_ok _ o I0) as [I1 _].
  apply (run_keeps ops2 _ I1); [exact Q2 | apply sync_agree; [exact I0 | | exact Q]].
  apply run_hung. discriminate.
Qed.

(* in collective mode (and in define mode) every rank holds the header's value; no rank is ever
   above max(N0, written); nothing is below the header *)
Theorem gen_agree : forall n ops, 0 <= N0 ->
  let st := run L Er (init n N0) ops in
  (indep st = false -> forall r, In r (ranks st) -> numrecs r = hdr st) /\
  (forall r, In r (ranks st) -> hdr st <= numrecs r <= Z.max N0 (written st)) /\
  N0 <= hdr st <= Z.max N0 (written st).
Proof.
  intros n ops Hn st. destruct (reach_keeps n ops Hn) as [[a b c d e] _]. fold st in b, c, d.
  rewrite Forall_forall in c. repeat split; try apply b; try (now apply c).
  intros Hi. apply Forall_forall, d, Hi.
Qed.

Theorem gen_monotone : forall n ops1 ops2, 0 <= N0 ->
  let st := run L Er (init n N0) ops1 in let st' := run L Er (init n N0) (ops1 ++ ops2) in
  hdr st <= hdr st' /\ Forall2 (fun r r' => numrecs r <= numrecs r' /\ g_own r <= g_own r') (ranks st) (ranks st').
Proof.
  intros n ops1 ops2 Hn st st'. unfold st'. rewrite run_app. fold st.
  destruct (reach_keeps n ops1 Hn) as [I _]. apply (run_ok ops2 _ I).
Qed.

Theorem gen_coherent : forall n ops, 0 <= N0 -> hist_all L Er exact_at (init n N0) ops ->
  let st := run L Er (init n N0) ops in
  indep st = false -> forall r, In r (ranks st) -> numrecs r = hdr st /\ hdr st = Z.max N0 (written st).
Proof.
  intros n ops Hn X st Hi. destruct (reach_keeps n ops Hn) as [I S].
  exact (coh_of_agree _ I (S X) (iw_coll _ I Hi)).
Qed.

Theorem gen_indep_then_sync : forall n ops o ops2, 0 <= N0 ->
  hist_all L Er exact_at (init n N0) (ops ++ o :: ops2) ->
  sync_op o = true -> forallb quiet ops2 = true ->
  let st := run L Er (init n N0) (ops ++ o :: ops2) in
  forall r, In r (ranks st) -> numrecs r = hdr st /\ hdr st = Z.max N0 (written st).
Proof.
  intros n ops o ops2 Hn X Q Q2 st. destruct (reach_keeps n (ops ++ o :: ops2) Hn) as [I S].
  exact (coh_of_agree _ I (S X) (sync_then_quiet n ops o ops2 Hn Q Q2)).
Qed.

Theorem gen_sync_agree : forall n ops o ops2, 0 <= N0 ->
  sync_op o = true -> forallb quiet ops2 = true ->
  let st := run L Er (init n N0) (ops ++ o :: ops2) in
  forall r, In r (ranks st) -> numrecs r = hdr st.
Proof.
  intros n ops o ops2 Hn Q Q2 st. apply Forall_forall. exact (sync_then_quiet n ops o ops2 Hn Q Q2).
Qed.

Theorem gen_readable : forall n ops, 0 <= N0 -> hist_all L Er exact_at (init n N0) ops ->
  let st := run L Er (init n N0) ops in
  (forall r, In r (ranks st) -> g_own r <= numrecs r) /\
  (indep st = false -> forall r, In r (ranks st) -> written st <= numrecs r).
Proof.
  intros n ops Hn X st. split.
  - apply Forall_forall. exact (proj2 (reach_keeps n ops Hn) X).
  - intros Hi r Hr. destruct (gen_coherent n ops Hn X Hi r Hr) as [H1 H2]. fold st in H1, H2. lia.
Qed.

End Gen.

(* instances *)

Lemma loop_lo : forall a q fl, a <= commit_loop a q fl.
Proof. intros. apply loop_over_ge. Qed.
Lemma loop_hi : forall a q fl, commit_loop a q fl <= commit_fixed a q fl.
Proof. intros. apply loop_over_le_fixed. Qed.
Lemma fixed_lo : forall a q fl, a <= commit_fixed a q fl.
Proof. intros. apply loop_over_ge. Qed.
Lemma fixed_hi : forall a q fl, commit_fixed a q fl <= commit_fixed a q fl.
Proof. intros. lia. Qed.

Lemma hist_allb_imp : forall L Er (P : state -> op -> bool) (Q : state -> op -> Prop),
  (forall s o, P s o = true -> Q s o) ->
  forall ops st, hist_allb L Er P st ops = true -> hist_all L Er Q st ops.
Proof.
  intros L Er P Q H. induction ops as [|o ops IH]; intros st Hb; simpl in *; [auto|].
  apply andb_true_iff in Hb. destruct Hb; auto.
Qed.

Lemma hist_all_true : forall L Er (P : state -> op -> Prop), (forall s o, P s o) -> forall ops st, hist_all L Er P st ops.
Proof. intros L Er P H. induction ops; intros st; simpl; auto. Qed.

(* the corrected loop is exact by definition; what remains is put_varm's condition *)
Lemma fixed_exact_at : forall E st o, E = true \/ erange_free st o = true -> exact_at commit_fixed E st o.
Proof.
  intros E st o H. destruct o; simpl in *; auto.
  - rewrite Forall_forall. intros rs _ fl _. reflexivity.
  - intros r _ fl _. reflexivity.
Qed.

Lemma fixed_exact : forall st o, exact_at commit_fixed true st o.
Proof. intros. apply fixed_exact_at. now left. Qed.

Lemma head_ok_exact_at : forall st o, head_ok st o = true -> exact_at commit_loop true st o.
Proof.
  intros st o H. destruct o; simpl in *; auto.
  - rewrite Forall_forall. intros rs Hin fl E. rewrite forallb_forall in H. specialize (H rs Hin).
    eapply head_ok_exact; eauto.
  - intros r Hr fl E. rewrite Hr in H. eapply head_ok_exact; eauto.
Qed.

Definition coll_write (o : op) : bool :=
  match o with CollPutRec _ | CollPutFix | FillRec _ | WaitAll _ => true | _ => false end.

(* corrected loop: the property in full *)

Theorem coll_coherent : forall n N0 ops, 0 <= N0 ->
  let st := run_fixed (init n N0) ops in
  indep st = false ->
  forall r, In r (ranks st) -> numrecs r = hdr st /\ hdr st = Z.max N0 (written st).
Proof.
  intros n N0 ops Hn. apply (gen_coherent commit_fixed fixed_hi true N0 n ops Hn).
  apply hist_all_true. apply fixed_exact.
Qed.

Theorem coll_coherent_after_write : forall n N0 ops o, 0 <= N0 -> coll_write o = true ->
  let st0 := run_fixed (init n N0) ops in
  indep st0 = false ->
  let st := step_fixed st0 o in
  forall r, In r (ranks st) -> numrecs r = hdr st /\ hdr st = Z.max N0 (written st).
Proof.
  intros n N0 ops o Hn Hw st0 Hi st.
  destruct (reach_keeps commit_fixed fixed_hi true N0 n ops Hn) as [I0 S0]. fold run_fixed st0 in I0, S0.
  (* a collective write is quiet: the agreement of collective mode carries over *)
  destruct (step_keeps commit_fixed fixed_hi true N0 st0 o I0) as [[I _] [S A]].
  apply (coh_of_agree N0 _ I).
  - apply S; [apply fixed_exact | apply S0, hist_all_true, fixed_exact].
  - apply A; [destruct o; try discriminate Hw; reflexivity | exact (iw_coll _ _ I0 Hi)].
Qed.

Theorem indep_then_sync : forall n N0 ops o ops2, 0 <= N0 ->
  sync_op o = true ->
  hung (run_fixed (init n N0) ops) = false -> indef (run_fixed (init n N0) ops) = false ->
  forallb quiet ops2 = true ->
  let st := run_fixed (init n N0) (ops ++ o :: ops2) in
  forall r, In r (ranks st) -> numrecs r = hdr st /\ hdr st = Z.max N0 (written st).
Proof.
  intros n N0 ops o ops2 Hn Q _ _. apply (gen_indep_then_sync commit_fixed fixed_hi true N0 n ops o ops2 Hn); [|exact Q].
  apply hist_all_true. apply fixed_exact.
Qed.

Theorem numrecs_monotone : forall n N0 ops1 ops2, 0 <= N0 ->
  let st := run_fixed (init n N0) ops1 in let st' := run_fixed (init n N0) (ops1 ++ ops2) in
  hdr st <= hdr st' /\ Forall2 (fun r r' => numrecs r <= numrecs r' /\ g_own r <= g_own r') (ranks st) (ranks st').
Proof. intros n N0. apply (gen_monotone commit_fixed fixed_hi true N0 n). Qed.

Theorem completed_write_readable : forall n N0 ops, 0 <= N0 ->
  let st := run_fixed (init n N0) ops in
  (forall r, In r (ranks st) -> g_own r <= numrecs r) /\
  (indep st = false -> forall r, In r (ranks st) -> written st <= numrecs r).
Proof.
  intros n N0 ops Hn. apply (gen_readable commit_fixed fixed_hi true N0 n ops Hn).
  apply hist_all_true. apply fixed_exact.
Qed.

(* the loop over the first num_w_lead_reqs entries (commit_loop, run_head) *)

Theorem coll_agree_head : forall n N0 ops, 0 <= N0 ->
  let st := run_head (init n N0) ops in
  (indep st = false -> forall r, In r (ranks st) -> numrecs r = hdr st) /\
  (forall r, In r (ranks st) -> hdr st <= numrecs r <= Z.max N0 (written st)) /\
  N0 <= hdr st <= Z.max N0 (written st).
Proof. intros n N0 ops Hn. apply (gen_agree commit_loop loop_hi true N0 n ops Hn). Qed.

Theorem numrecs_monotone_head : forall n N0 ops1 ops2, 0 <= N0 ->
  let st := run_head (init n N0) ops1 in let st' := run_head (init n N0) (ops1 ++ ops2) in
  hdr st <= hdr st' /\ Forall2 (fun r r' => numrecs r <= numrecs r' /\ g_own r <= g_own r') (ranks st) (ranks st').
Proof. intros n N0. apply (gen_monotone commit_loop loop_hi true N0 n). Qed.

Theorem indep_sync_agree_head : forall n N0 ops o ops2, 0 <= N0 ->
  sync_op o = true ->
  hung (run_head (init n N0) ops) = false -> indef (run_head (init n N0) ops) = false ->
  forallb quiet ops2 = true ->
  let st := run_head (init n N0) (ops ++ o :: ops2) in
  forall r, In r (ranks st) -> numrecs r = hdr st.
Proof. intros n N0 ops o ops2 Hn Q _ _. exact (gen_sync_agree commit_loop loop_hi true N0 n ops o ops2 Hn Q). Qed.

(* the full statements, read for commit_loop *)
Definition coll_coherent_full : Prop := forall n N0 ops, 0 <= N0 ->
  let st := run_head (init n N0) ops in
  indep st = false ->
  forall r, In r (ranks st) -> numrecs r = hdr st /\ hdr st = Z.max N0 (written st).

Definition indep_then_sync_full : Prop := forall n N0 ops o ops2, 0 <= N0 ->
  sync_op o = true ->
  hung (run_head (init n N0) ops) = false -> indef (run_head (init n N0) ops) = false ->
  forallb quiet ops2 = true ->
  let st := run_head (init n N0) (ops ++ o :: ops2) in
  forall r, In r (ranks st) -> numrecs r = hdr st /\ hdr st = Z.max N0 (written st).

Definition completed_write_readable_full : Prop := forall n N0 ops, 0 <= N0 ->
  let st := run_head (init n N0) ops in
  (forall r, In r (ranks st) -> g_own r <= numrecs r) /\
  (indep st = false -> forall r, In r (ranks st) -> written st <= numrecs r).

(* F1 witness: rank 0 posts an iput on the fixed-size variable, then an iput writing record 5 of the
   record variable, then every rank calls wait_all and rank 0 names only the second request *)
Definition f1_witness : list op :=
  [Post 0 0 false 512 512 (-1); Post 0 1 true 528 608 6; WaitAll [WIds [Some 1%nat]; WIds []]].
(* same through the independent wait, followed by end_indep_data *)
Definition f1_witness_indep : list op :=
  [BeginIndep; Post 0 0 false 512 512 (-1); Post 0 1 true 528 576 5; Wait 0 (WIds [Some 1%nat])].

Theorem coll_coherent_refuted : ~ coll_coherent_full.
Proof.
  intros H. specialize (H 2%nat 0 f1_witness (Z.le_refl 0)). vm_compute in H.
  destruct (H eq_refl _ (or_introl eq_refl)) as [_ Hx]. discriminate Hx.
Qed.

Theorem indep_then_sync_refuted : ~ indep_then_sync_full.
Proof.
  intros H. specialize (H 2%nat 0 f1_witness_indep EndIndep [] (Z.le_refl 0) eq_refl eq_refl eq_refl eq_refl).
  vm_compute in H. destruct (H _ (or_introl eq_refl)) as [_ Hx]. discriminate Hx.
Qed.

Theorem completed_write_readable_refuted : ~ completed_write_readable_full.
Proof.
  intros H. specialize (H 2%nat 0 f1_witness (Z.le_refl 0)). vm_compute in H.
  destruct H as [H _]. specialize (H _ (or_introl eq_refl)). vm_compute in H. apply H. reflexivity.
Qed.

(* ... and proved for the histories in which every wait finds the record requests it completes among
   the first k = (number of requests it completes) queue entries; in particular every history whose
   waits name all pending requests (NC_REQ_ALL or the full id list) *)
Theorem coll_coherent_partial : forall n N0 ops, 0 <= N0 ->
  hist_allb commit_loop true head_ok (init n N0) ops = true ->
  let st := run_head (init n N0) ops in
  indep st = false ->
  forall r, In r (ranks st) -> numrecs r = hdr st /\ hdr st = Z.max N0 (written st).
Proof.
  intros n N0 ops Hn Hh. apply (gen_coherent commit_loop loop_hi true N0 n ops Hn). exact (hist_allb_imp _ _ _ _ head_ok_exact_at _ _ Hh).
Qed.

Theorem indep_then_sync_partial : forall n N0 ops o ops2, 0 <= N0 ->
  hist_allb commit_loop true head_ok (init n N0) (ops ++ o :: ops2) = true ->
  sync_op o = true ->
  hung (run_head (init n N0) ops) = false -> indef (run_head (init n N0) ops) = false ->
  forallb quiet ops2 = true ->
  let st := run_head (init n N0) (ops ++ o :: ops2) in
  forall r, In r (ranks st) -> numrecs r = hdr st /\ hdr st = Z.max N0 (written st).
Proof.
  intros n N0 ops o ops2 Hn Hh Q _ _. apply (gen_indep_then_sync commit_loop loop_hi true N0 n ops o ops2 Hn); [|exact Q].
  exact (hist_allb_imp _ _ _ _ head_ok_exact_at _ _ Hh).
Qed.

Theorem completed_write_readable_partial : forall n N0 ops, 0 <= N0 ->
  hist_allb commit_loop true head_ok (init n N0) ops = true ->
  let st := run_head (init n N0) ops in
  (forall r, In r (ranks st) -> g_own r <= numrecs r) /\
  (indep st = false -> forall r, In r (ranks st) -> written st <= numrecs r).
Proof.
  intros n N0 ops Hn Hh. apply (gen_readable commit_loop loop_hi true N0 n ops Hn). exact (hist_allb_imp _ _ _ _ head_ok_exact_at _ _ Hh).
Qed.

(* when every pending request is flagged the loop runs over the whole queue: NC_REQ_ALL, and an id array as long as
   the queue, which is treated like it *)
Lemma head_ok_all_flagged : forall q sel, extract q sel = Some (map (fun _ => true) q) -> head_ok_q q sel = true.
Proof.
  intros q sel H. unfold head_ok_q. rewrite H.
  assert (E : count_true (map (fun _ : preq => true) q) = length q).
  { clear. unfold count_true. induction q; simpl; auto. }
  rewrite E. rewrite skipn_all2; [reflexivity|]. rewrite combine_length, map_length. lia.
Qed.

(* waits that name every pending request always satisfy the side condition *)
Lemma head_ok_wall : forall q, head_ok_q q WAll = true.
Proof. intros q. now apply head_ok_all_flagged. Qed.

(* the hypotheses are satisfiable, the statements not vacuous *)

(* corrected loop on the F1 witness: all ranks and the header hold 6 = 1 + 5 *)
Example coll_coherent_ex :
  let st := run_fixed (init 2 0) f1_witness in
  indep st = false /\ map numrecs (ranks st) = [6; 6] /\ hdr st = 6 /\ written st = 6.
Proof. vm_compute. repeat split. Qed.

(* commit_loop on the same history: 0 everywhere although record 5 has been written *)
Example f1_witness_head :
  let st := run_head (init 2 0) f1_witness in
  map numrecs (ranks st) = [0; 0] /\ hdr st = 0 /\ written st = 6 /\ hist_allb commit_loop true head_ok (init 2 0) f1_witness = false.
Proof. vm_compute. repeat split. Qed.

(* a history with a proper subset wait that satisfies head_ok (3 ranks; record requests at the queue head) *)
Definition subset_ok_hist : list op :=
  [Post 0 0 true 536 584 3; Post 0 1 true 536 704 8; Post 2 0 true 536 632 5;
   WaitAll [WIds [Some 0%nat]; WIds []; WIds [Some 0%nat]]; BeginIndep; IndepPutRec 1 (PRec 9); EndIndep].
Example partial_hyp_ex :
  hist_allb commit_loop true head_ok (init 3 0) subset_ok_hist = true /\
  let st := run_head (init 3 0) subset_ok_hist in map numrecs (ranks st) = [10; 10; 10] /\ hdr st = 10 /\ indep st = false.
Proof. vm_compute. repeat split. Qed.

(* independent writes, different counts per rank, then a synchronisation call *)
Example indep_then_sync_ex :
  let ops := [BeginIndep; IndepPutRec 1 (PRec 4); IndepPutRec 0 (PRec 2)] in
  map numrecs (ranks (run_fixed (init 2 1) ops)) = [3; 5] /\
  sync_op Sync = true /\ hung (run_fixed (init 2 1) ops) = false /\ indef (run_fixed (init 2 1) ops) = false /\
  map numrecs (ranks (run_fixed (init 2 1) (ops ++ Sync :: [Post 0 7 false 512 512 (-1)]))) = [5; 5].
Proof. vm_compute. repeat split. Qed.

(* put_varm without the NC_ERANGE disjunct *)
(* run_noerange: the corrected wait loop, but put_varm's condition reads `nelems > 0 && status == NC_NOERR`,
   so a blocking put that returns NC_ERANGE (its data IS written) does not feed its highest record into
   new_numrecs.  The full statements are refuted; they hold for histories without NC_ERANGE puts. *)

Definition erange_witness : list op := [CollPutRec [PRecE 3; PNone]].
Definition erange_witness_indep : list op := [BeginIndep; IndepPutRec 1 (PRecE 5)].

Definition coll_coherent_noerange_full : Prop := forall n N0 ops, 0 <= N0 ->
  let st := run_noerange (init n N0) ops in
  indep st = false ->
  forall r, In r (ranks st) -> numrecs r = hdr st /\ hdr st = Z.max N0 (written st).

Definition indep_then_sync_noerange_full : Prop := forall n N0 ops o ops2, 0 <= N0 ->
  sync_op o = true ->
  hung (run_noerange (init n N0) ops) = false -> indef (run_noerange (init n N0) ops) = false ->
  forallb quiet ops2 = true ->
  let st := run_noerange (init n N0) (ops ++ o :: ops2) in
  forall r, In r (ranks st) -> numrecs r = hdr st /\ hdr st = Z.max N0 (written st).

Definition completed_write_readable_noerange_full : Prop := forall n N0 ops, 0 <= N0 ->
  let st := run_noerange (init n N0) ops in
  (forall r, In r (ranks st) -> g_own r <= numrecs r) /\
  (indep st = false -> forall r, In r (ranks st) -> written st <= numrecs r).

Theorem coll_coherent_noerange_refuted : ~ coll_coherent_noerange_full.
Proof.
  intros H. specialize (H 2%nat 0 erange_witness (Z.le_refl 0)). vm_compute in H.
  destruct (H eq_refl _ (or_introl eq_refl)) as [_ Hx]. discriminate Hx.
Qed.

Theorem indep_then_sync_noerange_refuted : ~ indep_then_sync_noerange_full.
Proof.
  intros H. specialize (H 2%nat 0 erange_witness_indep EndIndep [] (Z.le_refl 0) eq_refl eq_refl eq_refl eq_refl).
  vm_compute in H. destruct (H _ (or_introl eq_refl)) as [_ Hx]. discriminate Hx.
Qed.

Theorem completed_write_readable_noerange_refuted : ~ completed_write_readable_noerange_full.
Proof.
  intros H. specialize (H 2%nat 0 erange_witness (Z.le_refl 0)). vm_compute in H.
  destruct H as [H _]. specialize (H _ (or_introl eq_refl)). vm_compute in H. apply H. reflexivity.
Qed.

Lemma erange_free_hist : forall st ops, hist_allb commit_fixed false erange_free st ops = true ->
  hist_all commit_fixed false (exact_at commit_fixed false) st ops.
Proof. intros st ops. apply hist_allb_imp. intros s o H. apply fixed_exact_at. now right. Qed.

Theorem coll_coherent_noerange_partial : forall n N0 ops, 0 <= N0 ->
  hist_allb commit_fixed false erange_free (init n N0) ops = true ->
  let st := run_noerange (init n N0) ops in
  indep st = false ->
  forall r, In r (ranks st) -> numrecs r = hdr st /\ hdr st = Z.max N0 (written st).
Proof.
  intros n N0 ops Hn Hh. apply (gen_coherent commit_fixed fixed_hi false N0 n ops Hn). now apply erange_free_hist.
Qed.

Theorem completed_write_readable_noerange_partial : forall n N0 ops, 0 <= N0 ->
  hist_allb commit_fixed false erange_free (init n N0) ops = true ->
  let st := run_noerange (init n N0) ops in
  (forall r, In r (ranks st) -> g_own r <= numrecs r) /\
  (indep st = false -> forall r, In r (ranks st) -> written st <= numrecs r).
Proof.
  intros n N0 ops Hn Hh. apply (gen_readable commit_fixed fixed_hi false N0 n ops Hn). now apply erange_free_hist.
Qed.

(* what survives unconditionally: agreement across ranks and header, upper bound, monotonicity *)
Theorem coll_agree_noerange : forall n N0 ops, 0 <= N0 ->
  let st := run_noerange (init n N0) ops in
  (indep st = false -> forall r, In r (ranks st) -> numrecs r = hdr st) /\
  (forall r, In r (ranks st) -> hdr st <= numrecs r <= Z.max N0 (written st)) /\
  N0 <= hdr st <= Z.max N0 (written st).
Proof. intros n N0 ops Hn. apply (gen_agree commit_fixed fixed_hi false N0 n ops Hn). Qed.

(* with the disjunct (run_fixed): an NC_ERANGE put counts as a completed write *)
Example erange_counts_ex :
  let st := run_fixed (init 2 0) erange_witness in
  map numrecs (ranks st) = [4; 4] /\ hdr st = 4 /\ written st = 4 /\
  let st' := run_noerange (init 2 0) erange_witness in
  map numrecs (ranks st') = [0; 0] /\ hdr st' = 0 /\ written st' = 4.
Proof. vm_compute. repeat split. Qed.
