(* Proofs_Reach2.v — the invariant of Proofs_Reach.v is preserved by enddef (new file and after a
   redefinition), the numrecs agreements, redef, begin/end_indep, sync, close, abort, create, open. *)
From Pnc Require Import Base Gen_consts Header HeaderSpec Disk Exec.
From Pnc Require Import Proofs_Lists Proofs_Base Proofs_Header Proofs_Layout.
From Pnc Require Import Proofs_Disk.
From Pnc Require Import Proofs_Exec2 Proofs_Reach.
Require Import Lia ZArith List Bool ZifyBool.
Import ListNotations.
Local Open Scope Z_scope.


(** * 1. The shape of the worlds do_enddef and sync_numrecs_all return *)

Lemma do_enddef_shape : forall w id f ea w' rc, do_enddef w id f ea = Some (w', rc) ->
  (w' = w /\ (f_indef f = false \/ rc <> NC_NOERR)) \/
  (rc = NC_NOERR /\ f_indef f = true /\
   exists d3 f'', w' = put_file (set_disk w (f_slot f) d3) id (Some f'') /\ f_slot f'' = f_slot f).
Proof.
  intros w id f ea w' rc H.
  destruct (do_enddef_cases w id f ea w' rc H) as [L|(Hrc & Hi & ha & va & ra & lay & _ & _ & _ & _ & _ & ->)];
    [left; exact L|right].
  split; [exact Hrc|]. split; [exact Hi|]. eexists _, _. split; reflexivity.
Qed.

Lemma do_enddef_frame : forall w id f ea w' rc, do_enddef w id f ea = Some (w', rc) ->
  frame w w' id (f_slot f).
Proof.
  intros w id f ea w' rc H.
  destruct (do_enddef_shape w id f ea w' rc H) as [[-> _]|(_ & _ & d3 & f'' & -> & _)].
  - apply frame_refl.
  - apply frame_put_set.
Qed.

Lemma sync_numrecs_all_shape : forall w id f,
  sync_numrecs_all w id f = put_file w id (Some f) \/
  exists d' f', sync_numrecs_all w id f = put_file (set_disk w (f_slot f) d') id (Some f') /\
                f_slot f' = f_slot f.
Proof.
  intros w id f. unfold sync_numrecs_all. destruct (num_rec_vars (f_hdr f) =? 0); [left; reflexivity|].
  right. cbv zeta. eexists. eexists. split; [reflexivity|reflexivity].
Qed.

(* w' differs from w at most in file id and disk slot, and still holds a file on that slot at id *)
Definition keeps (w w' : world) (id slot : Z) : Prop :=
  frame w w' id slot /\ exists f', znth (w_files w') id None = Some f' /\ f_slot f' = slot.

Lemma keeps_refl : forall w id f, znth (w_files w) id None = Some f -> keeps w w id (f_slot f).
Proof. intros w id f Hz. split; [apply frame_refl|]. exists f. split; [exact Hz|reflexivity]. Qed.

Lemma keeps_put_set : forall w id slot d f', 0 <= id < Zlen (w_files w) -> f_slot f' = slot ->
  keeps w (put_file (set_disk w slot d) id (Some f')) id slot.
Proof.
  intros w id slot d f' Hid Hs. split; [apply frame_put_set|]. exists f'.
  split; [apply znth_put_set_same; exact Hid|exact Hs].
Qed.

Lemma do_enddef_keeps : forall w id f ea w' rc, znth (w_files w) id None = Some f ->
  do_enddef w id f ea = Some (w', rc) -> keeps w w' id (f_slot f).
Proof.
  intros w id f ea w' rc Hz H.
  destruct (do_enddef_shape w id f ea w' rc H) as [[-> _]|(_ & _ & d3 & f'' & -> & Hs)].
  - exact (keeps_refl w id f Hz).
  - exact (keeps_put_set w id _ d3 f'' (znth_some_range _ _ _ Hz) Hs).
Qed.

Lemma sync_numrecs_all_keeps : forall w id f, 0 <= id < Zlen (w_files w) ->
  keeps w (sync_numrecs_all w id f) id (f_slot f).
Proof.
  intros w id f Hid. destruct (sync_numrecs_all_shape w id f) as [->|(d' & f' & -> & Hs)].
  - split; [apply frame_put_file|]. exists f. split; [apply znth_put_file_same; exact Hid|reflexivity].
  - exact (keeps_put_set w id _ d' f' Hid Hs).
Qed.

Lemma Zlen_files_frame_put : forall w id x, Zlen (w_files (put_file w id x)) = Zlen (w_files w).
Proof. intros. apply Zlen_w_files_put_file. Qed.

(** * 2. Writing numrecs keeps the header on disk *)

Lemma set_numrecs_same : forall h, set_numrecs h (h_numrecs h) = h.
Proof. intros h. destruct h; reflexivity. Qed.

Lemma nn_ok_mono : forall fmt a b, 0 <= a <= b -> nn_ok fmt b = true -> nn_ok fmt a = true.
Proof. intros fmt a b H Hb. unfold nn_ok in *. destruct (fmt <? 5); lia. Qed.

Lemma wf_hdr_numrecs_mono : forall h n, 0 <= h_numrecs h <= n ->
  wf_hdr (set_numrecs h n) = true -> wf_hdr h = true.
Proof.
  intros h n Hn H. unfold wf_hdr in *. cbv zeta in *. cbn [set_numrecs h_format h_numrecs h_dims h_gatts h_vars] in H.
  rewrite !andb_true_iff in *. destruct H as [[[[[[[H1 H2] H3] H4] H5] H6] H7] H8].
  repeat split; try assumption. exact (nn_ok_mono _ _ _ Hn H2).
Qed.

Lemma Zlen_put_nn_fmt : forall fmt a b, Zlen (put_nn fmt a) = Zlen (put_nn fmt b).
Proof. intros fmt a b. unfold put_nn. destruct (fmt <? 5); reflexivity. Qed.

(* the encoded header, split at the numrecs field *)
Definition enc_tail (h : hdr) : list byte :=
  put_list (h_format h) NC_DIMENSION_TAG (put_dim (h_format h)) (h_dims h) ++
  put_list (h_format h) NC_ATTRIBUTE_TAG (put_att (h_format h)) (h_gatts h) ++
  put_list (h_format h) NC_VARIABLE_TAG (put_var (h_format h) (h_dims h)) (h_vars h).

Lemma encode_header_split : forall h,
  encode_header h = magic (h_format h) ++ put_nn (h_format h) (h_numrecs h) ++ enc_tail h.
Proof. reflexivity. Qed.

Lemma dk_read_write_mid : forall d (a b b' c : list byte), Zlen b' = Zlen b ->
  dk_read d 0 (Zlen (a ++ b ++ c)) = a ++ b ++ c ->
  dk_read (dk_write d (Zlen a) b') 0 (Zlen (a ++ b ++ c)) = a ++ b' ++ c.
Proof.
  intros d a b b' c Hb H.
  pose proof (Zlen_nonneg a). pose proof (Zlen_nonneg b).
  pose proof (Zlen_nonneg c).
  remember (Zlen (a ++ b ++ c)) as L eqn:EL. rewrite !Zlen_app in EL.
  apply (znth_ext _ _ 0).
  { rewrite Zlen_dk_read, !Zlen_app. unfold byte in *. lia. }
  intros i Hi. rewrite Zlen_dk_read in Hi.
  assert (Eold : dk_get d i = znth (a ++ b ++ c) i 0)
    by (rewrite <- H, znth_dk_read by lia; reflexivity).
  rewrite znth_dk_read, Z.add_0_l, dk_get_write, Eold, !(znth_app a), Hb by lia.
  destruct (Z.ltb_spec i (Zlen a)) as [R1|R1].
  - replace ((Zlen a <=? i) && (i <? Zlen a + Zlen b)) with false by lia. reflexivity.
  - rewrite !znth_app, Hb by lia.
    destruct (Z.ltb_spec (i - Zlen a) (Zlen b)) as [R2|R2].
    + replace ((Zlen a <=? i) && (i <? Zlen a + Zlen b)) with true by lia. reflexivity.
    + replace ((Zlen a <=? i) && (i <? Zlen a + Zlen b)) with false by lia. reflexivity.
Qed.

Lemma write_numrecs_keeps_hdr : forall d h n,
  wf_hdr h = true -> disk_has_hdr d h ->
  disk_has_hdr (write_numrecs_bytes d (h_format h) n) (set_numrecs h n).
Proof.
  intros d h n Hwf (D1 & D2 & D3).
  unfold disk_has_hdr, write_numrecs_bytes. rewrite hdr_len_set_numrecs.
  split; [rewrite dk_exists_write, D1; apply orb_true_r|].
  split; [rewrite dk_size_write; destruct (0 <? Zlen (put_nn (h_format h) n)); lia|].
  rewrite (hdr_len_encode h Hwf), encode_header_split in D3 |- *.
  exact (dk_read_write_mid d (magic (h_format h)) _ _ (enc_tail h)
           (Zlen_put_nn_fmt (h_format h) n (h_numrecs h)) D3).
Qed.

Lemma disk_has_hdr_write_numrecs : forall d h n,
  wf_hdr h = true -> wf_hdr (set_numrecs h n) = true -> disk_has_hdr d h ->
  disk_has_hdr (write_numrecs_bytes d (h_format h) n) (set_numrecs h n).
Proof. intros d h n Hwf _. now apply write_numrecs_keeps_hdr. Qed.

(** data_ok is kept when numrecs grows to n and (unless n is the old value) is rewritten on disk *)
Lemma data_ok_numrecs : forall d h lay n (wr : bool),
  data_ok d h lay -> 0 <= h_numrecs h <= n -> (wr = false -> n = h_numrecs h) ->
  data_ok (if wr then write_numrecs_bytes d (h_format h) n else d) (set_numrecs h n) lay.
Proof.
  intros d h lay n wr (L1 & L2 & L3 & L4 & L5) Hn Hwr. unfold data_ok.
  rewrite t3of_set_numrecs, hdr_len_set_numrecs. cbn [set_numrecs h_vars].
  split; [exact L1|]. split; [exact L2|]. split; [exact L3|]. split; [exact L4|].
  intros Hwf'. pose proof (wf_hdr_numrecs_mono h n Hn Hwf') as Hwf. specialize (L5 Hwf).
  destruct wr.
  - apply disk_has_hdr_write_numrecs; assumption.
  - rewrite (Hwr eq_refl), set_numrecs_same. exact L5.
Qed.

(** * 3. The numrecs agreements *)

Lemma fold_max_ge_init : forall l a, a <= fold_left Z.max l a.
Proof.
  induction l as [|x l IH]; intros a; cbn [fold_left]; [lia|].
  specialize (IH (Z.max a x)). lia.
Qed.

Lemma fold_max_ge_in : forall l a x, In x l -> x <= fold_left Z.max l a.
Proof.
  induction l as [|y l IH]; intros a x Hin; [destruct Hin|]. cbn [fold_left].
  destruct Hin as [->|Hin]; [|apply IH; exact Hin].
  pose proof (fold_max_ge_init l (Z.max a x)). lia.
Qed.

Lemma fold_max_le : forall l a b, (forall x, In x l -> x <= b) -> a <= b -> fold_left Z.max l a <= b.
Proof.
  induction l as [|y l IH]; intros a b H Ha; cbn [fold_left]; [exact Ha|].
  apply IH; [intros x Hx; apply H; right; exact Hx|].
  pose proof (H y (or_introl eq_refl)). lia.
Qed.

Lemma inv_put_set : forall w id f f' d',
  world_inv w -> znth (w_files w) id None = Some f -> f_tainted f = false ->
  f_slot f' = f_slot f ->
  (file_inv w f -> f_tainted f' = false -> file_ok (w_nprocs w) (Zlen (w_disks w)) d' f') ->
  world_inv (put_file (set_disk w (f_slot f) d') id (Some f')).
Proof.
  intros w id f f' d' Hw Hz Ht Hs Hn.
  apply (inv_replace w _ id f f' Hw Hz Ht (frame_put_set w id _ d' _)); [|exact Hs|].
  - apply znth_put_set_same. exact (znth_some_range _ _ _ Hz).
  - intros Hf. rewrite get_disk_put_set_same by exact (proj1 Hf). exact (Hn Hf).
Qed.

Lemma ranks_eq_of_collective : forall np nd d f, file_ok np nd d f -> f_indep f = false ->
  Forall (fun r => rk_numrecs r = h_numrecs (f_hdr f)) (f_ranks f).
Proof. intros np nd d f (_ & _ & _ & (_ & _ & R3) & _) H. apply R3. left. exact H. Qed.

Lemma ranks_eq_of_rdonly : forall np nd d f, file_ok np nd d f -> f_rdonly f = true ->
  Forall (fun r => rk_numrecs r = h_numrecs (f_hdr f)) (f_ranks f).
Proof. intros np nd d f (_ & _ & _ & (_ & _ & R3) & _) H. apply R3. right. right. exact H. Qed.

Lemma file_ok_set_numrecs : forall np nd d f n (wr : bool) rs,
  file_ok np nd d f -> f_indef f = false ->
  h_numrecs (f_hdr f) <= n -> (wr = false -> n = h_numrecs (f_hdr f)) ->
  Zlen rs = Zlen (f_ranks f) -> Forall (fun r => rk_numrecs r = n) rs ->
  file_ok np nd (if wr then write_numrecs_bytes d (h_format (f_hdr f)) n else d)
          (upd_ranks (upd_hdr f (set_numrecs (f_hdr f) n)) rs).
Proof.
  intros np nd d f n wr rs (Hs & (G1 & G2 & G3) & Ha & (R1 & R2 & R3) & Hm) Hindef Hn Hwr Hlen Hrs.
  rewrite Hindef in Hm. destruct Hm as (O1 & O2 & O3).
  unfold file_ok, ranks_ok, hdr_good, hdr_wf.
  cbn [upd_ranks upd_hdr f_slot f_hdr f_align f_indef f_old f_isnew f_lay f_ranks f_indep f_rdonly
       set_numrecs h_numrecs h_dims h_vars].
  rewrite Hindef, Hlen.
  split; [exact Hs|]. split; [repeat split; try assumption; lia|]. split; [exact Ha|].
  split.
  { split; [exact R1|]. split; [|intros _; exact Hrs].
    eapply Forall_impl; [|exact Hrs]. intros r Hr. cbn beta in Hr. lia. }
  split; [exact O1|]. split; [exact O2|].
  apply (data_ok_numrecs d (f_hdr f) (f_lay f) n wr O3); [lia|exact Hwr].
Qed.

(* sync_numrecs_all *)
Definition sync_mx (f : filest) : Z := fold_left Z.max (map rk_numrecs (f_ranks f)) 0.
Definition sync_file (f : filest) : filest :=
  sync_ranks_numrecs (upd_hdr f (set_numrecs (f_hdr f) (sync_mx f))) (sync_mx f).

Lemma sync_numrecs_all_eq : forall w id f, (num_rec_vars (f_hdr f) =? 0) = false ->
  sync_numrecs_all w id f =
  put_file (set_disk w (f_slot f) (write_numrecs_bytes (disk_of w f) (h_format (f_hdr f)) (sync_mx f)))
           id (Some (sync_file f)).
Proof. intros w id f H. unfold sync_numrecs_all. rewrite H. reflexivity. Qed.

(* there is at least one rank, and no rank is below the header *)
Lemma sync_mx_ge : forall np f, 1 <= np -> ranks_ok np f -> h_numrecs (f_hdr f) <= sync_mx f.
Proof.
  intros np f Hnp (R1 & R2 & _). unfold sync_mx.
  destruct (f_ranks f) as [|r rs] eqn:Er.
  - rewrite Zlen_nil in R1. lia.
  - inversion R2 as [|? ? Hr _]; subst.
    pose proof (fold_max_ge_in (map rk_numrecs (r :: rs)) 0 (rk_numrecs r) (or_introl eq_refl)). lia.
Qed.

Lemma sync_all_inv : forall w id f,
  world_inv w -> znth (w_files w) id None = Some f -> f_tainted f = false -> f_indef f = false ->
  world_inv (sync_numrecs_all w id f) /\
  exists f1, znth (w_files (sync_numrecs_all w id f)) id None = Some f1 /\
    f_slot f1 = f_slot f /\ f_tainted f1 = false /\ f_indef f1 = false /\
    f_indep f1 = f_indep f /\ f_rdonly f1 = f_rdonly f /\
    Forall (fun r => rk_numrecs r = h_numrecs (f_hdr f1)) (f_ranks f1).
Proof.
  intros w id f Hw Hz Ht Hindef.
  pose proof (znth_some_range _ _ _ Hz) as Hid.
  destruct (num_rec_vars (f_hdr f) =? 0) eqn:En.
  - unfold sync_numrecs_all. rewrite En. split.
    + apply (inv_put_file w id f f Hw Hz Ht eq_refl). intros H _. exact H.
    + exists f. rewrite znth_put_file_same by exact Hid.
      split; [reflexivity|]. do 5 (split; [first [reflexivity|assumption]|]).
      destruct (file_inv_of_znth w id f Hw Hz Ht) as (_ & _ & _ & (_ & _ & R3) & _).
      apply R3. right. left. lia.
  - rewrite (sync_numrecs_all_eq w id f En).
    assert (Hall : Forall (fun r => rk_numrecs r = sync_mx f)
                     (map (fun r => rk_set_numrecs r (sync_mx f) false) (f_ranks f)))
      by (apply rz_Forall_map; intros r _; reflexivity).
    split.
    + apply (inv_put_set w id f (sync_file f) _ Hw Hz Ht eq_refl). intros Hf _.
      pose proof Hf as (_ & _ & _ & Hr & _).
      apply (file_ok_set_numrecs _ _ _ f (sync_mx f) true _ Hf Hindef
               (sync_mx_ge _ f (proj1 Hw) Hr)); [intros C; discriminate C| |exact Hall].
      apply Zlen_map.
    + exists (sync_file f). rewrite znth_put_set_same by exact Hid.
      split; [reflexivity|]. do 5 (split; [first [reflexivity|assumption]|]). exact Hall.
Qed.

(* coll_numrecs_sync *)
Definition cs_mx (f : filest) (news : list (option Z)) : Z :=
  fold_left Z.max
    (map (fun p : Z * option Z => match snd p with Some n => n | None => fst p end)
         (zip (map rk_numrecs (f_ranks f)) news)) 0.

Definition cs_disk (d : disk) (f : filest) (news : list (option Z)) : disk :=
  if (hd 0 (map rk_numrecs (f_ranks f)) <? cs_mx f news) && (num_rec_vars (f_hdr f) >? 0)
  then write_numrecs_bytes d (h_format (f_hdr f)) (cs_mx f news) else d.

Definition cs_file (f : filest) (news : list (option Z)) : filest :=
  upd_ranks (upd_hdr f (set_numrecs (f_hdr f) (Z.max (h_numrecs (f_hdr f)) (cs_mx f news))))
    (map (fun r => if rk_numrecs r <? cs_mx f news then rk_set_numrecs r (cs_mx f news) (rk_dirty r) else r)
         (f_ranks f)).

Lemma coll_numrecs_sync_eq : forall w id f news,
  coll_numrecs_sync w id f news =
  put_file (set_disk w (f_slot f) (cs_disk (disk_of w f) f news)) id (Some (cs_file f news)).
Proof. reflexivity. Qed.

Lemma coll_numrecs_sync_inv : forall w id f news,
  world_inv w -> znth (w_files w) id None = Some f -> f_tainted f = false ->
  f_indef f = false -> f_indep f = false -> 0 < num_rec_vars (f_hdr f) ->
  world_inv (coll_numrecs_sync w id f news).
Proof.
  intros w id f news Hw Hz Ht Hindef Hindep Hnrv. rewrite coll_numrecs_sync_eq.
  apply (inv_put_set w id f (cs_file f news) _ Hw Hz Ht eq_refl). intros Hf _.
  pose proof (ranks_eq_of_collective _ _ _ f Hf Hindep) as Req.
  pose proof Hf as (_ & _ & _ & (R1 & _) & _). pose proof Hw as (Hnp & _).
  unfold cs_file, cs_disk. set (N := h_numrecs (f_hdr f)) in *. set (mx := cs_mx f news).
  (* in collective mode the root, whose numrecs decides whether the header is rewritten, holds N *)
  assert (Hroot : hd 0 (map rk_numrecs (f_ranks f)) = N).
  { destruct (f_ranks f) as [|r rs]; [rewrite Zlen_nil in R1; lia|].
    inversion Req as [|? ? Hr _]; subst. exact Hr. }
  rewrite Hroot. replace (num_rec_vars (f_hdr f) >? 0) with true by lia. rewrite andb_true_r.
  assert (Hwr : (N <? mx) = false -> Z.max N mx = N) by lia.
  assert (Emx : (if N <? mx then write_numrecs_bytes (disk_of w f) (h_format (f_hdr f)) mx else disk_of w f) =
                (if N <? mx then write_numrecs_bytes (disk_of w f) (h_format (f_hdr f)) (Z.max N mx)
                 else disk_of w f)).
  { destruct (Z.ltb_spec N mx); [replace (Z.max N mx) with mx by lia|]; reflexivity. }
  rewrite Emx.
  apply (file_ok_set_numrecs _ _ _ f (Z.max N mx) (N <? mx) _ Hf Hindef); [fold N; lia|exact Hwr| |].
  - apply Zlen_map.
  - rewrite Forall_forall in Req. apply rz_Forall_map. intros r Hr. specialize (Req r Hr). fold N in Req.
    destruct (Z.ltb_spec (rk_numrecs r) mx); cbn [rk_set_numrecs rk_numrecs]; lia.
Qed.

(** * 4. enddef *)

Lemma map_vkey_set_begins : forall h bl, length bl = length (h_vars h) ->
  map vkey (h_vars (set_begins h bl)) = map vkey (h_vars h).
Proof.
  intros h bl. unfold set_begins. cbn [h_vars]. rewrite map_map.
  revert bl. induction (h_vars h) as [|v vars IH]; intros [|b bl] Hl;
    cbn [length] in Hl; try discriminate Hl; [reflexivity|].
  injection Hl as Hl. cbn [zip map fst snd]. rewrite (IH bl Hl). reflexivity.
Qed.

(** the file state stored by a successful enddef satisfies the invariant, given the layout facts
    and the header-on-disk fact of the two enddef theorems of Proofs_Exec2 *)
Lemma enddef_file_ok : forall np nd d d' f lay,
  file_ok np nd d f -> f_indef f = true ->
  length (l_begins lay) = length (h_vars (f_hdr f)) ->
  lay_inv (t3of (f_hdr f)) lay -> l_xsz lay = hdr_len (f_hdr f) ->
  (wf_hdr (enddef_hdr f lay) = true -> disk_has_hdr d' (enddef_hdr f lay)) ->
  file_ok np nd d' (enddef_file f lay).
Proof.
  intros np nd d d' f lay (Hs & (G1 & G2 & G3) & Ha & (R1 & R2 & R3) & Hm) Hindef Hlen Hinv Hx Hdisk.
  assert (Hn : 0 <= enddef_numrecs f) by (unfold enddef_numrecs; destruct (f_isnew f); lia).
  destruct (new_header_lay_inv (f_hdr f) lay (enddef_numrecs f) Hinv) as [Hinv1 Evb].
  unfold file_ok.
  destruct (f_fields_enddef_file f lay) as (F1 & F2 & F3 & F4 & F5 & F6 & F7 & F8 & F9 & F10 & F11 & F12).
  rewrite F1, F2, F3, F5, F6, F7, F10.
  split; [exact Hs|].
  split.
  { unfold hdr_good, hdr_wf, enddef_hdr. cbn [set_numrecs h_dims h_numrecs h_vars].
    split; [exact G1|]. split; [|exact Hn].
    apply (vars_good_key _ (h_vars (f_hdr f))); [apply map_vkey_set_begins; exact Hlen|exact G2]. }
  split; [exact Ha|].
  split.
  { unfold ranks_ok. rewrite F12, F1, F4, F8. rewrite Zlen_map. split; [exact R1|].
    change (h_numrecs (enddef_hdr f lay)) with (enddef_numrecs f).
    split; [|intros _]; apply rz_Forall_map; intros r _; [apply Z.le_refl|reflexivity]. }
  split; [reflexivity|]. split; [reflexivity|].
  unfold data_ok.
  split; [apply lay_inv_core; exact Hinv1|]. split; [intros _; exact Hinv1|]. split; [exact Evb|].
  split. { unfold enddef_hdr. rewrite hdr_len_set_numrecs, hdr_len_set_begins by exact Hlen. exact Hx. }
  exact Hdisk.
Qed.

(* the old layout enters enddef only through begin_var, begin_rec, recsize and begins *)
Definition set_old (f : filest) (o : option (hdr * layout)) : filest :=
  mkfile (f_hdr f) (f_lay f) (f_indef f) (f_indep f) (f_rdonly f) (f_isnew f) o (f_fill f)
         (f_align f) (f_ranks f) (f_slot f) (f_tainted f).

Lemma do_enddef_set_old : forall w id f ea oh ol, f_old f = Some (oh, ol) ->
  do_enddef w id (set_old f (Some (oh, lay_core ol))) ea = do_enddef w id f ea.
Proof. intros w id f ea oh ol Hold. unfold do_enddef. rewrite Hold. reflexivity. Qed.

(* the two enddef theorems of Proofs_Exec2 (first enddef of a new file, enddef after a
   redefinition) as one statement under the invariant *)
Lemma enddef_stored : forall w id f ea w',
  world_inv w -> znth (w_files w) id None = Some f -> f_tainted f = false -> f_indef f = true ->
  do_enddef w id f ea = Some (w', NC_NOERR) ->
  exists lay, znth (w_files w') id None = Some (enddef_file f lay) /\
    lay_inv (t3of (f_hdr f)) lay /\
    (wf_hdr (enddef_hdr f lay) = true -> disk_has_hdr (get_disk w' (f_slot f)) (enddef_hdr f lay)).
Proof.
  intros w id f ea w' Hw Hz Ht Hindef H.
  pose proof (znth_some_range _ _ _ Hz) as Hid. pose proof Hw as (Hnp & Hmu & _).
  pose proof (file_inv_of_znth w id f Hw Hz Ht) as (Hslot & (G1 & G2 & G3) & (A1 & A2 & A3) & _ & Hm).
  rewrite Hindef in Hm. destruct Hm as (_ & _ & Hold).
  destruct (f_old f) as [[oh ol]|] eqn:Eold.
  - (* after a redefinition: data_ok gives lay_inv of the core of the old layout only *)
    destruct Hold as (O1 & O2 & O3 & (L1 & _) & O5 & O6).
    set (fc := set_old f (Some (oh, lay_core ol))).
    assert (Hc : do_enddef w id fc ea = Some (w', NC_NOERR))
      by (unfold fc; rewrite (do_enddef_set_old w id f ea oh ol Eold); exact H).
    assert (Hnr : 0 <= enddef_numrecs fc)
      by (unfold enddef_numrecs; cbn [fc set_old f_hdr f_isnew]; destruct (f_isnew f); [apply Z.le_refl|exact G3]).
    destruct (redef_enddef_run_preserves w id fc ea oh (lay_core ol) w' Hindef eq_refl
                ltac:(cbn [fc set_old f_lay]; rewrite O2; reflexivity) G1 A1 A2 A3 L1 O5 Hnp Hmu Hnr Hslot Hid Hc)
      as (lay & Hz' & Hinv & Hdisk).
    exists lay. split; [exact Hz'|]. split; [exact Hinv|]. intros Hwfh. exact (proj1 (Hdisk Hwfh)).
  - (* a new file *)
    destruct Hold as (O1 & O2).
    assert (Hbr : l_begin_rec (f_lay f) = 0) by (rewrite O2; reflexivity).
    destruct (enddef_writes_header w id f ea w' Eold Hindef O1 Hbr G1 A1 A2 A3 Hslot Hid Hnp H)
      as (_ & _ & _ & lay & _ & _ & Hres). cbv zeta in Hres.
    destruct Hres as ((Hz' & _) & (Hinv & _) & Hdisk).
    exists lay. split; [exact Hz'|]. split; [exact Hinv|].
    replace (enddef_hdr f lay) with (set_numrecs (set_begins (f_hdr f) (l_begins lay)) 0)
      by (unfold enddef_hdr, enddef_numrecs; rewrite O1; reflexivity).
    intros Hwfh. destruct (Hdisk Hwfh) as (D3 & D1 & D2 & _).
    split; [exact D1|]. split; [exact D2|exact D3].
Qed.

Lemma do_enddef_inv : forall w id f ea w' rc,
  world_inv w -> znth (w_files w) id None = Some f -> f_tainted f = false ->
  do_enddef w id f ea = Some (w', rc) ->
  world_inv w' /\
  exists f1, znth (w_files w') id None = Some f1 /\ f_slot f1 = f_slot f /\ f_tainted f1 = false /\
    (rc = NC_NOERR -> f_indef f = true -> f_indef f1 = false /\ f_indep f1 = false /\ f_rdonly f1 = f_rdonly f) /\
    (f_indef f = false -> f1 = f).
Proof.
  intros w id f ea w' rc Hw Hz Ht H.
  pose proof (znth_some_range _ _ _ Hz) as Hid.
  pose proof (file_inv_of_znth w id f Hw Hz Ht) as Hf.
  destruct (do_enddef_cases w id f ea w' rc H)
    as [[-> Hno]|(-> & Hindef & ha & va & ra & lay & _ & _ & _ & Hbeg & _ & Ew)].
  { split; [exact Hw|]. exists f. split; [exact Hz|]. split; [reflexivity|]. split; [exact Ht|].
    split; [intros Hrc Hi; destruct Hno; congruence|intros _; reflexivity]. }
  destruct (begins_length _ _ _ _ _ _ _ _ Hbeg) as [Hlen Hx]. clear Hbeg.
  destruct (enddef_stored w id f ea w' Hw Hz Ht Hindef H) as (lay' & Ez & Hinv & Hdisk).
  rewrite Ew in Ez, Hdisk |- *. clear Ew.
  rewrite znth_put_set_same in Ez by exact Hid.
  rewrite get_disk_put_set_same in Hdisk by exact (proj1 Hf).
  (* the layout of the theorems is the one the guards computed, since the stored file is *)
  assert (El : lay = lay')
    by exact (f_equal (fun o : option filest => match o with Some g => f_lay g | None => lay end) Ez).
  subst lay'.
  split.
  - apply (inv_put_set w id f (enddef_file f lay) _ Hw Hz Ht eq_refl). intros _ _.
    exact (enddef_file_ok _ _ (disk_of w f) _ f lay Hf Hindef Hlen Hinv Hx Hdisk).
  - exists (enddef_file f lay). rewrite znth_put_set_same by exact Hid.
    split; [reflexivity|]. split; [reflexivity|]. split; [exact Ht|].
    split; [intros _ _; repeat split; reflexivity|intros C; congruence].
Qed.

(** * 5. exec_all: enddef, redef, begin/end_indep, sync *)

Lemma exec_enddef_gen : forall w s id f ea,
  world_inv w -> znth (w_files w) id None = Some f -> f_tainted f = false ->
  world_inv (fst (match do_enddef w id f ea with
                  | Some (w', rc) => (w', same_all w rc [])
                  | None => (taint_slot w s, unmodelled w (all_ranks w)) end)).
Proof.
  intros w s id f ea Hw Hz Ht.
  destruct (do_enddef w id f ea) as [[w' rc]|] eqn:E; cbn [fst]; [|apply taint_slot_inv; exact Hw].
  exact (proj1 (do_enddef_inv w id f ea w' rc Hw Hz Ht E)).
Qed.

Lemma exec_enddef_inv : forall w s, world_inv w -> world_inv (fst (exec_all w (OEnddef s))).
Proof. intros w s Hw. exec_all_file Hw as id f. apply exec_enddef_gen; assumption. Qed.

Lemma exec_enddefx_inv : forall w s a b c d, world_inv w ->
  world_inv (fst (exec_all w (OEnddefX s a b c d))).
Proof. intros w s a b c d Hw. exec_all_file Hw as id f. apply exec_enddef_gen; assumption. Qed.

(* mode changes on a file in data mode *)
(* entering independent mode is free; collective mode needs the ranks to agree on numrecs *)
Lemma file_ok_set_modes : forall np nd d f indep, file_ok np nd d f -> f_indef f = false ->
  (indep = false -> Forall (fun r => rk_numrecs r = h_numrecs (f_hdr f)) (f_ranks f)) ->
  file_ok np nd d (set_modes f false indep).
Proof.
  intros np nd d f indep (Hs & Hg & Ha & (R1 & R2 & R3) & Hm) Hindef Heq. rewrite Hindef in Hm.
  unfold file_ok, set_modes. cbn [f_slot f_hdr f_align f_indef f_old f_isnew f_lay].
  split; [exact Hs|]. split; [exact Hg|]. split; [exact Ha|].
  split; [|exact Hm].
  unfold ranks_ok. cbn [f_ranks f_hdr f_indep f_rdonly]. split; [exact R1|]. split; [exact R2|].
  destruct indep; [|intros _; exact (Heq eq_refl)].
  intros [C|C]; [discriminate C|]. apply R3. right. exact C.
Qed.

Definition redef_file (f1 : filest) : filest :=
  mkfile (f_hdr f1) (f_lay f1) true false false false (Some (f_hdr f1, f_lay f1))
         (f_fill f1) (f_align f1) (f_ranks f1) (f_slot f1) (f_tainted f1).

Lemma file_ok_redef : forall np nd d f, file_ok np nd d f -> f_indef f = false ->
  Forall (fun r => rk_numrecs r = h_numrecs (f_hdr f)) (f_ranks f) ->
  file_ok np nd d (redef_file f).
Proof.
  intros np nd d f (Hs & Hg & Ha & (R1 & R2 & R3) & Hm) Hindef Heq. rewrite Hindef in Hm.
  destruct Hm as (O1 & O2 & O3).
  unfold file_ok, redef_file. cbn [f_slot f_hdr f_align f_indef f_old f_isnew f_lay f_indep f_rdonly].
  split; [exact Hs|]. split; [exact Hg|]. split; [exact Ha|].
  split.
  { unfold ranks_ok. cbn [f_ranks f_hdr f_indep f_rdonly]. split; [exact R1|]. split; [exact R2|].
    intros _. exact Heq. }
  split; [reflexivity|]. split; [reflexivity|]. split; [reflexivity|]. split; [reflexivity|].
  split; [exact Hg|]. split; [exact O3|]. split; [apply hdr_extends_refl|reflexivity].
Qed.

Lemma exec_redef_inv : forall w s, world_inv w -> world_inv (fst (exec_all w (ORedef s))).
Proof.
  intros w s Hw. exec_all_file Hw as id f.
  destruct (f_rdonly f) eqn:Hro; [exact Hw|].
  destruct (f_indef f) eqn:Hindef; [exact Hw|].
  destruct (f_indep f) eqn:Hindep.
  - destruct (sync_all_inv w id f Hw Hz Ht Hindef) as (Hw1 & f1 & Hz1 & S1 & S2 & S3 & S4 & S5 & S6).
    rewrite Hz1. cbn [fst]. fold (redef_file f1).
    apply (inv_put_file _ id f1 (redef_file f1) Hw1 Hz1 S2 eq_refl).
    intros Hf1 _. apply file_ok_redef; assumption.
  - rewrite Hz. cbn [fst]. fold (redef_file f).
    apply (inv_put_file _ id f (redef_file f) Hw Hz Ht eq_refl).
    intros Hf _. apply file_ok_redef; [exact Hf|exact Hindef|].
    exact (ranks_eq_of_collective _ _ _ f Hf Hindep).
Qed.

Lemma exec_begin_indep_inv : forall w s, world_inv w -> world_inv (fst (exec_all w (OBeginIndep s))).
Proof.
  intros w s Hw. exec_all_file Hw as id f.
  destruct (f_indef f) eqn:Hindef; [exact Hw|]. cbn [fst].
  apply (inv_put_file _ id f (set_modes f false true) Hw Hz Ht eq_refl).
  intros Hf _. apply file_ok_set_modes; [exact Hf|exact Hindef|]. intros C. discriminate C.
Qed.

Lemma exec_end_indep_inv : forall w s, world_inv w -> world_inv (fst (exec_all w (OEndIndep s))).
Proof.
  intros w s Hw. exec_all_file Hw as id f.
  destruct (f_indef f) eqn:Hindef; [exact Hw|].
  destruct (f_indep f) eqn:Hindep; cbn [negb]; [|exact Hw].
  destruct (f_rdonly f) eqn:Hro.
  - rewrite Hz. cbn [fst]. apply (inv_put_file _ id f (set_modes f false false) Hw Hz Ht eq_refl).
    intros Hf _. apply file_ok_set_modes; [exact Hf|exact Hindef|].
    intros _. exact (ranks_eq_of_rdonly _ _ _ f Hf Hro).
  - destruct (sync_all_inv w id f Hw Hz Ht Hindef) as (Hw1 & f1 & Hz1 & S1 & S2 & S3 & S4 & S5 & S6).
    rewrite Hz1. cbn [fst].
    apply (inv_put_file _ id f1 (set_modes f1 false false) Hw1 Hz1 S2 eq_refl).
    intros Hf1 _. apply file_ok_set_modes; [exact Hf1|exact S3|]. intros _. exact S6.
Qed.

Lemma exec_sync_inv : forall w s, world_inv w -> world_inv (fst (exec_all w (OSync s))).
Proof.
  intros w s Hw. exec_all_file Hw as id f.
  destruct (f_indef f) eqn:Hindef; [exact Hw|].
  destruct (f_rdonly f); [exact Hw|]. cbn [fst].
  destruct (f_indep f); [|exact Hw].
  exact (proj1 (sync_all_inv w id f Hw Hz Ht Hindef)).
Qed.

Lemma exec_sync_numrecs_inv : forall w s, world_inv w -> world_inv (fst (exec_all w (OSyncNumrecs s))).
Proof.
  intros w s Hw. exec_all_file Hw as id f.
  destruct (f_indef f) eqn:Hindef; [exact Hw|].
  destruct (num_rec_vars (f_hdr f) =? 0); [exact Hw|].
  destruct (f_rdonly f); [exact Hw|]. cbn [fst].
  destruct (f_indep f); [|exact Hw].
  exact (proj1 (sync_all_inv w id f Hw Hz Ht Hindef)).
Qed.

(** * 6. close, abort *)

(* close = enddef if in define mode, numrecs sync if writable and independent, then removal:
   each stage keeps a file on the slot at id *)
Lemma do_close_frame : forall w id f w' obs,
  znth (w_files w) id None = Some f -> do_close w id f = Some (w', obs) ->
  frame w w' id (f_slot f) /\ znth (w_files w') id None = None.
Proof.
  intros w id f w' obs Hz H. pose proof (znth_some_range _ _ _ Hz) as Hid.
  unfold do_close in H.
  assert (K1 : forall w1 e1,
            (if f_indef f then do_enddef w id f (mkeargs 0 0 0 0) else Some (w, NC_NOERR)) = Some (w1, e1) ->
            keeps w w1 id (f_slot f)).
  { intros w1 e1 E. destruct (f_indef f); [exact (do_enddef_keeps w id f _ w1 e1 Hz E)|].
    injection E as <- _. exact (keeps_refl w id f Hz). }
  destruct (if f_indef f then do_enddef w id f (mkeargs 0 0 0 0) else Some (w, NC_NOERR)) as [[w1 e1]|];
    [|discriminate H].
  destruct (K1 w1 e1 eq_refl) as (Fr1 & f1 & Hz1 & Hs1). rewrite Hz1 in H.
  destruct (negb (e1 =? NC_NOERR)); [discriminate H|].
  pose proof Fr1 as (_ & _ & _ & _ & _ & _ & Hlen1).
  assert (K2 : keeps w1 (if negb (f_rdonly f1) && f_indep f1 then sync_numrecs_all w1 id f1 else w1)
                     id (f_slot f)).
  { rewrite <- Hs1. destruct (negb (f_rdonly f1) && f_indep f1); [|exact (keeps_refl w1 id f1 Hz1)].
    apply sync_numrecs_all_keeps. lia. }
  destruct K2 as (Fr2 & f2 & Hz2 & Hs2). rewrite Hz2 in H. injection H as <- _.
  pose proof Fr2 as (_ & _ & _ & _ & _ & _ & Hlen2).
  split.
  - eapply frame_trans; [exact Fr1|]. eapply frame_trans; [exact Fr2|].
    rewrite Hs2. apply frame_put_set.
  - apply znth_put_set_same. lia.
Qed.

Lemma inv_remove : forall w w' id f, world_inv w -> znth (w_files w) id None = Some f ->
  frame w w' id (f_slot f) -> znth (w_files w') id None = None -> world_inv w'.
Proof.
  intros w w' id f Hw Hz Fr Hn. apply (inv_update w w' id f Hw Hz Fr). rewrite Hn. exact I.
Qed.

Lemma exec_close_gen : forall w s id f, world_inv w -> znth (w_files w) id None = Some f ->
  world_inv (fst (match do_close w id f with
                  | Some r => r | None => (taint_slot w s, unmodelled w (all_ranks w)) end)).
Proof.
  intros w s id f Hw Hz.
  destruct (do_close w id f) as [[w' obs]|] eqn:E; cbn [fst]; [|apply taint_slot_inv; exact Hw].
  destruct (do_close_frame w id f w' obs Hz E) as [Fr Hn].
  exact (inv_remove w w' id f Hw Hz Fr Hn).
Qed.

Lemma exec_close_inv : forall w s, world_inv w -> world_inv (fst (exec_all w (OClose s))).
Proof. intros w s Hw. exec_all_file Hw as id f. apply exec_close_gen; assumption. Qed.

Lemma exec_abort_inv : forall w s, world_inv w -> world_inv (fst (exec_all w (OAbort s))).
Proof.
  intros w s Hw. exec_all_file Hw as id f. pose proof (znth_some_range _ _ _ Hz) as Hid.
  destruct (f_isnew f).
  - cbn [fst]. apply (inv_remove w _ id f Hw Hz (frame_put_set w id (f_slot f) _ _)).
    apply znth_put_set_same. exact Hid.
  - destruct (f_indef f).
    + cbn [fst]. apply (inv_remove w _ id f Hw Hz (frame_put_file w id (f_slot f) _)).
      apply znth_put_file_same. exact Hid.
    + apply exec_close_gen; assumption.
Qed.

(** * 7. create, open *)

Lemma hdr_good_empty : forall fmt, hdr_good (mkhdr fmt 0 [] [] []).
Proof. intros fmt. unfold hdr_good, hdr_wf. cbn [h_dims h_vars h_numrecs]. repeat split; try constructor. lia. Qed.

Lemma ranks_ok_init : forall w f, 1 <= w_nprocs w ->
  f_ranks f = map (fun _ : Z => rank_init (h_numrecs (f_hdr f))) (all_ranks w) ->
  ranks_ok (w_nprocs w) f.
Proof.
  intros w f Hnp E. unfold ranks_ok. rewrite E, Zlen_map, rz_Zlen_all_ranks by exact Hnp.
  split; [reflexivity|].
  split; [|intros _]; apply rz_Forall_map; intros r _; cbn [rank_init rk_numrecs]; lia.
Qed.

Lemma exec_create_inv : forall w s fmt clobber, world_inv w ->
  op_ok w (OCreate s fmt clobber) = true ->
  world_inv (fst (exec_all w (OCreate s fmt clobber))).
Proof.
  intros w s fmt clobber Hw Hok. unfold exec_all. cbv beta iota zeta.
  unfold do_create. cbv zeta.
  destruct (dk_exists (get_disk w s) && (clobber =? 0)) eqn:E; cbn [fst].
  { apply world_inv_set_hints; [exact Hw|apply align_ok_no_align]. }
  cbn [op_ok] in Hok. rewrite E, orb_false_r in Hok. apply andb_true_iff in Hok. destruct Hok as [Hrange Hfree].
  unfold slot_in_range in Hrange.
  pose proof Hw as (Hnp & _ & Hal & _).
  set (d0 := mkdisk true 0 (fun _ => UNDEF)).
  set (f := mkfile (mkhdr fmt 0 [] [] []) empty_layout true false false true None false
                   (w_hints w) (map (fun _ : Z => rank_init 0) (all_ranks w)) s false).
  assert (Hr : 0 <= s < Zlen (w_disks (set_disk w s d0))) by (rewrite Zlen_w_disks_set_disk; lia).
  (* the new world is set_disk w s d0 with f stored, new ids and hints *)
  apply (inv_store w _ f Hw Hfree); try reflexivity.
  - apply align_ok_no_align.
  - exact (Zlen_w_disks_set_disk w s d0).
  - intros s' Hs'. exact (get_disk_set_disk_other w s s' d0 (not_eq_sym Hs')).
  - intros _. split; [exact Hr|]. split; [apply hdr_good_empty|]. split; [exact Hal|].
    split; [apply ranks_ok_init; [exact Hnp|reflexivity]|]. repeat split; reflexivity.
Qed.

Lemma layout_of_hdr_fields : forall h x,
  l_begins (layout_of_hdr h x) = map v_begin (h_vars h) /\ l_xsz (layout_of_hdr h x) = x.
Proof.
  intros h x. unfold layout_of_hdr. cbv zeta.
  destruct (filter (is_recvar (h_dims h)) (h_vars h)) as [|fr recs];
    destruct (h_vars h) as [|v vs]; cbn [map l_begins l_xsz]; split; reflexivity.
Qed.

Lemma open_file_ok : forall w s mode dc,
  world_inv w -> slot_in_range w s = true -> dk_exists (get_disk w s) = true ->
  decode (dk_read (get_disk w s) 0 (Z.min (dk_size (get_disk w s)) 65536)) = Some dc ->
  open_ok (get_disk w s) = true ->
  file_ok (w_nprocs w) (Zlen (w_disks w)) (get_disk w s) (open_file w s mode dc).
Proof.
  intros w s mode dc Hw Hrange Hex Hdec Hok. pose proof Hw as (Hnp & _ & Hal & _).
  unfold open_ok in Hok. rewrite Hex, Hdec in Hok. cbn [negb orb] in Hok. cbv zeta in Hok.
  rewrite !andb_true_iff in Hok. destruct Hok as [[[[[[K1 K2] K3] K4] K5] K6] K7].
  unfold slot_in_range in Hrange.
  destruct (layout_of_hdr_fields (dc_hdr dc) (dc_len dc)) as [Lb Lx].
  unfold file_ok, open_file. cbn [f_slot f_hdr f_align f_indef f_indep f_rdonly f_old f_isnew f_lay].
  split; [lia|]. split; [apply hdr_good_b_iff; exact K2|]. split; [exact Hal|].
  split; [apply ranks_ok_init; [exact Hnp|reflexivity]|].
  split; [reflexivity|]. split; [reflexivity|].
  unfold data_ok.
  split; [apply lay_inv_b_iff; exact K6|].
  split. { intros Hne. apply lay_inv_b_iff. destruct (h_vars (dc_hdr dc)); [contradiction|exact K7]. }
  split; [symmetry; exact Lb|]. split; [rewrite Lx; lia|].
  intros _. split; [exact Hex|]. split; [lia|]. apply bytes_eqb_iff. exact K5.
Qed.

Lemma exec_open_inv : forall w s mode, world_inv w -> op_ok w (OOpen s mode) = true ->
  world_inv (fst (exec_all w (OOpen s mode))).
Proof.
  intros w s mode Hw Hok. unfold exec_all. cbv beta iota zeta.
  destruct (dk_exists (get_disk w s)) eqn:Hex.
  2:{ unfold do_open. cbv zeta. rewrite Hex. cbn [negb fst].
      apply world_inv_set_hints; [exact Hw|apply align_ok_no_align]. }
  destruct (decode (dk_read (get_disk w s) 0 (Z.min (dk_size (get_disk w s)) 65536))) as [dc|] eqn:Hdec.
  2:{ unfold do_open. cbv zeta. rewrite Hex, Hdec. cbn [negb fst]. exact Hw. }
  rewrite (do_open_eq w s mode dc Hex Hdec). cbn [fst].
  cbn [op_ok] in Hok. rewrite Hex in Hok. cbn [negb orb] in Hok. rewrite !andb_true_iff in Hok.
  destruct Hok as [[Hrange Hfree] Hopen].
  pose proof (open_file_ok w s mode dc Hw Hrange Hex Hdec Hopen) as Hf.
  apply (inv_store w (open_world w s mode dc) (open_file w s mode dc) Hw Hfree); try reflexivity.
  - apply align_ok_no_align.
  - intros _. exact Hf.
Qed.
