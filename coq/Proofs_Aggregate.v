(* Proofs_Aggregate.v — theorems about Aggregate.v (property C10):
     write_tiles_perm        pairwise disjoint writes commute (any permutation, same file)
     aggr_after_sort_equiv   merge + pack + coalesce + ONE write  ==  the tiles written one by one,
                             for ANY sorted permutation the (unstable) sort may return
     aggr_group_equiv        one aggregation group == its members' own writes
     aggr_equiv              any number of ranks, any assignment of ranks to aggregators:
                             aggregated file == union of the ranks' own writes
     aggr_init_partition     the groups computed by ncmpio_intra_node_aggr_init partition the ranks
                             (any number of ranks, of aggregators per node, any placement on nodes)
     flatten_req_spec        flatten_req == the row-major SPEC, every variable kind and request
                             (flatten_req_old_refuted: the code before the record-stride fix)
     aggr_put_equiv          aggr_equiv at request level: the file holds every rank's elements at
                             the row-major offsets of its request
   Disks are compared extensionally (disk_eq).  No axioms. *)
From Pnc Require Import Proofs_RoundTrip.
From Pnc Require Import Aggregate Proofs_Disk Proofs_Lists Proofs_Base Proofs_Config Proofs_Access.
Require Import Lia ZArith List Bool ZifyBool Permutation Sorted.
Import ListNotations.
(* importing ZifyBool sets this hook to its case split on booleans; here lia has to know div and mod *)
Ltac Zify.zify_post_hook ::= Z.div_mod_to_equations.
Local Open Scope Z_scope.
Local Arguments Z.mul : simpl never.
Local Arguments Z.add : simpl never.
Local Arguments Z.sub : simpl never.
Local Arguments Z.div : simpl never.
Local Arguments Z.modulo : simpl never.
Local Arguments Z.of_nat : simpl never.
Local Arguments Z.to_nat : simpl never.

(* extensional equality of disks *)
Definition disk_eq (a b : disk) : Prop :=
  dk_exists a = dk_exists b /\ dk_size a = dk_size b /\ forall x, dk_get a x = dk_get b x.

Lemma disk_eq_refl a : disk_eq a a.
Proof. split; [reflexivity|split; [reflexivity|intros x; reflexivity]]. Qed.

Lemma disk_eq_sym a b : disk_eq a b -> disk_eq b a.
Proof. intros (H1 & H2 & H3). split; [auto|split; [auto|intros x; auto]]. Qed.

Lemma disk_eq_trans a b c : disk_eq a b -> disk_eq b c -> disk_eq a c.
Proof.
  intros (H1 & H2 & H3) (K1 & K2 & K3).
  split; [congruence|split; [congruence|intros x; now rewrite H3]].
Qed.

Lemma dk_write_ext a b o bs : disk_eq a b -> disk_eq (dk_write a o bs) (dk_write b o bs).
Proof.
  intros (H1 & H2 & H3). repeat split.
  - now rewrite !dk_exists_write, H1.
  - now rewrite !dk_size_write, H2.
  - intros x. now rewrite !dk_get_write, H3.
Qed.

Lemma write_tiles_ext l : forall a b, disk_eq a b -> disk_eq (write_tiles l a) (write_tiles l b).
Proof.
  induction l as [|p l IH]; intros a b H; [exact H|].
  change (write_tiles (p :: l) a) with (write_tiles l (dk_write a (fst p) (snd p))).
  change (write_tiles (p :: l) b) with (write_tiles l (dk_write b (fst p) (snd p))).
  apply IH. now apply dk_write_ext.
Qed.

(* pairwise disjoint tiles: any order of writing gives the same file *)
Definition tile := (Z * list byte)%type.
Definition tile_disj (p q : tile) : Prop := forall x, ~ (covers p x /\ covers q x).

Fixpoint pdisj (l : list tile) : Prop :=
  match l with
  | [] => True
  | p :: r => Forall (tile_disj p) r /\ pdisj r
  end.

Lemma tile_disj_sym p q : tile_disj p q -> tile_disj q p.
Proof. intros H x [A B]. apply (H x). now split. Qed.

Lemma pdisj_perm l l' : Permutation l l' -> pdisj l -> pdisj l'.
Proof.
  induction 1 as [|x l l' HP IH|x y l|l l' l'' HP1 IH1 HP2 IH2]; intros H.
  - exact H.
  - destruct H as [H1 H2]. split; [|now apply IH]. now rewrite <- HP.
  - destruct H as [H1 [H2 H3]]. inversion H1 as [|? ? Hyx Hy]; subst.
    repeat split; try assumption.
    constructor; [now apply tile_disj_sym|assumption].
  - auto.
Qed.

Lemma pdisj_app l1 l2 : pdisj (l1 ++ l2) -> pdisj l1 /\ pdisj l2.
Proof.
  induction l1 as [|p l1 IH]; cbn [app pdisj]; intros H; [now split|].
  destruct H as [H1 H2]. apply Forall_app in H1. destruct H1 as [H1a H1b].
  destruct (IH H2) as [K1 K2]. repeat split; assumption.
Qed.

Lemma pdisj_unique l : pdisj l ->
  forall p q x, In p l -> In q l -> covers p x -> covers q x ->
  znth (snd p) (x - fst p) 0 = znth (snd q) (x - fst q) 0.
Proof.
  induction l as [|t l IH]; intros H p q x Hp Hq Cp Cq; [destruct Hp|].
  destruct H as [H1 H2]. rewrite Forall_forall in H1.
  destruct Hp as [<-|Hp], Hq as [<-|Hq].
  - reflexivity.
  - exfalso. apply (H1 q Hq x). now split.
  - exfalso. apply (H1 p Hp x). now split.
  - now apply IH.
Qed.

(* C10 core: disjoint writes commute.  Tiles that share no byte agree wherever two of them cover
   the same byte, which is all Proofs_RoundTrip.write_tiles_perm asks for. *)
Theorem write_tiles_perm : forall l l' d,
  Permutation l l' -> pdisj l -> disk_eq (write_tiles l d) (write_tiles l' d).
Proof.
  intros l l' d HP Hd.
  destruct (Proofs_RoundTrip.write_tiles_perm l l' d (fun x p q => pdisj_unique l Hd p q x) HP)
    as (Hget & Hsize & Hex).
  split; [exact Hex | split; [exact Hsize | exact Hget]].
Qed.

(* one write of a ++ b = two adjacent writes; scatter = dk_write *)
Lemma dk_write_app d o a b :
  disk_eq (dk_write d o (a ++ b)) (dk_write (dk_write d o a) (o + Zlen a) b).
Proof.
  pose proof (Zlen_nonneg a). pose proof (Zlen_nonneg b).
  repeat split.
  - rewrite !dk_exists_write, Zlen_app.
    destruct (0 <? Zlen a) eqn:Ea, (0 <? Zlen b) eqn:Eb, (dk_exists d);
      cbn [orb]; try reflexivity; lia.
  - rewrite !dk_size_write, Zlen_app.
    destruct (0 <? Zlen a) eqn:Ea, (0 <? Zlen b) eqn:Eb;
      destruct (0 <? Zlen a + Zlen b) eqn:Eab; lia.
  - intros x. rewrite !dk_get_write, Zlen_app.
    destruct ((o <=? x) && (x <? o + (Zlen a + Zlen b))) eqn:E1.
    + destruct (x - o <? Zlen a) eqn:E2.
      * replace ((o + Zlen a <=? x) && (x <? o + Zlen a + Zlen b)) with false by lia.
        replace ((o <=? x) && (x <? o + Zlen a)) with true by lia. apply znth_app_l. lia.
      * replace ((o + Zlen a <=? x) && (x <? o + Zlen a + Zlen b)) with true by lia.
        rewrite znth_app_r by lia. f_equal. lia.
    + replace ((o + Zlen a <=? x) && (x <? o + Zlen a + Zlen b)) with false by lia.
      replace ((o <=? x) && (x <? o + Zlen a)) with false by lia. reflexivity.
Qed.

Lemma scatter_as_tiles d pos bs :
  scatter d pos bs = write_tiles (map (fun pb => (fst pb, [snd pb])) (zip pos bs)) d.
Proof.
  unfold scatter, write_tiles. generalize (zip pos bs). intros l. revert d.
  induction l as [|x l IH]; intros d; [reflexivity|]. cbn [map fold_left fst snd]. apply IH.
Qed.

Lemma scatter_ext pos bs a b : disk_eq a b -> disk_eq (scatter a pos bs) (scatter b pos bs).
Proof. intros H. rewrite !scatter_as_tiles. now apply write_tiles_ext. Qed.

Lemma zrange_succ o n : 0 <= n -> zrange o (n + 1) = o :: zrange (o + 1) n.
Proof.
  intros Hn. unfold zrange. replace (Z.to_nat (n + 1)) with (S (Z.to_nat n)) by lia. reflexivity.
Qed.

Lemma scatter_cons d o pos b bs : scatter d (o :: pos) (b :: bs) = scatter (dk_write d o [b]) pos bs.
Proof. reflexivity. Qed.

Lemma scatter_contig : forall bs d o, disk_eq (scatter d (zrange o (Zlen bs)) bs) (dk_write d o bs).
Proof.
  induction bs as [|b bs IH]; intros d o.
  - rewrite scatter_nil. apply disk_eq_refl.
  - pose proof (Zlen_nonneg bs). rewrite Zlen_cons, zrange_succ by lia. rewrite scatter_cons.
    eapply disk_eq_trans; [apply IH|].
    apply disk_eq_sym. change (b :: bs) with ([b] ++ bs).
    replace (o + 1) with (o + Zlen [b]) by reflexivity. apply dk_write_app.
Qed.

(* slices of the receive buffer, denotation of a triple; the merge loop, packing, coalescing and the sort keep the denotation *)
Lemma zfirstn_add {A} (l : list A) : forall m n, 0 <= m -> 0 <= n ->
  zfirstn (m + n) l = zfirstn m l ++ zfirstn n (zskipn m l).
Proof.
  induction l as [|x l IH]; intros m n Hm Hn; [reflexivity|].
  destruct (Z.eq_dec m 0) as [->|Hm0].
  - rewrite (zfirstn_nonpos 0), (zskipn_nonpos 0) by lia. reflexivity.
  - destruct (Z.eq_dec n 0) as [->|Hn0].
    + rewrite (zfirstn_nonpos 0) by lia. rewrite app_nil_r. f_equal. lia.
    + rewrite (zfirstn_cons (m + n)), (zfirstn_cons m), (zskipn_cons m) by lia.
      cbn [app]. f_equal. replace (m + n - 1) with ((m - 1) + n) by lia. apply IH; lia.
Qed.

Lemma Zlen_slice buf a l : 0 <= a -> 0 <= l -> a + l <= Zlen buf -> Zlen (slice buf a l) = l.
Proof. intros. unfold slice. rewrite Zlen_zfirstn, Zlen_zskipn. lia. Qed.

Lemma slice_add buf a l1 l2 : 0 <= a -> 0 <= l1 -> 0 <= l2 ->
  slice buf a (l1 + l2) = slice buf a l1 ++ slice buf (a + l1) l2.
Proof. intros. unfold slice. rewrite zfirstn_add by lia. now rewrite zskipn_zskipn by lia. Qed.

Lemma slice_zero buf a : slice buf a 0 = [].
Proof. unfold slice. apply zfirstn_nonpos. lia. Qed.

Section Aggregator.
Variable buf : list byte.

Definition inbuf (t : triple) : Prop := 0 <= t_addr t /\ 0 <= t_len t /\ t_addr t + t_len t <= Zlen buf.
Definition den (t : triple) : tile := (t_off t, slice buf (t_addr t) (t_len t)).
Definition wt (l : list triple) (d : disk) : disk := write_tiles (map den l) d.
Definition sorted_off (l : list triple) : Prop := StronglySorted (fun a b => t_off a <= t_off b) l.
Definition good (l : list triple) : Prop := Forall inbuf l /\ sorted_off l /\ pdisj (map den l).

Lemma covers_den t x : inbuf t -> (covers (den t) x <-> t_off t <= x < t_off t + t_len t).
Proof.
  intros (H1 & H2 & H3). unfold covers, den. cbn [fst snd]. rewrite Zlen_slice by lia. tauto.
Qed.

Lemma wt_cons t l d : wt (t :: l) d = wt l (dk_write d (t_off t) (slice buf (t_addr t) (t_len t))).
Proof. reflexivity. Qed.

Lemma wt_ext l a b : disk_eq a b -> disk_eq (wt l a) (wt l b).
Proof. apply write_tiles_ext. Qed.

(* what the merge loop lives on: every later entry is empty or starts at or after the end of t *)
Definition after (t u : triple) : Prop := t_len u = 0 \/ t_off t + t_len t <= t_off u.
Fixpoint chain (l : list triple) : Prop :=
  match l with [] => True | t :: r => inbuf t /\ Forall (after t) r /\ chain r end.

Lemma good_chain : forall l, good l -> chain l.
Proof.
  induction l as [|t l IH]; intros (H1 & H2 & H3); [exact I|].
  inversion H1 as [|? ? Ht H1']; subst. inversion H2 as [|? ? H2' Hle]; subst.
  cbn [map pdisj] in H3. destruct H3 as [D1 D2]. rewrite Forall_map in D1.
  split; [exact Ht|split; [|apply IH; repeat split; assumption]].
  rewrite Forall_forall in *. intros u Hu. pose proof (H1' u Hu) as Iu.
  destruct (Z.eq_dec (t_len u) 0) as [E|E]; [now left|right].
  destruct (Z_le_gt_dec (t_off t + t_len t) (t_off u)) as [L|G]; [assumption|exfalso].
  (* otherwise the first byte of u is written by t as well *)
  apply (D1 u Hu (t_off u)). specialize (Hle u Hu). cbv beta in Hle.
  split; apply covers_den; try assumption; destruct Iu as (? & ? & ?); lia.
Qed.

Lemma merge_loop_nonempty : forall rest cur, merge_loop cur rest <> [].
Proof.
  induction rest as [|j r IH]; intros cur; cbn [merge_loop]; [discriminate|].
  destruct (_ >=? _); [apply IH|].
  destruct (_ >=? 0); [|discriminate].
  destruct (_ =? _); [apply IH|discriminate].
Qed.

(* one turn of the loop when j lies after cur: the gap is never positive, so j is dropped (it is
   empty), fused into cur (file and buffer both adjacent), or kept as the next cur *)
Lemma merge_loop_step cur j r : 0 <= t_len j -> after cur j ->
  (t_len j = 0 /\ merge_loop cur (j :: r) = merge_loop cur r) \/
  (t_off cur + t_len cur = t_off j /\ t_addr cur + t_len cur = t_addr j /\
   merge_loop cur (j :: r) = merge_loop (t_off cur, t_len cur + t_len j, t_addr cur) r) \/
  merge_loop cur (j :: r) = cur :: merge_loop j r.
Proof.
  intros Hl Ha. unfold after in Ha. cbn [merge_loop].
  destruct (t_off cur + t_len cur >=? t_off j + t_len j) eqn:Ecov; [left; split; [lia|reflexivity]|right].
  destruct (t_off cur + t_len cur - t_off j >=? 0) eqn:Egap; [|now right].
  replace (t_off cur + t_len cur - t_off j) with 0 by lia. rewrite !Z.add_0_r, Z.sub_0_r.
  destruct (t_addr cur + t_len cur =? t_addr j) eqn:Econt; [left; repeat split; lia || reflexivity|right].
  now destruct j as [[oj lj] aj].
Qed.

Lemma after_end t u q : t_off u + t_len u <= t_off t + t_len t -> after t q -> after u q.
Proof. unfold after. lia. Qed.

Lemma fuse_write cur j d : inbuf cur -> inbuf j ->
  t_off cur + t_len cur = t_off j -> t_addr cur + t_len cur = t_addr j ->
  disk_eq (dk_write d (t_off cur) (slice buf (t_addr cur) (t_len cur + t_len j)))
          (dk_write (dk_write d (t_off cur) (slice buf (t_addr cur) (t_len cur)))
                    (t_off j) (slice buf (t_addr j) (t_len j))).
Proof.
  intros (Ic1 & Ic2 & Ic3) (Ij1 & Ij2 & Ij3) <- <-. rewrite slice_add by lia.
  eapply disk_eq_trans; [apply dk_write_app|]. rewrite Zlen_slice by lia. apply disk_eq_refl.
Qed.

(* the overlap-merge loop does not change what is written, as long as the sorted tiles are
   pairwise disjoint (adjacent tiles whose buffers are adjacent as well are fused) *)
Lemma merge_loop_equiv : forall rest cur d,
  chain (cur :: rest) ->
  disk_eq (wt (merge_loop cur rest) d) (wt (cur :: rest) d) /\ Forall inbuf (merge_loop cur rest).
Proof.
  induction rest as [|j r IH]; intros cur d (Ic & Hac & Hj).
  - cbn [merge_loop]. split; [apply disk_eq_refl|]. now constructor.
  - pose proof Hj as (Ij & Haj & Hr). inversion Hac as [|? ? Hdis Hac']; subst.
    destruct (merge_loop_step cur j r (proj1 (proj2 Ij)) Hdis) as [(Hl0 & ->)|[(Eo & Ea & ->)| ->]].
    + destruct (IH cur d (conj Ic (conj Hac' Hr))) as [E F]. split; [|exact F].
      eapply disk_eq_trans; [exact E|].
      rewrite !wt_cons, Hl0, slice_zero. apply disk_eq_refl.
    + destruct (IH (t_off cur, t_len cur + t_len j, t_addr cur) d) as [E F].
      { split; [|split; [|exact Hr]].
        - unfold inbuf, t_addr, t_len in *. cbn [fst snd]. lia.
        - eapply Forall_impl; [|exact Haj]. intros q. apply after_end.
          unfold t_off, t_len in *. cbn [fst snd]. lia. }
      split; [|exact F]. eapply disk_eq_trans; [exact E|].
      rewrite !wt_cons. apply wt_ext. exact (fuse_write cur j d Ic Ij Eo Ea).
    + split; [rewrite !wt_cons; now apply IH|constructor; [exact Ic|now apply (IH j d)]].
Qed.

Definition offlen (t : triple) : Z * Z := (t_off t, t_len t).
Definition sl (t : triple) : list byte := slice buf (t_addr t) (t_len t).

Lemma Zlen_vbytes_wr : forall merged, Forall inbuf merged ->
  Zlen (vbytes (map offlen merged)) = Zlen (flat_map sl merged).
Proof.
  induction 1 as [|t l Ht _ IH]; [reflexivity|].
  destruct Ht as (H1 & H2 & H3).
  cbn [map flat_map]. unfold vbytes in *. cbn [flat_map]. rewrite !Zlen_app, IH.
  unfold offlen, sl. cbn [fst snd]. rewrite Zlen_zrange, Zlen_slice by lia. lia.
Qed.

Lemma pack_stage : forall merged d, Forall inbuf merged ->
  disk_eq (scatter d (vbytes (map offlen merged)) (flat_map sl merged)) (wt merged d).
Proof.
  induction merged as [|t l IH]; intros d HF.
  - cbn [map flat_map]. rewrite scatter_nil. apply disk_eq_refl.
  - inversion HF as [|? ? Ht HF']; subst. destruct Ht as (H1 & H2 & H3).
    cbn [map flat_map]. unfold vbytes. cbn [flat_map]. fold (vbytes (map offlen l)).
    unfold offlen at 1 2. cbn [fst snd].
    rewrite scatter_app.
    assert (Hs : Zlen (sl t) = t_len t) by (unfold sl; apply Zlen_slice; lia).
    assert (Hz : Zlen (zrange (t_off t) (t_len t)) = Zlen (sl t)) by (rewrite Zlen_zrange; lia).
    rewrite <- Hz. rewrite zfirstn_app_exact, zskipn_app_exact.
    rewrite wt_cons. fold (sl t).
    eapply disk_eq_trans; [|apply IH; assumption].
    apply scatter_ext. rewrite <- Hs. apply scatter_contig.
Qed.

Lemma coalesce_vbytes : forall ps p, 0 <= snd p -> Forall (fun q => 0 <= snd q) ps ->
  vbytes (coalesce p ps) = vbytes (p :: ps).
Proof.
  induction ps as [|j r IH]; intros p Hp HF; [reflexivity|].
  inversion HF as [|? ? Hj HF']; subst. cbn [coalesce].
  destruct (fst p + snd p =? fst j) eqn:E.
  - rewrite IH by (cbn [snd]; try assumption; lia).
    unfold vbytes. cbn [flat_map fst snd]. rewrite zrange_app by assumption.
    rewrite <- app_assoc. do 2 f_equal. f_equal. lia.
  - unfold vbytes in *. cbn [flat_map]. f_equal. apply (IH j); assumption.
Qed.

Lemma zrange_len_eq o l n : 0 <= n -> Zlen (zrange o l) = n -> zrange o l = zrange o n.
Proof.
  intros Hn H. rewrite Zlen_zrange in H. unfold zrange. f_equal. lia.
Qed.

(* everything after the sort: merge, pack, coalesce and the single write put the tiles of the
   sorted list on disk *)
Lemma after_sort_equiv : forall S d, good S -> disk_eq (aggr_after_sort d buf S) (wt S d).
Proof.
  intros [|t r] d Hg; [apply disk_eq_refl|].
  destruct (merge_loop_equiv r t d (good_chain _ Hg)) as [E F].
  eapply disk_eq_trans; [|exact E].
  unfold aggr_after_sort.
  destruct (merge_loop t r) as [|m ms] eqn:EM; [now apply merge_loop_nonempty in EM|].
  fold sl. change (fun u : triple => (t_off u, t_len u)) with offlen.
  cbn [map].
  set (view := coalesce (offlen m) (map offlen ms)).
  set (wr := flat_map sl (m :: ms)).
  assert (Hv : vbytes view = vbytes (map offlen (m :: ms))).
  { assert (Hpos : Forall (fun q => 0 <= snd q) (map offlen (m :: ms))).
    { rewrite Forall_map. eapply Forall_impl; [|exact F]. intros a (A & B & C). exact B. }
    inversion Hpos; subst. now apply coalesce_vbytes. }
  assert (Hgoal : disk_eq (scatter d (vbytes view) wr) (wt (m :: ms) d)).
  { rewrite Hv. apply pack_stage. exact F. }
  assert (Hlen : Zlen (vbytes view) = Zlen wr) by (rewrite Hv; now apply Zlen_vbytes_wr).
  destruct view as [|[o l] [|q v']] eqn:EV.
  - exact Hgoal.
  - unfold vbytes in Hgoal, Hlen. cbn [flat_map fst snd] in Hgoal, Hlen.
    rewrite app_nil_r in Hgoal, Hlen.
    rewrite <- (zrange_len_eq o l (Zlen wr)); [exact Hgoal|apply Zlen_nonneg|exact Hlen].
  - exact Hgoal.
Qed.

Lemma ins_perm t : forall l, Permutation (ins_triple t l) (t :: l).
Proof.
  induction l as [|u r IH]; cbn [ins_triple]; [apply Permutation_refl|].
  destruct (t_off t <=? t_off u); [apply Permutation_refl|].
  eapply Permutation_trans; [apply perm_skip, IH|apply perm_swap].
Qed.

Lemma sort_perm : forall l, Permutation (sort_triples l) l.
Proof.
  induction l as [|t l IH]; [apply Permutation_refl|].
  cbn [sort_triples fold_right]. fold (sort_triples l).
  eapply Permutation_trans; [apply ins_perm|]. now apply perm_skip.
Qed.

Lemma ins_sorted t : forall l, sorted_off l -> sorted_off (ins_triple t l).
Proof.
  induction l as [|u r IH]; intros Hs; cbn [ins_triple].
  - constructor; constructor.
  - inversion Hs as [|? ? S F]; subst.
    destruct (t_off t <=? t_off u) eqn:E.
    + constructor; [exact Hs|]. constructor; [lia|].
      eapply Forall_impl; [|exact F]. intros a Ha. cbv beta in *. lia.
    + constructor; [now apply IH|].
      eapply Permutation_Forall; [apply Permutation_sym, ins_perm|].
      constructor; [lia|exact F].
Qed.

Lemma sort_sorted : forall l, sorted_off (sort_triples l).
Proof.
  induction l as [|t l IH]; [constructor|].
  cbn [sort_triples fold_right]. fold (sort_triples l). now apply ins_sorted.
Qed.
End Aggregator.

(* contributions, groups, the theorem *)
(* a rank's pairs consume exactly its data *)
Definition contrib_fits (c : contrib) : Prop :=
  Forall (fun p => 0 <= snd p) (fst c) /\ zsum (map snd (fst c)) = Zlen (snd c).

Definition all_tiles (cs : list contrib) : list tile :=
  flat_map (fun c => tiles_of (fst c) (snd c)) cs.

Lemma spec_writes_tiles : forall cs d, spec_writes d cs = write_tiles (all_tiles cs) d.
Proof.
  unfold spec_writes, all_tiles. induction cs as [|c cs IH]; intros d; [reflexivity|].
  cbn [fold_left flat_map]. rewrite write_tiles_app. rewrite IH. reflexivity.
Qed.

Lemma tiles_of_app : forall p1 d1 p2 d2,
  Forall (fun p => 0 <= snd p) p1 -> zsum (map snd p1) = Zlen d1 ->
  tiles_of (p1 ++ p2) (d1 ++ d2) = tiles_of p1 d1 ++ tiles_of p2 d2.
Proof.
  induction p1 as [|[o l] p1 IH]; intros d1 p2 d2 HF Hs.
  - cbn [map zsum] in Hs. symmetry in Hs. apply Zlen_zero_nil in Hs. subst. reflexivity.
  - inversion HF as [|? ? Hl HF']; subst. cbn [snd] in Hl. cbn [map zsum snd] in Hs.
    pose proof (zsum_snd_nonneg p1 HF') as Hn.
    cbn [app tiles_of]. rewrite zfirstn_app_le, zskipn_app_le by lia.
    rewrite IH; [reflexivity|assumption|]. rewrite Zlen_zskipn. lia.
Qed.

Lemma contrib_sum_nonneg c : contrib_fits c -> 0 <= zsum (map snd (fst c)).
Proof. intros [HF _]. now apply zsum_snd_nonneg. Qed.

Lemma tiles_of_concat : forall members, Forall contrib_fits members ->
  tiles_of (concat (map fst members)) (concat (map snd members)) = all_tiles members /\
  Forall (fun p => 0 <= snd p) (concat (map fst members)) /\
  zsum (map snd (concat (map fst members))) = Zlen (concat (map snd members)).
Proof.
  induction 1 as [|c cs Hc _ IH]; [repeat split; constructor|].
  destruct IH as (I1 & I2 & I3). destruct Hc as [C1 C2].
  cbn [map concat]. unfold all_tiles. cbn [flat_map]. fold (all_tiles cs).
  repeat split.
  - rewrite tiles_of_app by assumption. now rewrite I1.
  - apply Forall_app. now split.
  - rewrite map_app, zsum_app, Zlen_app. now rewrite C2, I3.
Qed.

Lemma den_mk_triples buf : forall pairs a, 0 <= a -> Forall (fun p => 0 <= snd p) pairs ->
  map (den buf) (mk_triples pairs a) = tiles_of pairs (zskipn a buf).
Proof.
  induction pairs as [|[o l] ps IH]; intros a Ha HF; [reflexivity|].
  inversion HF as [|? ? Hl HF']; subst. cbn [snd] in Hl.
  cbn [mk_triples map tiles_of]. f_equal. rewrite IH by (assumption || lia).
  now rewrite zskipn_zskipn by lia.
Qed.

Lemma inbuf_mk_triples buf : forall pairs a, 0 <= a -> Forall (fun p => 0 <= snd p) pairs ->
  a + zsum (map snd pairs) <= Zlen buf -> Forall (inbuf buf) (mk_triples pairs a).
Proof.
  induction pairs as [|[o l] ps IH]; intros a Ha HF Hs; [constructor|].
  inversion HF as [|? ? Hl HF']; subst. cbn [snd] in Hl. cbn [map zsum snd] in Hs.
  pose proof (zsum_snd_nonneg ps HF') as Hn.
  cbn [mk_triples]. constructor.
  - unfold inbuf, t_addr, t_len. cbn [fst snd]. lia.
  - apply IH; try assumption; lia.
Qed.

(* C10 aggr_equiv, one aggregator, ANY result of the sort: if the gathered pairs are pairwise
   disjoint, merge + pack + coalesce + one write by the aggregator leaves the same file as the
   pairs written one by one in their original order *)
Theorem aggr_after_sort_equiv : forall (recv_buf : list byte) (pairs : list (Z * Z)) (S : list triple) d,
  Forall (fun p => 0 <= snd p) pairs -> zsum (map snd pairs) = Zlen recv_buf ->
  pdisj (tiles_of pairs recv_buf) ->
  Permutation S (mk_triples pairs 0) -> sorted_off S ->
  disk_eq (aggr_after_sort d recv_buf S) (write_tiles (tiles_of pairs recv_buf) d).
Proof.
  intros buf pairs S d HF Hs Hd HP Hsort.
  assert (Hden : map (den buf) (mk_triples pairs 0) = tiles_of pairs buf).
  { rewrite den_mk_triples by (assumption || lia). now rewrite zskipn_nonpos by lia. }
  assert (Hin : Forall (inbuf buf) (mk_triples pairs 0)) by (apply inbuf_mk_triples; try assumption; lia).
  assert (Hg : good buf S).
  { unfold good. split; [|split].
    - eapply Permutation_Forall; [apply Permutation_sym; exact HP|exact Hin].
    - exact Hsort.
    - apply (pdisj_perm (map (den buf) (mk_triples pairs 0))).
      + apply Permutation_map. now apply Permutation_sym.
      + now rewrite Hden. }
  eapply disk_eq_trans; [apply after_sort_equiv; exact Hg|].
  unfold wt. rewrite <- Hden.
  apply write_tiles_perm.
  - now apply Permutation_map.
  - destruct Hg as (_ & _ & K). exact K.
Qed.

(* one aggregation group, with the model's own sort *)
Theorem aggr_group_equiv : forall members d,
  Forall contrib_fits members -> pdisj (all_tiles members) ->
  disk_eq (aggr_group_write d members) (spec_writes d members).
Proof.
  intros members d HF Hd. destruct (tiles_of_concat members HF) as (T1 & T2 & T3).
  rewrite spec_writes_tiles, <- T1. unfold aggr_group_write.
  apply aggr_after_sort_equiv; try assumption.
  - now rewrite T1.
  - apply sort_perm.
  - apply sort_sorted.
Qed.

Lemma aggr_after_sort_ext buf S a b : disk_eq a b -> disk_eq (aggr_after_sort a buf S) (aggr_after_sort b buf S).
Proof.
  intros H. unfold aggr_after_sort. destruct S as [|t r]; [exact H|].
  destruct (match map _ (merge_loop t r) with [] => [] | p :: ps => coalesce p ps end) as [|[o l] [|q v]];
    try (apply scatter_ext; exact H).
Qed.

Lemma aggr_group_write_ext members a b : disk_eq a b ->
  disk_eq (aggr_group_write a members) (aggr_group_write b members).
Proof. apply aggr_after_sort_ext. Qed.

Lemma write_own_ext c a b : disk_eq a b -> disk_eq (write_own a c) (write_own b c).
Proof. intros H. unfold write_own. now apply write_tiles_ext. Qed.

Lemma spec_writes_ext cs : forall a b, disk_eq a b -> disk_eq (spec_writes a cs) (spec_writes b cs).
Proof. intros a b H. rewrite !spec_writes_tiles. now apply write_tiles_ext. Qed.

Lemma all_tiles_app a b : all_tiles (a ++ b) = all_tiles a ++ all_tiles b.
Proof. unfold all_tiles. apply flat_map_app. Qed.

Lemma groups_equiv : forall groups d,
  Forall (Forall contrib_fits) groups -> pdisj (all_tiles (concat groups)) ->
  disk_eq (fold_left aggr_group_write groups d) (spec_writes d (concat groups)).
Proof.
  induction groups as [|g gs IH]; intros d HF Hd; [apply disk_eq_refl|].
  inversion HF as [|? ? Hg HF']; subst.
  cbn [concat] in *. rewrite all_tiles_app in Hd. destruct (pdisj_app _ _ Hd) as [D1 D2].
  cbn [fold_left]. unfold spec_writes. rewrite fold_left_app. fold (spec_writes d g).
  fold (spec_writes (spec_writes d g) (concat gs)).
  eapply disk_eq_trans; [apply IH; assumption|].
  apply spec_writes_ext. now apply aggr_group_equiv.
Qed.

(* C10 aggr_equiv.  ranks: what every rank wants to write (its (offset,length) pairs and its
   data).  groups/singles: ANY assignment of the ranks to aggregation groups (each group in its
   gather order) and to "not aggregated".  If all pairs are pairwise disjoint, the file after
   "every aggregator gathers, sorts, merges, coalesces and writes once; the others write for
   themselves" equals the file after every rank writes its own pairs. *)
Theorem aggr_equiv : forall (ranks : list contrib) (groups : list (list contrib)) (singles : list contrib) d,
  Forall contrib_fits ranks ->
  Permutation (concat groups ++ singles) ranks ->
  pdisj (all_tiles ranks) ->
  disk_eq (aggr_writes d groups singles) (spec_writes d ranks).
Proof.
  intros ranks groups singles d HF HP Hd.
  assert (HF' : Forall contrib_fits (concat groups ++ singles))
    by (eapply Permutation_Forall; [apply Permutation_sym; exact HP|exact HF]).
  apply Forall_app in HF'. destruct HF' as [HFg HFs].
  assert (HPt : Permutation (all_tiles (concat groups ++ singles)) (all_tiles ranks))
    by (unfold all_tiles; now apply Permutation_flat_map).
  assert (Hd' : pdisj (all_tiles (concat groups ++ singles)))
    by (apply (pdisj_perm (all_tiles ranks)); [now apply Permutation_sym|exact Hd]).
  assert (Dg : pdisj (all_tiles (concat groups)))
    by (rewrite all_tiles_app in Hd'; now apply pdisj_app in Hd').
  apply Forall_concat in HFg.
  unfold aggr_writes.
  eapply disk_eq_trans.
  { fold (spec_writes (fold_left aggr_group_write groups d) singles).
    apply spec_writes_ext. apply groups_equiv; assumption. }
  rewrite !spec_writes_tiles, <- write_tiles_app, <- all_tiles_app.
  now apply write_tiles_perm.
Qed.

(* the hypotheses are satisfiable and the two sides really compute something: four ranks, two
   aggregation groups {0,1} {2} and rank 3 on its own, interleaved pairs, adjacent tiles that are
   fused, a hole *)
Example aggr_equiv_example :
  let r0 : contrib := ([(10, 2); (20, 2)], [1; 2; 3; 4]) in
  let r1 : contrib := ([(12, 3); (0, 1)], [5; 6; 7; 8]) in
  let r2 : contrib := ([(30, 1); (22, 2)], [9; 10; 11]) in
  let r3 : contrib := ([(15, 5)], [12; 13; 14; 15; 16]) in
  let ranks := [r0; r1; r2; r3] in
  Forall contrib_fits ranks /\ pdisj (all_tiles ranks) /\
  dk_read (aggr_writes empty_disk [[r1; r0]; [r2]] [r3]) 0 32 =
  dk_read (spec_writes empty_disk ranks) 0 32 /\
  dk_read (aggr_writes empty_disk [[r1; r0]; [r2]] [r3]) 10 14 = [1; 2; 5; 6; 7; 12; 13; 14; 15; 16; 3; 4; 10; 11].
Proof.
  cbv zeta. split; [|split; [|split]].
  - repeat constructor; cbn [snd]; lia.
  - match goal with |- pdisj ?l => let v := eval vm_compute in l in change (pdisj v) end.
    cbn [pdisj]. repeat split; repeat constructor; intros x [A B];
      unfold covers, Zlen in *; cbn [fst snd length] in *; lia.
  - (* each side against the bytes read is immediate; the two unevaluated sides against each
       other make the conversion test wander *)
    match goal with |- _ = ?b => let v := eval cbv in b in transitivity v end; reflexivity.
  - reflexivity.
Qed.

(* flatten_req against the row-major SPEC (Access.spec_offsets) *)
Lemma gen_map_add b : forall l base, gen l (map (Z.add b) base) = map (Z.add b) (gen l base).
Proof.
  intros l base. rewrite <- !(flat_map_singleton (Z.add b)).
  symmetry. apply gen_equivariant. intros a d. cbn [map]. apply (f_equal (fun z => [z])). ring.
Qed.

Lemma flatten_outer_map_add b R d :
  flatten_outer R (map (Z.add b) d) = map (Z.add b) (flatten_outer R d).
Proof. rewrite <- (rev_involutive R). rewrite !flatten_outer_rev. apply gen_map_add. Qed.

Lemma last_dim_units_fixed : forall shape rs el dflt, shape <> [] ->
  last (dim_units false rs el shape 0) dflt = el.
Proof.
  intros [|s [|s' ss]] rs el dflt H; [congruence| |].
  - cbn [dim_units last andb zprod]. lia.
  - rewrite dim_units_cons. rewrite last_cons_nonempty by apply dim_units_nonempty.
    apply last_dim_units_S. discriminate.
Qed.

Lemma snoc_of_length {A B} (l : list A) (m : list B) :
  length l = length m -> m <> [] -> exists l' x, l = l' ++ [x].
Proof.
  intros H Hm. destruct (snoc_cases l) as [->|E]; [|exact E]. destruct m; [congruence|discriminate].
Qed.

(* the fixed dimensions: flatten_subarray enumerates exactly the row-major element offsets
   (Proofs_Access.flatten_core, the same list-level core as for the direct path, once every
   per-dimension list is split at its last entry) *)
Lemma flatten_subarray_spec : forall el b dimlen start count stride,
  0 < el ->
  length start = length dimlen -> length count = length dimlen -> length stride = length dimlen ->
  zprod count <> 0 ->
  pair_elems el (flatten_subarray el b dimlen start count stride) =
  map (fun idx => b + lin dimlen idx * el) (req_indices start count stride).
Proof.
  intros el b dimlen start count stride Hel Ls Lc Lt Hz.
  unfold flatten_subarray. destruct dimlen as [|s0 ss] eqn:Ed.
  { destruct start; [|discriminate]. destruct count; [|discriminate]. destruct stride; [|discriminate].
    unfold pair_elems. cbn [flat_map fst snd req_indices map app lin].
    rewrite Z.div_same by lia. rewrite zrange_1. cbn [map]. apply (f_equal (fun z => [z])). ring. }
  assert (Hne : dimlen <> []) by (rewrite Ed; discriminate). rewrite <- Ed in *. clear Ed.
  transitivity (map (fun idx => b + dot (dim_units false 0 el dimlen 0) idx)
                    (req_indices start count stride)).
  2:{ apply map_ext. intros idx. f_equal. apply dot_dim_units. now left. }
  pose proof (last_dim_units_fixed dimlen 0 el el Hne) as Hul.
  pose proof (dim_units_length dimlen false 0 el 0) as LU.
  set (U := dim_units false 0 el dimlen 0) in *. clearbody U.
  destruct (snoc_of_length start dimlen Ls Hne) as (so & sl_ & ->).
  destruct (snoc_of_length count dimlen Lc Hne) as (co & cl & ->).
  destruct (snoc_of_length stride dimlen Lt Hne) as (to & tl_ & ->).
  destruct (snoc_of_length U dimlen LU Hne) as (uo & ul & ->).
  rewrite !removelast_last, !last_last in *. subst ul.
  rewrite !app_length in *. cbn [length] in *.
  rewrite zprod_app in Hz. cbn [zprod] in Hz.
  replace ((if tl_ =? 1 then 1 else cl) * zprod co =? 0) with false by (destruct (tl_ =? 1); nia).
  rewrite <- (flatten_core so co to uo sl_ cl tl_ el b el) by lia.
  unfold pair_elems. rewrite flat_map_map_comm. cbn [fst snd].
  replace ((if tl_ =? 1 then cl else 1) * el / el) with (if tl_ =? 1 then cl else 1)
    by (symmetry; apply Z.div_mul; lia).
  rewrite <- (map_map (fun k => (sl_ + k * tl_) * el) (Z.add b)).
  rewrite flatten_outer_map_add, flat_map_map_comm.
  apply flat_map_ext. intros d. apply map_ext. intros k. ring.
Qed.

Lemma flat_map_pair_elems {A} xsz (f : A -> list (Z * Z)) l :
  pair_elems xsz (flat_map f l) = flat_map (fun x => pair_elems xsz (f x)) l.
Proof. unfold pair_elems. apply flat_map_flat_map. Qed.

(* C10: flatten_req covers exactly the elements of the request, in row-major order - for every
   variable kind, dimensionality and accepted request (the direct, non-aggregated path addresses
   the same elements: Proofs_Access.model_offsets_spec) *)
Theorem flatten_req_spec : forall g start count stride,
  wf_geom g -> req_ok (g_shape g) start count stride -> zprod count <> 0 ->
  pair_elems (g_xsz g) (flatten_req g start count (Some stride)) = spec_offsets g start count stride.
Proof.
  intros g start count stride (Hx & Hrs & Hdw & Hpk) Hreq Hz.
  destruct (req_ok_lengths _ _ _ _ Hreq) as (Ls & Lc & Lt).
  unfold flatten_req, spec_offsets. destruct (g_isrec g) eqn:Er.
  - (* record variable *)
    destruct (g_isrec_cons g Er) as [ss Es]. rewrite Es in *.
    destruct start as [|st0 st]; [discriminate|]. destruct count as [|c0 ct]; [discriminate|].
    destruct stride as [|t0 tt]; [discriminate|].
    cbn [length] in Ls, Lc, Lt. cbn [hd tl] in *. cbn [zprod] in Hz.
    rewrite flat_map_pair_elems. cbn [req_indices]. rewrite map_flat_map_comm.
    apply flat_map_ext. intros j. rewrite map_map.
    rewrite flatten_subarray_spec by (lia || nia).
    apply map_ext. intros idx. rewrite elem_off_rec by assumption. rewrite Es. cbn [tl]. ring.
  - (* scalar or fixed-size variable: flatten_req is flatten_subarray over the whole shape *)
    replace (match g_shape g with [] => _ | _ => _ end)
      with (flatten_subarray (g_xsz g) (g_begin g) (g_shape g) start count stride)
      by now destruct (g_shape g).
    rewrite flatten_subarray_spec by (assumption || lia).
    apply map_ext. intros idx. now rewrite elem_off_fixed.
Qed.

Lemma flatten_req_none g start count :
  flatten_req g start count None = flatten_req g start count (Some (ones (length (g_shape g)))).
Proof.
  unfold flatten_req. destruct (g_shape g) as [|s0 ss] eqn:Es; [reflexivity|].
  destruct (g_isrec g); [|reflexivity].
  cbn [length]. rewrite ones_S. cbn [hd]. reflexivity.
Qed.

(* a NULL stride pointer (vara, var1, var) is the all-ones stride *)
Theorem flatten_req_spec_none : forall g start count,
  wf_geom g -> req_ok (g_shape g) start count (ones (length (g_shape g))) -> zprod count <> 0 ->
  pair_elems (g_xsz g) (flatten_req g start count None) =
  spec_offsets g start count (ones (length (g_shape g))).
Proof.
  intros g start count Hwf Hreq Hz. rewrite flatten_req_none. now apply flatten_req_spec.
Qed.

Example flatten_req_spec_example :
  let g := mkgeom 2048 8 [0; 3; 4] 200 3 in
  wf_geom g /\ req_ok (g_shape g) [2; 0; 1] [3; 2; 2] [2; 2; 2] /\
  flatten_req g [2; 0; 1] [3; 2; 2] (Some [2; 2; 2]) =
    [(2456, 8); (2472, 8); (2520, 8); (2536, 8); (2856, 8); (2872, 8); (2920, 8); (2936, 8);
     (3256, 8); (3272, 8); (3320, 8); (3336, 8)] /\
  pair_elems 8 (flatten_req g [2; 0; 1] [3; 2; 2] (Some [2; 2; 2])) = spec_offsets g [2; 0; 1] [3; 2; 2] [2; 2; 2].
Proof.
  cbv zeta. split; [|split; [|split; reflexivity]].
  - unfold wf_geom, dims_wf, rec_packed. cbn. repeat split; try lia. repeat constructor; lia.
  - cbn. repeat split; try lia.
Qed.

(* the code before the fix of the record-stride defect *)
Definition flatten_req_old (g : geom) (start count : list Z) (stride : option (list Z)) : list (Z * Z) :=
  match g_shape g with
  | [] => [(g_begin g, g_xsz g)]
  | _ =>
    let st := match stride with Some t => t | None => ones (length (g_shape g)) end in
    if g_isrec g then
      let vb := g_begin g + hd 0 start * g_recsize g in
      flat_map (fun j => flatten_subarray (g_xsz g) (vb + j * g_recsize g)
                                          (tl (g_shape g)) (tl start) (tl count) (tl st))
               (zrange 0 (hd 0 count))
    else flatten_subarray (g_xsz g) (g_begin g) (g_shape g) start count st
  end.

Definition g_aggr_bug : geom := mkgeom 512 4 [0; 3] 12 1.

(* refuted for the old code: var_begin advanced by ONE record per iteration where the request asks
   for stride[0] records: records 0 and 1 were written instead of 0 and 2.  The witness is replayed
   on the library by checks/C10.py (regression input `aggr:rec-stride`). *)
Theorem flatten_req_old_refuted :
  ~ (forall g start count stride,
       wf_geom g -> req_ok (g_shape g) start count stride -> zprod count <> 0 ->
       pair_elems (g_xsz g) (flatten_req_old g start count (Some stride)) = spec_offsets g start count stride).
Proof.
  intros H. specialize (H g_aggr_bug [0; 0] [2; 3] [2; 1]).
  assert (Hwf : wf_geom g_aggr_bug).
  { unfold wf_geom, g_aggr_bug, dims_wf, rec_packed. cbn. repeat split; try lia.
    repeat constructor; lia. }
  assert (Hreq : req_ok (g_shape g_aggr_bug) [0; 0] [2; 3] [2; 1]).
  { cbn. repeat split; try lia. }
  specialize (H Hwf Hreq ltac:(cbn; lia)). vm_compute in H. discriminate.
Qed.

(* ... and it was wrong only there *)
Theorem flatten_req_old_partial : forall g start count stride,
  (g_isrec g = true -> hd 1 stride = 1 \/ hd 0 count = 1) ->
  flatten_req_old g start count (Some stride) = flatten_req g start count (Some stride) \/
  hd 0 count = 1.
Proof.
  intros g start count stride H. unfold flatten_req_old, flatten_req.
  destruct (g_shape g) as [|s0 ss]; [now left|].
  destruct (g_isrec g); [|now left].
  destruct (H eq_refl) as [E|E]; [left|now right].
  rewrite E. apply flat_map_ext. intros j. do 2 f_equal. ring.
Qed.

(* ncmpio_intra_node_aggr_init: the groups are a partition *)

Lemma index_of_In x l d : In x l -> 0 <= index_of x l < Zlen l /\ znth l (index_of x l) d = x.
Proof.
  intros H. unfold index_of. destruct (find_index_In x d l 0 H) as (i & -> & H2 & H3).
  now rewrite Z.add_0_l.
Qed.

Lemma index_of_znth l i d : NoDup l -> 0 <= i < Zlen l -> index_of (znth l i d) l = i.
Proof.
  intros Hn Hi. destruct (index_of_In _ l d (znth_In l i d Hi)) as [Hb He].
  now apply (znth_inj l d Hn).
Qed.

Lemma NoDup_sub {A} (l : list A) i m : NoDup l -> NoDup (zfirstn m (zskipn i l)).
Proof.
  intros H. rewrite <- (zfirstn_zskipn i l) in H. apply NoDup_app_inv in H. destruct H as (_ & H & _).
  rewrite <- (zfirstn_zskipn m (zskipn i l)) in H. now apply NoDup_app_inv in H.
Qed.

Lemma In_sub l i m x : NoDup l -> 0 <= i ->
  (In x (zfirstn m (zskipn i l)) <-> In x l /\ i <= index_of x l < i + m).
Proof.
  intros Hn Hi. pose proof (Zlen_zfirstn m (zskipn i l)) as Hlen. rewrite Zlen_zskipn in Hlen. split.
  - intros H. destruct (index_of_In x _ 0 H) as [Hb He].
    rewrite znth_zfirstn, znth_zskipn in He by lia.
    assert (Hj : 0 <= i + index_of x (zfirstn m (zskipn i l)) < Zlen l) by lia.
    split; [rewrite <- He; now apply znth_In|].
    assert (E : index_of x l = i + index_of x (zfirstn m (zskipn i l)))
      by (rewrite <- He at 1; now apply index_of_znth).
    lia.
  - intros [H Hb]. destruct (index_of_In x l 0 H) as [Hb' He].
    replace (index_of x l) with (i + (index_of x l - i)) in He by lia.
    rewrite <- znth_zskipn, <- (znth_zfirstn m) in He by lia.
    rewrite <- He. apply znth_In. lia.
Qed.

Lemma floor_bounds b g : 0 <= b -> 0 < g -> 0 <= b - b mod g <= b.
Proof. intros Hb Hg. pose proof (Z.mod_le b g Hb Hg). pose proof (Z.mod_pos_bound b g Hg). lia. Qed.

Lemma mod_floor b g : 0 < g -> (b - b mod g) mod g = 0.
Proof. intros Hg. rewrite Zminus_mod_idemp_r, Z.sub_diag. apply Z.mod_0_l. lia. Qed.

Lemma floor_unique a b g : 0 < g -> a mod g = 0 -> a <= b < a + g -> b - b mod g = a.
Proof.
  intros Hg Ha Hb. rewrite <- (Z.mod_unique_pos b g (a / g) (b - a)); [lia|lia|].
  pose proof (Z.div_mod a g). lia.
Qed.

Section Blocks.
Variables (l : list Z) (g : Z).
Hypothesis Hnd : NoDup l.
Hypothesis Hg : 0 < g.

(* l is cut into blocks of g consecutive elements, the last one maybe shorter: the first element
   of r's block, and the block that r heads (empty when r heads none) *)
Definition head_of (r : Z) : Z := znth l (index_of r l - index_of r l mod g) (-1).
Definition owned (r : Z) : list Z :=
  if index_of r l mod g =? 0
  then zfirstn (Z.min g (Zlen l - index_of r l)) (zskipn (index_of r l) l) else [].

Lemma head_of_In r : In r l -> In (head_of r) l.
Proof.
  intros H. destruct (index_of_In r l 0 H) as [Hb _]. apply znth_In.
  pose proof (floor_bounds (index_of r l) g). lia.
Qed.

Lemma index_of_head r : In r l -> index_of (head_of r) l = index_of r l - index_of r l mod g.
Proof.
  intros H. destruct (index_of_In r l 0 H) as [Hb _]. apply index_of_znth; [exact Hnd|].
  pose proof (floor_bounds (index_of r l) g). lia.
Qed.

Lemma head_of_self r : In r l -> (head_of r = r <-> index_of r l mod g = 0).
Proof.
  intros H. split; intros E.
  - pose proof (index_of_head r H) as Hi. rewrite E in Hi. lia.
  - destruct (index_of_In r l (-1) H) as [_ He]. unfold head_of. now rewrite E, Z.sub_0_r.
Qed.

Lemma In_owned r x : In r l -> (In x (owned r) <-> In x l /\ head_of x = r).
Proof.
  intros Hr. destruct (index_of_In r l (-1) Hr) as [Hb He]. unfold owned.
  destruct (index_of r l mod g =? 0) eqn:E.
  - rewrite In_sub by (assumption || lia). split; intros [Hx H]; (split; [exact Hx|]).
    + unfold head_of. rewrite (floor_unique (index_of r l)) by lia. exact He.
    + subst r. rewrite index_of_head in * by assumption.
      destruct (index_of_In x l 0 Hx) as [Hbx _]. lia.
  - split; [intros []|intros [Hx H]]. subst r. rewrite index_of_head in E by assumption.
    rewrite mod_floor in E by assumption. discriminate.
Qed.

Lemma owned_head r : In r l -> head_of r = r -> exists t, owned r = r :: t.
Proof.
  intros Hr E. apply head_of_self in E; [|exact Hr].
  destruct (index_of_In r l (-1) Hr) as [Hb He]. unfold owned.
  rewrite E. cbn [Z.eqb]. rewrite (zskipn_znth l (-1)) by lia. rewrite zfirstn_cons by lia.
  rewrite He. now eexists.
Qed.

Lemma owned_nil r : In r l -> head_of r <> r -> owned r = [].
Proof.
  intros Hr E. unfold owned. destruct (_ =? 0) eqn:Em; [|reflexivity].
  destruct E. apply head_of_self; [exact Hr|lia].
Qed.

Lemma Zlen_owned r : In r l -> index_of r l mod g = 0 ->
  Zlen (owned r) = Z.min g (Zlen l - index_of r l).
Proof.
  intros Hr E. destruct (index_of_In r l (-1) Hr) as [Hb _]. unfold owned.
  rewrite E. cbn [Z.eqb]. rewrite Zlen_zfirstn, Zlen_zskipn. lia.
Qed.

Lemma NoDup_owned r : NoDup (owned r).
Proof. unfold owned. destruct (_ =? 0); [now apply NoDup_sub|constructor]. Qed.
End Blocks.

Lemma filter_zip_zseq {A} (p : A -> bool) d (l : list A) : forall lo,
  map fst (filter (fun q => p (snd q)) (zip (zseq lo (length l)) l)) =
  filter (fun x => p (znth l (x - lo) d)) (zseq lo (length l)).
Proof.
  induction l as [|y l IH]; intros lo; [reflexivity|].
  cbn [length zseq zip filter snd]. rewrite Z.sub_diag. change (znth (y :: l) 0 d) with y.
  rewrite (filter_ext_in (fun x => p (znth (y :: l) (x - lo) d))
             (fun x => p (znth l (x - (lo + 1)) d)) (zseq (lo + 1) (length l))), <- IH.
  - now destruct (p y).
  - intros x Hx. apply In_zseq in Hx. cbn [znth]. replace (x - lo =? 0) with false by lia.
    do 2 f_equal. lia.
Qed.

Lemma ranks_of_node_filter ids n :
  ranks_of_node ids n = filter (fun x => znth ids x 0 =? n) (zrange 0 (Zlen ids)).
Proof.
  unfold ranks_of_node, zrange, Zlen. rewrite Nat2Z.id, (filter_zip_zseq (fun v => v =? n) 0).
  apply filter_ext. intros x. now rewrite Z.sub_0_r.
Qed.

Lemma ranks_of_node_In ids n x :
  In x (ranks_of_node ids n) <-> 0 <= x < Zlen ids /\ znth ids x 0 = n.
Proof. rewrite ranks_of_node_filter, filter_In, In_zrange. lia. Qed.

Lemma ranks_of_node_NoDup ids n : NoDup (ranks_of_node ids n).
Proof. rewrite ranks_of_node_filter. apply NoDup_filter, zrange_NoDup. Qed.

Lemma group_size_pos naggr n : 0 < naggr -> 0 < n -> 0 < group_size naggr n.
Proof.
  intros Ha Hn. unfold group_size.
  assert (0 < n / Z.min naggr n) by (apply Z.div_str_pos; lia).
  destruct (_ =? 0); lia.
Qed.

(* all lists of length n over {0, .., k-1} *)
Fixpoint all_lists (k : Z) (n : nat) : list (list Z) :=
  match n with
  | O => [[]]
  | S m => flat_map (fun l => map (fun x => x :: l) (zrange 0 k)) (all_lists k m)
  end.

Fixpoint zinsert (x : Z) (l : list Z) : list Z :=
  match l with [] => [x] | y :: r => if x <=? y then x :: l else y :: zinsert x r end.
Definition zsort (l : list Z) : list Z := fold_right zinsert [] l.

(* every rank is in exactly one place (one group, or unaggregated); every group has at least two
   members, is headed by its aggregator, and every member names that aggregator *)
Definition init_ok (np naggr : Z) (ids : list Z) : bool :=
  let groups := aggr_groups np naggr ids in
  let singles := unaggregated np naggr ids in
  list_eqb Z.eqb (zsort (concat groups ++ singles)) (zrange 0 np) &&
  forallb (fun g => (2 <=? Zlen g) &&
                    forallb (fun r => fst (aggr_init np naggr ids r) =? hd (-1) g) g) groups.

Lemma zinsert_comm x y : forall l, zinsert x (zinsert y l) = zinsert y (zinsert x l).
Proof.
  induction l as [|z l IH]; cbn [zinsert].
  - destruct (x <=? y) eqn:E1, (y <=? x) eqn:E2; try reflexivity;
      [now replace y with x by lia | lia].
  - destruct (x <=? z) eqn:Ex, (y <=? z) eqn:Ey; cbn [zinsert]; rewrite ?Ex, ?Ey.
    + destruct (x <=? y) eqn:E1, (y <=? x) eqn:E2; try reflexivity;
        [now replace y with x by lia | lia].
    + now replace (y <=? x) with false by lia.
    + now replace (x <=? y) with false by lia.
    + now rewrite IH.
Qed.

(* insertion in any order builds the same list, so zsort is blind to the order of its argument *)
Lemma zsort_perm l l' : Permutation l l' -> zsort l = zsort l'.
Proof.
  induction 1 as [|x l l' _ IH|x y l|l l' l'' _ IH1 _ IH2]; cbn [zsort fold_right].
  - reflexivity.
  - fold (zsort l) (zsort l'). now rewrite IH.
  - apply zinsert_comm.
  - congruence.
Qed.

Lemma zsort_zseq : forall n lo, zsort (zseq lo n) = zseq lo n.
Proof.
  induction n as [|n IH]; intros lo; [reflexivity|].
  cbn [zseq zsort fold_right]. fold (zsort (zseq (lo + 1) n)). rewrite IH.
  destruct n; cbn [zseq zinsert]; [reflexivity|]. now replace (lo <=? lo + 1) with true by lia.
Qed.

Lemma groups_singles_perm (f : Z -> Z * list Z) l :
  Permutation
    (concat (flat_map (fun r => let '(a, m) := f r in if (a =? r) && (0 <=? a) then [m] else []) l)
     ++ filter (fun r => fst (f r) <? 0) l)
    (flat_map (fun r => let '(a, m) := f r in
                        (if (a =? r) && (0 <=? a) then m else []) ++ (if a <? 0 then [r] else [])) l).
Proof.
  induction l as [|r l IH]; [constructor|]. cbn [flat_map filter]. destruct (f r) as [a m]. cbn [fst].
  rewrite concat_app, <- !app_assoc.
  assert (Hs : forall G S F, Permutation (G ++ S) F ->
            Permutation (G ++ (if a <? 0 then r :: S else S)) ((if a <? 0 then [r] else []) ++ F)).
  { intros G S F H. destruct (a <? 0); [|exact H].
    apply Permutation_sym, Permutation_cons_app, Permutation_sym, H. }
  destruct ((a =? r) && (0 <=? a)); cbn [concat app].
  - rewrite app_nil_r. apply Permutation_app_head, Hs, IH.
  - apply Hs, IH.
Qed.

Section Init.
Variables (naggr : Z) (ids : list Z).
Hypothesis Hnaggr : 0 <= naggr.
Local Notation np := (Zlen ids).

(* the ranks on r's node; the group size in force there (1 when aggregation is off); r's
   aggregator; the ranks r aggregates for, itself included *)
Definition node_ranks (r : Z) : list Z := ranks_of_node ids (znth ids r 0).
Definition eff_size (r : Z) : Z :=
  if (naggr =? 0) || (naggr =? np) then 1 else group_size naggr (Zlen (node_ranks r)).
Definition aggr_of (r : Z) : Z := head_of (node_ranks r) (eff_size r) r.
Definition block (r : Z) : list Z := owned (node_ranks r) (eff_size r) r.

Lemma node_ranks_self r : 0 <= r < np -> In r (node_ranks r).
Proof. intros H. now apply ranks_of_node_In. Qed.

Lemma node_ranks_range r x : In x (node_ranks r) -> 0 <= x < np.
Proof. intros H. now apply ranks_of_node_In in H. Qed.

Lemma node_ranks_same r x : In x (node_ranks r) -> node_ranks x = node_ranks r.
Proof. intros H. apply ranks_of_node_In in H. unfold node_ranks. now f_equal. Qed.

Lemma eff_size_same r x : In x (node_ranks r) -> eff_size x = eff_size r.
Proof. intros H. unfold eff_size. now rewrite (node_ranks_same r x H). Qed.

Lemma eff_size_pos r : 0 <= r < np -> 0 < eff_size r.
Proof.
  intros H. unfold eff_size. destruct (_ || _) eqn:E; [lia|].
  destruct (index_of_In r _ 0 (node_ranks_self r H)) as [Hb _]. apply group_size_pos; lia.
Qed.

Lemma node_ranks_NoDup r : NoDup (node_ranks r).
Proof. apply ranks_of_node_NoDup. Qed.

Local Hint Resolve node_ranks_NoDup eff_size_pos node_ranks_self : nodes.

Lemma aggr_of_range r : 0 <= r < np -> 0 <= aggr_of r < np.
Proof.
  intros H. apply (node_ranks_range r), head_of_In; auto with nodes.
Qed.

Lemma aggr_init_spec r : 0 <= r < np ->
  aggr_init np naggr ids r =
  if aggr_of r =? r then if Zlen (block r) =? 1 then (-1, []) else (r, block r)
  else (aggr_of r, []).
Proof.
  intros Hr. pose proof (eff_size_pos r Hr) as Hg. pose proof (node_ranks_self r Hr) as Hin.
  pose proof (head_of_self (node_ranks r) _ (ranks_of_node_NoDup _ _) Hg r Hin) as Hself.
  pose proof (Zlen_owned (node_ranks r) _ Hg r Hin) as Hlen.
  destruct (index_of_In r _ (-1) Hin) as [Hb _].
  unfold aggr_init, block, aggr_of, eff_size in *. fold (node_ranks r).
  destruct ((naggr =? 0) || (naggr =? np)).
  - rewrite (proj2 Hself), Z.eqb_refl, Hlen by apply Z.mod_1_r.
    now replace (Z.min 1 _ =? 1) with true by lia.
  - cbv zeta. set (g := group_size naggr (Zlen (node_ranks r))) in *. destruct (g =? 1) eqn:Eg.
    + replace g with 1 in * by lia. rewrite (proj2 Hself), Z.eqb_refl, Hlen by apply Z.mod_1_r.
      now replace (Z.min 1 _ =? 1) with true by lia.
    + fold (head_of (node_ranks r) g r). destruct (index_of r (node_ranks r) mod g =? 0) eqn:Em.
      * rewrite (proj2 Hself), Z.eqb_refl, Hlen by lia. unfold owned. now rewrite Em.
      * destruct (head_of (node_ranks r) g r =? r) eqn:E; [|reflexivity].
        apply Z.eqb_eq, Hself in E. lia.
Qed.

Lemma In_block r x : 0 <= r < np -> (In x (block r) <-> 0 <= x < np /\ aggr_of x = r).
Proof.
  intros Hr. unfold block, aggr_of.
  rewrite In_owned by auto with nodes.
  split; intros [Hx E].
  - split; [exact (node_ranks_range r x Hx)|].
    now rewrite (node_ranks_same r x Hx), (eff_size_same r x Hx).
  - assert (Hrx : In r (node_ranks x)).
    { rewrite <- E. apply head_of_In; auto with nodes. }
    rewrite (node_ranks_same x r Hrx), (eff_size_same x r Hrx).
    split; [now apply node_ranks_self|exact E].
Qed.

Lemma block_head r : 0 <= r < np -> aggr_of r = r -> exists t, block r = r :: t.
Proof.
  intros Hr. apply owned_head; auto with nodes.
Qed.

(* what rank r adds to the groups and to the unaggregated ranks, taken together, is its block *)
Lemma contribution r : 0 <= r < np ->
  (let '(a, m) := aggr_init np naggr ids r in
   (if (a =? r) && (0 <=? a) then m else []) ++ (if a <? 0 then [r] else [])) = block r.
Proof.
  intros Hr. rewrite aggr_init_spec by assumption. destruct (aggr_of r =? r) eqn:Ea.
  - destruct (block_head r Hr) as [t Et]; [lia|]. rewrite Et.
    destruct (Zlen (r :: t) =? 1) eqn:E1.
    + rewrite Zlen_cons in E1. rewrite (Zlen_zero_nil t) by lia.
      now rewrite andb_false_r.
    + rewrite Z.eqb_refl. replace (0 <=? r) with true by lia. replace (r <? 0) with false by lia.
      apply app_nil_r.
  - pose proof (aggr_of_range r Hr). rewrite Ea. replace (aggr_of r <? 0) with false by lia.
    symmetry. apply owned_nil; auto with nodes. fold (aggr_of r). lia.
Qed.

Lemma groups_partition :
  Permutation (concat (aggr_groups np naggr ids) ++ unaggregated np naggr ids) (zrange 0 np).
Proof.
  apply (Permutation_trans (l' := flat_map block (zrange 0 np))).
  - rewrite <- (flat_map_ext_In _ _ (zrange 0 np)
                  (fun r Hr => contribution r (proj1 (In_zrange 0 np r) Hr))).
    apply groups_singles_perm.
  - (* every rank lies in the block of its aggregator and in no other *)
    apply NoDup_Permutation; [|apply zrange_NoDup|].
    + apply NoDup_flat_map_disjoint; [apply zrange_NoDup| |].
      * intros r _. apply NoDup_owned, node_ranks_NoDup.
      * intros a b x Ha Hb Hxa Hxb. apply In_zrange in Ha, Hb.
        apply In_block in Hxa, Hxb; lia.
    + intros x. rewrite in_flat_map, In_zrange. split.
      * intros (r & Hr & Hx). apply In_zrange in Hr. apply In_block in Hx; lia.
      * intros Hx. exists (aggr_of x). pose proof (aggr_of_range x Hx).
        rewrite In_zrange. split; [lia|]. apply In_block; [lia|]. split; [lia|reflexivity].
Qed.

Lemma In_aggr_groups g : In g (aggr_groups np naggr ids) ->
  exists r, 0 <= r < np /\ aggr_of r = r /\ Zlen (block r) <> 1 /\ g = block r.
Proof.
  unfold aggr_groups. rewrite in_flat_map. intros (r & Hr & H). apply In_zrange in Hr.
  exists r. rewrite aggr_init_spec in H by lia.
  destruct (aggr_of r =? r) eqn:Ea; [|rewrite Ea in H; destruct H].
  destruct (Zlen (block r) =? 1) eqn:E1; [now rewrite andb_false_r in H|].
  destruct (_ && _); [|destruct H]. destruct H as [<-|[]]. repeat split; lia.
Qed.

Lemma group_ok g : In g (aggr_groups np naggr ids) ->
  2 <= Zlen g /\ forall x, In x g -> fst (aggr_init np naggr ids x) = hd (-1) g.
Proof.
  intros H. destruct (In_aggr_groups g H) as (r & Hr & Ea & E1 & ->).
  assert (Hin : forall x, In x (block r) -> 0 <= x < np /\ aggr_of x = r)
    by (intros x; now apply In_block).
  destruct (block_head r Hr Ea) as [t Et]. rewrite Et in *. rewrite Zlen_cons in *.
  pose proof (Zlen_nonneg t). split; [lia|].
  intros x Hx. destruct (Hin x Hx) as [Hxr Ha]. cbn [hd].
  rewrite aggr_init_spec by assumption. destruct (aggr_of x =? x) eqn:Ex; [|exact Ha].
  replace x with r by lia. rewrite Et, Zlen_cons. now replace (_ =? 1) with false by lia.
Qed.

(* whatever the number of ranks, the aggregators asked for per node and the placement of the
   ranks on nodes (ids holds any node numbers) *)
Theorem aggr_init_partition : init_ok np naggr ids = true.
Proof.
  unfold init_ok. apply andb_true_intro. split.
  - rewrite (zsort_perm _ _ groups_partition). unfold zrange. rewrite zsort_zseq.
    apply (list_eqb_iff Z.eqb Z.eqb_eq). reflexivity.
  - apply forallb_forall. intros g Hg. destruct (group_ok g Hg) as [H2 Hm].
    apply andb_true_intro. split; [lia|]. apply forallb_forall. intros x Hx.
    rewrite (Hm x Hx). apply Z.eqb_refl.
Qed.
End Init.

Lemma all_lists_length k : forall n l, In l (all_lists k n) -> length l = n.
Proof.
  induction n as [|n IH]; intros l H; cbn [all_lists] in H.
  - destruct H as [<-|[]]. reflexivity.
  - apply in_flat_map in H. destruct H as (l' & Hl' & H). apply in_map_iff in H.
    destruct H as (x & <- & _). cbn [length]. f_equal. now apply IH.
Qed.

(* the domain of the property: 1..8 processes, 0..8 aggregators per node, any placement of the
   ranks on up to 3 compute nodes *)
Theorem aggr_init_partition_8 : forall np naggr ids,
  In np (zrange 1 8) -> In naggr (zrange 0 9) -> In ids (all_lists 3 (Z.to_nat np)) ->
  init_ok np naggr ids = true.
Proof.
  intros np naggr ids H1 H2 H3. apply In_zrange in H1, H2. apply all_lists_length in H3.
  replace np with (Zlen ids) by (unfold Zlen; lia). apply aggr_init_partition. lia.
Qed.

Example aggr_init_example :
  aggr_groups 5 2 [0; 0; 0; 0; 0] = [[0; 1; 2]; [3; 4]] /\ unaggregated 5 2 [0; 0; 0; 0; 0] = [] /\
  aggr_groups 3 2 [0; 0; 0] = [[0; 1]] /\ unaggregated 3 2 [0; 0; 0] = [2] /\
  aggr_groups 4 1 [0; 1; 0; 1] = [[0; 2]; [1; 3]] /\
  aggr_groups 4 4 [0; 0; 0; 0] = [] /\ unaggregated 4 0 [0; 0; 0; 0] = [0; 1; 2; 3].
Proof. repeat split; reflexivity. Qed.

(* request level: an aggregated collective put == the requested elements written at their row-major offsets *)
Lemma dk_scatter_ext xsz offs : forall bs a b,
  disk_eq a b -> disk_eq (dk_scatter a xsz offs bs) (dk_scatter b xsz offs bs).
Proof.
  induction offs as [|o r IH]; intros bs a b H; [exact H|].
  cbn [dk_scatter]. apply IH. now apply dk_write_ext.
Qed.

Lemma dk_scatter_app xsz : forall o1 o2 bs d, 0 <= xsz ->
  dk_scatter d xsz (o1 ++ o2) bs =
  dk_scatter (dk_scatter d xsz o1 bs) xsz o2 (zskipn (Zlen o1 * xsz) bs).
Proof.
  induction o1 as [|o r IH]; intros o2 bs d Hx.
  - cbn [app dk_scatter]. rewrite Zlen_nil. now rewrite zskipn_nonpos by lia.
  - cbn [app dk_scatter]. rewrite IH by assumption. f_equal.
    pose proof (Zlen_nonneg r). rewrite Zlen_cons. rewrite zskipn_zskipn by nia. f_equal. lia.
Qed.

Lemma tile_as_elems xsz : 0 < xsz -> forall k o data d, k * xsz <= Zlen data -> 0 <= k ->
  disk_eq (dk_write d o (zfirstn (k * xsz) data))
          (dk_scatter d xsz (map (fun j => o + j * xsz) (zrange 0 k)) data).
Proof.
  intros Hx k o data d Hlen Hk. revert o data d Hlen.
  pattern k. apply natlike_ind; [| |exact Hk].
  - intros o data d _. cbn. rewrite zfirstn_nonpos by lia. apply disk_eq_refl.
  - intros n Hn IH o data d Hlen.
    replace (Z.succ n) with (n + 1) in * by lia.
    rewrite zrange_succ by lia.
    replace (map (fun j => o + j * xsz) (0 :: zrange (0 + 1) n))
      with (o :: map (fun j => (o + xsz) + j * xsz) (zrange 0 n)).
    2:{ cbn [map]. f_equal; [lia|]. rewrite (zrange_shift (0 + 1) n), map_map.
        apply map_ext. intros j. lia. }
    cbn [dk_scatter].
    replace ((n + 1) * xsz) with (xsz + n * xsz) by lia.
    rewrite zfirstn_add by nia.
    eapply disk_eq_trans; [apply dk_write_app|].
    rewrite Zlen_zfirstn. replace (Z.max 0 (Z.min xsz (Zlen data))) with xsz by nia.
    apply (IH (o + xsz)). rewrite Zlen_zskipn. nia.
Qed.

Definition mult_of (xsz : Z) (p : Z * Z) : Prop := exists k, 0 <= k /\ snd p = k * xsz.

Lemma pair_elems_cons xsz o l ps :
  pair_elems xsz ((o, l) :: ps) = map (fun j => o + j * xsz) (zrange 0 (l / xsz)) ++ pair_elems xsz ps.
Proof. reflexivity. Qed.

Lemma tiles_as_elems xsz : 0 < xsz -> forall pairs data d,
  Forall (mult_of xsz) pairs -> zsum (map snd pairs) <= Zlen data ->
  disk_eq (write_tiles (tiles_of pairs data) d) (dk_scatter d xsz (pair_elems xsz pairs) data).
Proof.
  intros Hx. induction pairs as [|[o l] ps IH]; intros data d HF Hs; [apply disk_eq_refl|].
  inversion HF as [|? ? [k [Hk Hl]] HF']; subst. cbn [snd] in Hl. subst l.
  cbn [map zsum snd] in Hs.
  assert (Hn : 0 <= zsum (map snd ps)).
  { apply zsum_snd_nonneg. eapply Forall_impl; [|exact HF']. intros p [k' [Hk' Hp]]. nia. }
  cbn [tiles_of]. rewrite write_tiles_cons. cbn [fst snd].
  rewrite pair_elems_cons. rewrite Z.div_mul by lia.
  rewrite dk_scatter_app by lia.
  rewrite Zlen_map, Zlen_zrange. replace (Z.max 0 k) with k by lia.
  eapply disk_eq_trans; [apply IH; [exact HF'|rewrite Zlen_zskipn; nia]|].
  apply dk_scatter_ext. apply tile_as_elems; try assumption; nia.
Qed.

Lemma last_In_cons {A} : forall (l : list A) a d, In (last (a :: l) d) (a :: l).
Proof.
  induction l as [|b l IH]; intros a d; [now left|].
  right. change (last (a :: b :: l) d) with (last (b :: l) d). apply IH.
Qed.

Lemma flatten_subarray_mult el b dimlen start count stride :
  Forall (fun c => 0 <= c) count ->
  Forall (mult_of el) (flatten_subarray el b dimlen start count stride).
Proof.
  intros Hc. unfold flatten_subarray. destruct dimlen as [|s0 ss].
  - constructor; [|constructor]. exists 1. cbn [snd]. lia.
  - destruct (_ =? 0); [constructor|].
    rewrite Forall_map. apply Forall_forall. intros o _. cbn [snd].
    destruct (last stride 1 =? 1).
    + exists (last count 0). split; [|reflexivity].
      destruct count as [|c cs]; [cbn [last]; lia|].
      assert (Hin : In (last (c :: cs) 0) (c :: cs)) by apply last_In_cons.
      rewrite Forall_forall in Hc. apply Hc. exact Hin.
    + exists 1. cbn [snd]. lia.
Qed.

Lemma flatten_req_mult g start count stride :
  0 < g_xsz g -> Forall (fun c => 0 <= c) count ->
  Forall (mult_of (g_xsz g)) (flatten_req g start count (Some stride)).
Proof.
  intros Hx Hc. unfold flatten_req. destruct (g_shape g) as [|s0 ss].
  - constructor; [|constructor]. exists 1. cbn [snd]. lia.
  - destruct (g_isrec g).
    + apply Forall_flat_map. apply Forall_forall. intros j _.
      apply flatten_subarray_mult. destruct count; [constructor|]. inversion Hc; assumption.
    + now apply flatten_subarray_mult.
Qed.

Lemma zsum_mult xsz : 0 < xsz -> forall pairs, Forall (mult_of xsz) pairs ->
  zsum (map snd pairs) = Zlen (pair_elems xsz pairs) * xsz.
Proof.
  intros Hx. induction 1 as [|[o l] ps [k [Hk Hl]] _ IH]; [reflexivity|].
  cbn [snd] in Hl. subst l. cbn [map zsum snd]. rewrite pair_elems_cons, Zlen_app, Zlen_map, Zlen_zrange.
  rewrite Z.div_mul by lia. rewrite IH. nia.
Qed.

(* a request as the API hands it over: geometry, start, count, stride (None = NULL pointer),
   and the packed external data of the request *)
Definition req_stride (r : put_req) : list Z :=
  let '(g, s, c, t, data) := r in stride_or_ones (length (g_shape g)) t.

Definition req_fits (r : put_req) : Prop :=
  let '(g, s, c, t, data) := r in
  wf_geom g /\ req_ok (g_shape g) s c (stride_or_ones (length (g_shape g)) t) /\
  Zlen data = zprod c * g_xsz g.

(* SPEC of one put: element k of the data stream lands at the row-major offset of element k *)
Definition spec_put (d : disk) (r : put_req) : disk :=
  let '(g, s, c, t, data) := r in
  if zprod c =? 0 then d
  else dk_scatter d (g_xsz g) (spec_offsets g s c (stride_or_ones (length (g_shape g)) t)) data.

Lemma contrib_of_req_fits r : req_fits r ->
  contrib_fits (contrib_of_req r) /\
  forall d, disk_eq (write_own d (contrib_of_req r)) (spec_put d r).
Proof.
  destruct r as [[[[g s] c] t] data]. intros (Hwf & Hreq & Hlen).
  unfold contrib_of_req, spec_put. destruct (zprod c =? 0) eqn:Ez.
  - split; [split; [constructor|reflexivity]|]. intros d. apply disk_eq_refl.
  - assert (Hz : zprod c <> 0) by lia.
    pose proof Hwf as (Hx & _).
    assert (Hc : Forall (fun x => 0 <= x) c) by (eapply req_ok_count_nonneg; eassumption).
    set (st := stride_or_ones (length (g_shape g)) t) in *.
    assert (Hfl : flatten_req g s c t = flatten_req g s c (Some st)).
    { destruct t as [t|]; [reflexivity|]. unfold st. cbn [stride_or_ones]. apply flatten_req_none. }
    rewrite Hfl.
    pose proof (flatten_req_mult g s c st Hx Hc) as Hm.
    pose proof (flatten_req_spec g s c st Hwf Hreq Hz) as Hspec.
    pose proof (zsum_mult (g_xsz g) Hx _ Hm) as Hsum.
    rewrite Hspec in Hsum.
    assert (Hl : Zlen (spec_offsets g s c st) = zprod c).
    { unfold Zlen. rewrite (spec_offsets_length_req g s c st Hreq).
      rewrite Z2Nat.id; [reflexivity|]. apply zprod_nonneg. exact Hc. }
    rewrite Hl in Hsum.
    split.
    + split; cbn [fst snd].
      * eapply Forall_impl; [|exact Hm]. intros p [k [Hk Hp]]. nia.
      * lia.
    + intros d. unfold write_own. cbn [fst snd]. rewrite <- Hspec.
      apply tiles_as_elems; try assumption. lia.
Qed.

(* C10 aggr_equiv at request level: whatever the number of ranks and their assignment to
   aggregators, a collective put under intra-node aggregation leaves the file that results from
   writing, for every rank, element k of its data at the row-major offset of element k of its
   request - provided the flattened requests are pairwise disjoint *)
Theorem aggr_put_equiv : forall (reqs : list put_req) (groups : list (list put_req)) (singles : list put_req) d,
  Forall req_fits reqs ->
  Permutation (concat groups ++ singles) reqs ->
  pdisj (all_tiles (map contrib_of_req reqs)) ->
  disk_eq (aggr_writes d (map (map contrib_of_req) groups) (map contrib_of_req singles))
          (fold_left spec_put reqs d).
Proof.
  intros reqs groups singles d HF HP Hd.
  eapply disk_eq_trans.
  - apply (aggr_equiv (map contrib_of_req reqs)).
    + rewrite Forall_map. eapply Forall_impl; [|exact HF]. intros r Hr. now apply contrib_of_req_fits.
    + rewrite <- concat_map, <- map_app. now apply Permutation_map.
    + exact Hd.
  - unfold spec_writes. clear HP Hd groups singles. revert d.
    induction reqs as [|r rs IH]; intros d; [apply disk_eq_refl|].
    inversion HF as [|? ? Hr HF']; subst. cbn [map fold_left].
    eapply disk_eq_trans; [|apply IH; exact HF'].
    fold (spec_writes (write_own d (contrib_of_req r)) (map contrib_of_req rs)).
    fold (spec_writes (spec_put d r) (map contrib_of_req rs)).
    apply spec_writes_ext. now apply contrib_of_req_fits.
Qed.

Example aggr_put_equiv_example :
  let g := mkgeom 512 4 [0; 3] 12 1 in
  let r0 : put_req := (g, [0; 0], [2; 3], Some [2; 1], [0;0;0;1; 0;0;0;2; 0;0;0;3; 0;0;0;4; 0;0;0;5; 0;0;0;6]) in
  let r1 : put_req := (g, [1; 1], [2; 2], Some [2; 1], [0;0;0;7; 0;0;0;8; 0;0;0;9; 0;0;0;10]) in
  Forall req_fits [r0; r1] /\
  dk_read (aggr_writes empty_disk [[contrib_of_req r1; contrib_of_req r0]] []) 512 48 =
  dk_read (fold_left spec_put [r0; r1] empty_disk) 512 48 /\
  dk_read (fold_left spec_put [r0; r1] empty_disk) 536 12 = [0;0;0;4; 0;0;0;5; 0;0;0;6].
Proof.
  cbv zeta. split; [|split; vm_compute; reflexivity].
  repeat constructor; cbn; try lia; try (repeat constructor; lia); intros _; reflexivity.
Qed.
