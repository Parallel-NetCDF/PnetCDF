(* Proofs_Exec2.v — do_enddef, do_close and do_open of Exec.v (functions that are RUN in the
   correspondence check), characterised exactly.

   do_enddef_ok says when do_enddef succeeds in define mode and what it leaves: the file state
   [enddef_file] and the disk [enddef_new_disk] (first enddef) or [enddef_redef_disk] (after a
   redef: data movement, header write, fill).  The rest is about these disks.  Under the layout
   invariant every variable defined since the previous enddef lies at or above begin_var and clear
   of the older variables (new_var_place), so the fill keeps the header just written (disk_has_hdr,
   hdr_on_disk; hence close; open returns the same header: C03) and keeps every byte of the old
   data (redef_enddef_preserves, redef_enddef_run_preserves: C06).
   The Examples at the end run a session with exec_all (2 ranks, CDF-1, unlimited dimension, fill
   and no-fill variables, puts, redef with new fixed and record variables, close, open), and a CDF-5
   file without variables. *)
From Pnc Require Import Proofs_Lists.
From Pnc Require Import Base Gen_consts Header HeaderSpec Disk Fill Exec.
From Pnc Require Import Proofs_Base Proofs_Header Proofs_Layout Proofs_Fill Proofs_Redef.
From Pnc Require Import Proofs_Disk.
Require Import Lia ZArith List Bool ZifyBool.
Import ListNotations.
Local Open Scope Z_scope.

Local Arguments Z.mul : simpl never.
Local Arguments Z.add : simpl never.
Local Arguments Z.sub : simpl never.
Local Arguments Z.div : simpl never.
Local Arguments Z.modulo : simpl never.
Local Arguments Z.max : simpl never.
Local Arguments Z.min : simpl never.
Local Arguments Z.of_nat : simpl never.
Local Arguments Z.to_nat : simpl never.

(* ====================================================================== *)
(** * A. Small world lemmas                                                *)
(* ====================================================================== *)

Lemma get_disk_set_disk_same : forall w slot d, 0 <= slot < Zlen (w_disks w) ->
  get_disk (set_disk w slot d) slot = d.
Proof. intros w slot d H. apply znth_zupd_same. exact H. Qed.

Lemma get_disk_set_disk_other : forall w slot slot' d, slot <> slot' ->
  get_disk (set_disk w slot d) slot' = get_disk w slot'.
Proof. intros w slot slot' d H. apply znth_zupd_other. exact H. Qed.

Lemma w_files_set_disk : forall w slot d, w_files (set_disk w slot d) = w_files w.
Proof. reflexivity. Qed.

Lemma w_disks_put_file : forall w id x, w_disks (put_file w id x) = w_disks w.
Proof. reflexivity. Qed.

Lemma w_nprocs_set_disk : forall w slot d, w_nprocs (set_disk w slot d) = w_nprocs w.
Proof. reflexivity. Qed.

Lemma w_nprocs_put_file : forall w id x, w_nprocs (put_file w id x) = w_nprocs w.
Proof. reflexivity. Qed.

Lemma Zlen_w_disks_set_disk : forall w slot d, Zlen (w_disks (set_disk w slot d)) = Zlen (w_disks w).
Proof. intros. apply Zlen_zupd. Qed.

Lemma Zlen_w_files_put_file : forall w id x, Zlen (w_files (put_file w id x)) = Zlen (w_files w).
Proof. intros. apply Zlen_zupd. Qed.

Lemma znth_put_file_same : forall w id x, 0 <= id < Zlen (w_files w) ->
  znth (w_files (put_file w id x)) id None = x.
Proof. intros w id x H. apply znth_zupd_same. exact H. Qed.

Lemma znth_put_file_other : forall w id id' x, id <> id' ->
  znth (w_files (put_file w id x)) id' None = znth (w_files w) id' None.
Proof. intros w id id' x H. apply znth_zupd_other. exact H. Qed.

Lemma get_disk_put_file : forall w id x s, get_disk (put_file w id x) s = get_disk w s.
Proof. reflexivity. Qed.

Lemma disk_of_put_file : forall w id x f, disk_of (put_file w id x) f = disk_of w f.
Proof. reflexivity. Qed.

(* set_disk touches only w_disks and put_file only w_files: everything else is read through *)
#[export] Hint Rewrite w_files_set_disk w_disks_put_file w_nprocs_set_disk w_nprocs_put_file
  Zlen_w_disks_set_disk Zlen_w_files_put_file get_disk_put_file disk_of_put_file : world.
#[export] Hint Rewrite get_disk_set_disk_same znth_put_file_same using assumption : world.

Lemma get_disk_put_set_same : forall w slot d id x, 0 <= slot < Zlen (w_disks w) ->
  get_disk (put_file (set_disk w slot d) id x) slot = d.
Proof. intros. autorewrite with world. reflexivity. Qed.

Lemma get_disk_put_set_other : forall w slot slot' d id x, slot <> slot' ->
  get_disk (put_file (set_disk w slot d) id x) slot' = get_disk w slot'.
Proof. intros. rewrite get_disk_put_file. apply get_disk_set_disk_other. assumption. Qed.

Lemma znth_put_set_same : forall w slot d id x, 0 <= id < Zlen (w_files w) ->
  znth (w_files (put_file (set_disk w slot d) id x)) id None = x.
Proof. intros. apply znth_put_file_same. assumption. Qed.

Lemma first_free_bounds : forall l i, i <= first_free l i <= i + Zlen l.
Proof.
  induction l as [|[x|] l IH]; intros i; cbn [first_free].
  - rewrite Zlen_nil. lia.
  - rewrite Zlen_cons. specialize (IH (i + 1)). lia.
  - rewrite Zlen_cons. pose proof (Zlen_nonneg l). lia.
Qed.

Lemma first_free_0_bounds : forall l, 0 <= first_free l 0 <= Zlen l.
Proof. intros l. pose proof (first_free_bounds l 0). lia. Qed.

Lemma first_free_none : forall l i, first_free l i < i + Zlen l ->
  znth l (first_free l i - i) None = None.
Proof.
  induction l as [|[x|] l IH]; intros i H; cbn [first_free] in *.
  - reflexivity.
  - rewrite Zlen_cons in H. pose proof (first_free_bounds l (i + 1)).
    rewrite znth_cons_pos by lia.
    replace (first_free l (i + 1) - i - 1) with (first_free l (i + 1) - (i + 1)) by lia.
    apply IH. lia.
  - replace (i - i) with 0 by lia. reflexivity.
Qed.

(* where create/open store the new file: the first free id, by update or by append *)
Definition store_file (fs : list (option filest)) (f : filest) : list (option filest) :=
  let id := first_free fs 0 in
  if id <? Zlen fs then zupd fs id (Some f) else fs ++ [Some f].

Lemma znth_store_file : forall fs f, znth (store_file fs f) (first_free fs 0) None = Some f.
Proof.
  intros fs f. unfold store_file. pose proof (first_free_0_bounds fs) as Hb.
  destruct (Z.ltb_spec (first_free fs 0) (Zlen fs)) as [Hlt|Hge].
  - apply znth_zupd_same. lia.
  - rewrite znth_app_r by lia. replace (first_free fs 0 - Zlen fs) with 0 by lia. reflexivity.
Qed.

Lemma znth_store_file_other : forall fs f j, 0 <= j < Zlen fs -> j <> first_free fs 0 ->
  znth (store_file fs f) j None = znth fs j None.
Proof.
  intros fs f j Hj Hne. unfold store_file.
  destruct (Z.ltb_spec (first_free fs 0) (Zlen fs)) as [Hlt|Hge].
  - apply znth_zupd_other. lia.
  - apply znth_app_l. lia.
Qed.

(* ====================================================================== *)
(** * B. do_enddef in define mode: when it succeeds and what it leaves      *)
(* ====================================================================== *)

(* numrecs written by enddef: 0 for a file created in this session *)
Definition enddef_numrecs (f : filest) : Z := if f_isnew f then 0 else h_numrecs (f_hdr f).

(* the header kept (and written) by enddef: h1 of do_enddef *)
Definition enddef_hdr (f : filest) (lay : layout) : hdr :=
  set_numrecs (set_begins (f_hdr f) (l_begins lay)) (enddef_numrecs f).

(* the file state stored by enddef: f'' of do_enddef *)
Definition enddef_file (f : filest) (lay : layout) : filest :=
  sync_ranks_numrecs
    (mkfile (enddef_hdr f lay) lay false false (f_rdonly f) false None (f_fill f) (f_align f)
            (f_ranks f) (f_slot f) (f_tainted f))
    (enddef_numrecs f).

(* the guard under which the fill is modelled: every new fill-mode variable has a usable
   _FillValue (start_vid = 0 on a new file, the old variable count after a redef) *)
Definition fill_guard (start_vid : Z) (h1 : hdr) : bool :=
  forallb (fun v => v_nofill v || fill_att_ok v) (zskipn start_vid (h_vars h1)).

(* the disk left by enddef on a new file: d3 of do_enddef *)
Definition enddef_new_disk (w : world) (f : filest) (lay : layout) : disk :=
  let h1 := enddef_hdr f lay in
  match h_vars h1 with
  | [] => write_header (get_disk w (f_slot f)) h1
  | _ => do_fill (write_header (get_disk w (f_slot f)) h1) h1 lay 0 0 (w_nprocs w)
  end.

Definition enddef_args_ok (ea : enddef_args) : Prop :=
  0 <= e_h_minfree ea /\ 0 <= e_v_align ea /\ 0 <= e_v_minfree ea /\ 0 <= e_r_align ea.

Lemma enddef_args_guard : forall ea, enddef_args_ok ea ->
  (e_h_minfree ea <? 0) || (e_v_align ea <? 0) || (e_v_minfree ea <? 0) || (e_r_align ea <? 0) = false.
Proof. intros ea (H1 & H2 & H3 & H4). lia. Qed.

Lemma enddef_args_guard_inv : forall ea,
  (e_h_minfree ea <? 0) || (e_v_align ea <? 0) || (e_v_minfree ea <? 0) || (e_r_align ea <? 0) = false ->
  enddef_args_ok ea.
Proof. intros ea H. unfold enddef_args_ok. lia. Qed.

Lemma f_fields_enddef_file : forall f lay,
  f_hdr (enddef_file f lay) = enddef_hdr f lay /\ f_lay (enddef_file f lay) = lay /\
  f_indef (enddef_file f lay) = false /\ f_indep (enddef_file f lay) = false /\
  f_old (enddef_file f lay) = None /\ f_isnew (enddef_file f lay) = false /\
  f_slot (enddef_file f lay) = f_slot f /\ f_rdonly (enddef_file f lay) = f_rdonly f /\
  f_fill (enddef_file f lay) = f_fill f /\ f_align (enddef_file f lay) = f_align f /\
  f_tainted (enddef_file f lay) = f_tainted f /\
  f_ranks (enddef_file f lay) = map (fun r => rk_set_numrecs r (enddef_numrecs f) false) (f_ranks f).
Proof. intros. repeat split; reflexivity. Qed.

Lemma begins_length : forall h hm vm ha ra old pbr lay,
  begins h hm vm ha ra old pbr = Some lay ->
  length (l_begins lay) = length (h_vars h) /\ l_xsz lay = hdr_len h.
Proof.
  intros h hm vm ha ra old pbr lay H. apply begins_some in H. destruct H as [-> _].
  unfold layout_of_begins. cbn [l_begins l_xsz]. rewrite assign_length. unfold vsof.
  rewrite map_length. split; reflexivity.
Qed.

(* the disk left by enddef after a redefinition: d3 of do_enddef, written with the definitions
   of Proofs_Redef (moved_disk is d1 verbatim, enddef_disk is d2) *)
Definition enddef_redef_disk (w : world) (f : filest) (oh : hdr) (ol lay : layout) : disk :=
  let h := f_hdr f in
  let numrecs := enddef_numrecs f in
  let np := w_nprocs w in
  let d2 := enddef_disk (get_disk w (f_slot f)) np (w_move_unit w) numrecs oh h ol lay in
  match h_vars h with
  | [] => d2
  | _ => do_fill d2 (new_header h lay numrecs) lay (Zlen (h_vars oh)) (h_numrecs oh) np
  end.

Lemma new_header_enddef_hdr : forall f lay, new_header (f_hdr f) lay (enddef_numrecs f) = enddef_hdr f lay.
Proof. reflexivity. Qed.

(* the fill after a redefinition looks at the variables of the header enddef keeps; they are
   as many as those of the header it started from *)
Lemma enddef_redef_disk_eq : forall w f oh ol lay, length (l_begins lay) = length (h_vars (f_hdr f)) ->
  enddef_redef_disk w f oh ol lay =
  let d2 := write_header (moved_disk (get_disk w (f_slot f)) (w_nprocs w) (w_move_unit w)
                                     (enddef_numrecs f) oh (f_hdr f) ol lay) (enddef_hdr f lay) in
  match h_vars (enddef_hdr f lay) with
  | [] => d2
  | _ :: _ => do_fill d2 (enddef_hdr f lay) lay (Zlen (h_vars oh)) (h_numrecs oh) (w_nprocs w)
  end.
Proof.
  intros w f oh ol lay Hlen. unfold enddef_redef_disk, enddef_hdr at 1, set_numrecs, set_begins.
  cbn [h_vars]. destruct (h_vars (f_hdr f)), (l_begins lay); try discriminate Hlen; reflexivity.
Qed.

(** do_enddef in define mode succeeds exactly when it passes its guards - arguments, variable
    sizes, a layout, a usable fill value for every new fill-mode variable - and then stores
    [enddef_file] and leaves [enddef_new_disk] (new file) or [enddef_redef_disk] (after a redef).
    The alignment, the old layout handed to [begins] and the first variable to fill depend on the
    header saved by redef. *)
Definition enddef_guards (w : world) (id : Z) (f : filest) (ea : enddef_args) (w' : world) : Prop :=
  exists ha va ra lay,
    enddef_args_ok ea /\
    check_vlens (f_hdr f) = NC_NOERR /\
    resolve_align (f_align f) ea
      (Zlen (h_vars (f_hdr f)) - match f_old f with Some (oh, _) => num_rec_vars oh | None => 0 end)
      (match f_old f with None => true | Some _ => false end) = (ha, va, ra) /\
    begins (f_hdr f) (e_h_minfree ea) (e_v_minfree ea) ha ra
      (match f_old f with
       | Some (oh, ol) => Some (ol, map (is_recvar (h_dims oh)) (h_vars oh))
       | None => None end) (l_begin_rec (f_lay f)) = Some lay /\
    fill_guard (match f_old f with Some (oh, _) => Zlen (h_vars oh) | None => 0 end)
               (enddef_hdr f lay) = true /\
    w' = put_file (set_disk w (f_slot f)
                     match f_old f with
                     | Some (oh, ol) => enddef_redef_disk w f oh ol lay
                     | None => enddef_new_disk w f lay
                     end) id (Some (enddef_file f lay)).

Lemma do_enddef_cases : forall w id f ea w' rc, do_enddef w id f ea = Some (w', rc) ->
  (w' = w /\ (f_indef f = false \/ rc <> NC_NOERR)) \/
  (rc = NC_NOERR /\ f_indef f = true /\ enddef_guards w id f ea w').
Proof.
  intros w id f ea w' rc H. unfold do_enddef in H. cbv zeta in H.
  destruct (f_indef f) eqn:Hindef; cbn [negb] in H.
  2:{ injection H as <- <-. left. split; [reflexivity|left; reflexivity]. }
  destruct ((e_h_minfree ea <? 0) || (e_v_align ea <? 0) || (e_v_minfree ea <? 0) || (e_r_align ea <? 0))
    eqn:Eargs.
  { injection H as <- <-. left. split; [reflexivity|right; discriminate]. }
  destruct (check_vlens (f_hdr f) =? NC_NOERR) eqn:Evl; cbn [negb] in H.
  2:{ injection H as <- <-. left. split; [reflexivity|right; lia]. }
  destruct (resolve_align _ _ _ _) as [[ha va] ra] eqn:Eal.
  destruct (begins _ _ _ _ _ _ _) as [lay|] eqn:Ebeg.
  2:{ injection H as <- <-. left. split; [reflexivity|right; discriminate]. }
  destruct (forallb _ _) eqn:Eg; cbn [negb] in H; [|discriminate H].
  injection H as <- <-. right. split; [reflexivity|]. split; [reflexivity|].
  exists ha, va, ra, lay.
  split; [apply enddef_args_guard_inv; exact Eargs|]. split; [lia|].
  split; [exact Eal|]. split; [exact Ebeg|]. split; [exact Eg|].
  pose proof (proj1 (begins_length _ _ _ _ _ _ _ _ Ebeg)) as Hlen.
  destruct (f_old f) as [[oh ol]|]; [rewrite (enddef_redef_disk_eq _ _ _ _ _ Hlen)|]; reflexivity.
Qed.

Lemma do_enddef_ok : forall w id f ea w', f_indef f = true ->
  (do_enddef w id f ea = Some (w', NC_NOERR) <-> enddef_guards w id f ea w').
Proof.
  intros w id f ea w' Hindef. split.
  - intros H. destruct (do_enddef_cases w id f ea w' _ H) as [[_ [C|C]]|(_ & _ & G)];
      [congruence|contradiction|exact G].
  - intros (ha & va & ra & lay & Hargs & Hvl & Hal & Hbeg & Hg & ->).
    unfold do_enddef. cbv zeta. rewrite Hindef. cbn [negb].
    rewrite (enddef_args_guard ea Hargs), Hvl. change (NC_NOERR =? NC_NOERR) with true. cbn [negb].
    rewrite Hal, Hbeg. unfold fill_guard, enddef_hdr, enddef_numrecs in Hg. rewrite Hg. cbn [negb].
    pose proof (proj1 (begins_length _ _ _ _ _ _ _ _ Hbeg)) as Hlen.
    destruct (f_old f) as [[oh ol]|]; [rewrite (enddef_redef_disk_eq _ _ _ _ _ Hlen)|]; reflexivity.
Qed.

(** B1.  On a NEW file (no saved old header) in define mode, with acceptable arguments, sizes and
    a layout, do_enddef stores exactly [enddef_file] and leaves exactly [enddef_new_disk]. *)
Theorem do_enddef_new_eq : forall w id f ea ha va ra lay,
  f_indef f = true -> f_old f = None ->
  enddef_args_ok ea ->
  check_vlens (f_hdr f) = NC_NOERR ->
  resolve_align (f_align f) ea (Zlen (h_vars (f_hdr f))) true = (ha, va, ra) ->
  begins (f_hdr f) (e_h_minfree ea) (e_v_minfree ea) ha ra None (l_begin_rec (f_lay f)) = Some lay ->
  fill_guard 0 (enddef_hdr f lay) = true ->
  do_enddef w id f ea =
    Some (put_file (set_disk w (f_slot f) (enddef_new_disk w f lay)) id (Some (enddef_file f lay)),
          NC_NOERR).
Proof.
  intros w id f ea ha va ra lay Hindef Hold Hargs Hvl Hal Hbeg Hguard.
  apply (do_enddef_ok w id f ea _ Hindef). unfold enddef_guards. rewrite Hold, Z.sub_0_r.
  exists ha, va, ra, lay. auto 10.
Qed.

(** B2.  Conversely, a successful do_enddef on a new file went through all the guards. *)
Theorem do_enddef_new_inv : forall w id f ea w',
  f_indef f = true -> f_old f = None ->
  do_enddef w id f ea = Some (w', NC_NOERR) ->
  exists ha va ra lay,
    enddef_args_ok ea /\
    check_vlens (f_hdr f) = NC_NOERR /\
    resolve_align (f_align f) ea (Zlen (h_vars (f_hdr f))) true = (ha, va, ra) /\
    begins (f_hdr f) (e_h_minfree ea) (e_v_minfree ea) ha ra None (l_begin_rec (f_lay f)) = Some lay /\
    fill_guard 0 (enddef_hdr f lay) = true /\
    w' = put_file (set_disk w (f_slot f) (enddef_new_disk w f lay)) id (Some (enddef_file f lay)).
Proof.
  intros w id f ea w' Hindef Hold H.
  apply (do_enddef_ok w id f ea w' Hindef) in H. unfold enddef_guards in H.
  rewrite Hold, Z.sub_0_r in H. exact H.
Qed.

Definition dt3 : bool * Z * Z := (false, 0, 0).

Lemma roff_full : forall vs, roff vs (Zlen vs) = rsum vs.
Proof.
  intros vs. unfold roff. pose proof (zfirstn_app_exact vs []) as H. rewrite app_nil_r in H.
  rewrite H. reflexivity.
Qed.

Lemma roff_nonneg : forall vs i, Forall (fun p : bool * Z => 0 <= snd p) vs -> 0 <= roff vs i.
Proof.
  induction vs as [|[k len] r IH]; intros i H; [unfold roff; cbn [zfirstn rsum]; lia|].
  inversion H as [|? ? Hp Hr]; subst. cbn [snd] in Hp.
  destruct (Z_le_gt_dec i 0) as [Hi|Hi].
  - unfold roff. cbn [zfirstn]. replace (i <=? 0) with true by lia. cbn [rsum]. lia.
  - rewrite roff_cons_pos by lia. cbn [fst snd]. specialize (IH (i - 1) Hr). destruct k; lia.
Qed.

Lemma roff_ge_app : forall vo ext j, Forall (fun p : bool * Z => 0 <= snd p) ext ->
  Zlen vo <= j -> rsum vo <= roff (vo ++ ext) j.
Proof.
  induction vo as [|[k len] r IH]; intros ext j Hnn Hj.
  - cbn [app rsum]. apply roff_nonneg. exact Hnn.
  - rewrite Zlen_cons in Hj. pose proof (Zlen_nonneg r). cbn [app].
    rewrite roff_cons_pos by lia. cbn [fst snd rsum].
    specialize (IH ext (j - 1) Hnn ltac:(lia)). destruct k; lia.
Qed.

Lemma znth_t3_vs : forall (t3 : list (bool * Z * Z)) j, 0 <= j < Zlen t3 ->
  znth (map fst t3) j dvs = fst (znth t3 j dt3).
Proof. intros t3 j Hj. exact (znth_map fst t3 j dt3 dvs Hj). Qed.

(** the slot of every record variable lies inside the record, whichever branch of the recsize
    rule applies (with a single non-empty record variable the record is its unpadded size) *)
Lemma rec_slot_fits : forall (t3 : list (bool * Z * Z)) j, wf_t3 t3 -> 0 <= j < Zlen t3 ->
  fst (fst (znth t3 j dt3)) = true ->
  roff (map fst t3) j + snd (znth t3 j dt3) <= rs_rule t3.
Proof.
  (* by cases on the last entry: only a last record entry can trigger the second branch of the
     rule, and then every record entry before it is empty *)
  induction t3 as [|[[k ll] u] t3 IH] using rev_ind; intros j Hwf Hj Hk.
  { rewrite Zlen_nil in Hj. lia. }
  apply wf_t3_app in Hwf. destruct Hwf as [Hw Hx]. apply Forall_inv in Hx. cbn [fst snd] in Hx.
  destruct (wf_t3_lens t3 Hw) as [Hnn _]. pose proof (rsum_nonneg _ Hnn) as Hs0.
  rewrite Zlen_app, Zlen_cons, Zlen_nil in Hj.
  assert (Ers : rs_rule (t3 ++ [(k, ll, u)]) =
                if k then if rsum (map fst t3) + ll =? ll then u else rsum (map fst t3) + ll
                else rs_rule t3).
  { unfold rs_rule. rewrite map_app, rsum_app, filter_app. cbn [map filter fst rsum].
    destruct k; [rewrite last_opt_snoc|rewrite app_nil_r]; rewrite Z.add_0_r; reflexivity. }
  rewrite Ers, map_app. clear Ers.
  destruct (Z.eq_dec j (Zlen t3)) as [->|Hne].
  - rewrite znth_app_r in Hk |- * by lia. rewrite Z.sub_diag, znth_cons_0 in Hk |- *.
    cbn [fst snd] in Hk |- *. subst k.
    rewrite roff_app_l by (rewrite Zlen_map; lia).
    rewrite <- (Zlen_map fst t3) at 1. rewrite roff_full.
    destruct (Z.eqb_spec (rsum (map fst t3) + ll) ll); lia.
  - rewrite znth_app_l in Hk |- * by lia. rewrite roff_app_l by (rewrite Zlen_map; lia).
    destruct k; [|apply IH; [exact Hw | lia | exact Hk]].
    destruct (roff_bounds (map fst t3) j Hnn ltac:(rewrite Zlen_map; lia)) as [_ Hb].
    rewrite (znth_t3_vs t3 j ltac:(lia)) in Hb. specialize (Hb Hk).
    unfold wf_t3 in Hw. rewrite (Forall_znth _ t3 dt3) in Hw. pose proof (proj1 (Hw j ltac:(lia))).
    destruct (Z.eqb_spec (rsum (map fst t3) + ll) ll); lia.
Qed.

Lemma Zlen_vars_set_begins : forall h bl, length bl = length (h_vars h) ->
  Zlen (h_vars (set_begins h bl)) = Zlen (h_vars h).
Proof.
  intros h bl Hl. rewrite <- (Zlen_map v_begin), (map_v_begin_set_begins h bl Hl).
  apply length_eq_Zlen. exact Hl.
Qed.

(* set_begins changes neither t3of nor the number of variables, and makes bl the begins: variable
   j of the header enddef keeps has entry j of the layout as its begin, and the kind, len and
   unpadded size of variable j of the header enddef started from *)
Lemma new_header_var : forall h bl n j,
  length bl = length (h_vars h) -> 0 <= j < Zlen (h_vars h) ->
  let h1 := set_numrecs (set_begins h bl) n in
  let v := znth (h_vars h1) j dv in
  v_begin v = znth bl j 0 /\
  znth (t3of h) j dt3 = (is_recvar (h_dims h) v, var_len (h_dims h) v, nelems h1 v * vxsz v) /\
  znth (vsof h) j dvs = (is_recvar (h_dims h) v, var_len (h_dims h) v) /\
  nelems h1 v * vxsz v <= var_len (h_dims h) v.
Proof.
  intros h bl n j Hl Hj h1 v.
  pose proof (Zlen_vars_set_begins h bl Hl) as Ez.
  assert (Et : znth (t3of h) j dt3 =
               (is_recvar (h_dims h) v, var_len (h_dims h) v, nelems h1 v * vxsz v)).
  { rewrite <- (t3of_set_begins h bl Hl).
    exact (znth_map _ (h_vars h1) j dv dt3 ltac:(unfold h1; cbn [h_vars set_numrecs]; lia)). }
  split.
  { rewrite <- (map_v_begin_set_begins h bl Hl). symmetry.
    exact (znth_map v_begin (h_vars h1) j dv 0 ltac:(unfold h1; cbn [h_vars set_numrecs]; lia)). }
  split; [exact Et|]. split.
  { rewrite vsof_t3of, (znth_t3_vs (t3of h) j), Et by (unfold t3of; rewrite Zlen_map; lia).
    reflexivity. }
  exact (proj1 (proj1 (var_len_unpadded (h_dims h) v))).
Qed.

Lemma lay_inv_places : forall h lay, hdr_wf h -> lay_inv (t3of h) lay ->
  map v_begin (h_vars h) = l_begins lay ->
  let b i := v_begin (znth (h_vars h) i dv) in
  let len i := var_len (h_dims h) (znth (h_vars h) i dv) in
  let isrec i := is_recvar (h_dims h) (znth (h_vars h) i dv) in
  (forall i, 0 <= i < Zlen (h_vars h) ->
     l_begin_var lay <= b i /\
     if isrec i then l_begin_rec lay <= b i else b i + len i <= l_begin_rec lay) /\
  (forall i j, 0 <= i -> i < j -> j < Zlen (h_vars h) -> isrec i = false -> isrec j = false ->
     b i + len i <= b j).
Proof.
  intros h lay Hwf Hinv L3 b len isrec.
  destruct (lay_inv_index h lay Hwf Hinv) as (_ & _ & Hvr & Hfix & Hord & Hrec).
  assert (Eb : forall i, 0 <= i < Zlen (h_vars h) -> znth (l_begins lay) i 0 = b i).
  { intros i Hi. rewrite <- L3. apply (znth_map v_begin (h_vars h) i dv 0 Hi). }
  split.
  - intros i Hi. specialize (Hfix i Hi). specialize (Hrec i Hi).
    rewrite (znth_vsof h i Hi), (Eb i Hi) in Hfix, Hrec. cbn [fst snd] in Hfix, Hrec.
    fold (isrec i) (len i) in Hfix, Hrec.
    destruct (isrec i).
    + destruct (Hrec eq_refl) as (E & R0 & _). lia.
    + destruct (Hfix eq_refl) as (A & _ & B). lia.
  - intros i j Hi Hij Hj Ki Kj. specialize (Hord i j Hi Hij Hj).
    assert (Hi' : 0 <= i < Zlen (h_vars h)) by lia. assert (Hj' : 0 <= j < Zlen (h_vars h)) by lia.
    rewrite (znth_vsof h i Hi'), (znth_vsof h j Hj'), (Eb i Hi'), (Eb j Hj') in Hord. exact (Hord Ki Kj).
Qed.

Lemma new_header_lay_inv : forall h lay n, lay_inv (t3of h) lay ->
  lay_inv (t3of (new_header h lay n)) lay /\
  map v_begin (h_vars (new_header h lay n)) = l_begins lay.
Proof.
  intros h lay n Hinv.
  assert (Hlen : length (l_begins lay) = length (h_vars h)).
  { destruct Hinv as (Hl & _). rewrite Hl. unfold t3of. rewrite !map_length. reflexivity. }
  split; [|exact (map_v_begin_set_begins h _ Hlen)].
  unfold new_header. rewrite t3of_set_numrecs, t3of_set_begins by exact Hlen. exact Hinv.
Qed.

Lemma kept_fixed_apart : forall h lay n j j', hdr_wf h -> lay_inv (t3of h) lay ->
  0 <= j -> j < j' -> j' < Zlen (h_vars (new_header h lay n)) ->
  let v := znth (h_vars (new_header h lay n)) j dv in
  let v' := znth (h_vars (new_header h lay n)) j' dv in
  is_recvar (h_dims h) v = false -> is_recvar (h_dims h) v' = false ->
  v_begin v + var_len (h_dims h) v <= v_begin v'.
Proof.
  intros h lay n j j' Hwf Hinv. destruct (new_header_lay_inv h lay n Hinv) as [Hinv1 Eb].
  exact (proj2 (lay_inv_places (new_header h lay n) lay Hwf Hinv1 Eb) j j').
Qed.

Lemma roff_new_ge : forall oh h j, hdr_wf h -> hdr_extends oh h -> Zlen (h_vars oh) <= j ->
  rsum (vsof oh) <= roff (vsof h) j.
Proof.
  intros oh h j Hwf [ext3 He] Hj.
  destruct (wf_t3_lens _ (wf_t3of h Hwf)) as [Hnn _]. rewrite <- vsof_t3of in Hnn.
  assert (Evh : vsof h = vsof oh ++ map fst ext3) by (rewrite !vsof_t3of, He; apply map_app).
  rewrite Evh in *. apply roff_ge_app; [exact (proj2 (proj1 (Forall_app _ _ _) Hnn))|].
  unfold vsof. rewrite Zlen_map. exact Hj.
Qed.

(* all that the proofs below need to know about the place of a variable defined since index
   [nold] and of the nelems * vxsz bytes per record the fill may write for it; read off
   lay_inv_index and rec_slot_fits *)
Lemma new_var_place : forall h lay n nold v,
  hdr_wf h -> lay_inv (t3of h) lay -> 0 <= nold ->
  In v (zskipn nold (h_vars (new_header h lay n))) ->
  exists j, nold <= j < Zlen (h_vars h) /\
    l_begin_var lay <= v_begin v /\
    if is_recvar (h_dims h) v
    then v_begin v = l_begin_rec lay + roff (vsof h) j /\ 0 <= roff (vsof h) j /\
         roff (vsof h) j + nelems (new_header h lay n) v * vxsz v <= l_recsize lay
    else v_begin v + nelems (new_header h lay n) v * vxsz v <= l_begin_rec lay /\
         forall i, 0 <= i < j -> fst (znth (vsof h) i dvs) = false ->
           znth (l_begins lay) i 0 + snd (znth (vsof h) i dvs) <= v_begin v.
Proof.
  intros h lay n nold v Hwf Hinv Hn Hin.
  destruct (lay_inv_index h lay Hwf Hinv) as (Hlen & _ & Hvr & Hfix & Hord & Hrec).
  pose proof Hinv as (_ & _ & _ & _ & _ & _ & _ & Hrs).
  destruct (In_znth _ _ dv Hin) as (k & Hk & Ezn).
  rewrite Zlen_zskipn in Hk. change (Zlen (h_vars (new_header h lay n)))
    with (Zlen (h_vars (set_begins h (l_begins lay)))) in Hk.
  rewrite (Zlen_vars_set_begins h _ Hlen) in Hk. rewrite znth_zskipn in Ezn by lia.
  destruct (new_header_var h (l_begins lay) n (nold + k) Hlen ltac:(lia)) as (Eb & Et & Ev & Eu).
  cbv zeta in Eb, Et, Ev, Eu. unfold new_header in Ezn. rewrite Ezn in Eb, Et, Ev, Eu.
  set (j := nold + k) in *. assert (Hj : nold <= j < Zlen (h_vars h)) by lia.
  exists j. split; [exact Hj|]. rewrite Eb. unfold new_header.
  destruct (is_recvar (h_dims h) v) eqn:Ek.
  - destruct (Hrec j ltac:(lia) ltac:(rewrite Ev; reflexivity)) as (Enb & R0 & _).
    pose proof (rec_slot_fits (t3of h) j (wf_t3of h Hwf) ltac:(unfold t3of; rewrite Zlen_map; lia)) as Hfit.
    rewrite Et in Hfit. cbn [fst snd] in Hfit. rewrite <- vsof_t3of, <- Hrs in Hfit.
    split; [lia|]. split; [exact Enb|]. split; [exact R0|exact (Hfit eq_refl)].
  - destruct (Hfix j ltac:(lia) ltac:(rewrite Ev; reflexivity)) as (A & _ & B).
    rewrite Ev in B. cbn [snd] in B.
    split; [exact A|]. split; [lia|].
    intros i Hi Hki. apply (Hord i j); [lia|lia|lia|exact Hki|rewrite Ev; reflexivity].
Qed.

(** a fill-mode variable that passes the guard of do_enddef and is encodable has a fill value of
    exactly one element *)
Lemma fill_len_of_guard : forall fmt v, wf_var fmt v = true ->
  v_nofill v || fill_att_ok v = true -> v_nofill v = false ->
  Zlen (var_fill_bytes v) = vxsz v.
Proof.
  intros fmt v Hwf Hg Hnf. rewrite Hnf in Hg. cbn [orb] in Hg.
  unfold var_fill_bytes, fill_att_ok, vxsz in *.
  destruct (find_att (v_atts v) fillvalue_name) as [i|] eqn:Ef; [|apply Zlen_fill_bytes].
  unfold find_att in Ef. apply find_index_bounds in Ef.
  unfold wf_var in Hwf. rewrite !andb_true_iff in Hwf.
  destruct Hwf as [[[_ Hatts] _] _].
  apply forallb_Forall in Hatts. rewrite (Forall_znth _ (v_atts v) (mkatt [] 0 0 [])) in Hatts.
  specialize (Hatts i ltac:(lia)). unfold wf_att in Hatts. rewrite !andb_true_iff in Hatts.
  destruct Hatts as [_ Hd]. cbv zeta in Hg. rewrite andb_true_iff in Hg. destruct Hg as [G1 G2].
  apply Z.eqb_eq in G1, G2, Hd. rewrite G1, G2 in Hd. unfold byte in *. lia.
Qed.

Lemma fill_len_ok_of_guard : forall h1 sv, wf_hdr h1 = true -> fill_guard sv h1 = true ->
  forall v, In v (zskipn sv (h_vars h1)) -> v_nofill v = false -> Zlen (var_fill_bytes v) = vxsz v.
Proof.
  intros h1 sv Hwf Hg v Hin Hnf.
  unfold fill_guard in Hg. rewrite forallb_forall in Hg. specialize (Hg v Hin).
  assert (Hv : In v (h_vars h1)).
  { rewrite <- (zfirstn_zskipn sv (h_vars h1)). apply in_or_app. right. exact Hin. }
  unfold wf_hdr in Hwf. cbv zeta in Hwf. rewrite !andb_true_iff in Hwf. destruct Hwf as [_ Hvars].
  rewrite forallb_forall in Hvars. exact (fill_len_of_guard _ v (Hvars v Hv) Hg Hnf).
Qed.

(* ====================================================================== *)
(** * C. The first enddef leaves the encoded header on disk                 *)
(* ====================================================================== *)

Lemma dk_read_app : forall d o a b, 0 <= a -> 0 <= b ->
  dk_read d o (a + b) = dk_read d o a ++ dk_read d (o + a) b.
Proof.
  intros d o a b Ha Hb. unfold dk_read, zrange. rewrite <- map_app. f_equal.
  rewrite Z2Nat.inj_add by assumption. rewrite zseq_app. f_equal. f_equal. lia.
Qed.

Lemma dk_read_ext : forall d d' o n,
  (forall x, o <= x < o + n -> dk_get d x = dk_get d' x) -> dk_read d o n = dk_read d' o n.
Proof.
  intros d d' o n H. unfold dk_read. apply map_ext_in. intros x Hx.
  apply H. apply In_zrange in Hx. exact Hx.
Qed.

Lemma dk_read_write_0 : forall d bs, dk_read (dk_write d 0 bs) 0 (Zlen bs) = bs.
Proof.
  intros d bs. pose proof (Zlen_nonneg bs) as Hn.
  apply (znth_ext _ _ 0).
  - rewrite Zlen_dk_read. unfold byte in *. lia.
  - intros i Hi. rewrite Zlen_dk_read in Hi. unfold byte in *. rewrite znth_dk_read by lia.
    rewrite dk_get_write. unfold byte.
    replace ((0 <=? 0 + i) && (0 + i <? 0 + Zlen bs)) with true by lia.
    f_equal. lia.
Qed.

Lemma Zlen_encode_header_pos : forall h, 4 <= Zlen (encode_header h).
Proof.
  intros h. unfold encode_header. rewrite Zlen_app.
  pose proof (Zlen_nonneg (put_nn (h_format h) (h_numrecs h) ++
    put_list (h_format h) NC_DIMENSION_TAG (put_dim (h_format h)) (h_dims h) ++
    put_list (h_format h) NC_ATTRIBUTE_TAG (put_att (h_format h)) (h_gatts h) ++
    put_list (h_format h) NC_VARIABLE_TAG (put_var (h_format h) (h_dims h)) (h_vars h))) as Hn.
  change (Zlen (magic (h_format h))) with 4. lia.
Qed.

Lemma do_fill_exists : forall d h lay sv nrecs np, dk_exists d = true ->
  dk_exists (do_fill d h lay sv nrecs np) = true.
Proof.
  intros d h lay sv nrecs np H. rewrite do_fill_flat, fold_write_seg, write_tiles_exists, H.
  apply orb_true_r.
Qed.

Lemma do_fill_size : forall d h lay sv nrecs np, dk_size d <= dk_size (do_fill d h lay sv nrecs np).
Proof. intros. rewrite do_fill_flat, fold_write_seg. apply write_tiles_size_mono. Qed.

Lemma rec_pairs_nonneg : forall h, hdr_wf h -> Forall (fun p : Z * Z => 0 <= snd p) (rec_pairs h).
Proof.
  intros h Hwf. unfold rec_pairs. apply Forall_forall. intros p Hp.
  apply in_map_iff in Hp. destruct Hp as [v [<- _]]. cbn [snd]. unfold var_len.
  apply var_len_of_nonneg; [apply xlen_type_nonneg|apply var_shape_nonneg; exact Hwf].
Qed.

Lemma nelems_nonneg : forall h v, hdr_wf h -> 0 <= nelems h v.
Proof.
  intros h v Hwf. unfold nelems. apply var_nelems_per_rec_nonneg. apply var_shape_nonneg. exact Hwf.
Qed.

Definition disk_has_hdr (d : disk) (h : hdr) : Prop :=
  dk_exists d = true /\ hdr_len h <= dk_size d /\ dk_read d 0 (hdr_len h) = encode_header h.

(* ---------- the invariant "the header of f is on the disk of its slot" ---------- *)
Definition hdr_on_disk (w : world) (f : filest) : Prop :=
  dk_exists (disk_of w f) = true /\
  hdr_len (f_hdr f) <= dk_size (disk_of w f) /\
  dk_read (disk_of w f) 0 (hdr_len (f_hdr f)) = encode_header (f_hdr f).

Lemma has_hdr_write_header : forall d h, wf_hdr h = true -> disk_has_hdr (write_header d h) h.
Proof.
  intros d h Hwf. pose proof (hdr_len_encode h Hwf) as Hl. pose proof (Zlen_encode_header_pos h) as Hp.
  unfold disk_has_hdr, write_header. rewrite dk_exists_write, dk_size_write, Hl.
  replace (0 <? Zlen (encode_header h)) with true by lia.
  split; [reflexivity|]. split; [lia|apply dk_read_write_0].
Qed.

Lemma has_hdr_frame : forall d d' h, disk_has_hdr d h ->
  dk_exists d' = true -> hdr_len h <= dk_size d' ->
  (forall x, 0 <= x < hdr_len h -> dk_get d' x = dk_get d x) -> disk_has_hdr d' h.
Proof.
  intros d d' h (_ & _ & H3) He Hs Hf. split; [exact He|]. split; [exact Hs|].
  rewrite <- H3. apply dk_read_ext. intros x Hx. apply Hf. lia.
Qed.

(* what do_open will find: every long enough prefix of the disk decodes to the header *)
Lemma header_prefix_decodes : forall d h n, wf_hdr h = true ->
  dk_read d 0 (hdr_len h) = encode_header h -> hdr_len h <= n ->
  decode (dk_read d 0 n) = Some (decoded_of h).
Proof.
  intros d h n Hwf Hrd Hn.
  pose proof (hdr_len_encode h Hwf) as Hl. pose proof (Zlen_encode_header_pos h) as Hp.
  replace n with (hdr_len h + (n - hdr_len h)) by lia.
  rewrite dk_read_app by lia. rewrite Hrd. apply decode_encode_full. exact Hwf.
Qed.

Lemma do_fill_frame_below : forall d h lay n sv nrecs np x,
  hdr_wf h -> lay_inv (t3of h) lay -> 0 <= sv -> 1 <= np ->
  (forall v, In v (zskipn sv (h_vars (new_header h lay n))) -> v_nofill v = false ->
     Zlen (var_fill_bytes v) = vxsz v) ->
  x < l_begin_var lay ->
  dk_get (do_fill d (new_header h lay n) lay sv nrecs np) x = dk_get d x.
Proof.
  intros d h lay n sv nrecs np x Hwf Hinv Hsv Hnp Hfl Hx.
  apply do_fill_frame_extent; [exact Hnp|]. intros v Hv Hnf.
  split; [symmetry; exact (Hfl v Hv Hnf)|].
  destruct (new_var_place h lay n sv v Hwf Hinv Hsv Hv) as (j & _ & Hb & _).
  pose proof (rs_rule_bounds _ (wf_t3of h Hwf)) as [Hr0 _].
  destruct Hinv as (_ & _ & _ & _ & _ & _ & _ & Hrs).
  unfold in_fill_extent. destruct (is_recvar (h_dims (new_header h lay n)) v); [|lia].
  intros (recno & Hrn & Hlo & _). assert (0 <= l_recsize lay * recno) by nia. lia.
Qed.

(** header write, then fill of the variables defined since [sv]: the disk still starts with the
    header, which ends at or below begin_var *)
Lemma has_hdr_fill : forall d h lay n sv nrecs np,
  hdr_wf h -> lay_inv (t3of h) lay -> l_xsz lay = hdr_len h -> 0 <= sv -> 1 <= np ->
  wf_hdr (new_header h lay n) = true -> fill_guard sv (new_header h lay n) = true ->
  disk_has_hdr (do_fill (write_header d (new_header h lay n)) (new_header h lay n) lay sv nrecs np)
               (new_header h lay n).
Proof.
  intros d h lay n sv nrecs np Hwf Hinv Hx Hsv Hnp Hwfh Hg.
  assert (Ehl : hdr_len (new_header h lay n) = hdr_len h).
  { unfold new_header. rewrite hdr_len_set_numrecs. apply hdr_len_set_begins.
    exact (proj1 (lay_inv_index h lay Hwf Hinv)). }
  set (h1 := new_header h lay n) in *.
  pose proof (has_hdr_write_header d h1 Hwfh) as Hw.
  apply (has_hdr_frame _ _ _ Hw).
  - apply do_fill_exists. exact (proj1 Hw).
  - pose proof (do_fill_size (write_header d h1) h1 lay sv nrecs np). destruct Hw as (_ & Hs & _). lia.
  - intros x Hxr. apply do_fill_frame_below; try assumption.
    + exact (fill_len_ok_of_guard h1 sv Hwfh Hg).
    + destruct Hinv as (_ & Hle & _). lia.
Qed.

(* a successful first enddef of a file created in this session: the guards it went through, with
   what the layout theorems ask of the resolved alignments *)
Lemma first_enddef_inv : forall w id f ea w',
  f_old f = None -> f_indef f = true -> l_begin_rec (f_lay f) = 0 ->
  0 <= env_h_align (f_align f) -> 0 <= env_v_align (f_align f) -> 0 <= env_r_align (f_align f) ->
  do_enddef w id f ea = Some (w', NC_NOERR) ->
  exists ha va ra lay,
    resolve_align (f_align f) ea (Zlen (h_vars (f_hdr f))) true = (ha, va, ra) /\
    begins (f_hdr f) (e_h_minfree ea) (e_v_minfree ea) ha ra None 0 = Some lay /\
    0 <= e_h_minfree ea /\ 0 <= e_v_minfree ea /\
    (4 <= ha /\ ha mod 4 = 0) /\ (4 <= ra /\ ra mod 4 = 0) /\
    fill_guard 0 (enddef_hdr f lay) = true /\
    w' = put_file (set_disk w (f_slot f) (enddef_new_disk w f lay)) id (Some (enddef_file f lay)).
Proof.
  intros w id f ea w' Hold Hindef Hbr0 Hah Hav Har Hed.
  destruct (do_enddef_new_inv w id f ea w' Hindef Hold Hed)
    as (ha & va & ra & lay & (A1 & A2 & A3 & A4) & _ & Hal & Hbeg & Hg & Ew).
  destruct (resolve_align_ok (f_align f) ea _ true ha va ra Hah Hav Har A2 A4 Hal) as (Hha & _ & Hra).
  rewrite Hbr0 in Hbeg. exists ha, va, ra, lay.
  exact (conj Hal (conj Hbeg (conj A1 (conj A3 (conj Hha (conj Hra (conj Hg Ew))))))).
Qed.

(** C.  A file created in this session (what do_create produces: no old header, define mode,
    isnew, begin_rec 0), any alignment hints >= 0: if do_enddef succeeds then
    (1) the file table holds [enddef_file f lay] - data mode, collective, header h1 = the header
        with the begins of the computed layout and numrecs 0;
    (2) the layout satisfies the layout invariant and its header extent is hdr_len h1;
    and, when h1 is encodable (wf_hdr),
    (3) the first hdr_len h1 bytes of the slot's disk are encode_header h1 (the fill did not
        overwrite it), (4) the disk exists and is at least that long,
    (5) every prefix of at least hdr_len h1 bytes decodes to [decoded_of h1]: what a subsequent
        open reads is hdr_content h1. *)
Theorem enddef_writes_header : forall w id f ea w',
  f_old f = None -> f_indef f = true -> f_isnew f = true -> l_begin_rec (f_lay f) = 0 ->
  hdr_wf (f_hdr f) ->
  0 <= env_h_align (f_align f) -> 0 <= env_v_align (f_align f) -> 0 <= env_r_align (f_align f) ->
  0 <= f_slot f < Zlen (w_disks w) -> 0 <= id < Zlen (w_files w) -> 1 <= w_nprocs w ->
  do_enddef w id f ea = Some (w', NC_NOERR) ->
  exists ha va ra lay,
    resolve_align (f_align f) ea (Zlen (h_vars (f_hdr f))) true = (ha, va, ra) /\
    begins (f_hdr f) (e_h_minfree ea) (e_v_minfree ea) ha ra None 0 = Some lay /\
    let h1 := set_numrecs (set_begins (f_hdr f) (l_begins lay)) 0 in
    let d := get_disk w' (f_slot f) in
    let f'' := enddef_file f lay in
    (* 1 *)
    (znth (w_files w') id None = Some f'' /\
     f_hdr f'' = h1 /\ f_lay f'' = lay /\ f_indef f'' = false /\ f_indep f'' = false /\
     f_old f'' = None /\ f_isnew f'' = false /\ f_slot f'' = f_slot f /\ f_rdonly f'' = f_rdonly f) /\
    (* 2 *)
    (lay_inv (t3of (f_hdr f)) lay /\ l_xsz lay = hdr_len h1) /\
    (wf_hdr h1 = true ->
       (* 3 *) dk_read d 0 (hdr_len h1) = encode_header h1 /\
       (* 4 *) dk_exists d = true /\ hdr_len h1 <= dk_size d /\
       (* 5 *) (forall n, hdr_len h1 <= n -> decode (dk_read d 0 n) = Some (decoded_of h1)) /\
       hdr_on_disk w' f'').
Proof.
  intros w id f ea w' Hold Hindef Hnew Hbr0 Hwf Hah Hav Har Hslot Hid Hnp Hed.
  destruct (first_enddef_inv w id f ea w' Hold Hindef Hbr0 Hah Hav Har Hed)
    as (ha & va & ra & lay & Hal & Hbeg & A1 & A3 & (Hha & Hha4) & (Hra & Hra4) & Hg & Ew).
  exists ha, va, ra, lay. split; [exact Hal|]. split; [exact Hbeg|].
  assert (Eh1 : enddef_hdr f lay = set_numrecs (set_begins (f_hdr f) (l_begins lay)) 0).
  { unfold enddef_hdr, enddef_numrecs. rewrite Hnew. reflexivity. }
  cbv zeta. rewrite <- Eh1.
  destruct (begins_layout_ok (f_hdr f) _ _ ha ra lay Hwf A1 A3 Hha Hha4 Hra Hra4 Hbeg)
    as (Hinv & _ & Hxsz & Hlen & _).
  assert (Ehl : hdr_len (enddef_hdr f lay) = hdr_len (f_hdr f)).
  { unfold enddef_hdr. rewrite hdr_len_set_numrecs. apply hdr_len_set_begins.
    apply length_eq_Zlen. exact Hlen. }
  split.
  { split; [rewrite Ew; apply znth_put_set_same; exact Hid|]. repeat split; reflexivity. }
  split; [split; [exact Hinv|lia]|].
  intros Hwfh.
  assert (D : disk_has_hdr (get_disk w' (f_slot f)) (enddef_hdr f lay)).
  { rewrite Ew, get_disk_put_set_same by exact Hslot. unfold enddef_new_disk. cbv zeta.
    destruct (h_vars (enddef_hdr f lay)); [exact (has_hdr_write_header _ _ Hwfh)|].
    apply has_hdr_fill; try assumption; lia. }
  pose proof D as (D1 & D2 & D3).
  split; [exact D3|]. split; [exact D1|]. split; [exact D2|].
  split; [intros n Hn; apply header_prefix_decodes; assumption|exact D].
Qed.

(* ====================================================================== *)
(** * D. close then open: the same header comes back                        *)
(* ====================================================================== *)

(* ---------- the header content (what is stored: everything but v_nofill) ---------- *)
Lemma put_list_map_content : forall fmt tag dims vs,
  put_list fmt tag (put_var fmt dims) (map var_content vs) = put_list fmt tag (put_var fmt dims) vs.
Proof.
  intros fmt tag dims vs. destruct vs as [|v vs]; [reflexivity|].
  unfold put_list. cbn [map]. rewrite <- map_cons. rewrite Zlen_map, flat_map_map_comm. reflexivity.
Qed.

Lemma encode_header_content : forall h, encode_header (hdr_content h) = encode_header h.
Proof.
  intros h. unfold encode_header, hdr_content. cbn [h_format h_numrecs h_dims h_gatts h_vars].
  rewrite put_list_map_content. reflexivity.
Qed.

Lemma hdr_len_content : forall h, hdr_len (hdr_content h) = hdr_len h.
Proof.
  intros h. unfold hdr_len, hdr_content. cbn [h_format h_numrecs h_dims h_gatts h_vars].
  rewrite map_map. reflexivity.
Qed.

Lemma wf_hdr_content : forall h, wf_hdr (hdr_content h) = wf_hdr h.
Proof.
  intros h. unfold wf_hdr, hdr_content. cbn [h_format h_numrecs h_dims h_gatts h_vars].
  rewrite Zlen_map. f_equal. induction (h_vars h) as [|v vs IH]; [reflexivity|].
  cbn [map forallb]. rewrite IH. reflexivity.
Qed.

Lemma hdr_wf_content : forall h, hdr_wf (hdr_content h) <-> hdr_wf h.
Proof. intros h. reflexivity. Qed.

Lemma t3of_content : forall h, t3of (hdr_content h) = t3of h.
Proof. intros h. unfold t3of, hdr_content. cbn [h_dims h_vars]. rewrite map_map. reflexivity. Qed.

Lemma map_v_begin_content : forall h, map v_begin (h_vars (hdr_content h)) = map v_begin (h_vars h).
Proof. intros h. unfold hdr_content. cbn [h_vars]. rewrite map_map. reflexivity. Qed.

(** v_nofill plays no part in the layout the library re-derives at open *)
Lemma layout_of_hdr_content : forall h x, layout_of_hdr (hdr_content h) x = layout_of_hdr h x.
Proof.
  intros h x. unfold layout_of_hdr, hdr_content. cbn [h_dims h_vars].
  rewrite !filter_map_comm.
  change (fun x0 : var => negb (is_recvar (h_dims h) (var_content x0)))
    with (fun v : var => negb (is_recvar (h_dims h) v)).
  change (fun x0 : var => is_recvar (h_dims h) (var_content x0)) with (is_recvar (h_dims h)).
  rewrite last_opt_map. rewrite !map_map.
  change (fun x0 : var => var_len (h_dims h) (var_content x0)) with (var_len (h_dims h)).
  change (fun x0 : var => v_begin (var_content x0)) with v_begin.
  destruct (filter (fun v => negb (is_recvar (h_dims h) v)) (h_vars h)) as [|fv fixed];
    destruct (filter (is_recvar (h_dims h)) (h_vars h)) as [|fr recs];
    destruct (h_vars h) as [|v0 vs]; cbn [map option_map]; try reflexivity;
    destruct (last_opt (fv :: fixed)); reflexivity.
Qed.

Definition close_disk (w : world) (f : filest) : disk :=
  match h_vars (f_hdr f) with
  | [] => if negb (f_rdonly f) && (dk_size (disk_of w f) >? l_xsz (f_lay f))
          then mkdisk true (l_xsz (f_lay f))
                      (fun x => if x <? l_xsz (f_lay f) then dk_get (disk_of w f) x else UNDEF)
          else disk_of w f
  | _ => disk_of w f
  end.

Definition close_obs (w : world) (f : filest) : list obs :=
  map (fun r => (r, (if match rk_reqs (get_rank f r) with [] => false | _ => true end
                     then NC_EPENDING else NC_NOERR), fst (dump_slots (get_rank f r))))
      (all_ranks w).

Definition close_world (w : world) (id : Z) (f : filest) : world :=
  put_file (set_disk w (f_slot f) (close_disk w f)) id None.

(** D1.  do_close of a file in data mode whose numrecs need no sync (read-only, or collective
    mode): the file table entry is cleared, the disk kept (truncated to the header when the file
    has no variable). *)
Theorem do_close_data_eq : forall w id f,
  f_indef f = false -> negb (f_rdonly f) && f_indep f = false ->
  znth (w_files w) id None = Some f ->
  do_close w id f = Some (close_world w id f, close_obs w f).
Proof.
  intros w id f Hindef Hsync Hz. unfold do_close. rewrite Hindef. cbv beta iota zeta.
  rewrite Hz. change (NC_NOERR =? NC_NOERR) with true. cbn [negb].
  rewrite Hsync. rewrite Hz. reflexivity.
Qed.

Lemma close_disk_header : forall w f,
  hdr_on_disk w f -> l_xsz (f_lay f) = hdr_len (f_hdr f) ->
  dk_exists (close_disk w f) = true /\
  hdr_len (f_hdr f) <= dk_size (close_disk w f) /\
  dk_read (close_disk w f) 0 (hdr_len (f_hdr f)) = encode_header (f_hdr f).
Proof.
  intros w f Hod Hx. unfold close_disk.
  destruct (h_vars (f_hdr f)) as [|v vs]; [|exact Hod].
  destruct (negb (f_rdonly f) && (dk_size (disk_of w f) >? l_xsz (f_lay f))); [|exact Hod].
  apply (has_hdr_frame _ _ _ Hod); [reflexivity|cbn [dk_size]; lia|].
  intros x Hxr. cbn [dk_get]. replace (x <? l_xsz (f_lay f)) with true by lia. reflexivity.
Qed.

Definition open_file (w : world) (slot mode : Z) (dc : decoded) : filest :=
  mkfile (dc_hdr dc) (layout_of_hdr (dc_hdr dc) (dc_len dc)) false false (mode =? 0) false None false
         (w_hints w) (map (fun _ => rank_init (h_numrecs (dc_hdr dc))) (all_ranks w)) slot false.

Definition open_world (w : world) (slot mode : Z) (dc : decoded) : world :=
  set_hints (set_ids (set_files w (store_file (w_files w) (open_file w slot mode dc)))
                     (zupd (w_ids w) slot (first_free (w_files w) 0))) no_align.

Theorem do_open_eq : forall w slot mode dc,
  dk_exists (get_disk w slot) = true ->
  decode (dk_read (get_disk w slot) 0 (Z.min (dk_size (get_disk w slot)) 65536)) = Some dc ->
  do_open w slot mode =
    Some (open_world w slot mode dc, same_all w NC_NOERR [TZ (first_free (w_files w) 0)]).
Proof.
  intros w slot mode dc He Hd. unfold do_open. cbv zeta. rewrite He. cbn [negb]. rewrite Hd.
  reflexivity.
Qed.

Lemma znth_open_world : forall w slot mode dc,
  znth (w_files (open_world w slot mode dc)) (first_free (w_files w) 0) None
  = Some (open_file w slot mode dc).
Proof. intros. unfold open_world. cbn [set_hints set_ids set_files w_files]. apply znth_store_file. Qed.

Lemma get_disk_open_world : forall w slot mode dc s,
  get_disk (open_world w slot mode dc) s = get_disk w s.
Proof. reflexivity. Qed.

Lemma lookup_open_world : forall w slot mode dc, 0 <= slot < Zlen (w_ids w) ->
  lookup_file (open_world w slot mode dc) slot
  = Some (first_free (w_files w) 0, open_file w slot mode dc).
Proof.
  intros w slot mode dc Hs. unfold lookup_file.
  change (w_ids (open_world w slot mode dc)) with (zupd (w_ids w) slot (first_free (w_files w) 0)).
  rewrite znth_zupd_same by exact Hs. pose proof (first_free_0_bounds (w_files w)) as Hb.
  replace (first_free (w_files w) 0 <? 0) with false by lia.
  rewrite znth_open_world. reflexivity.
Qed.

Lemma first_free_le_none : forall l i j, 0 <= j < Zlen l -> znth l j None = None ->
  first_free l i <= i + j.
Proof.
  induction l as [|[x|] l IH]; intros i j Hj Hn.
  - rewrite Zlen_nil in Hj. lia.
  - rewrite Zlen_cons in Hj. cbn [first_free].
    destruct (Z.eq_dec j 0) as [E|E]; [subst j; discriminate Hn|].
    rewrite znth_cons_pos in Hn by exact E. specialize (IH (i + 1) (j - 1) ltac:(lia) Hn). lia.
  - cbn [first_free]. lia.
Qed.

(** the header found on disk by open: whenever the invariant holds and the header fits the
    64 KiB the model reads *)
Lemma open_decodes_header : forall d h, wf_hdr h = true ->
  dk_read d 0 (hdr_len h) = encode_header h -> hdr_len h <= dk_size d -> hdr_len h <= 65536 ->
  decode (dk_read d 0 (Z.min (dk_size d) 65536)) = Some (decoded_of h).
Proof. intros d h Hwf Hrd Hs Hk. apply header_prefix_decodes; [exact Hwf|exact Hrd|lia]. Qed.

(** D2.  close; open.  For a file in data mode (no numrecs sync pending) whose header is on disk:
    do_close succeeds with the explicit world [close_world]; do_open on the same slot then
    succeeds and the file it stores (at the first free id, which is at most the id just
    released) has header [hdr_content (f_hdr f)] (= the old header with every v_nofill reset),
    the layout re-derived from that header, data mode, collective, same slot; the header is
    still on disk for the reopened file. *)
Theorem close_open_same_header : forall w id f mode,
  f_indef f = false -> negb (f_rdonly f) && f_indep f = false ->
  znth (w_files w) id None = Some f ->
  wf_hdr (f_hdr f) = true -> hdr_on_disk w f -> hdr_len (f_hdr f) <= 65536 ->
  l_xsz (f_lay f) = hdr_len (f_hdr f) ->
  0 <= f_slot f < Zlen (w_disks w) -> 0 <= id < Zlen (w_files w) ->
  let w2 := close_world w id f in
  let id' := first_free (w_files w2) 0 in
  let dc := decoded_of (f_hdr f) in
  let w3 := open_world w2 (f_slot f) mode dc in
  let f3 := open_file w2 (f_slot f) mode dc in
  do_close w id f = Some (w2, close_obs w f) /\
  do_open w2 (f_slot f) mode = Some (w3, same_all w2 NC_NOERR [TZ id']) /\
  0 <= id' <= id /\
  znth (w_files w3) id' None = Some f3 /\
  f_hdr f3 = hdr_content (f_hdr f) /\
  f_lay f3 = layout_of_hdr (hdr_content (f_hdr f)) (hdr_len (f_hdr f)) /\
  f_lay f3 = layout_of_hdr (f_hdr f) (hdr_len (f_hdr f)) /\
  f_indef f3 = false /\ f_indep f3 = false /\ f_slot f3 = f_slot f /\
  f_rdonly f3 = (mode =? 0) /\ f_old f3 = None /\ f_isnew f3 = false /\
  wf_hdr (f_hdr f3) = true /\ l_xsz (f_lay f3) = hdr_len (f_hdr f3) /\
  hdr_on_disk w3 f3.
Proof.
  intros w id f mode Hindef Hsync Hz Hwf Hod Hk Hx Hslot Hid w2 id' dc w3 f3.
  destruct (close_disk_header w f Hod Hx) as (C1 & C2 & C3).
  assert (Ed2 : get_disk w2 (f_slot f) = close_disk w f).
  { unfold w2, close_world. apply get_disk_put_set_same. exact Hslot. }
  assert (Edec : decode (dk_read (get_disk w2 (f_slot f)) 0
                    (Z.min (dk_size (get_disk w2 (f_slot f))) 65536)) = Some dc).
  { rewrite Ed2. apply open_decodes_header; assumption. }
  assert (Elen : dc_len dc = hdr_len (f_hdr f)).
  { unfold dc, decoded_of. cbn [dc_len]. symmetry. apply hdr_len_encode. exact Hwf. }
  assert (Elay : f_lay f3 = layout_of_hdr (hdr_content (f_hdr f)) (hdr_len (f_hdr f))).
  { unfold f3, open_file. cbn [f_lay]. rewrite Elen. reflexivity. }
  split; [apply do_close_data_eq; assumption|].
  split. { apply do_open_eq; [rewrite Ed2; exact C1|exact Edec]. }
  split.
  { pose proof (first_free_0_bounds (w_files w2)) as Hb. split; [lia|].
    assert (Hl : Zlen (w_files w2) = Zlen (w_files w)).
    { unfold w2, close_world. rewrite Zlen_w_files_put_file. reflexivity. }
    pose proof (first_free_le_none (w_files w2) 0 id ltac:(lia)) as Hf.
    unfold id'. apply Hf. unfold w2, close_world. apply znth_put_set_same. exact Hid. }
  split; [apply znth_open_world|].
  split; [reflexivity|]. split; [exact Elay|].
  split; [rewrite Elay; apply layout_of_hdr_content|].
  do 6 (split; [reflexivity|]).
  split; [change (f_hdr f3) with (hdr_content (f_hdr f)); rewrite wf_hdr_content; exact Hwf|].
  split.
  { rewrite Elay. change (f_hdr f3) with (hdr_content (f_hdr f)). rewrite hdr_len_content.
    rewrite layout_of_hdr_content. unfold layout_of_hdr. cbv zeta.
    destruct (h_vars (f_hdr f)); [reflexivity|].
    destruct (filter (is_recvar (h_dims (f_hdr f))) (v :: l)); reflexivity. }
  unfold hdr_on_disk, disk_of. change (f_slot f3) with (f_slot f).
  change (f_hdr f3) with (hdr_content (f_hdr f)).
  change (get_disk w3 (f_slot f)) with (get_disk w2 (f_slot f)).
  rewrite Ed2, hdr_len_content, encode_header_content.
  split; [exact C1|]. split; [exact C2|exact C3].
Qed.

(** the reopened layout is the layout enddef computed (begin_rec being re-derived as the end of
    the fixed section when there is no record variable) *)
Corollary reopened_layout : forall h lay, hdr_wf h ->
  lay_inv (t3of h) lay -> map v_begin (h_vars h) = l_begins lay -> h_vars h <> [] ->
  (forall v, In v (rec_vars h) -> 0 < var_len (h_dims h) v) ->
  l_xsz lay = hdr_len h ->
  layout_of_hdr (hdr_content h) (hdr_len h) =
    mklayout (l_xsz lay) (l_begin_var lay)
             (match rec_vars h with
              | [] => last_end (l_begin_var lay) (fixed_pairs h)
              | _ => l_begin_rec lay end)
             (l_recsize lay) (l_begins lay) /\
  lay_inv (t3of (hdr_content h)) (layout_of_hdr (hdr_content h) (hdr_len h)).
Proof.
  intros h lay Hwf Hinv Hbl Hne Hpos Hx.
  destruct (layout_of_hdr_agrees h lay Hwf Hinv Hbl Hne Hpos) as [E1 E2].
  rewrite layout_of_hdr_content, t3of_content, <- Hx. split; [exact E1|exact E2].
Qed.

(** D3.  create ... enddef; close; open on that slot: the header read back is the content of the
    header enddef wrote. *)
Theorem enddef_close_open : forall w id f ea w' mode,
  f_old f = None -> f_indef f = true -> f_isnew f = true -> l_begin_rec (f_lay f) = 0 ->
  hdr_wf (f_hdr f) ->
  0 <= env_h_align (f_align f) -> 0 <= env_v_align (f_align f) -> 0 <= env_r_align (f_align f) ->
  0 <= f_slot f < Zlen (w_disks w) -> 0 <= id < Zlen (w_files w) -> 1 <= w_nprocs w ->
  do_enddef w id f ea = Some (w', NC_NOERR) ->
  exists lay,
    let h1 := set_numrecs (set_begins (f_hdr f) (l_begins lay)) 0 in
    let f1 := enddef_file f lay in
    znth (w_files w') id None = Some f1 /\ f_hdr f1 = h1 /\ f_lay f1 = lay /\
    lay_inv (t3of h1) lay /\ map v_begin (h_vars h1) = l_begins lay /\
    (wf_hdr h1 = true -> hdr_len h1 <= 65536 ->
     let w2 := close_world w' id f1 in
     let id' := first_free (w_files w2) 0 in
     let w3 := open_world w2 (f_slot f) mode (decoded_of h1) in
     let f3 := open_file w2 (f_slot f) mode (decoded_of h1) in
     do_close w' id f1 = Some (w2, close_obs w' f1) /\
     do_open w2 (f_slot f) mode = Some (w3, same_all w2 NC_NOERR [TZ id']) /\
     0 <= id' <= id /\
     znth (w_files w3) id' None = Some f3 /\
     f_hdr f3 = hdr_content h1 /\
     f_lay f3 = layout_of_hdr h1 (hdr_len h1) /\
     f_indef f3 = false /\ f_slot f3 = f_slot f /\
     hdr_on_disk w3 f3 /\
     (h_vars (f_hdr f) <> [] ->
      (forall v, In v (rec_vars h1) -> 0 < var_len (h_dims h1) v) ->
      f_lay f3 = mklayout (l_xsz lay) (l_begin_var lay)
                   (match rec_vars h1 with
                    | [] => last_end (l_begin_var lay) (fixed_pairs h1)
                    | _ => l_begin_rec lay end)
                   (l_recsize lay) (l_begins lay))).
Proof.
  intros w id f ea w' mode Hold Hindef Hnew Hbr0 Hwf Hah Hav Har Hslot Hid Hnp Hed.
  destruct (enddef_writes_header w id f ea w' Hold Hindef Hnew Hbr0 Hwf Hah Hav Har Hslot Hid Hnp Hed)
    as (ha & va & ra & lay & Hal & Hbeg & H). cbv zeta in H.
  destruct H as ((Hz & Eh & El & F1 & F2 & F3 & F4 & F5 & F6) & (Hinv & Hxs) & Hdisk).
  exists lay. cbv zeta.
  pose proof (proj1 (lay_inv_index (f_hdr f) lay Hwf Hinv)) as Hlen.
  destruct (new_header_lay_inv (f_hdr f) lay 0 Hinv) as [Hinv1 Hvb]. unfold new_header in Hinv1, Hvb.
  split; [exact Hz|]. split; [exact Eh|]. split; [exact El|]. split; [exact Hinv1|].
  split; [exact Hvb|].
  intros Hwfh Hk.
  destruct (Hdisk Hwfh) as (_ & _ & _ & _ & Hod).
  destruct (do_enddef_new_inv w id f ea w' Hindef Hold Hed) as (_ & _ & _ & lay0 & _ & _ & _ & _ & _ & Ew).
  assert (Hd' : Zlen (w_disks w') = Zlen (w_disks w)) by (rewrite Ew; autorewrite with world; reflexivity).
  assert (Hf' : Zlen (w_files w') = Zlen (w_files w)) by (rewrite Ew; autorewrite with world; reflexivity).
  pose proof (close_open_same_header w' id (enddef_file f lay) mode F1
                ltac:(rewrite F2; apply andb_false_r) Hz
                ltac:(rewrite Eh; exact Hwfh) Hod ltac:(rewrite Eh; exact Hk)
                ltac:(rewrite El, Eh; exact Hxs)
                ltac:(rewrite F5, Hd'; exact Hslot) ltac:(rewrite Hf'; exact Hid)) as H.
  cbv zeta in H. rewrite Eh, F5 in H.
  destruct H as (G1 & G2 & G3 & G4 & G5 & G6 & G7 & G8 & G9 & G10 & G11 & G12 & G13 & G14 & G15 & G16).
  split; [exact G1|]. split; [exact G2|]. split; [exact G3|]. split; [exact G4|].
  split; [exact G5|]. split; [exact G7|]. split; [exact G8|]. split; [exact G10|].
  split; [exact G16|].
  intros Hne Hpos. rewrite G6.
  set (h1 := set_numrecs (set_begins (f_hdr f) (l_begins lay)) 0) in *.
  assert (Hne1 : h_vars h1 <> []).
  { intros C. apply (f_equal (map v_begin)) in C. rewrite Hvb in C. cbn [map] in C.
    rewrite C in Hlen. cbn [length] in Hlen. destruct (h_vars (f_hdr f)); [apply Hne; reflexivity|discriminate Hlen]. }
  exact (proj1 (reopened_layout h1 lay Hwf Hinv1 Hvb Hne1 Hpos Hxs)).
Qed.

(* ====================================================================== *)
(** * E. enddef after a redefinition (C06 at interpreter level)             *)
(* ====================================================================== *)

(** E1.  do_enddef after a redef (saved old header oh, old layout ol): the disk is
    [enddef_redef_disk] = data movement, header write, fill of the new variables over the
    h_numrecs oh existing records. *)
Theorem redef_enddef_disk : forall w id f ea oh ol ha va ra lay,
  f_indef f = true -> f_old f = Some (oh, ol) ->
  enddef_args_ok ea ->
  check_vlens (f_hdr f) = NC_NOERR ->
  resolve_align (f_align f) ea (Zlen (h_vars (f_hdr f)) - num_rec_vars oh) false = (ha, va, ra) ->
  begins (f_hdr f) (e_h_minfree ea) (e_v_minfree ea) ha ra (redef_old oh ol) (l_begin_rec (f_lay f))
    = Some lay ->
  fill_guard (Zlen (h_vars oh)) (enddef_hdr f lay) = true ->
  do_enddef w id f ea =
    Some (put_file (set_disk w (f_slot f) (enddef_redef_disk w f oh ol lay)) id
                   (Some (enddef_file f lay)), NC_NOERR).
Proof.
  intros w id f ea oh ol ha va ra lay Hindef Hold Hargs Hvl Hal Hbeg Hguard.
  apply (do_enddef_ok w id f ea _ Hindef). unfold enddef_guards. rewrite Hold.
  exists ha, va, ra, lay. auto 10.
Qed.

Theorem redef_enddef_inv : forall w id f ea oh ol w',
  f_indef f = true -> f_old f = Some (oh, ol) ->
  do_enddef w id f ea = Some (w', NC_NOERR) ->
  exists ha va ra lay,
    enddef_args_ok ea /\
    check_vlens (f_hdr f) = NC_NOERR /\
    resolve_align (f_align f) ea (Zlen (h_vars (f_hdr f)) - num_rec_vars oh) false = (ha, va, ra) /\
    begins (f_hdr f) (e_h_minfree ea) (e_v_minfree ea) ha ra (redef_old oh ol) (l_begin_rec (f_lay f))
      = Some lay /\
    fill_guard (Zlen (h_vars oh)) (enddef_hdr f lay) = true /\
    w' = put_file (set_disk w (f_slot f) (enddef_redef_disk w f oh ol lay)) id (Some (enddef_file f lay)).
Proof.
  intros w id f ea oh ol w' Hindef Hold H.
  apply (do_enddef_ok w id f ea w' Hindef) in H. unfold enddef_guards in H. rewrite Hold in H. exact H.
Qed.

Section RedefExec.
  Variables (w : world) (f : filest) (oh : hdr) (ol lay : layout) (hm vm ha ra : Z).
  Let h := f_hdr f.
  Let numrecs := enddef_numrecs f.
  Let h1 := enddef_hdr f lay.
  Let d0 := get_disk w (f_slot f).
  Let d3 := enddef_redef_disk w f oh ol lay.
  Let nold := Zlen (h_vars oh).
  Hypothesis Hwf : hdr_wf h.
  Hypothesis Hhm : 0 <= hm.
  Hypothesis Hvm : 0 <= vm.
  Hypothesis Hha : 0 < ha.
  Hypothesis Hra : 4 <= ra.
  Hypothesis Hra4 : ra mod 4 = 0.
  Hypothesis Hinv : lay_inv (t3of oh) ol.
  Hypothesis Hext : hdr_extends oh h.
  Hypothesis Hbeg : begins h hm vm ha ra (redef_old oh ol) (l_begin_rec ol) = Some lay.
  Hypothesis Hnp : 1 <= w_nprocs w.
  Hypothesis Hu : 1 <= w_move_unit w.
  Hypothesis Hnr : 0 <= numrecs.
  Hypothesis Hwfh : wf_hdr h1 = true.

  (* "byte x is outside what the fill of the new variables may write" *)
  Definition fill_misses (x : Z) : Prop :=
    forall v, In v (zskipn nold (h_vars h1)) -> v_nofill v = false ->
      vxsz v = Zlen (var_fill_bytes v) /\ ~ in_fill_extent h1 lay (h_numrecs oh) v x.

  Lemma redef_fill_frame : forall x, fill_misses x ->
    dk_get d3 x =
    dk_get (enddef_disk d0 (w_nprocs w) (w_move_unit w) numrecs oh h ol lay) x.
  Proof.
    intros x Hm. unfold d3, enddef_redef_disk. fold h numrecs d0. cbv zeta.
    destruct (h_vars h) as [|v0 vs0]; [reflexivity|].
    apply do_fill_frame_extent; [exact Hnp|]. exact Hm.
  Qed.

  (** E2 (general form).  Every byte of every old variable that the fill of the new variables
      misses is found at its new place with its old value. *)
  Theorem redef_enddef_preserves_gen :
    forall i, 0 <= i < nold ->
      let ov := znth (h_vars oh) i dv in
      let len := var_len (h_dims oh) ov in
      let ob := znth (l_begins ol) i 0 in
      let nb := znth (l_begins lay) i 0 in
      (is_recvar (h_dims oh) ov = false ->
         forall o, 0 <= o < len -> fill_misses (nb + o) ->
           dk_get d3 (nb + o) = dk_get d0 (ob + o)) /\
      (is_recvar (h_dims oh) ov = true ->
         nb - l_begin_rec lay = ob - l_begin_rec ol /\
         forall r o, 0 <= r < numrecs -> 0 <= o < len ->
           (ob - l_begin_rec ol) + o < l_recsize ol ->
           fill_misses (nb + r * l_recsize lay + o) ->
           dk_get d3 (nb + r * l_recsize lay + o) = dk_get d0 (ob + r * l_recsize ol + o)).
  Proof.
    intros i Hi ov len ob nb.
    pose proof (redef_preserves_data oh h ol lay hm vm ha ra d0 (w_nprocs w) (w_move_unit w) numrecs
                  Hwf Hhm Hvm Hha Hra Hra4 Hinv Hext Hbeg ltac:(lia) ltac:(lia) Hnr Hwfh i Hi) as [P1 P2].
    split.
    - intros Hk o Ho Hm. rewrite (redef_fill_frame _ Hm). exact (P1 Hk o Ho).
    - intros Hk. destruct (P2 Hk) as [Q1 Q2]. split; [exact Q1|].
      intros r o Hr Ho Hin Hm. rewrite (redef_fill_frame _ Hm). exact (Q2 r o Hr Ho Hin).
  Qed.

  (* the fill value of every new fill-mode variable has the size of one element
     (fill_att_ok + wf_att when _FillValue is present, the default fill value otherwise) *)
  Hypothesis fill_len_ok :
    forall v, In v (zskipn nold (h_vars h1)) -> v_nofill v = false -> Zlen (var_fill_bytes v) = vxsz v.

  Let Facts := begins_redef_facts oh h ol lay hm vm ha ra Hwf Hhm Hvm Hha Hra Hra4 Hinv Hext Hbeg.
  Let Hinv' := begins_lay_inv_redef oh h ol lay hm vm ha ra Hwf Hhm Hvm Hha Hra Hra4 Hinv Hext Hbeg.

  (** the fill misses every byte of every old FIXED variable: new fixed variables lie after all
      old fixed variables, new record variables at or after begin_rec *)
  Lemma fill_misses_old_fixed : forall i o, 0 <= i < nold ->
    is_recvar (h_dims oh) (znth (h_vars oh) i dv) = false ->
    0 <= o < var_len (h_dims oh) (znth (h_vars oh) i dv) ->
    fill_misses (znth (l_begins lay) i 0 + o).
  Proof.
    intros i o Hi Hk Ho v Hv Hfm. split; [symmetry; exact (fill_len_ok v Hv Hfm)|].
    unfold in_fill_extent. rewrite (fill_len_ok v Hv Hfm).
    destruct Facts as (Fz & _ & Ff & _ & _ & _ & _ & _ & _ & Frs0 & Frs & _).
    specialize (Fz i Hi). specialize (Ff i Hi). rewrite (znth_vsof oh i Hi) in Fz, Ff.
    cbn [fst snd] in Ff. destruct (Ff Hk) as (_ & _ & _ & _ & _ & F6).
    destruct (new_var_place h lay numrecs nold v Hwf Hinv' (Zlen_nonneg _) Hv) as (j & Hj & _ & P).
    change (h_dims h1) with (h_dims h). destruct (is_recvar (h_dims h) v).
    - (* new record variable: at or after begin_rec *)
      destruct P as (Eb & R0 & _). intros (recno & Hrn & Hlo & _).
      assert (0 <= l_recsize lay * recno) by nia. lia.
    - (* new fixed variable: after old fixed variable i *)
      destruct P as (_ & P). intros [Hlo _].
      specialize (P i ltac:(lia) ltac:(rewrite Fz; exact Hk)). rewrite Fz in P. cbn [snd] in P. lia.
  Qed.

  (** E2, fixed variables: no extra hypothesis about the fill *)
  Theorem redef_enddef_preserves_fixed :
    forall i, 0 <= i < nold ->
      is_recvar (h_dims oh) (znth (h_vars oh) i dv) = false ->
      forall o, 0 <= o < var_len (h_dims oh) (znth (h_vars oh) i dv) ->
        dk_get d3 (znth (l_begins lay) i 0 + o) = dk_get d0 (znth (l_begins ol) i 0 + o).
  Proof.
    intros i Hi Hk o Ho.
    exact (proj1 (redef_enddef_preserves_gen i Hi) Hk o Ho (fill_misses_old_fixed i o Hi Hk Ho)).
  Qed.
  (** ... and every byte of every old RECORD variable, in every existing record: new fixed
      variables end at or before begin_rec; a new record variable occupies, in each record, a
      slot after the slots of all the old record variables and inside the record *)
  Lemma fill_misses_old_rec : forall i r o, 0 <= i < nold ->
    is_recvar (h_dims oh) (znth (h_vars oh) i dv) = true ->
    0 <= r -> 0 <= o < var_len (h_dims oh) (znth (h_vars oh) i dv) ->
    (znth (l_begins ol) i 0 - l_begin_rec ol) + o < l_recsize ol ->
    fill_misses (znth (l_begins lay) i 0 + r * l_recsize lay + o).
  Proof.
    intros i r o Hi Hk Hr Ho Hin v Hv Hfm. split; [symmetry; exact (fill_len_ok v Hv Hfm)|].
    unfold in_fill_extent. rewrite (fill_len_ok v Hv Hfm).
    destruct Facts as (_ & _ & _ & _ & Fr & _ & _ & _ & _ & Frs0 & Frs & _).
    specialize (Fr i Hi). rewrite (znth_vsof oh i Hi) in Fr. cbn [fst snd] in Fr.
    destruct (Fr Hk) as (R1 & R2 & R3 & R4).
    destruct (new_var_place h lay numrecs nold v Hwf Hinv' (Zlen_nonneg _) Hv) as (j & Hj & _ & P).
    change (new_header h lay numrecs) with h1 in P.
    set (R := l_recsize lay) in *. set (U := nelems h1 v * vxsz v) in *.
    change (h_dims h1) with (h_dims h). destruct (is_recvar (h_dims h) v).
    - (* new record variable: its slot starts after the slots of the old ones, and ends inside
         the record *)
      destruct P as (Eb & _ & Hfit). intros (recno & Hrn & Hlo & Hhi).
      pose proof (roff_new_ge oh h j Hwf Hext ltac:(lia)) as Hge.
      set (a := roff (vsof oh) i) in *. set (b := roff (vsof h) j) in *.
      assert (A1 : b + R * recno <= a + o + r * R) by lia.
      assert (A2 : a + o + r * R < b + R * recno + U) by lia.
      assert (A3 : a + o < R) by lia.
      assert (A4 : a + o < b) by lia.
      assert (A5 : 0 <= R) by lia.
      assert (A6 : 0 <= a + o) by lia.
      clear - A1 A2 A3 A4 A5 A6 Hfit Hr Hrn.
      destruct (Z.lt_trichotomy r recno) as [Hc1|[Hc1|Hc1]].
      + assert (0 <= R * (recno - r - 1)) by nia. lia.
      + subst r. lia.
      + assert (0 <= R * (r - recno - 1)) by nia. lia.
    - (* new fixed variable: ends at or before begin_rec *)
      destruct P as (Hend & _). intros [_ Hhi]. assert (0 <= r * R) by nia. lia.
  Qed.

  (** E2.  After ncmpi_redef + new definitions + ncmpi_enddef as the interpreter runs it
      (data movement, header write, fill of the new fill-mode variables), every byte of every
      old variable is found at its new place with its old value. *)
  Theorem redef_enddef_preserves :
    forall i, 0 <= i < nold ->
      let ov := znth (h_vars oh) i dv in
      let len := var_len (h_dims oh) ov in
      let ob := znth (l_begins ol) i 0 in
      let nb := znth (l_begins lay) i 0 in
      (is_recvar (h_dims oh) ov = false ->
         forall o, 0 <= o < len -> dk_get d3 (nb + o) = dk_get d0 (ob + o)) /\
      (is_recvar (h_dims oh) ov = true ->
         nb - l_begin_rec lay = ob - l_begin_rec ol /\
         forall r o, 0 <= r < numrecs -> 0 <= o < len ->
           (ob - l_begin_rec ol) + o < l_recsize ol ->
           dk_get d3 (nb + r * l_recsize lay + o) = dk_get d0 (ob + r * l_recsize ol + o)).
  Proof.
    intros i Hi ov len ob nb. destruct (redef_enddef_preserves_gen i Hi) as [P1 P2]. split.
    - intros Hk o Ho. exact (P1 Hk o Ho (fill_misses_old_fixed i o Hi Hk Ho)).
    - intros Hk. destruct (P2 Hk) as [Q1 Q2]. split; [exact Q1|].
      intros r o Hr Ho Hin. apply (Q2 r o Hr Ho Hin).
      apply fill_misses_old_rec; try assumption. lia.
  Qed.
End RedefExec.

(** E3.  The statement about the interpreter run: a successful do_enddef after a redefinition
    (old header oh, old layout ol satisfying the layout invariant, the new header extending the
    old one) preserves every byte of every old variable, whatever the number of processes, the
    move unit, the alignment hints and arguments, and the fill modes of the new variables. *)
Theorem redef_enddef_run_preserves : forall w id f ea oh ol w',
  f_indef f = true -> f_old f = Some (oh, ol) -> l_begin_rec (f_lay f) = l_begin_rec ol ->
  hdr_wf (f_hdr f) ->
  0 <= env_h_align (f_align f) -> 0 <= env_v_align (f_align f) -> 0 <= env_r_align (f_align f) ->
  lay_inv (t3of oh) ol -> hdr_extends oh (f_hdr f) ->
  1 <= w_nprocs w -> 1 <= w_move_unit w -> 0 <= enddef_numrecs f ->
  0 <= f_slot f < Zlen (w_disks w) -> 0 <= id < Zlen (w_files w) ->
  do_enddef w id f ea = Some (w', NC_NOERR) ->
  exists lay,
    znth (w_files w') id None = Some (enddef_file f lay) /\
    lay_inv (t3of (f_hdr f)) lay /\
    (wf_hdr (enddef_hdr f lay) = true ->
     let d0 := get_disk w (f_slot f) in
     let d3 := get_disk w' (f_slot f) in
     hdr_on_disk w' (enddef_file f lay) /\
     forall i, 0 <= i < Zlen (h_vars oh) ->
       let ov := znth (h_vars oh) i dv in
       let len := var_len (h_dims oh) ov in
       let ob := znth (l_begins ol) i 0 in
       let nb := znth (l_begins lay) i 0 in
       (is_recvar (h_dims oh) ov = false ->
          forall o, 0 <= o < len -> dk_get d3 (nb + o) = dk_get d0 (ob + o)) /\
       (is_recvar (h_dims oh) ov = true ->
          nb - l_begin_rec lay = ob - l_begin_rec ol /\
          forall r o, 0 <= r < enddef_numrecs f -> 0 <= o < len ->
            (ob - l_begin_rec ol) + o < l_recsize ol ->
            dk_get d3 (nb + r * l_recsize lay + o) = dk_get d0 (ob + r * l_recsize ol + o))).
Proof.
  intros w id f ea oh ol w' Hindef Hold Hbr Hwf Hah Hav Har Hinv Hext Hnp Hu Hnr Hslot Hid Hed.
  destruct (redef_enddef_inv w id f ea oh ol w' Hindef Hold Hed)
    as (ha & va & ra & lay & Hargs & Hvl & Hal & Hbeg & Hg & Ew).
  destruct Hargs as (A1 & A2 & A3 & A4).
  destruct (resolve_align_ok (f_align f) ea _ false ha va ra Hah Hav Har A2 A4 Hal)
    as ((Hha & Hha4) & _ & (Hra & Hra4)).
  rewrite Hbr in Hbeg.
  exists lay.
  assert (Ed : get_disk w' (f_slot f) = enddef_redef_disk w f oh ol lay).
  { rewrite Ew. apply get_disk_put_set_same. exact Hslot. }
  pose proof (begins_lay_inv_redef oh (f_hdr f) ol lay _ _ ha ra Hwf A1 A3 ltac:(lia) Hra Hra4 Hinv Hext Hbeg)
    as Hinv'.
  split; [rewrite Ew; apply znth_put_set_same; exact Hid|]. split; [exact Hinv'|].
  intros Hwfh. cbv zeta. rewrite Ed.
  pose proof (fill_len_ok_of_guard (enddef_hdr f lay) (Zlen (h_vars oh)) Hwfh Hg) as Hfl.
  split.
  2:{ intros i Hi.
      exact (redef_enddef_preserves w f oh ol lay _ _ ha ra Hwf A1 A3 ltac:(lia) Hra Hra4 Hinv Hext Hbeg
               Hnp Hu Hnr Hwfh Hfl i Hi). }
  change (disk_has_hdr (get_disk w' (f_slot f)) (enddef_hdr f lay)). rewrite Ed.
  unfold enddef_redef_disk. cbv zeta.
  destruct (h_vars (f_hdr f)); [exact (has_hdr_write_header _ _ Hwfh)|].
  apply (has_hdr_fill (moved_disk (get_disk w (f_slot f)) (w_nprocs w) (w_move_unit w) (enddef_numrecs f)
                         oh (f_hdr f) ol lay)); try assumption.
  - exact (proj2 (begins_length _ _ _ _ _ _ _ _ Hbeg)).
  - apply Zlen_nonneg.
Qed.

(* ====================================================================== *)
(** * F. Examples: a concrete session run with the interpreter              *)
(* ====================================================================== *)

Lemma hdr_wf_b : forall h, forallb (fun d => 0 <=? d_size d) (h_dims h) = true -> hdr_wf h.
Proof.
  intros h H. unfold hdr_wf. apply Forall_forall. intros d Hd.
  rewrite forallb_forall in H. specialize (H d Hd). lia.
Qed.

Definition run (w : world) (ops : list op) : world :=
  fold_left (fun w o => fst (exec_all w o)) ops w.

Definition file_at (w : world) (slot : Z) : filest :=
  match lookup_file w slot with
  | Some (_, f) => f
  | None => mkfile (mkhdr 0 0 [] [] []) empty_layout false false false false None false no_align [] 0 true
  end.

(* 2 processes; slot 0: CDF-1 file, dims t (unlimited), x = 5; fill mode on;
   a : int a(x) fill mode;  r : short r(t, x) fill mode;  b : double b(x) no-fill *)
Definition ex_ops_def : list op :=
  [ OCreate 0 1 1; ODefDim 0 [116] 0; ODefDim 0 [120] 5; OSetFill 0 0;
    ODefVar 0 [97] 4 [1]; ODefVar 0 [114] 3 [0; 1]; ODefVar 0 [98] 6 [1];
    ODefVarFill 0 2 1 0 0 ].

Definition ex_wdef : world := Eval vm_compute in run (world0 2) ex_ops_def.
Definition ex_fdef : filest := Eval vm_compute in file_at ex_wdef 0.
Definition ex_ea : enddef_args := mkeargs 0 0 0 0.

Example ex_lookup_def : lookup_file ex_wdef 0 = Some (0, ex_fdef).
Proof. vm_compute. reflexivity. Qed.

Example ex_fdef_vars :
  map (fun v => (v_name v, v_type v, v_dimids v, v_nofill v)) (h_vars (f_hdr ex_fdef)) =
  [([97], 4, [1], false); ([114], 3, [0; 1], false); ([98], 6, [1], true)].
Proof. vm_compute. reflexivity. Qed.

Definition ex_lay1 : layout := mklayout 168 512 572 10 [512; 572; 532].

(* every hypothesis of do_enddef_new_eq *)
Example ex_new_indef : f_indef ex_fdef = true. Proof. reflexivity. Qed.
Example ex_new_old : f_old ex_fdef = None. Proof. reflexivity. Qed.
Example ex_new_isnew : f_isnew ex_fdef = true. Proof. reflexivity. Qed.
Example ex_new_br0 : l_begin_rec (f_lay ex_fdef) = 0. Proof. reflexivity. Qed.
Example ex_new_args : enddef_args_ok ex_ea. Proof. unfold enddef_args_ok, ex_ea; cbn; lia. Qed.
Example ex_new_vlens : check_vlens (f_hdr ex_fdef) = NC_NOERR. Proof. vm_compute. reflexivity. Qed.
Example ex_new_align :
  resolve_align (f_align ex_fdef) ex_ea (Zlen (h_vars (f_hdr ex_fdef))) true = (512, 4, 4).
Proof. vm_compute. reflexivity. Qed.
Example ex_new_begins :
  begins (f_hdr ex_fdef) (e_h_minfree ex_ea) (e_v_minfree ex_ea) 512 4 None (l_begin_rec (f_lay ex_fdef))
  = Some ex_lay1.
Proof. vm_compute. reflexivity. Qed.
Example ex_new_guard : fill_guard 0 (enddef_hdr ex_fdef ex_lay1) = true.
Proof. vm_compute. reflexivity. Qed.

(* B on the instance: the interpreter's enddef is the spelled-out world *)
Definition ex_h1 : hdr := enddef_hdr ex_fdef ex_lay1.
Definition ex_f1 : filest := enddef_file ex_fdef ex_lay1.
Definition ex_wdat : world :=
  put_file (set_disk ex_wdef (f_slot ex_fdef) (enddef_new_disk ex_wdef ex_fdef ex_lay1)) 0 (Some ex_f1).

Example ex_enddef_eq : do_enddef ex_wdef 0 ex_fdef ex_ea = Some (ex_wdat, NC_NOERR).
Proof.
  exact (do_enddef_new_eq ex_wdef 0 ex_fdef ex_ea 512 4 4 ex_lay1 ex_new_indef ex_new_old
           ex_new_args ex_new_vlens ex_new_align ex_new_begins ex_new_guard).
Qed.

(* ... and it is what exec_all (OEnddef 0) runs *)
Example ex_exec_enddef :
  lookup_file (fst (exec_all ex_wdef (OEnddef 0))) 0 = Some (0, ex_f1) /\
  snd (exec_all ex_wdef (OEnddef 0)) = [(0, NC_NOERR, []); (1, NC_NOERR, [])].
Proof. vm_compute. split; reflexivity. Qed.

(* the remaining hypotheses of enddef_writes_header *)
Example ex_new_hdr_wf : hdr_wf (f_hdr ex_fdef).
Proof. apply hdr_wf_b. vm_compute. reflexivity. Qed.
Example ex_new_hints :
  0 <= env_h_align (f_align ex_fdef) /\ 0 <= env_v_align (f_align ex_fdef) /\
  0 <= env_r_align (f_align ex_fdef).
Proof. vm_compute. repeat split; discriminate. Qed.
Example ex_new_slot : 0 <= f_slot ex_fdef < Zlen (w_disks ex_wdef).
Proof. vm_compute. split; [discriminate|reflexivity]. Qed.
Example ex_new_id : 0 <= 0 < Zlen (w_files ex_wdef).
Proof. vm_compute. split; [discriminate|reflexivity]. Qed.
Example ex_new_np : 1 <= w_nprocs ex_wdef.
Proof. vm_compute. discriminate. Qed.
Example ex_new_wf_h1 : wf_hdr (set_numrecs (set_begins (f_hdr ex_fdef) (l_begins ex_lay1)) 0) = true.
Proof. vm_compute. reflexivity. Qed.

Example ex_enddef_writes_header :=
  enddef_writes_header ex_wdef 0 ex_fdef ex_ea ex_wdat ex_new_old ex_new_indef ex_new_isnew ex_new_br0
    ex_new_hdr_wf (proj1 ex_new_hints) (proj1 (proj2 ex_new_hints)) (proj2 (proj2 ex_new_hints))
    ex_new_slot ex_new_id ex_new_np ex_enddef_eq.

(* the conclusion, computed independently: header bytes, fill of a (int fill value
   -2147483647 = 80 00 00 01) by two ranks, b (no-fill) untouched, no record yet *)
Example ex_enddef_bytes :
  dk_read (get_disk ex_wdat 0) 0 168 = encode_header ex_h1 /\
  dk_size (get_disk ex_wdat 0) = 532 /\
  dk_read (get_disk ex_wdat 0) 512 20 = flat_map (fun _ => [128; 0; 0; 1]) (zrange 0 5) /\
  dk_read (get_disk ex_wdat 0) 168 4 = [UNDEF; UNDEF; UNDEF; UNDEF] /\
  option_map dc_hdr (decode (dk_read (get_disk ex_wdat 0) 0 532)) = Some (hdr_content ex_h1).
Proof. vm_compute. repeat split; reflexivity. Qed.

(* ---------- D on the instance ---------- *)
Example ex_dat_file : znth (w_files ex_wdat) 0 None = Some ex_f1.
Proof. vm_compute. reflexivity. Qed.
Example ex_dat_wf : wf_hdr (f_hdr ex_f1) = true. Proof. vm_compute. reflexivity. Qed.
Example ex_dat_on_disk : hdr_on_disk ex_wdat ex_f1.
Proof. unfold hdr_on_disk. vm_compute. repeat split; try reflexivity. discriminate. Qed.
Example ex_dat_small : hdr_len (f_hdr ex_f1) <= 65536. Proof. vm_compute. discriminate. Qed.
Example ex_dat_xsz : l_xsz (f_lay ex_f1) = hdr_len (f_hdr ex_f1). Proof. vm_compute. reflexivity. Qed.
Example ex_dat_slot : 0 <= f_slot ex_f1 < Zlen (w_disks ex_wdat).
Proof. vm_compute. split; [discriminate|reflexivity]. Qed.
Example ex_dat_id : 0 <= 0 < Zlen (w_files ex_wdat).
Proof. vm_compute. split; [discriminate|reflexivity]. Qed.

Example ex_close_open :=
  close_open_same_header ex_wdat 0 ex_f1 1 eq_refl eq_refl ex_dat_file ex_dat_wf ex_dat_on_disk
    ex_dat_small ex_dat_xsz ex_dat_slot ex_dat_id.

Example ex_enddef_close_open :=
  enddef_close_open ex_wdef 0 ex_fdef ex_ea ex_wdat 1 ex_new_old ex_new_indef ex_new_isnew ex_new_br0
    ex_new_hdr_wf (proj1 ex_new_hints) (proj1 (proj2 ex_new_hints)) (proj2 (proj2 ex_new_hints))
    ex_new_slot ex_new_id ex_new_np ex_enddef_eq.

(* the same through the interpreter: enddef; close; open 0 rw; the file is found again under
   id 0 with the content header, nofill reset, and the layout enddef computed *)
Example ex_exec_close_open :
  let w3 := run ex_wdef [OEnddef 0; OClose 0; OOpen 0 1] in
  lookup_file w3 0 =
    Some (0, open_file (close_world ex_wdat 0 ex_f1) 0 1 (decoded_of ex_h1)) /\
  f_hdr (file_at w3 0) = hdr_content ex_h1 /\
  f_lay (file_at w3 0) = ex_lay1.
Proof. vm_compute. repeat split; reflexivity. Qed.

(* ---------- E on the instance: write data, redefine, enddef with arguments ---------- *)
(* enddef; put two records of r and all of a; redef; new dim y = 3; new variables
   c : int c(y) and s : short s(t, y), both fill mode; move unit 7 bytes *)
Definition ex_ops_redef : list op :=
  [ OEnddef 0;
    OPut 0 true (mkacc 1 (FVara (Some [0; 0]) (Some [2; 5])) 3 false BTyped 7);
    OPut 0 true (mkacc 0 (FVara (Some [0]) (Some [5])) 4 false BTyped 3);
    ORedef 0; ODefDim 0 [121] 3;
    ODefVar 0 [99] 4 [2]; ODefVar 0 [115] 3 [0; 2] ].
Definition ex_wre : world := set_move_unit (run ex_wdef ex_ops_redef) 7.
Definition ex_fre : filest := Eval vm_compute in file_at ex_wre 0.
Definition ex_oh : hdr := Eval vm_compute in match f_old ex_fre with Some (oh, _) => oh | None => f_hdr ex_fre end.
Definition ex_ea2 : enddef_args := mkeargs 100 0 0 64.
Definition ex_lay2 : layout := mklayout 256 512 640 20 [512; 640; 532; 572; 652].

Example ex_lookup_re : lookup_file ex_wre 0 = Some (0, ex_fre).
Proof. vm_compute. reflexivity. Qed.

(* every hypothesis of redef_enddef_disk *)
Example ex_re_indef : f_indef ex_fre = true. Proof. reflexivity. Qed.
Example ex_re_old : f_old ex_fre = Some (ex_oh, ex_lay1). Proof. reflexivity. Qed.
Example ex_re_args : enddef_args_ok ex_ea2. Proof. unfold enddef_args_ok, ex_ea2; cbn; lia. Qed.
Example ex_re_vlens : check_vlens (f_hdr ex_fre) = NC_NOERR. Proof. vm_compute. reflexivity. Qed.
Example ex_re_align :
  resolve_align (f_align ex_fre) ex_ea2 (Zlen (h_vars (f_hdr ex_fre)) - num_rec_vars ex_oh) false
  = (4, 4, 64).
Proof. vm_compute. reflexivity. Qed.
Example ex_re_begins :
  begins (f_hdr ex_fre) (e_h_minfree ex_ea2) (e_v_minfree ex_ea2) 4 64 (redef_old ex_oh ex_lay1)
         (l_begin_rec (f_lay ex_fre)) = Some ex_lay2.
Proof. vm_compute. reflexivity. Qed.
Example ex_re_guard : fill_guard (Zlen (h_vars ex_oh)) (enddef_hdr ex_fre ex_lay2) = true.
Proof. vm_compute. reflexivity. Qed.

Definition ex_f2 : filest := enddef_file ex_fre ex_lay2.
Definition ex_wdat2 : world :=
  put_file (set_disk ex_wre (f_slot ex_fre) (enddef_redef_disk ex_wre ex_fre ex_oh ex_lay1 ex_lay2))
           0 (Some ex_f2).

Example ex_redef_enddef_eq : do_enddef ex_wre 0 ex_fre ex_ea2 = Some (ex_wdat2, NC_NOERR).
Proof.
  exact (redef_enddef_disk ex_wre 0 ex_fre ex_ea2 ex_oh ex_lay1 4 4 64 ex_lay2 ex_re_indef ex_re_old
           ex_re_args ex_re_vlens ex_re_align ex_re_begins ex_re_guard).
Qed.

Example ex_exec_redef_enddef :
  lookup_file (fst (exec_all ex_wre (OEnddefX 0 100 0 0 64))) 0 = Some (0, ex_f2) /\
  snd (exec_all ex_wre (OEnddefX 0 100 0 0 64)) = [(0, NC_NOERR, []); (1, NC_NOERR, [])].
Proof. vm_compute. split; reflexivity. Qed.

(* the remaining hypotheses of redef_enddef_run_preserves *)
Example ex_re_br : l_begin_rec (f_lay ex_fre) = l_begin_rec ex_lay1. Proof. reflexivity. Qed.
Example ex_re_hdr_wf : hdr_wf (f_hdr ex_fre).
Proof. apply hdr_wf_b. vm_compute. reflexivity. Qed.
Example ex_re_hints :
  0 <= env_h_align (f_align ex_fre) /\ 0 <= env_v_align (f_align ex_fre) /\
  0 <= env_r_align (f_align ex_fre).
Proof. vm_compute. repeat split; discriminate. Qed.
Example ex_re_lay_inv : lay_inv (t3of ex_oh) ex_lay1.
Proof.
  assert (E : t3of ex_oh = t3of (f_hdr ex_fdef)) by (vm_compute; reflexivity). rewrite E.
  exact (proj1 (begins_layout_ok (f_hdr ex_fdef) 0 0 512 4 ex_lay1 ex_new_hdr_wf ltac:(lia) ltac:(lia)
                  ltac:(lia) eq_refl ltac:(lia) eq_refl ex_new_begins)).
Qed.
Example ex_re_extends : hdr_extends ex_oh (f_hdr ex_fre).
Proof. exists (skipn 3 (t3of (f_hdr ex_fre))). vm_compute. reflexivity. Qed.
Example ex_re_np : 1 <= w_nprocs ex_wre. Proof. vm_compute. discriminate. Qed.
Example ex_re_unit : 1 <= w_move_unit ex_wre. Proof. vm_compute. discriminate. Qed.
Example ex_re_numrecs : 0 <= enddef_numrecs ex_fre. Proof. vm_compute. discriminate. Qed.
Example ex_re_slot : 0 <= f_slot ex_fre < Zlen (w_disks ex_wre).
Proof. vm_compute. split; [discriminate|reflexivity]. Qed.
Example ex_re_id : 0 <= 0 < Zlen (w_files ex_wre).
Proof. vm_compute. split; [discriminate|reflexivity]. Qed.
Example ex_re_wf_h2 : wf_hdr (enddef_hdr ex_fre ex_lay2) = true.
Proof. vm_compute. reflexivity. Qed.

Example ex_redef_enddef_run_preserves :=
  redef_enddef_run_preserves ex_wre 0 ex_fre ex_ea2 ex_oh ex_lay1 ex_wdat2 ex_re_indef ex_re_old ex_re_br
    ex_re_hdr_wf (proj1 ex_re_hints) (proj1 (proj2 ex_re_hints)) (proj2 (proj2 ex_re_hints))
    ex_re_lay_inv ex_re_extends ex_re_np ex_re_unit ex_re_numrecs ex_re_slot ex_re_id
    ex_redef_enddef_eq.

Example ex_redef_enddef_preserves :=
  redef_enddef_preserves ex_wre ex_fre ex_oh ex_lay1 ex_lay2 100 0 4 64 ex_re_hdr_wf ltac:(lia) ltac:(lia)
    ltac:(lia) ltac:(lia) eq_refl ex_re_lay_inv ex_re_extends ex_re_begins ex_re_np ex_re_unit
    ex_re_numrecs ex_re_wf_h2
    (fill_len_ok_of_guard _ _ ex_re_wf_h2 ex_re_guard).

(* the conclusion computed independently: a (20 bytes at 512, unmoved), both records of r
   (10 bytes each, 572 + 10 r -> 640 + 20 r), b (no-fill, never written) - and the new
   variables filled: c (int, 3 elements at 572), s (short, 3 elements at 652 + 20 r) *)
Example ex_redef_bytes :
  let d0 := get_disk ex_wre 0 in
  let d3 := get_disk ex_wdat2 0 in
  dk_read d3 512 20 = dk_read d0 512 20 /\
  dk_read d3 640 10 = dk_read d0 572 10 /\
  dk_read d3 660 10 = dk_read d0 582 10 /\
  forallb (fun b => 0 <=? b) (dk_read d0 512 20 ++ dk_read d0 572 20) = true /\
  dk_read d3 532 40 = dk_read d0 532 40 /\
  dk_read d3 572 12 = flat_map (fun _ => [128; 0; 0; 1]) (zrange 0 3) /\
  dk_read d3 652 6 = [128; 1; 128; 1; 128; 1] /\
  dk_read d3 672 6 = [128; 1; 128; 1; 128; 1] /\
  dk_read d3 0 256 = encode_header (enddef_hdr ex_fre ex_lay2).
Proof. vm_compute. repeat split; reflexivity. Qed.

(* ---------- D, truncation branch of do_close: a CDF-5 file without variables whose disk has
   been extended beyond the header ---------- *)
Definition ex_wnv0 : world := run (world0 2) [OCreate 1 5 1; ODefDim 1 [120] 4; OEnddef 1].
Definition ex_fnv : filest := Eval vm_compute in file_at ex_wnv0 1.
Definition ex_wnv : world := set_disk ex_wnv0 1 (dk_write (get_disk ex_wnv0 1) 200 [1; 2; 3]).

Example ex_nv_file : znth (w_files ex_wnv) 0 None = Some ex_fnv /\ h_vars (f_hdr ex_fnv) = [].
Proof. vm_compute. split; reflexivity. Qed.
Example ex_nv_on_disk : hdr_on_disk ex_wnv ex_fnv.
Proof. unfold hdr_on_disk. vm_compute. repeat split; try reflexivity. discriminate. Qed.

Example ex_nv_close_open :=
  close_open_same_header ex_wnv 0 ex_fnv 0 eq_refl eq_refl (proj1 ex_nv_file)
    ltac:(vm_compute; reflexivity) ex_nv_on_disk ltac:(vm_compute; discriminate)
    ltac:(vm_compute; reflexivity) ltac:(vm_compute; split; [discriminate|reflexivity])
    ltac:(vm_compute; split; [discriminate|reflexivity]).

Example ex_nv_truncated :
  dk_size (get_disk ex_wnv 1) = 203 /\
  dk_size (get_disk (close_world ex_wnv 0 ex_fnv) 1) = hdr_len (f_hdr ex_fnv) /\
  hdr_len (f_hdr ex_fnv) = 68 /\
  f_hdr (file_at (run ex_wnv [OClose 1; OOpen 1 0]) 1) = hdr_content (f_hdr ex_fnv).
Proof. vm_compute. repeat split; reflexivity. Qed.

Print Assumptions do_enddef_new_eq.
Print Assumptions do_enddef_new_inv.
Print Assumptions enddef_writes_header.
Print Assumptions do_close_data_eq.
Print Assumptions do_open_eq.
Print Assumptions close_open_same_header.
Print Assumptions enddef_close_open.
Print Assumptions redef_enddef_disk.
Print Assumptions redef_enddef_inv.
Print Assumptions redef_enddef_preserves_gen.
Print Assumptions redef_enddef_preserves_fixed.
Print Assumptions rec_slot_fits.
Print Assumptions redef_enddef_preserves.
Print Assumptions redef_enddef_run_preserves.
Print Assumptions ex_redef_enddef_run_preserves.
Print Assumptions ex_enddef_close_open.
