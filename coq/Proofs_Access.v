(* Proofs_Access.v — MODEL (ncmpio_filetype.c as transcribed in Access.v) = SPEC (row-major
   enumeration of elem_off) for every dimensionality, shape and accepted request.
   No axioms (the Print Assumptions commands stand in Properties_C01.v and Properties_C15.v).
   Main results
     vara_offsets_spec(_min)           filetype_create_vara = spec, stride 1
     model_offsets_spec(_none,_min)    ncmpio_filetype_create_vars = spec, any stride
     model_offsets_eq_spec(_none)      same without the empty-request case split
     spec_offsets_length, elem_off_inj, elem_off_bounds_fixed/_rec, spec_offsets_NoDup
     req_ok_nth / dims_ok_nth          pointwise reading of req_ok
     check_scs_req_ok                  the dispatcher's argument check establishes req_ok
     model_offsets_old_refuted         the unrepaired stride_flatten (1-D record variable)
     model_offsets_old_spec_partial    ... is wrong only there *)
From Pnc Require Import Base Access Proofs_Lists.
Require Import Lia ZArith List Bool ZifyBool.
Import ListNotations.
Local Open Scope Z_scope.
Local Arguments Z.mul : simpl never.
Local Arguments Z.add : simpl never.
Local Arguments Z.sub : simpl never.

(* Well-formedness *)

(* every dimension length is >= 0; only dimension 0 may be 0 (= the record dimension) *)
Definition dims_wf (shape : list Z) : Prop :=
  match shape with
  | [] => True
  | s0 :: ss => 0 <= s0 /\ Forall (fun s => 1 <= s) ss
  end.

(* the only fact about the file layout the contiguous shortcut of filetype_create_vara relies on:
   when the file has a single record variable its records are packed back to back *)
Definition rec_packed (g : geom) : Prop :=
  g_isrec g = true -> g_nrecvars g <= 1 ->
  g_recsize g = zprod (tl (g_shape g)) * g_xsz g.

Definition wf_geom (g : geom) : Prop :=
  0 < g_xsz g /\ 0 <= g_recsize g /\ dims_wf (g_shape g) /\ rec_packed g.

(* per-dimension acceptance for a bounded (non-record) dimension *)
Fixpoint dims_ok (shape start count stride : list Z) : Prop :=
  match shape, start, count, stride with
  | [], [], [], [] => True
  | sh :: ss, s :: st, c :: ct, t :: ts =>
      0 <= s /\ 0 <= c /\ 1 <= t /\ (c = 0 \/ s + (c - 1) * t < sh) /\ dims_ok ss st ct ts
  | _, _, _, _ => False
  end.

(* the request passed argument checking; shape[0] = 0 encodes the record dimension, which is
   unbounded (writes may extend it) *)
Definition req_ok (shape start count stride : list Z) : Prop :=
  match shape, start, count, stride with
  | [], [], [], [] => True
  | sh :: ss, s :: st, c :: ct, t :: ts =>
      0 <= s /\ 0 <= c /\ 1 <= t /\ (sh = 0 \/ c = 0 \/ s + (c - 1) * t < sh) /\
      dims_ok ss st ct ts
  | _, _, _, _ => False
  end.

Lemma ones_S : forall n, ones (S n) = 1 :: ones n.
Proof. reflexivity. Qed.

Lemma ones_length : forall n, length (ones n) = n.
Proof. intros. apply repeat_length. Qed.

Lemma dims_ok_ind (P : list Z -> list Z -> list Z -> list Z -> Prop) :
  P [] [] [] [] ->
  (forall sh ss s st c ct t ts, 0 <= s -> 0 <= c -> 1 <= t -> (c = 0 \/ s + (c - 1) * t < sh) ->
     dims_ok ss st ct ts -> P ss st ct ts -> P (sh :: ss) (s :: st) (c :: ct) (t :: ts)) ->
  forall shape start count stride, dims_ok shape start count stride -> P shape start count stride.
Proof.
  intros H0 HS. induction shape as [|sh ss IH]; intros start count stride H;
    destruct start as [|s st]; destruct count as [|c ct]; destruct stride as [|t ts];
    cbn [dims_ok] in H; try contradiction; [exact H0|].
  destruct H as (Hs & Hc & Ht & Hb & H). apply HS; auto.
Qed.

Lemma req_ok_inv (P : list Z -> list Z -> list Z -> list Z -> Prop) :
  P [] [] [] [] ->
  (forall sh ss s st c ct t ts, 0 <= s -> 0 <= c -> 1 <= t ->
     (sh = 0 \/ c = 0 \/ s + (c - 1) * t < sh) ->
     dims_ok ss st ct ts -> P (sh :: ss) (s :: st) (c :: ct) (t :: ts)) ->
  forall shape start count stride, req_ok shape start count stride -> P shape start count stride.
Proof.
  intros H0 HS shape start count stride H.
  destruct shape as [|sh ss]; destruct start as [|s st]; destruct count as [|c ct];
    destruct stride as [|t ts]; cbn [req_ok] in H; try contradiction; [exact H0|].
  destruct H as (Hs & Hc & Ht & Hb & H). apply HS; auto.
Qed.

Lemma dims_ok_lengths : forall shape start count stride,
  dims_ok shape start count stride ->
  length start = length shape /\ length count = length shape /\ length stride = length shape.
Proof.
  intros shape start count stride H. induction H using dims_ok_ind; cbn [length]; lia.
Qed.

Lemma req_ok_lengths : forall shape start count stride,
  req_ok shape start count stride ->
  length start = length shape /\ length count = length shape /\ length stride = length shape.
Proof.
  intros shape start count stride H.
  induction H as [|sh ss s st c ct t ts _ _ _ _ H] using req_ok_inv; [auto|].
  apply dims_ok_lengths in H. cbn [length]. lia.
Qed.

Lemma dims_ok_count_nonneg : forall shape start count stride,
  dims_ok shape start count stride -> Forall (fun c => 0 <= c) count.
Proof. intros shape start count stride H. induction H using dims_ok_ind; auto. Qed.

Lemma req_ok_count_nonneg : forall shape start count stride,
  req_ok shape start count stride -> Forall (fun c => 0 <= c) count.
Proof.
  intros shape start count stride H. induction H using req_ok_inv; [auto|].
  constructor; [assumption | eapply dims_ok_count_nonneg; eassumption].
Qed.

Lemma dims_ok_ones : forall shape start count stride,
  dims_ok shape start count stride -> dims_ok shape start count (ones (length shape)).
Proof.
  intros shape start count stride H. induction H using dims_ok_ind; [exact I|].
  cbn [length]. rewrite ones_S. cbn [dims_ok]. repeat split; try assumption; try lia.
  destruct (Z.eq_dec c 0); [left; assumption | right; nia].
Qed.

Lemma req_ok_ones : forall shape start count stride,
  req_ok shape start count stride -> req_ok shape start count (ones (length shape)).
Proof.
  intros shape start count stride H. induction H using req_ok_inv; [exact I|].
  cbn [length]. rewrite ones_S. cbn [req_ok].
  repeat split; try assumption; try lia; [|eapply dims_ok_ones; eassumption].
  destruct (Z.eq_dec c 0); [right; left; assumption|].
  destruct (Z.eq_dec sh 0); [left; assumption | right; right; nia].
Qed.

(* req_indices: length, emptiness, irrelevant strides *)
Lemma req_indices_length : forall start count stride,
  length start = length count -> length stride = length count ->
  Forall (fun c => 0 <= c) count ->
  length (req_indices start count stride) = Z.to_nat (zprod count).
Proof.
  induction start as [|s st IH]; intros count stride Hs Ht Hc;
    destruct count as [|c ct]; try discriminate.
  - reflexivity.
  - destruct stride as [|t ts]; [discriminate|].
    cbn [length] in Hs, Ht. inversion Hc as [|? ? Hc0 Hct]; subst.
    cbn [req_indices zprod].
    rewrite (flat_map_length_const _ _ (Z.to_nat (zprod ct))).
    + rewrite zrange_length. rewrite Z2Nat.inj_mul; [reflexivity | assumption |].
      apply zprod_nonneg; assumption.
    + intros i _. rewrite map_length. apply IH; [lia | lia | assumption].
Qed.

Lemma req_indices_nil : forall start count stride,
  length start = length count -> length stride = length count ->
  In 0 count -> req_indices start count stride = [].
Proof.
  induction start as [|s st IH]; intros count stride Hs Ht Hin;
    destruct count as [|c ct]; try discriminate.
  - destruct Hin.
  - destruct stride as [|t ts]; [discriminate|].
    cbn [length] in Hs, Ht. cbn [req_indices].
    destruct (Z.eq_dec c 0) as [->|Hc].
    + reflexivity.
    + destruct Hin as [Hin|Hin]; [congruence|].
      rewrite IH by (assumption || lia). cbn [map]. apply flat_map_nil_all.
Qed.

Lemma req_indices_stride_irrelevant : forall start count stride,
  length start = length count -> length stride = length count ->
  Forall (fun p => fst p <= 1 \/ snd p = 1) (zip count stride) ->
  req_indices start count stride = req_indices start count (ones (length count)).
Proof.
  induction start as [|s st IH]; intros count stride Hs Ht H;
    destruct count as [|c ct]; try discriminate.
  - reflexivity.
  - destruct stride as [|t ts]; [discriminate|].
    cbn [length] in Hs, Ht. cbn [zip] in H. inversion H as [|? ? Hp Hr]; subst.
    cbn [fst snd] in Hp. cbn [length]. rewrite ones_S. cbn [req_indices].
    rewrite <- (IH ct ts) by (assumption || lia).
    apply flat_map_ext_In. intros i Hi. apply In_zrange in Hi.
    replace (s + i * t) with (s + i * 1); [reflexivity|].
    destruct Hp as [Hp|Hp]; [|subst; reflexivity].
    assert (i = 0) by lia. subst. lia.
Qed.

(* The subarray type map is the row-major enumeration *)
Lemma subarray_disps_lin : forall shape count start,
  length count = length shape -> length start = length shape ->
  subarray_disps shape count start =
  map (lin shape) (req_indices start count (ones (length shape))).
Proof.
  induction shape as [|sh ss IH]; intros count start Hc Hs.
  - destruct count; [|discriminate]. destruct start; [|discriminate]. reflexivity.
  - destruct count as [|c ct]; [discriminate|]. destruct start as [|s st]; [discriminate|].
    cbn [length] in Hc, Hs |- *. rewrite ones_S. cbn [subarray_disps req_indices].
    rewrite map_flat_map_comm. apply flat_map_ext. intros i.
    rewrite map_map. rewrite IH by lia. rewrite map_map.
    apply map_ext. intros x. cbn [lin]. ring.
Qed.

(* is_request_contiguous *)
(* non-reversed reading of the scan: some prefix has count <= 1, then one arbitrary
   dimension, then every later dimension is accessed in full *)
Fixpoint ctg (count shape : list Z) : Prop :=
  match count, shape with
  | c :: cs, _ :: ss => Forall2 (fun c' s' => s' <= c') cs ss \/ (c <= 1 /\ ctg cs ss)
  | _, _ => True
  end.

Lemma full_ctg : forall cs ss, Forall2 (fun c' s' => s' <= c') cs ss -> ctg cs ss.
Proof.
  intros cs ss H. destruct H as [|c s cs ss Hcs H]; cbn [ctg]; [exact I|].
  left. assumption.
Qed.

Lemma ctg_tl : forall c cs s ss, ctg (c :: cs) (s :: ss) -> ctg cs ss.
Proof.
  intros c cs s ss H. cbn [ctg] in H. destruct H as [Hf|[_ Hg]]; [apply full_ctg|]; assumption.
Qed.

Lemma ctg_snoc_full : forall cs ss c s,
  length cs = length ss -> ctg cs ss -> s <= c -> ctg (cs ++ [c]) (ss ++ [s]).
Proof.
  induction cs as [|a cs IH]; intros ss c s Hlen H Hsc; destruct ss as [|b ss]; try discriminate.
  - cbn [app ctg]. left. constructor.
  - cbn [length] in Hlen. cbn [app ctg] in H |- *. destruct H as [H|[Ha H]].
    + left. apply Forall2_app; [assumption|]. constructor; [assumption | constructor].
    + right. split; [assumption|]. apply IH; [lia | assumption | assumption].
Qed.

Lemma ctg_snoc_le1 : forall cs ss c s,
  length cs = length ss -> all_le1 cs = true -> ctg (cs ++ [c]) (ss ++ [s]).
Proof.
  induction cs as [|a cs IH]; intros ss c s Hlen H; destruct ss as [|b ss]; try discriminate.
  - cbn [app ctg]. left. constructor.
  - cbn [length] in Hlen. cbn [all_le1] in H. apply andb_true_iff in H. destruct H as [Ha H].
    cbn [app ctg]. right. split; [lia|]. apply IH; [lia | assumption].
Qed.

Lemma contig_scan_ctg : forall cs ss c0 s0,
  length cs = length ss ->
  contig_scan (rev (zip cs ss)) (removelast (c0 :: cs)) = true ->
  ctg (c0 :: cs) (s0 :: ss).
Proof.
  induction cs as [|x cs IH] using rev_ind; intros ss c0 s0 Hlen H.
  - destruct ss; [|discriminate]. cbn [ctg]. left. constructor.
  - destruct (snoc_cases ss) as [->|[ss' [s ->]]].
    { rewrite app_length in Hlen. cbn [length] in Hlen. lia. }
    rewrite !app_length in Hlen. cbn [length] in Hlen.
    assert (Hlen' : length cs = length ss') by lia.
    rewrite zip_app in H by assumption. cbn [zip] in H.
    rewrite rev_app_distr in H. cbn [rev app] in H.
    rewrite removelast_cons_snoc in H. cbn [contig_scan] in H.
    change (c0 :: cs ++ [x]) with ((c0 :: cs) ++ [x]).
    change (s0 :: ss' ++ [s]) with ((s0 :: ss') ++ [s]).
    destruct (x <? s) eqn:E.
    + apply ctg_snoc_le1; [cbn [length]; lia | assumption].
    + apply ctg_snoc_full; [cbn [length]; lia | | lia].
      apply IH; assumption.
Qed.

Lemma existsb_zero_false : forall count,
  Forall (fun c => 1 <= c) count -> existsb (fun c => c =? 0) count = false.
Proof.
  induction count as [|c ct IH]; intros H; cbn [existsb]; [reflexivity|].
  inversion H as [|? ? Hc Hct]; subst. rewrite IH by assumption.
  replace (c =? 0) with false by lia. reflexivity.
Qed.

Lemma existsb_zero_true : forall count, In 0 count -> existsb (fun c => c =? 0) count = true.
Proof.
  intros count H. apply existsb_exists. exists 0. split; [assumption | reflexivity].
Qed.

Lemma is_contig_ctg : forall isrec nrv shape count,
  length count = length shape -> Forall (fun c => 1 <= c) count ->
  is_contig isrec nrv shape count = true ->
  ctg count shape /\ (isrec = true -> 1 < nrv -> hd 0 count <= 1).
Proof.
  intros isrec nrv shape count Hlen Hpos H.
  destruct shape as [|sh ss].
  { destruct count; [|discriminate]. split; [exact I | cbn [hd]; lia]. }
  destruct count as [|c0 ct]; [discriminate|]. cbn [length] in Hlen.
  unfold is_contig in H. rewrite existsb_zero_false in H by assumption.
  destruct (isrec && (nrv >? 1)) eqn:Eb.
  - cbn [andb hd skipn] in H.
    destruct (c0 >? 1) eqn:Ec0; [discriminate|].
    split; [|cbn [hd]; lia].
    cbn [ctg]. right. split; [lia|].
    destruct ct as [|c1 ct']; destruct ss as [|s1 ss']; try discriminate; [exact I|].
    cbn [tl] in H. cbn [length] in Hlen. apply contig_scan_ctg; [lia | assumption].
  - cbn [andb skipn tl] in H. split.
    + apply contig_scan_ctg; [lia | assumption].
    + intros -> Hn. cbn [andb] in Eb. lia.
Qed.

(* in a full dimension start = 0 and count = shape *)
Lemma full_facts : forall ct ss st,
  Forall2 (fun c' s' => s' <= c') ct ss ->
  dims_ok ss st ct (ones (length ss)) -> Forall (fun c => 1 <= c) ct ->
  zprod ct = zprod ss /\ lin ss st = 0.
Proof.
  intros ct ss st H. revert st.
  induction H as [|c s ct ss Hsc H IH]; intros st Hok Hpos.
  - split; reflexivity.
  - destruct st as [|s0 st]; cbn [length] in Hok; rewrite ones_S in Hok; cbn [dims_ok] in Hok;
      [contradiction|].
    destruct Hok as (Hs0 & Hc & _ & Hb & Hok).
    inversion Hpos as [|? ? Hc1 Hpos']; subst.
    destruct (IH st Hok Hpos') as [E1 E2].
    assert (s0 = 0 /\ c = s) as [-> ->] by lia.
    cbn [zprod lin]. rewrite E1, E2. split; ring.
Qed.

Lemma dims_ok_tl : forall ss st ct,
  dims_ok ss st ct (ones (length ss)) ->
  dims_ok (tl ss) (tl st) (tl ct) (ones (length (tl ss))).
Proof.
  intros ss st ct H. remember (ones (length ss)) as os eqn:E. revert E.
  induction H using dims_ok_ind; intros E; [exact I|].
  cbn [length] in E. rewrite ones_S in E. injection E as _ ->. assumption.
Qed.

(* a contiguous request enumerates a run of consecutive linear indices *)
Lemma ctg_run : forall shape start count,
  length start = length shape -> length count = length shape ->
  ctg count shape -> Forall (fun c => 1 <= c) count ->
  dims_ok (tl shape) (tl start) (tl count) (ones (length (tl shape))) ->
  map (lin shape) (req_indices start count (ones (length shape))) =
  zrange (lin shape start) (zprod count).
Proof.
  induction shape as [|sh ss IH]; intros start count Hs Hc Hctg Hpos Hok.
  - destruct start; [|discriminate]. destruct count; [|discriminate]. reflexivity.
  - destruct start as [|s st]; [discriminate|]. destruct count as [|c ct]; [discriminate|].
    cbn [length] in Hs, Hc |- *. cbn [tl] in Hok. rewrite ones_S.
    inversion Hpos as [|? ? Hc1 Hpos']; subst.
    assert (Hrun : map (lin ss) (req_indices st ct (ones (length ss))) =
                   zrange (lin ss st) (zprod ct)).
    { apply IH; [lia | lia | eapply ctg_tl; eassumption | assumption | apply dims_ok_tl; assumption]. }
    cbn [req_indices]. rewrite map_flat_map_comm.
    assert (Hstep : forall i,
      map (lin (sh :: ss)) (map (cons (s + i * 1)) (req_indices st ct (ones (length ss)))) =
      zrange ((s + i) * zprod ss + lin ss st) (zprod ct)).
    { intros i. rewrite map_map.
      rewrite <- zrange_map_add. rewrite <- Hrun. rewrite map_map.
      apply map_ext. intros x. cbn [lin]. ring. }
    rewrite (flat_map_ext _ _ Hstep).
    cbn [ctg] in Hctg. destruct Hctg as [Hf|[Hc0 _]].
    + destruct (full_facts _ _ _ Hf Hok Hpos') as [E1 E2].
      cbn [lin zprod]. rewrite E2, E1.
      assert (0 <= zprod ss).
      { rewrite <- E1. apply zprod_nonneg. eapply Forall_impl; [|exact Hpos'].
        cbn beta. intros; lia. }
      rewrite <- (flat_map_zrange_blocks c (s * zprod ss + 0) (zprod ss)) by assumption.
      apply flat_map_ext. intros i. f_equal. ring.
    + assert (c = 1) by lia. subst c.
      rewrite zrange_1. cbn [flat_map]. rewrite app_nil_r.
      cbn [lin zprod]. f_equal; ring.
Qed.

(* vara_offsets = spec (stride 1) *)
Lemma g_isrec_cons : forall g, g_isrec g = true -> exists ss, g_shape g = 0 :: ss.
Proof.
  intros g H. unfold g_isrec in H. destruct (g_shape g) as [|s0 ss]; [discriminate|].
  exists ss. f_equal. lia.
Qed.

Lemma lin_nil : forall shape, lin shape [] = 0.
Proof. intros [|s ss]; reflexivity. Qed.

Lemma elem_off_fixed : forall g idx, g_isrec g = false ->
  elem_off g idx = g_begin g + lin (g_shape g) idx * g_xsz g.
Proof. intros g idx H. unfold elem_off. rewrite H. reflexivity. Qed.

Lemma elem_off_rec : forall g i0 r, g_isrec g = true ->
  elem_off g (i0 :: r) = g_begin g + (i0 * g_recsize g + lin (tl (g_shape g)) r * g_xsz g).
Proof. intros g i0 r H. unfold elem_off. rewrite H. reflexivity. Qed.

(* a fixed-size variable, and a record variable whose records are packed, are addressed
   through lin alone *)
Lemma elem_off_lin : forall g,
  g_isrec g = false \/ g_recsize g = zprod (tl (g_shape g)) * g_xsz g ->
  forall idx, elem_off g idx = g_begin g + lin (g_shape g) idx * g_xsz g.
Proof.
  intros g H idx. destruct (g_isrec g) eqn:Erec; [|apply elem_off_fixed; assumption].
  destruct H as [H|E]; [discriminate|].
  destruct idx as [|i0 r]; [unfold elem_off; rewrite Erec, lin_nil; ring|].
  rewrite elem_off_rec by assumption. rewrite E.
  destruct (g_isrec_cons g Erec) as [ss Hs]. rewrite Hs. cbn [tl lin]. ring.
Qed.

(* ncmpio_first_offset computes the offset of the element at [start] *)
Lemma first_offset_elem_off : forall g start, first_offset g start = elem_off g start.
Proof.
  intros g start. unfold first_offset, elem_off, g_isrec.
  destruct (g_shape g) as [|s0 ss]; [cbn [lin]; ring|].
  destruct (s0 =? 0); [|reflexivity].
  destruct start as [|i0 r]; cbn [hd tl]; [rewrite lin_nil|]; ring.
Qed.

(* the enumeration of a record variable, record by record *)
Lemma spec_offsets_rec : forall g s0 st c0 ct t0 ts, g_isrec g = true ->
  spec_offsets g (s0 :: st) (c0 :: ct) (t0 :: ts) =
  flat_map (fun i => map (fun r => g_begin g + (s0 + i * t0) * g_recsize g +
                                   lin (tl (g_shape g)) r * g_xsz g)
                         (req_indices st ct ts)) (zrange 0 c0).
Proof.
  intros g s0 st c0 ct t0 ts Erec. unfold spec_offsets. cbn [req_indices].
  rewrite map_flat_map_comm. apply flat_map_ext. intros i. rewrite map_map.
  apply map_ext. intros r. rewrite elem_off_rec by assumption. ring.
Qed.

Lemma spec_offsets_empty : forall g start count stride,
  length start = length count -> length stride = length count ->
  zprod count = 0 -> spec_offsets g start count stride = [].
Proof.
  intros g start count stride H1 H2 Hz. unfold spec_offsets.
  rewrite req_indices_nil; [reflexivity | assumption | assumption |].
  apply zprod_zero_iff. assumption.
Qed.

(* the contiguous shortcut when the whole variable is addressed through lin *)
Lemma contig_lin_offsets : forall b xsz shape start count,
  length start = length shape -> length count = length shape ->
  ctg count shape -> Forall (fun c => 1 <= c) count ->
  dims_ok (tl shape) (tl start) (tl count) (ones (length (tl shape))) ->
  map (fun k => b + lin shape start * xsz + k * xsz) (zrange 0 (zprod count)) =
  map (fun idx => b + lin shape idx * xsz) (req_indices start count (ones (length shape))).
Proof.
  intros b xsz shape start count Hs Hc Hctg Hpos Hok.
  rewrite <- (map_map (lin shape) (fun l => b + l * xsz)).
  rewrite ctg_run by assumption.
  rewrite (zrange_shift (lin shape start)). rewrite map_map.
  apply map_ext. intros k. ring.
Qed.

Lemma req_ok_tl_dims_ok : forall shape start count stride,
  req_ok shape start count stride ->
  dims_ok (tl shape) (tl start) (tl count) (tl stride).
Proof. intros shape start count stride H. induction H using req_ok_inv; [exact I | assumption]. Qed.

Lemma tl_ones : forall n, tl (ones n) = ones (Nat.pred n).
Proof. intros [|n]; reflexivity. Qed.

Lemma length_tl : forall A (l : list A), length (tl l) = Nat.pred (length l).
Proof. intros A [|a l]; reflexivity. Qed.

(* The contiguous shortcut.  Either the variable is addressed through lin (fixed-size, or the
   only record variable, whose records are then back to back), or is_request_contiguous has
   refused more than one record, and the run lies inside that record. *)
Lemma vara_contig_spec : forall g start count,
  rec_packed g ->
  req_ok (g_shape g) start count (ones (length (g_shape g))) ->
  Forall (fun c => 1 <= c) count ->
  is_contig (g_isrec g) (g_nrecvars g) (g_shape g) count = true ->
  map (fun k => first_offset g start + k * g_xsz g) (zrange 0 (zprod count)) =
  spec_offsets g start count (ones (length (g_shape g))).
Proof.
  intros g start count Hpack Hreq Hpos Econtig.
  destruct (req_ok_lengths _ _ _ _ Hreq) as (Hls & Hlc & _).
  pose proof (req_ok_tl_dims_ok _ _ _ _ Hreq) as Htl.
  rewrite tl_ones, <- length_tl in Htl.
  destruct (is_contig_ctg _ _ _ _ Hlc Hpos Econtig) as [Hctg Hrec1].
  rewrite first_offset_elem_off.
  assert (Hcase : (g_isrec g = false \/ g_recsize g = zprod (tl (g_shape g)) * g_xsz g) \/
                  (g_isrec g = true /\ hd 0 count <= 1)).
  { destruct (g_isrec g) eqn:Erec; [|left; left; reflexivity].
    destruct (Z_le_gt_dec (g_nrecvars g) 1) as [Hle|Hgt].
    - left. right. apply Hpack; assumption.
    - right. split; [reflexivity | apply Hrec1; [reflexivity | lia]]. }
  destruct Hcase as [Hlin | [Erec Hc0]].
  - rewrite (elem_off_lin g Hlin). unfold spec_offsets.
    rewrite (map_ext _ _ (elem_off_lin g Hlin)). apply contig_lin_offsets; assumption.
  - destruct (g_isrec_cons g Erec) as [ss Hs].
    destruct start as [|s0 st]; [rewrite Hs in Hls; discriminate|].
    destruct count as [|c0 ct]; [rewrite Hs in Hlc; discriminate|].
    inversion Hpos as [|? ? Hc1 Hpos']; subst. cbn [hd] in Hc0.
    assert (c0 = 1) by lia. subst c0.
    rewrite elem_off_rec by assumption.
    rewrite Hs in *. cbn [length tl zprod] in *.
    rewrite ones_S, spec_offsets_rec by assumption. rewrite Hs. cbn [tl].
    rewrite zrange_1, Z.mul_1_l. cbn [flat_map]. rewrite app_nil_r.
    rewrite <- contig_lin_offsets;
      [| lia | lia | eapply ctg_tl; eassumption | assumption | apply dims_ok_tl; assumption].
    apply map_ext. intros k. ring.
Qed.

(* the hvector of subarrays laid over one record *)
Lemma rec_rect_lin : forall xsz ss ct st,
  length ct = length ss -> length st = length ss ->
  match ss with
  | [] => [0]
  | z :: l => map (fun d => d * xsz) (subarray_disps (z :: l) ct st)
  end = map (fun r => lin ss r * xsz) (req_indices st ct (ones (length ss))).
Proof.
  intros xsz ss ct st Hc Hs.
  rewrite <- (map_map (lin ss) (fun d => d * xsz)).
  rewrite <- subarray_disps_lin by assumption.
  destruct ss; [|reflexivity].
  destruct ct; [|discriminate]. destruct st; [|discriminate]. reflexivity.
Qed.

(* Minimal hypotheses: only the packing fact about the geometry, and an accepted request. *)
Theorem vara_offsets_spec_min : forall g start count,
  rec_packed g ->
  req_ok (g_shape g) start count (ones (length (g_shape g))) ->
  vara_offsets g start count = spec_offsets g start count (ones (length (g_shape g))).
Proof.
  intros g start count Hpack Hreq.
  destruct (req_ok_lengths _ _ _ _ Hreq) as (Hls & Hlc & Hlt).
  unfold vara_offsets.
  destruct (g_shape g) as [|sh ss] eqn:Eshape.
  { (* scalar *)
    destruct start; [|discriminate]. destruct count; [|discriminate].
    unfold spec_offsets. cbn [length ones repeat req_indices map].
    rewrite <- first_offset_elem_off. unfold first_offset. rewrite Eshape. reflexivity. }
  rewrite <- Eshape in *.
  destruct (is_contig (g_isrec g) (g_nrecvars g) (g_shape g) count) eqn:Econtig.
  - destruct (Z.eq_dec (zprod count) 0) as [Hz|Hz].
    + rewrite Hz, zrange_0. symmetry. apply spec_offsets_empty; [lia | lia | assumption].
    + apply vara_contig_spec; try assumption.
      apply zprod_nonzero_pos; [eapply req_ok_count_nonneg; eassumption | assumption].
  - (* subarray path: nothing of the request is used but its lengths *)
    destruct (g_isrec g) eqn:Erec.
    + destruct (g_isrec_cons g Erec) as [ss' Hs]. rewrite Hs in Hls, Hlc.
      destruct start as [|s0 st]; [discriminate|]. destruct count as [|c0 ct]; [discriminate|].
      cbn [length] in Hls, Hlc.
      rewrite Hs. cbn [length tl hd]. rewrite rec_rect_lin by lia.
      rewrite ones_S, spec_offsets_rec by assumption. rewrite Hs. cbn [tl].
      apply flat_map_ext. intros i. rewrite map_map. apply map_ext. intros r. ring.
    + rewrite subarray_disps_lin by assumption. unfold spec_offsets. rewrite map_map.
      apply map_ext. intros idx. symmetry. apply elem_off_fixed. assumption.
Qed.

Theorem vara_offsets_spec : forall g start count,
  wf_geom g ->
  req_ok (g_shape g) start count (ones (length (g_shape g))) ->
  zprod count <> 0 ->
  vara_offsets g start count = spec_offsets g start count (ones (length (g_shape g))).
Proof.
  intros g start count (_ & _ & _ & Hpack) Hreq _. apply vara_offsets_spec_min; assumption.
Qed.

(* stride_flatten *)
(* nested row-major enumeration over (start,count,stride,unit) quadruples *)
Fixpoint gen (l : list (Z * Z * Z * Z)) (base : list Z) : list Z :=
  match l with
  | [] => base
  | (s, c, t, u) :: r =>
      flat_map (fun i => map (Z.add ((s + i * t) * u)) (gen r base)) (zrange 0 c)
  end.

Definition quads (A B C D : list Z) : list (Z * Z * Z * Z) :=
  map (fun p => quad (fst p) (snd p)) (zip (zip A B) (zip C D)).

Lemma quads_cons : forall a A b B c C d D,
  quads (a :: A) (b :: B) (c :: C) (d :: D) = (a, b, c, d) :: quads A B C D.
Proof. reflexivity. Qed.

Lemma quads_snoc : forall A B C D a b c d,
  length A = length B -> length B = length C -> length C = length D ->
  quads (A ++ [a]) (B ++ [b]) (C ++ [c]) (D ++ [d]) = quads A B C D ++ [(a, b, c, d)].
Proof.
  intros A B C D a b c d H1 H2 H3. unfold quads.
  rewrite (zip_app A [a] B [b]) by assumption.
  rewrite (zip_app C [c] D [d]) by assumption.
  rewrite zip_app by (rewrite !zip_length by assumption; lia).
  rewrite map_app. reflexivity.
Qed.

Lemma flatten_outer_app : forall a b d,
  flatten_outer (a ++ b) d = flatten_outer b (flatten_outer a d).
Proof.
  induction a as [|[[[s c] t] u] a IH]; intros b d; cbn [app flatten_outer]; [reflexivity|].
  apply IH.
Qed.

Lemma flatten_outer_rev : forall l d, flatten_outer (rev l) d = gen l d.
Proof.
  induction l as [|[[[s c] t] u] l IH]; intros d; cbn [rev]; [reflexivity|].
  rewrite flatten_outer_app. cbn [flatten_outer gen]. rewrite IH. reflexivity.
Qed.

Lemma gen_app : forall a b base, gen (a ++ b) base = gen a (gen b base).
Proof.
  induction a as [|[[[s c] t] u] a IH]; intros b base; cbn [app gen]; [reflexivity|].
  rewrite IH. reflexivity.
Qed.

(* a translation-equivariant expansion of each displacement commutes with the enumeration *)
Lemma gen_equivariant : forall (f : Z -> list Z),
  (forall a d, f (a + d) = map (Z.add a) (f d)) ->
  forall l base, flat_map f (gen l base) = gen l (flat_map f base).
Proof.
  intros f Hf. induction l as [|[[[s c] t] u] l IH]; intros base; cbn [gen]; [reflexivity|].
  rewrite flat_map_flat_map. apply flat_map_ext. intros i.
  rewrite flat_map_map_comm. rewrite <- IH. rewrite map_flat_map_comm.
  apply flat_map_ext. intros x. apply Hf.
Qed.

(* weighted index sum; the same truncating recursion as lin *)
Fixpoint dot (units idx : list Z) : Z :=
  match units, idx with
  | u :: us, i :: is_ => i * u + dot us is_
  | _, _ => 0
  end.

Lemma dot_dim_units : forall shape d idx b rs xsz,
  b = false \/ d <> 0%nat ->
  dot (dim_units b rs xsz shape d) idx = lin shape idx * xsz.
Proof.
  induction shape as [|s ss IH]; intros d idx b rs xsz Hbd.
  - cbn [dim_units dot lin]. ring.
  - destruct idx as [|i r]; cbn [dim_units dot lin]; [ring|].
    rewrite IH by (right; discriminate).
    replace (b && Nat.eqb d 0) with false; [ring|].
    destruct Hbd as [->|Hd]; [reflexivity|].
    destruct d; [congruence|]. cbn [Nat.eqb]. rewrite andb_false_r. reflexivity.
Qed.

Definition g_units (g : geom) : list Z :=
  dim_units (g_isrec g) (g_recsize g) (g_xsz g) (g_shape g) 0.

Lemma elem_off_dot : forall g idx, elem_off g idx = g_begin g + dot (g_units g) idx.
Proof.
  intros g idx. unfold elem_off, g_units. destruct (g_isrec g) eqn:Erec.
  - destruct (g_isrec_cons g Erec) as [ss Hs]. rewrite Hs.
    destruct idx as [|i0 r]; cbn [dim_units dot tl]; [reflexivity|].
    cbn [andb Nat.eqb]. rewrite dot_dim_units by (right; discriminate). reflexivity.
  - rewrite dot_dim_units by (left; reflexivity). reflexivity.
Qed.

Lemma dim_units_length : forall shape b rs xsz d, length (dim_units b rs xsz shape d) = length shape.
Proof.
  induction shape as [|s ss IH]; intros b rs xsz d; cbn [dim_units length]; [reflexivity|].
  rewrite IH. reflexivity.
Qed.

Lemma last_cons_nonempty : forall A (a : A) l d, l <> [] -> last (a :: l) d = last l d.
Proof. intros A a l d H. destruct l; [congruence | reflexivity]. Qed.

Lemma dim_units_nonempty : forall b rs xsz s ss d, dim_units b rs xsz (s :: ss) d <> [].
Proof. intros. cbn [dim_units]. discriminate. Qed.

Lemma dim_units_cons : forall b rs xsz s ss d,
  dim_units b rs xsz (s :: ss) d =
  (if b && Nat.eqb d 0 then rs else zprod ss * xsz) :: dim_units b rs xsz ss (S d).
Proof. reflexivity. Qed.

Lemma last_dim_units_S : forall shape b rs xsz d dflt, shape <> [] ->
  last (dim_units b rs xsz shape (S d)) dflt = xsz.
Proof.
  induction shape as [|s ss IH]; intros b rs xsz d dflt Hne; [congruence|].
  destruct ss as [|s' ss].
  - cbn [dim_units last Nat.eqb zprod]. rewrite andb_false_r. ring.
  - rewrite dim_units_cons. rewrite last_cons_nonempty by apply dim_units_nonempty.
    apply IH. discriminate.
Qed.

(* the last unit is xsz unless the variable is a 1-D record variable *)
Lemma last_g_units : forall g, (2 <= length (g_shape g))%nat \/ g_isrec g = false ->
  g_shape g <> [] -> last (g_units g) (g_xsz g) = g_xsz g.
Proof.
  intros g H Hne. unfold g_units. destruct (g_shape g) as [|s0 [|s1 ss]]; [congruence| |].
  - destruct H as [H|H]; [cbn [length] in H; lia|]. rewrite H.
    cbn [dim_units last andb zprod]. ring.
  - rewrite dim_units_cons. rewrite last_cons_nonempty by apply dim_units_nonempty.
    apply last_dim_units_S. discriminate.
Qed.

(* the spec as a nested enumeration *)
Lemma spec_gen : forall start count stride units,
  length start = length count -> length count = length stride -> length stride = length units ->
  map (dot units) (req_indices start count stride) = gen (quads start count stride units) [0].
Proof.
  induction start as [|s st IH]; intros count stride units H1 H2 H3;
    destruct count as [|c ct]; try discriminate;
    destruct stride as [|t ts]; try discriminate;
    destruct units as [|u us]; try discriminate.
  - reflexivity.
  - cbn [length] in H1, H2, H3. rewrite quads_cons. cbn [req_indices gen].
    rewrite map_flat_map_comm. apply flat_map_ext. intros i.
    rewrite map_map. rewrite <- IH by lia. rewrite map_map.
    apply map_ext. intros x. reflexivity.
Qed.

(* the list-level core of stride_flatten + the hindexed expansion in filetype_create_vars *)
Lemma flatten_core : forall so co to uo sl cl tl_ ul b xsz,
  length so = length co -> length co = length to -> length to = length uo ->
  (tl_ = 1 -> ul = xsz) ->
  flat_map (fun d => map (fun k => b + d + k * xsz)
                         (zrange 0 (if tl_ =? 1 then cl else 1)))
           (flatten_outer
              (rev (map (fun p => quad (fst p) (snd p)) (zip (zip so co) (zip to uo))))
              (map (fun k => (sl + k * tl_) * ul) (zrange 0 (if tl_ =? 1 then 1 else cl))))
  = map (fun idx => b + dot (uo ++ [ul]) idx)
        (req_indices (so ++ [sl]) (co ++ [cl]) (to ++ [tl_])).
Proof.
  intros so co to uo sl cl tl_ ul b xsz H1 H2 H3 Hul.
  rewrite <- (map_map (dot (uo ++ [ul])) (Z.add b)).
  rewrite spec_gen by (rewrite !app_length; cbn [length]; lia).
  rewrite quads_snoc by assumption. rewrite gen_app.
  fold (quads so co to uo). rewrite flatten_outer_rev.
  set (seg := if tl_ =? 1 then cl else 1).
  set (F' := fun d => map (fun k => d + k * xsz) (zrange 0 seg)).
  transitivity (map (Z.add b) (flat_map F' (gen (quads so co to uo)
      (map (fun k => (sl + k * tl_) * ul) (zrange 0 (if tl_ =? 1 then 1 else cl)))))).
  { rewrite map_flat_map_comm. apply flat_map_ext. intros d. unfold F'.
    rewrite map_map. apply map_ext. intros k. ring. }
  f_equal. rewrite gen_equivariant.
  2:{ intros a d. unfold F'. rewrite map_map. apply map_ext. intros k. ring. }
  f_equal.
  assert (Hr : gen [(sl, cl, tl_, ul)] [0] = map (fun i => (sl + i * tl_) * ul) (zrange 0 cl)).
  { cbn [gen]. rewrite <- flat_map_singleton. apply flat_map_ext. intros i.
    cbn [map]. f_equal. ring. }
  rewrite Hr. unfold F', seg.
  destruct (tl_ =? 1) eqn:Et.
  - assert (tl_ = 1) by lia. subst tl_. rewrite (Hul eq_refl).
    rewrite zrange_1. cbn [map flat_map]. rewrite app_nil_r.
    apply map_ext. intros k. ring.
  - rewrite flat_map_map_comm. rewrite zrange_1.
    rewrite <- flat_map_singleton. apply flat_map_ext. intros k.
    cbn [map]. f_equal. ring.
Qed.

Lemma is_true_vars_forall : forall count stride,
  Forall (fun t => 1 <= t) stride ->
  is_true_vars count stride = false ->
  Forall (fun p => fst p <= 1 \/ snd p = 1) (zip count stride).
Proof.
  induction count as [|c ct IH]; intros stride Hpos H; [constructor|].
  destruct stride as [|t ts]; [constructor|].
  inversion Hpos as [|? ? Ht Hts]; subst.
  unfold is_true_vars in H. cbn [zip existsb fst snd] in H.
  apply orb_false_iff in H. destruct H as [H1 H2].
  cbn [zip]. constructor.
  - cbn [fst snd]. lia.
  - apply IH; assumption.
Qed.

Lemma dims_ok_stride_pos : forall shape start count stride,
  dims_ok shape start count stride -> Forall (fun t => 1 <= t) stride.
Proof. intros shape start count stride H. induction H using dims_ok_ind; auto. Qed.

Lemma req_ok_stride_pos : forall shape start count stride,
  req_ok shape start count stride -> Forall (fun t => 1 <= t) stride.
Proof.
  intros shape start count stride H. induction H using req_ok_inv; [auto|].
  constructor; [assumption | eapply dims_ok_stride_pos; eassumption].
Qed.

Lemma spec_offsets_not_true_vars : forall g start count stride,
  req_ok (g_shape g) start count stride ->
  is_true_vars count stride = false ->
  spec_offsets g start count stride = spec_offsets g start count (ones (length (g_shape g))).
Proof.
  intros g start count stride Hreq H.
  destruct (req_ok_lengths _ _ _ _ Hreq) as (Hls & Hlc & Hlt).
  unfold spec_offsets. rewrite <- Hlc.
  rewrite <- (req_indices_stride_irrelevant start count stride); [reflexivity | lia | lia |].
  apply is_true_vars_forall; [|assumption].
  eapply req_ok_stride_pos; eassumption.
Qed.

Lemma strided_path : forall g start count stride,
  g_shape g <> [] ->
  length start = length (g_shape g) -> length count = length (g_shape g) ->
  length stride = length (g_shape g) ->
  is_true_vars count stride = true ->
  (let '(disps, seg) := stride_flatten g start count stride in
   flat_map (fun d => map (fun k => g_begin g + d + k * g_xsz g) (zrange 0 seg)) disps)
  = spec_offsets g start count stride.
Proof.
  intros g start count stride Hne Hls Hlc Hlt Htrue.
  unfold spec_offsets.
  rewrite (map_ext _ _ (elem_off_dot g)).
  unfold stride_flatten. cbv zeta. fold (g_units g).
  assert (Hlu : length (g_units g) = length (g_shape g)) by apply dim_units_length.
  assert (Hul : last stride 1 = 1 -> last (g_units g) (g_xsz g) = g_xsz g).
  { intros Hl. apply last_g_units; [|assumption].
    destruct (g_shape g) as [|s0 [|s1 ss]]; [congruence | | left; cbn [length]; lia].
    exfalso.
    destruct count as [|c [|? ?]]; try discriminate.
    destruct stride as [|t [|? ?]]; try discriminate.
    cbn [last] in Hl. subst t. unfold is_true_vars in Htrue.
    cbn [zip existsb fst snd] in Htrue. lia. }
  remember (g_units g) as units eqn:Eu.
  destruct (snoc_cases start) as [->|[so [sl ->]]];
    [destruct (g_shape g); [congruence | discriminate]|].
  destruct (snoc_cases count) as [->|[co [cl ->]]];
    [destruct (g_shape g); [congruence | discriminate]|].
  destruct (snoc_cases stride) as [->|[to [tl_ ->]]];
    [destruct (g_shape g); [congruence | discriminate]|].
  destruct (snoc_cases units) as [->|[uo [ul ->]]];
    [destruct (g_shape g); [congruence | discriminate]|].
  rewrite !app_length in *. cbn [length] in *.
  rewrite !removelast_last, !last_last in *.
  apply flatten_core; [lia | lia | lia | assumption].
Qed.

(* model_offsets = spec *)
Theorem vars_offsets_spec_min : forall g start count stride,
  rec_packed g -> req_ok (g_shape g) start count stride -> zprod count <> 0 ->
  vars_offsets g start count (Some stride) = spec_offsets g start count stride.
Proof.
  intros g start count stride Hpack Hreq Hz.
  destruct (req_ok_lengths _ _ _ _ Hreq) as (Hls & Hlc & Hlt).
  unfold vars_offsets. destruct (is_true_vars count stride) eqn:Etv; cbn [negb].
  - destruct (g_shape g) as [|sh ss] eqn:Eshape.
    { destruct count; [|discriminate]. discriminate Etv. }
    replace (zprod count =? 0) with false by lia.
    rewrite <- Eshape in *.
    apply strided_path; try assumption. rewrite Eshape. discriminate.
  - rewrite spec_offsets_not_true_vars by assumption.
    apply vara_offsets_spec_min; [assumption|]. eapply req_ok_ones; eassumption.
Qed.

Theorem model_offsets_spec_min : forall g start count stride,
  rec_packed g -> req_ok (g_shape g) start count stride ->
  model_offsets g start count (Some stride) =
  if zprod count =? 0 then [] else spec_offsets g start count stride.
Proof.
  intros g start count stride Hpack Hreq. unfold model_offsets.
  destruct (zprod count =? 0) eqn:Ez; [reflexivity|].
  apply vars_offsets_spec_min; [assumption | assumption | lia].
Qed.

Theorem model_offsets_spec : forall g start count stride,
  wf_geom g -> req_ok (g_shape g) start count stride ->
  model_offsets g start count (Some stride) =
  if zprod count =? 0 then [] else spec_offsets g start count stride.
Proof.
  intros g start count stride (_ & _ & _ & Hpack). apply model_offsets_spec_min. assumption.
Qed.

Theorem model_offsets_spec_none : forall g start count,
  wf_geom g -> req_ok (g_shape g) start count (ones (length (g_shape g))) ->
  model_offsets g start count None =
  if zprod count =? 0 then []
  else spec_offsets g start count (ones (length (g_shape g))).
Proof.
  intros g start count Hwf Hreq. unfold model_offsets.
  destruct (zprod count =? 0) eqn:Ez; [reflexivity|].
  cbn [vars_offsets]. apply vara_offsets_spec_min; [apply Hwf | assumption].
Qed.

(* the spec of an empty request is empty, so the case split can be dropped *)
Lemma spec_offsets_if_empty : forall g start count stride,
  req_ok (g_shape g) start count stride ->
  (if zprod count =? 0 then [] else spec_offsets g start count stride) =
  spec_offsets g start count stride.
Proof.
  intros g start count stride Hreq.
  destruct (req_ok_lengths _ _ _ _ Hreq) as (Hls & Hlc & Hlt).
  destruct (zprod count =? 0) eqn:Ez; [|reflexivity].
  symmetry. apply spec_offsets_empty; lia.
Qed.

Corollary model_offsets_eq_spec : forall g start count stride,
  wf_geom g -> req_ok (g_shape g) start count stride ->
  model_offsets g start count (Some stride) = spec_offsets g start count stride.
Proof.
  intros g start count stride Hwf Hreq.
  rewrite model_offsets_spec by assumption. apply spec_offsets_if_empty. assumption.
Qed.

Corollary model_offsets_eq_spec_none : forall g start count,
  wf_geom g -> req_ok (g_shape g) start count (ones (length (g_shape g))) ->
  model_offsets g start count None = spec_offsets g start count (ones (length (g_shape g))).
Proof.
  intros g start count Hwf Hreq.
  rewrite model_offsets_spec_none by assumption. apply spec_offsets_if_empty. assumption.
Qed.

(* Size, bounds, injectivity, NoDup of the spec *)
Theorem spec_offsets_length : forall g start count stride,
  length start = length count -> length stride = length count ->
  Forall (fun c => 0 <= c) count ->
  length (spec_offsets g start count stride) = Z.to_nat (zprod count).
Proof.
  intros g start count stride H1 H2 Hc. unfold spec_offsets. rewrite map_length.
  apply req_indices_length; assumption.
Qed.

Corollary spec_offsets_length_req : forall g start count stride,
  req_ok (g_shape g) start count stride ->
  length (spec_offsets g start count stride) = Z.to_nat (zprod count).
Proof.
  intros g start count stride Hreq.
  destruct (req_ok_lengths _ _ _ _ Hreq) as (Hls & Hlc & Hlt).
  apply spec_offsets_length; [lia | lia | eapply req_ok_count_nonneg; eassumption].
Qed.

Lemma idx_in_shape_cons : forall s ss i r,
  idx_in_shape (s :: ss) (i :: r) = true <-> 0 <= i < s /\ idx_in_shape ss r = true.
Proof.
  intros s ss i r. unfold idx_in_shape. cbn [forall2b].
  rewrite !andb_true_iff. lia.
Qed.

Lemma lin_bounds : forall shape idx, idx_in_shape shape idx = true ->
  0 <= lin shape idx /\ lin shape idx + 1 <= zprod shape.
Proof.
  induction shape as [|s ss IH]; intros idx H; destruct idx as [|i r];
    try (unfold idx_in_shape in H; cbn [forall2b] in H; discriminate).
  - cbn [lin zprod]. lia.
  - apply idx_in_shape_cons in H. destruct H as [Hi Hr].
    destruct (IH r Hr) as [H0 H1]. cbn [lin zprod]. split; nia.
Qed.

Lemma lin_inj : forall shape i j,
  idx_in_shape shape i = true -> idx_in_shape shape j = true ->
  lin shape i = lin shape j -> i = j.
Proof.
  induction shape as [|s ss IH]; intros i j Hi Hj E;
    destruct i as [|a i]; destruct j as [|b j];
    try (unfold idx_in_shape in Hi, Hj; cbn [forall2b] in Hi, Hj; discriminate).
  - reflexivity.
  - apply idx_in_shape_cons in Hi. destruct Hi as [Ha Hi].
    apply idx_in_shape_cons in Hj. destruct Hj as [Hb Hj].
    destruct (lin_bounds _ _ Hi) as [Hi0 Hi1]. destruct (lin_bounds _ _ Hj) as [Hj0 Hj1].
    cbn [lin] in E.
    assert (a = b) by nia. subst b.
    f_equal. apply IH; [assumption | assumption | lia].
Qed.

(* idx addresses an element of the variable; the record index is any non-negative number *)
Definition idx_ok (g : geom) (idx : list Z) : Prop :=
  if g_isrec g then
    match idx with
    | i0 :: r => 0 <= i0 /\ idx_in_shape (tl (g_shape g)) r = true
    | [] => False
    end
  else idx_in_shape (g_shape g) idx = true.

(* records do not overlap *)
Definition rec_fits (g : geom) : Prop :=
  g_isrec g = true -> zprod (tl (g_shape g)) * g_xsz g <= g_recsize g.

(* two different elements of one variable occupy disjoint bytes (also across records, also
   when the record size is not a multiple of the element size) *)
Lemma elem_off_sep : forall g i j,
  0 < g_xsz g -> rec_fits g -> idx_ok g i -> idx_ok g j -> i <> j ->
  elem_off g i + g_xsz g <= elem_off g j \/ elem_off g j + g_xsz g <= elem_off g i.
Proof.
  intros g i j Hx Hfit Hi Hj Hne. unfold idx_ok in Hi, Hj.
  destruct (g_isrec g) eqn:Erec.
  - destruct i as [|i0 ri]; [contradiction|]. destruct j as [|j0 rj]; [contradiction|].
    destruct Hi as [Hi0 Hi]. destruct Hj as [Hj0 Hj]. specialize (Hfit Erec).
    rewrite !elem_off_rec by assumption.
    destruct (lin_bounds _ _ Hi) as [Hi1 Hi2]. destruct (lin_bounds _ _ Hj) as [Hj1 Hj2].
    assert (Hl : i0 = j0 -> lin (tl (g_shape g)) ri <> lin (tl (g_shape g)) rj).
    { intros -> E. apply Hne. f_equal. eapply lin_inj; eassumption. }
    set (P := zprod (tl (g_shape g))) in *.
    set (li := lin (tl (g_shape g)) ri) in *. set (lj := lin (tl (g_shape g)) rj) in *.
    set (rs := g_recsize g) in *. set (x := g_xsz g) in *. clearbody P li lj rs x.
    (* an element ends inside its record slot *)
    assert (Hli : li * x + x <= rs) by nia. assert (Hlj : lj * x + x <= rs) by nia.
    destruct (Z.lt_trichotomy i0 j0) as [Hlt|[Heq|Hgt]].
    + left. assert ((i0 + 1) * rs <= j0 * rs) by nia. lia.
    + specialize (Hl Heq). subst j0. destruct (Z.lt_trichotomy li lj) as [H|[H|H]];
        [left; nia | contradiction | right; nia].
    + right. assert ((j0 + 1) * rs <= i0 * rs) by nia. lia.
  - assert (Hl : lin (g_shape g) i <> lin (g_shape g) j)
      by (intros E; apply Hne; eapply lin_inj; eassumption).
    rewrite !elem_off_fixed by assumption.
    destruct (Z.lt_trichotomy (lin (g_shape g) i) (lin (g_shape g) j))
      as [H|[H|H]]; [left; nia | contradiction | right; nia].
Qed.

Theorem elem_off_inj_min : forall g i j,
  0 < g_xsz g -> rec_fits g -> idx_ok g i -> idx_ok g j ->
  elem_off g i = elem_off g j -> i = j.
Proof.
  intros g i j Hx Hfit Hi Hj E.
  destruct (list_eq_dec Z.eq_dec i j) as [|Hne]; [assumption|].
  destruct (elem_off_sep g i j Hx Hfit Hi Hj Hne); lia.
Qed.

Theorem elem_off_inj : forall g i j,
  wf_geom g -> rec_fits g -> idx_ok g i -> idx_ok g j ->
  elem_off g i = elem_off g j -> i = j.
Proof. intros g i j (Hx & _). apply elem_off_inj_min. assumption. Qed.

Theorem elem_off_bounds_fixed : forall g idx,
  0 <= g_xsz g -> g_isrec g = false -> idx_in_shape (g_shape g) idx = true ->
  g_begin g <= elem_off g idx /\
  elem_off g idx + g_xsz g <= g_begin g + zprod (g_shape g) * g_xsz g.
Proof.
  intros g idx Hx Hrec Hidx. rewrite elem_off_fixed by assumption.
  destruct (lin_bounds _ _ Hidx) as [H0 H1]. split; nia.
Qed.

Theorem elem_off_bounds_rec : forall g i0 r,
  0 <= g_xsz g -> g_isrec g = true -> idx_in_shape (tl (g_shape g)) r = true ->
  g_begin g + i0 * g_recsize g <= elem_off g (i0 :: r) /\
  elem_off g (i0 :: r) + g_xsz g <=
    g_begin g + i0 * g_recsize g + zprod (tl (g_shape g)) * g_xsz g.
Proof.
  intros g i0 r Hx Hrec Hidx. rewrite elem_off_rec by assumption.
  destruct (lin_bounds _ _ Hidx) as [H0 H1]. split; nia.
Qed.

Lemma req_indices_in_dims : forall shape start count stride idx,
  dims_ok shape start count stride -> In idx (req_indices start count stride) ->
  idx_in_shape shape idx = true.
Proof.
  intros shape start count stride idx H. revert idx.
  induction H as [|sh ss s st c ct t ts Hs Hc Ht Hb H IH] using dims_ok_ind; intros idx Hin.
  - cbn [req_indices In] in Hin. destruct Hin as [<-|[]]. reflexivity.
  - cbn [req_indices] in Hin.
    apply in_flat_map in Hin. destruct Hin as [i [Hi Hin]].
    apply in_map_iff in Hin. destruct Hin as [r [<- Hr]].
    apply In_zrange in Hi. apply idx_in_shape_cons. split; [nia | apply IH; assumption].
Qed.

Lemma req_indices_idx_ok : forall g start count stride idx,
  req_ok (g_shape g) start count stride -> In idx (req_indices start count stride) ->
  idx_ok g idx.
Proof.
  intros g start count stride idx Hreq. unfold idx_ok, g_isrec.
  induction Hreq as [|sh ss s st c ct t ts Hs Hc Ht Hb H] using req_ok_inv; intros Hin.
  - cbn [req_indices In] in Hin. destruct Hin as [<-|[]]. reflexivity.
  - cbn [req_indices] in Hin.
    apply in_flat_map in Hin. destruct Hin as [i [Hi Hin]].
    apply in_map_iff in Hin. destruct Hin as [r [<- Hr]].
    apply In_zrange in Hi.
    pose proof (req_indices_in_dims _ _ _ _ _ H Hr) as Hr'.
    destruct (sh =? 0) eqn:Esh.
    + cbn [tl]. split; [nia | assumption].
    + apply idx_in_shape_cons. split; [nia | assumption].
Qed.

Lemma req_indices_NoDup : forall start count stride,
  Forall (fun t => 1 <= t) stride -> NoDup (req_indices start count stride).
Proof.
  induction start as [|s st IH]; intros count stride Hpos.
  - cbn [req_indices]. constructor; [intros [] | constructor].
  - destruct count as [|c ct]; [cbn [req_indices]; constructor; [intros [] | constructor]|].
    destruct stride as [|t ts]; [cbn [req_indices]; constructor; [intros [] | constructor]|].
    inversion Hpos as [|? ? Ht Hts]; subst. cbn [req_indices].
    apply NoDup_flat_map_disjoint.
    + apply zrange_NoDup.
    + intros a _. apply NoDup_map_inj_In; [|apply IH; assumption].
      intros x y _ _ E. congruence.
    + intros a b x _ _ Ha Hb.
      apply in_map_iff in Ha. destruct Ha as [ra [<- _]].
      apply in_map_iff in Hb. destruct Hb as [rb [E _]].
      injection E as E _. nia.
Qed.

Theorem spec_offsets_NoDup : forall g start count stride,
  wf_geom g -> rec_fits g -> req_ok (g_shape g) start count stride ->
  NoDup (spec_offsets g start count stride).
Proof.
  intros g start count stride Hwf Hfit Hreq. unfold spec_offsets.
  apply NoDup_map_inj_In.
  - intros x y Hx Hy E.
    eapply elem_off_inj; try eassumption; eapply req_indices_idx_ok; eassumption.
  - apply req_indices_NoDup. eapply req_ok_stride_pos; eassumption.
Qed.

Corollary model_offsets_NoDup : forall g start count stride,
  wf_geom g -> rec_fits g -> req_ok (g_shape g) start count stride ->
  NoDup (model_offsets g start count (Some stride)).
Proof.
  intros. rewrite model_offsets_eq_spec by assumption. apply spec_offsets_NoDup; assumption.
Qed.

Corollary model_offsets_length : forall g start count stride,
  wf_geom g -> req_ok (g_shape g) start count stride ->
  length (model_offsets g start count (Some stride)) = Z.to_nat (zprod count).
Proof.
  intros. rewrite model_offsets_eq_spec by assumption.
  apply spec_offsets_length_req. assumption.
Qed.

(* wf_geom and rec_fits of a concrete geometry, by evaluation *)
Definition geom_ok_b (g : geom) : bool :=
  (0 <? g_xsz g) && (0 <=? g_recsize g) &&
  match g_shape g with [] => true | s0 :: ss => (0 <=? s0) && forallb (fun s => 1 <=? s) ss end &&
  (negb (g_isrec g) || (1 <? g_nrecvars g) || (g_recsize g =? zprod (tl (g_shape g)) * g_xsz g)).

Definition rec_fits_b (g : geom) : bool :=
  negb (g_isrec g) || (zprod (tl (g_shape g)) * g_xsz g <=? g_recsize g).

Lemma geom_ok_b_wf g : geom_ok_b g = true -> wf_geom g.
Proof.
  unfold geom_ok_b, wf_geom, dims_wf, rec_packed. rewrite !andb_true_iff.
  intros [[[Hx Hrs] Hd] Hp]. split; [lia|]. split; [lia|]. split.
  - destruct (g_shape g) as [|s0 ss]; [exact I|]. apply andb_true_iff in Hd.
    split; [lia|]. apply Forall_forall. intros s Hs.
    destruct Hd as [_ Hd]. rewrite forallb_forall in Hd. specialize (Hd s Hs). lia.
  - intros Hrec Hn. rewrite Hrec in Hp. lia.
Qed.

Lemma rec_fits_b_ok g : rec_fits_b g = true -> rec_fits g.
Proof. unfold rec_fits_b, rec_fits. intros H Hrec. rewrite Hrec in H. lia. Qed.

(* req_ok / dims_ok, pointwise reading *)
Definition dim_ok_at (shape start count stride : list Z) (i : nat) : Prop :=
  0 <= nth i start 0 /\ 0 <= nth i count 0 /\ 1 <= nth i stride 0 /\
  (nth i count 0 = 0 \/
   nth i start 0 + (nth i count 0 - 1) * nth i stride 0 < nth i shape 0).

Lemma dims_ok_nth : forall shape start count stride,
  dims_ok shape start count stride <->
  (length start = length shape /\ length count = length shape /\
   length stride = length shape /\
   forall i, (i < length shape)%nat -> dim_ok_at shape start count stride i).
Proof.
  induction shape as [|sh ss IH]; intros start count stride;
    destruct start as [|s st]; destruct count as [|c ct]; destruct stride as [|t ts];
    cbn [dims_ok length]; try (split; [contradiction | intros (? & ? & ? & _); discriminate]).
  - split; [|tauto]. intros _.
    refine (conj eq_refl (conj eq_refl (conj eq_refl _))). intros i Hi. lia.
  - rewrite IH. split.
    + intros (Hs & Hc & Ht & Hb & Hls & Hlc & Hlt & Hall).
      refine (conj _ (conj _ (conj _ _))); try lia.
      intros i Hi. destruct i as [|i].
      * unfold dim_ok_at. cbn [nth]. tauto.
      * apply Hall. lia.
    + intros (Hls & Hlc & Hlt & Hall).
      pose proof (Hall 0%nat ltac:(lia)) as H0. unfold dim_ok_at in H0. cbn [nth] in H0.
      destruct H0 as (H01 & H02 & H03 & H04).
      refine (conj H01 (conj H02 (conj H03 (conj H04 (conj _ (conj _ (conj _ _))))))); try lia.
      intros i Hi. apply (Hall (S i)). lia.
Qed.

(* req_ok: as dims_ok, except that dimension 0 is unbounded when shape[0] = 0 *)
Lemma req_ok_nth : forall shape start count stride,
  req_ok shape start count stride <->
  (length start = length shape /\ length count = length shape /\
   length stride = length shape /\
   forall i, (i < length shape)%nat ->
     0 <= nth i start 0 /\ 0 <= nth i count 0 /\ 1 <= nth i stride 0 /\
     ((i = 0%nat /\ nth 0 shape 0 = 0) \/ nth i count 0 = 0 \/
      nth i start 0 + (nth i count 0 - 1) * nth i stride 0 < nth i shape 0)).
Proof.
  intros shape start count stride.
  destruct shape as [|sh ss]; destruct start as [|s st]; destruct count as [|c ct];
    destruct stride as [|t ts];
    cbn [req_ok length]; try (split; [contradiction | intros (? & ? & ? & _); discriminate]).
  - split; [|tauto]. intros _.
    refine (conj eq_refl (conj eq_refl (conj eq_refl _))). intros i Hi. lia.
  - rewrite dims_ok_nth. split.
    + intros (Hs & Hc & Ht & Hb & Hls & Hlc & Hlt & Hall).
      refine (conj _ (conj _ (conj _ _))); try lia.
      intros i Hi. destruct i as [|i].
      * cbn [nth]. tauto.
      * specialize (Hall i ltac:(lia)). unfold dim_ok_at in Hall. cbn [nth]. tauto.
    + intros (Hls & Hlc & Hlt & Hall).
      pose proof (Hall 0%nat ltac:(lia)) as H0. cbn [nth] in H0.
      destruct H0 as (H01 & H02 & H03 & H04).
      assert (H04' : sh = 0 \/ c = 0 \/ s + (c - 1) * t < sh) by tauto.
      refine (conj H01 (conj H02 (conj H03 (conj H04' (conj _ (conj _ (conj _ _))))))); try lia.
      intros i Hi. specialize (Hall (S i) ltac:(lia)). cbn [nth] in Hall.
      destruct Hall as (Ha1 & Ha2 & Ha3 & Ha4).
      unfold dim_ok_at. refine (conj Ha1 (conj Ha2 (conj Ha3 _))).
      destruct Ha4 as [[Hf _]|Ha4]; [discriminate | assumption].
Qed.

(* The full statement, and the record of the defect found *)
Definition model_offsets_spec_full : Prop :=
  forall g start count stride,
    wf_geom g -> req_ok (g_shape g) start count stride ->
    model_offsets g start count (Some stride) =
    if zprod count =? 0 then [] else spec_offsets g start count stride.

Theorem model_offsets_spec_full_holds : model_offsets_spec_full.
Proof. exact model_offsets_spec. Qed.

(* stride_flatten as in the unrepaired ncmpio_filetype.c: the lowest dimension is always
   stepped by the element size, also when it is the record dimension (ndims = 1) *)
Definition stride_flatten_old (g : geom) (start count stride : list Z) : list Z * Z :=
  let sl := last start 0 in let cl := last count 0 in let tl_ := last stride 1 in
  let nstride := if tl_ =? 1 then 1 else cl in
  let seg_elems := if tl_ =? 1 then cl else 1 in
  let units := dim_units (g_isrec g) (g_recsize g) (g_xsz g) (g_shape g) 0 in
  let d0 := map (fun k => (sl + k * tl_) * g_xsz g) (zrange 0 nstride) in
  let outer := zip (zip (removelast start) (removelast count))
                   (zip (removelast stride) (removelast units)) in
  (flatten_outer (rev (map (fun p => quad (fst p) (snd p)) outer)) d0, seg_elems).

Definition vars_offsets_old (g : geom) (start count : list Z) (stride : option (list Z))
  : list Z :=
  match stride with
  | None => vara_offsets g start count
  | Some st =>
      if negb (is_true_vars count st) then vara_offsets g start count
      else match g_shape g with
           | [] => [g_begin g]
           | _ =>
             if zprod count =? 0 then []
             else
               let '(disps, seg) := stride_flatten_old g start count st in
               flat_map (fun d => map (fun k => g_begin g + d + k * g_xsz g) (zrange 0 seg)) disps
           end
  end.

Definition model_offsets_old (g : geom) (start count : list Z) (stride : option (list Z))
  : list Z :=
  if zprod count =? 0 then [] else vars_offsets_old g start count stride.

(* witness: 1-D record variable of 4-byte elements in a file whose record size is 12
   (two record variables); request start 0, count 3, stride 2 *)
Definition g_bug : geom := mkgeom 100 4 [0] 12 2.

Example g_bug_wf : wf_geom g_bug.
Proof. apply geom_ok_b_wf. reflexivity. Qed.

Example g_bug_req : req_ok (g_shape g_bug) [0] [3] [2].
Proof. cbn [g_bug g_shape req_ok dims_ok]. lia. Qed.

Example g_bug_offsets :
  model_offsets_old g_bug [0] [3] (Some [2]) = [100; 108; 116] /\
  spec_offsets g_bug [0] [3] [2] = [100; 124; 148] /\
  model_offsets g_bug [0] [3] (Some [2]) = [100; 124; 148].
Proof. vm_compute. auto. Qed.

Theorem model_offsets_old_refuted :
  exists g start count stride,
    wf_geom g /\ req_ok (g_shape g) start count stride /\
    model_offsets_old g start count (Some stride) <> spec_offsets g start count stride.
Proof.
  exists g_bug, [0], [3], [2].
  split; [exact g_bug_wf|]. split; [exact g_bug_req|].
  vm_compute. discriminate.
Qed.

(* ... and the defect is confined to 1-D record variables whose record size is not the
   element size: everywhere else the old code agrees with the spec *)
Lemma last_g_units_1d : forall g,
  (g_isrec g = true -> length (g_shape g) = 1%nat -> g_recsize g = g_xsz g) ->
  last (g_units g) (g_xsz g) = g_xsz g.
Proof.
  intros g H. destruct (g_shape g) as [|s0 [|s1 ss]] eqn:Eshape.
  - unfold g_units. rewrite Eshape. reflexivity.
  - destruct (g_isrec g) eqn:Erec.
    + unfold g_units. rewrite Eshape, Erec. cbn [dim_units last andb Nat.eqb].
      apply H; reflexivity.
    + apply last_g_units; [right; assumption | rewrite Eshape; discriminate].
  - apply last_g_units; [left; rewrite Eshape; cbn [length]; lia | rewrite Eshape; discriminate].
Qed.

Theorem model_offsets_old_spec_partial : forall g start count stride,
  wf_geom g -> req_ok (g_shape g) start count stride ->
  (g_isrec g = true -> length (g_shape g) = 1%nat -> g_recsize g = g_xsz g) ->
  model_offsets_old g start count (Some stride) =
  if zprod count =? 0 then [] else spec_offsets g start count stride.
Proof.
  intros g start count stride Hwf Hreq H1d.
  rewrite <- model_offsets_spec by assumption.
  unfold model_offsets_old, model_offsets, vars_offsets_old, vars_offsets.
  unfold stride_flatten_old, stride_flatten. cbv zeta. fold (g_units g).
  rewrite (last_g_units_1d g H1d). reflexivity.
Qed.

(* The hypotheses are satisfiable: non-trivial instances *)
(* 3-D fixed-size variable 4 x 5 x 6 of 4-byte elements, strided in every dimension *)
Definition gf3 : geom := mkgeom 1024 4 [4; 5; 6] 0 0.

Example gf3_wf : wf_geom gf3.
Proof. apply geom_ok_b_wf. reflexivity. Qed.

Example gf3_req : req_ok (g_shape gf3) [1; 0; 2] [2; 3; 2] [2; 2; 3].
Proof. cbn [gf3 g_shape req_ok dims_ok]. lia. Qed.

Example gf3_model_spec :
  model_offsets gf3 [1; 0; 2] [2; 3; 2] (Some [2; 2; 3]) =
  spec_offsets gf3 [1; 0; 2] [2; 3; 2] [2; 2; 3].
Proof. vm_compute. reflexivity. Qed.

Example gf3_model_spec_by_theorem :
  model_offsets gf3 [1; 0; 2] [2; 3; 2] (Some [2; 2; 3]) =
  spec_offsets gf3 [1; 0; 2] [2; 3; 2] [2; 2; 3].
Proof. apply model_offsets_eq_spec; [exact gf3_wf | exact gf3_req]. Qed.

(* a contiguous vara request on it (two full planes) and a non-contiguous one *)
Example gf3_vara_contig :
  req_ok (g_shape gf3) [1; 0; 0] [2; 5; 6] (ones 3) /\
  is_contig (g_isrec gf3) (g_nrecvars gf3) (g_shape gf3) [2; 5; 6] = true /\
  vara_offsets gf3 [1; 0; 0] [2; 5; 6] = spec_offsets gf3 [1; 0; 0] [2; 5; 6] (ones 3).
Proof.
  split; [cbn [gf3 g_shape req_ok dims_ok ones repeat]; lia|].
  split; vm_compute; reflexivity.
Qed.

Example gf3_vara_subarray :
  req_ok (g_shape gf3) [1; 1; 2] [2; 3; 2] (ones 3) /\
  is_contig (g_isrec gf3) (g_nrecvars gf3) (g_shape gf3) [2; 3; 2] = false /\
  vara_offsets gf3 [1; 1; 2] [2; 3; 2] = spec_offsets gf3 [1; 1; 2] [2; 3; 2] (ones 3).
Proof.
  split; [cbn [gf3 g_shape req_ok dims_ok ones repeat]; lia|].
  split; vm_compute; reflexivity.
Qed.

(* 3-D record variable (unlimited x 3 x 4) of 8-byte elements; three record variables in the
   file, record size 200 > 3*4*8; the request reaches beyond any current number of records *)
Definition gr3 : geom := mkgeom 2048 8 [0; 3; 4] 200 3.

Example gr3_wf : wf_geom gr3 /\ rec_fits gr3.
Proof. split; [apply geom_ok_b_wf | apply rec_fits_b_ok]; reflexivity. Qed.

Example gr3_req : req_ok (g_shape gr3) [5; 1; 0] [3; 2; 2] [4; 1; 3].
Proof. cbn [gr3 g_shape req_ok dims_ok]. lia. Qed.

Example gr3_model_spec :
  model_offsets gr3 [5; 1; 0] [3; 2; 2] (Some [4; 1; 3]) =
  spec_offsets gr3 [5; 1; 0] [3; 2; 2] [4; 1; 3].
Proof. vm_compute. reflexivity. Qed.

Example gr3_model_spec_by_theorem :
  model_offsets gr3 [5; 1; 0] [3; 2; 2] (Some [4; 1; 3]) =
  spec_offsets gr3 [5; 1; 0] [3; 2; 2] [4; 1; 3] /\
  NoDup (spec_offsets gr3 [5; 1; 0] [3; 2; 2] [4; 1; 3]) /\
  length (spec_offsets gr3 [5; 1; 0] [3; 2; 2] [4; 1; 3]) = 12%nat.
Proof.
  destruct gr3_wf as [Hwf Hfit]. split; [|split].
  - apply model_offsets_eq_spec; [exact Hwf | exact gr3_req].
  - apply spec_offsets_NoDup; [exact Hwf | exact Hfit | exact gr3_req].
  - rewrite spec_offsets_length_req by exact gr3_req. reflexivity.
Qed.

(* single record variable (records packed back to back, record size 2*3*2 = 12): a request for
   three whole records takes the contiguous shortcut across record boundaries *)
Definition gr1 : geom := mkgeom 512 2 [0; 2; 3] 12 1.

Example gr1_wf : wf_geom gr1.
Proof. apply geom_ok_b_wf. reflexivity. Qed.

Example gr1_vara_contig :
  req_ok (g_shape gr1) [1; 0; 0] [3; 2; 3] (ones 3) /\
  is_contig (g_isrec gr1) (g_nrecvars gr1) (g_shape gr1) [3; 2; 3] = true /\
  vara_offsets gr1 [1; 0; 0] [3; 2; 3] = spec_offsets gr1 [1; 0; 0] [3; 2; 3] (ones 3).
Proof.
  split; [cbn [gr1 g_shape req_ok dims_ok ones repeat]; lia|].
  split; vm_compute; reflexivity.
Qed.

(* the packing hypothesis is necessary: same request, same shape, record size 16 instead of 12
   (rec_packed violated) -- the contiguous shortcut then disagrees with the spec.  In the C
   library this cannot arise: with a single record variable NC_begins sets recsize to the
   unpadded variable length. *)
Example rec_packed_necessary :
  let g := mkgeom 512 2 [0; 2; 3] 16 1 in
  vara_offsets g [1; 0; 0] [3; 2; 3] <> spec_offsets g [1; 0; 0] [3; 2; 3] (ones 3).
Proof. vm_compute. discriminate. Qed.

Example elem_off_inj_example :
  forall i j, idx_ok gr3 i -> idx_ok gr3 j -> elem_off gr3 i = elem_off gr3 j -> i = j.
Proof.
  destruct gr3_wf as [Hwf Hfit]. intros i j. apply elem_off_inj; assumption.
Qed.

(* req_ok is what the dispatcher's argument check establishes *)
Lemma first_err_ok : forall l, first_err l = NC_NOERR -> Forall (fun e => e = NC_NOERR) l.
Proof.
  induction l as [|e r IH]; intros H; [constructor|].
  cbn [first_err] in H. destruct (e =? NC_NOERR) eqn:E.
  - constructor; [lia | apply IH; assumption].
  - exfalso. lia.
Qed.

Lemma check_EINVALCOORDS_ok : forall strict s c sh,
  check_EINVALCOORDS strict s c sh = NC_NOERR -> 0 <= s.
Proof.
  intros strict s c sh H. unfold check_EINVALCOORDS in H.
  destruct strict.
  - destruct ((s <? 0) || (s >=? sh)) eqn:E; [discriminate H | lia].
  - destruct ((s <? 0) || (s >? sh)) eqn:E; [discriminate H | lia].
Qed.

Lemma check_EEDGE_ok : forall s c ot sh,
  check_EEDGE s c ot sh = NC_NOERR ->
  s + c <= sh /\ match ot with Some t => c = 0 \/ c < 0 \/ s + (c - 1) * t < sh | None => True end.
Proof.
  intros s c ot sh H. unfold check_EEDGE in H.
  destruct ((c >? sh) || (s + c >? sh)) eqn:E; [discriminate H|].
  split; [lia|]. destruct ot as [t|]; [|exact I].
  destruct ((c >? 0) && (s + (c - 1) * t >=? sh)) eqn:E2; [discriminate H|].
  lia.
Qed.

Definition stride_of (o : option Z) : Z := match o with Some t => t | None => 1 end.

Lemma checks_dims_ok : forall strict shp st cn (strides : list (option Z)),
  length st = length shp -> length cn = length shp -> length strides = length shp ->
  Forall (fun o => 1 <= stride_of o) strides ->
  first_err (map (fun p => check_EINVALCOORDS strict (fst (fst p)) (snd (fst p)) (snd p))
                 (zip (zip st cn) shp)) = NC_NOERR ->
  first_err
    (map (fun q => let '(s, c, t, sh) := q in
                   if sh <? 0 then NC_EEDGE
                   else if c <? 0 then NC_ENEGATIVECNT
                   else check_EEDGE s c t sh)
         (map (fun p => (fst (fst (fst p)), snd (fst (fst p)), snd (fst p), snd p))
              (zip (zip (zip st cn) strides) shp))) = NC_NOERR ->
  dims_ok shp st cn (map stride_of strides).
Proof.
  intros strict. induction shp as [|sh ss IH]; intros st cn strides H1 H2 H3 Hpos Hco Hed;
    destruct st as [|s st]; try discriminate; destruct cn as [|c ct]; try discriminate;
    destruct strides as [|o os]; try discriminate.
  - exact I.
  - cbn [length] in H1, H2, H3. inversion Hpos as [|? ? Ho Hos]; subst.
    cbn [zip map first_err fst snd] in Hco, Hed.
    destruct (check_EINVALCOORDS strict s c sh =? NC_NOERR) eqn:E1; [|exfalso; lia].
    apply Z.eqb_eq in E1. apply check_EINVALCOORDS_ok in E1.
    destruct (sh <? 0) eqn:Esh; [discriminate Hed|].
    destruct (c <? 0) eqn:Ec; [discriminate Hed|].
    destruct (check_EEDGE s c o sh =? NC_NOERR) eqn:E2; [|exfalso; lia].
    apply Z.eqb_eq in E2. apply check_EEDGE_ok in E2. destruct E2 as [E2 E3].
    cbn [map dims_ok]. refine (conj E1 (conj _ (conj Ho (conj _ _)))); [lia | |].
    + destruct o as [t|]; cbn [stride_of]; [lia|].
      destruct (Z.eq_dec c 0); [left; assumption | right; lia].
    + apply IH; try lia; assumption.
Qed.

Lemma dims_ok_req_ok : forall shape start count stride,
  dims_ok shape start count stride -> req_ok shape start count stride.
Proof.
  intros shape start count stride H. induction H using dims_ok_ind; cbn [req_ok]; tauto.
Qed.

Lemma existsb_nonpos_false : forall t, existsb (fun x => x <=? 0) t = false ->
  Forall (fun x => 1 <= x) t.
Proof.
  induction t as [|x t IH]; intros H; [constructor|].
  cbn [existsb] in H. apply orb_false_iff in H. destruct H as [Hx Ht].
  constructor; [lia | apply IH; assumption].
Qed.

Lemma seq_noerr (e r : Z) :
  (if negb (e =? NC_NOERR) then e else r) = NC_NOERR -> e = NC_NOERR /\ r = NC_NOERR.
Proof.
  intros H. destruct (Z.eqb_spec e NC_NOERR) as [E|E]; cbn [negb] in H; [auto | contradiction].
Qed.

Definition stride_or_ones (n : nat) (stride : option (list Z)) : list Z :=
  match stride with Some t => t | None => ones n end.

(* A request that passes check_start_count_stride satisfies req_ok.  The C arrays have
   ndims entries by contract; the list lengths stand for that contract. *)
Theorem check_scs_req_ok : forall fmt strict isread kind shape numrecs st cn stride,
  length st = length shape -> length cn = length shape ->
  match stride with Some t => length t = length shape | None => True end ->
  check_scs fmt strict (match shape with s0 :: _ => s0 =? 0 | [] => false end)
            isread kind shape numrecs (Some st) (Some cn) stride = NC_NOERR ->
  req_ok shape st cn (stride_or_ones (length shape) stride).
Proof.
  intros fmt strict isread kind shape numrecs st cn stride Hls Hlc Hlt H.
  unfold check_scs in H. cbv zeta in H.
  destruct (hd 0 st <? 0) eqn:Ehd; [discriminate H|].
  (* e_rec, e_coords, e0, e_edge in turn; what is left of H is the stride check *)
  apply seq_noerr in H. destruct H as [_ H].
  apply seq_noerr in H. destruct H as [Eco H].
  apply seq_noerr in H. destruct H as [E0 H].
  apply seq_noerr in H. destruct H as [Eed H].
  (* strides are positive *)
  set (strides := match stride with
                  | Some t => map Some t
                  | None => map (fun _ : Z => @None Z) cn
                  end) in *.
  assert (Hsl : length strides = length shape).
  { unfold strides. destruct stride; rewrite map_length; lia. }
  assert (Hspos : Forall (fun o => 1 <= stride_of o) strides).
  { unfold strides. destruct stride as [t|].
    - destruct (existsb (fun x => x <=? 0) t) eqn:Ex; [discriminate H|].
      apply existsb_nonpos_false in Ex. apply Forall_map. exact Ex.
    - apply Forall_map. apply Forall_forall. intros x _. cbn [stride_of]. lia. }
  assert (Hsof : map stride_of strides = stride_or_ones (length shape) stride).
  { unfold strides, stride_or_ones. destruct stride as [t|].
    - rewrite map_map. cbn [stride_of]. apply map_id.
    - rewrite map_map. cbn [stride_of]. rewrite <- Hlc. unfold ones.
      clear. induction cn as [|c cn IH]; cbn [map length repeat]; [reflexivity | now rewrite IH]. }
  rewrite <- Hsof. clear H Hsof Hlt.
  destruct shape as [|sh ss].
  { destruct st; [|discriminate]. destruct cn; [|discriminate].
    destruct strides; [|discriminate]. exact I. }
  destruct st as [|s st]; [discriminate|]. destruct cn as [|c ct]; [discriminate|].
  destruct strides as [|o os]; [discriminate|].
  cbn [length] in Hls, Hlc, Hsl. cbn [hd] in Ehd.
  destruct (sh =? 0) eqn:Esh.
  - (* record variable: dimension 0 is not bounded by the shape *)
    cbn [skipn tl hd] in Eco, Eed, E0.
    destruct (c <? 0) eqn:Ec; [discriminate E0|].
    inversion Hspos as [|? ? Ho Hos]; subst.
    cbn [map req_ok]. refine (conj _ (conj _ (conj Ho (conj _ _)))); try lia.
    apply (checks_dims_ok strict); try lia; assumption.
  - cbn [skipn] in Eco, Eed.
    apply dims_ok_req_ok. apply (checks_dims_ok strict); cbn [length]; try lia; assumption.
Qed.

Example check_scs_accepts_gf3 :
  check_scs 5 false false false API_VARS (g_shape gf3) 0
            (Some [1; 0; 2]) (Some [2; 3; 2]) (Some [2; 2; 3]) = NC_NOERR.
Proof. vm_compute. reflexivity. Qed.

Example check_scs_accepts_gr3 :
  (* a write beyond the current 2 records of a record variable is accepted *)
  check_scs 5 false true false API_VARS (g_shape gr3) 2
            (Some [5; 1; 0]) (Some [3; 2; 2]) (Some [4; 1; 3]) = NC_NOERR.
Proof. vm_compute. reflexivity. Qed.

(* end-to-end: whatever the dispatcher accepts is laid out as the spec says *)
Corollary accepted_request_offsets : forall fmt strict isread kind g numrecs st cn stride,
  wf_geom g ->
  length st = length (g_shape g) -> length cn = length (g_shape g) ->
  length stride = length (g_shape g) ->
  check_scs fmt strict (g_isrec g) isread kind (g_shape g) numrecs
            (Some st) (Some cn) (Some stride) = NC_NOERR ->
  model_offsets g st cn (Some stride) = spec_offsets g st cn stride.
Proof.
  intros fmt strict isread kind g numrecs st cn stride Hwf H1 H2 H3 H.
  apply model_offsets_eq_spec; [assumption|].
  apply (check_scs_req_ok fmt strict isread kind (g_shape g) numrecs st cn (Some stride));
    assumption.
Qed.
