(* Proofs_Exec.v — theorems about the INTERPRETER functions of Exec.v that are run in the
   correspondence check (put_rank, coll_put, indep_put, get_rank_op, get_into_buffer, put_stream,
   check_request, geom_of, do_enddef), connecting them to the proved facts about Access / Disk /
   Fill / Layout (Proofs_Access, Proofs_RoundTrip, Proofs_CheckScs, Proofs_Fill, Proofs_Layout).
   The enddef / close / open / redef theorems are in Proofs_Exec2.v.

   Main results (no axioms; every statement for arbitrary worlds / files / requests):
     put_rank_effect        an accepted single-request blocking put returns NC_NOERR and changes
                            exactly the disk of the file's slot into
                              dk_scatter d xsz (model_offsets g start count stride) (put_stream a xt 0 r)
     check_request_req_ok   what check_request accepts (var1 / vara / vars forms) satisfies req_ok
     put_rank_frame (with put_disk_roundtrip / _element / _frame / _frame_region / _frame_below /
     _frame_other_var / _size)
                            the addressed elements hold the stream, every other byte of the file
                            (header, other variables, other elements) is unchanged
     put_stream_defined     the stream consists of bytes in [0,256): no UNDEF
     get_into_buffer_typed, get_rank_op_typed
                            a typed get (memory type = external type) returns the guard bytes
                            around the memory image of the elements gathered from the disk; an
                            element with an undefined byte is rendered as UNDEF and the return code
                            is RC_ANY
     get_after_put          get of the SAME request after the put: NC_NOERR and the image of the
                            stream that was put
     get_after_put_other    get through ANY other accepted request on the same variable: each
                            element is the element last written or the previous disk content
     indep_put_effect, indep_put_then_get, coll_put_effect, coll_put_same_then_get
                            the same for the script-level independent / collective put
     geom_of_wf, acc_geom_wf  wf_geom and rec_fits of the interpreter's geometry follow from the
                            layout invariant (recsize rule)
     enddef_fill_reads_fill C16 at interpreter level: after the first enddef every element of a
                            fill-mode fixed variable reads as its fill value
   Examples at the end instantiate the theorems on worlds built with exec_all. *)
From Pnc Require Import Proofs_Redef.
From Pnc Require Import Base Gen_consts Header Access Data Disk Fill Exec.
From Pnc Require Import Proofs_Base Proofs_Header Proofs_Fill Proofs_Exec2.
From Pnc Require Import Proofs_Lists Proofs_Access Proofs_CheckScs Proofs_Layout Proofs_Disk
                        Proofs_RoundTrip.
Require Import Lia ZArith List Bool ZifyBool.
Import ListNotations.
Local Open Scope Z_scope.
Local Arguments Z.mul : simpl never.
Local Arguments Z.add : simpl never.
Local Arguments Z.sub : simpl never.
Local Arguments Z.div : simpl never.
Local Arguments Z.modulo : simpl never.
Local Arguments Z.pow : simpl never.
Local Arguments Z.of_nat : simpl never.
Local Arguments Z.to_nat : simpl never.

(* ================================================================== *)
(** * 0. Worlds: disks and files                                        *)
(* ================================================================== *)
Definition same_but_disks (w w' : world) : Prop :=
  w_nprocs w' = w_nprocs w /\ w_files w' = w_files w /\ w_ids w' = w_ids w /\
  w_hints w' = w_hints w /\ w_strict w' = w_strict w /\ w_move_unit w' = w_move_unit w /\
  Zlen (w_disks w') = Zlen (w_disks w).

Lemma same_but_disks_refl : forall w, same_but_disks w w.
Proof. intros w. unfold same_but_disks. repeat split; reflexivity. Qed.

Lemma same_but_disks_set_disk : forall w slot d, same_but_disks w (set_disk w slot d).
Proof.
  intros w slot d. unfold same_but_disks. repeat split. apply Zlen_w_disks_set_disk.
Qed.

(* ================================================================== *)
(** * 1. put_rank, unfolded                                             *)
(* ================================================================== *)
(* the variable, its external type and geometry, as put_rank / get_rank_op compute them *)
Definition acc_geom (f : filest) (a : access) : geom := geom_of f (the_var f a).
Definition acc_xt (f : filest) (a : access) : Z := v_type (the_var f a).

Definition req_offsets (g : geom) (r : rreq) : list Z :=
  model_offsets g (rq_start r) (rq_count r) (rq_stride r).

(* the disk a single-request put leaves behind *)
Definition put_disk (f : filest) (a : access) (r : rreq) (d : disk) : disk :=
  dk_scatter d (g_xsz (acc_geom f a)) (req_offsets (acc_geom f a) r)
             (put_stream a (acc_xt f a) 0 r).

(* the new_numrecs a single-request put proposes *)
Definition put_newrecs (f : filest) (a : access) (r : rreq) : option Z :=
  if nelems_of r =? 0 then None
  else if g_isrec (acc_geom f a) then Some (Z.max 0 (put_new_numrecs r)) else None.

Lemma g_xsz_acc_geom : forall f a, g_xsz (acc_geom f a) = xlen_type (acc_xt f a).
Proof. reflexivity. Qed.

Lemma g_shape_acc_geom : forall f a,
  g_shape (acc_geom f a) = var_shape (h_dims (f_hdr f)) (the_var f a).
Proof. reflexivity. Qed.

Lemma g_isrec_acc_geom : forall f a,
  g_isrec (acc_geom f a) = is_recvar (h_dims (f_hdr f)) (the_var f a).
Proof. reflexivity. Qed.

Lemma req_offsets_empty : forall g r, nelems_of r = 0 -> req_offsets g r = [].
Proof.
  intros g r H. unfold req_offsets, model_offsets. unfold nelems_of in H. rewrite H. reflexivity.
Qed.

(** The interpreter step itself: for ANY file state and ANY access whose mode /
    variable checks pass ([sanity]), whose argument check resolves to ONE request r
    ([check_request]: every form but varn), and whose buffer description matches
    ([iomismatch]), put_rank returns NC_NOERR, touches nothing but the disk of the file's slot,
    and that disk becomes the scatter of the pattern stream at the model offsets.
    (A zero-length request returns the world unchanged; the scatter over no offsets is the
    identity, so the equation covers that branch too.) *)
Theorem put_rank_effect : forall w id f rank coll a r,
  0 <= f_slot f < Zlen (w_disks w) ->
  sanity f true true coll a = NC_NOERR ->
  check_request w f rank false a = (NC_NOERR, Some [r]) ->
  iomismatch a [r] = false ->
  exists w',
    put_rank w id f rank coll a = (w', NC_NOERR, put_newrecs f a r, negb (nelems_of r =? 0)) /\
    disk_of w' f = put_disk f a r (disk_of w f) /\
    (forall s, s <> f_slot f -> get_disk w' s = get_disk w s) /\
    same_but_disks w w'.
Proof.
  intros w id f rank coll a r Hslot Hsan Hchk Hio.
  unfold put_rank. rewrite Hsan. cbn [negb Z.eqb NC_NOERR].
  change (0 =? 0) with true. cbn [negb].
  rewrite Hchk. rewrite Hio.
  assert (Etot : total_elems [r] = nelems_of r).
  { unfold total_elems. cbn [map zsum]. lia. }
  rewrite Etot.
  destruct (nelems_of r =? 0) eqn:Ez.
  - exists w. split; [|split; [|split]].
    + unfold put_newrecs. rewrite Ez. reflexivity.
    + unfold put_disk. rewrite req_offsets_empty by lia. reflexivity.
    + intros s _. reflexivity.
    + apply same_but_disks_refl.
  - cbn [with_bases fold_left fst snd negb].
    eexists. split; [|split; [|split]].
    + unfold put_newrecs. rewrite Ez. fold (acc_geom f a).
      destruct (g_isrec (acc_geom f a)); [|reflexivity].
      cbn [filter]. rewrite Ez. cbn [negb map fold_left]. reflexivity.
    + unfold disk_of. rewrite get_disk_set_disk_same by exact Hslot. reflexivity.
    + intros s Hs. apply get_disk_set_disk_other, not_eq_sym, Hs.
    + apply same_but_disks_set_disk.
Qed.
(* ================================================================== *)
(** * 2. What check_request accepts satisfies req_ok                    *)
(* ================================================================== *)
Definition rq_strides (g : geom) (r : rreq) : list Z :=
  stride_or_ones (length (g_shape g)) (rq_stride r).

(* the resolved request is a plain (start, count, stride) request inside the variable *)
Definition rq_ok (g : geom) (r : rreq) : Prop :=
  rq_imap r = None /\ req_ok (g_shape g) (rq_start r) (rq_count r) (rq_strides g r).

(* the var1 / vara / vars forms with non-NULL arguments of ndims entries each (the C arrays
   have ndims entries by contract; the list lengths stand for that contract) *)
Definition form_lengths (fm : form) (n : nat) : Prop :=
  match fm with
  | FVar1 (Some s) => length s = n
  | FVara (Some s) (Some c) => length s = n /\ length c = n
  | FVars (Some s) (Some c) None => length s = n /\ length c = n
  | FVars (Some s) (Some c) (Some t) => length s = n /\ length c = n /\ length t = n
  | _ => False
  end.

(* a NULL count is accepted by the var1 API only *)
Lemma check_scs_count_none : forall fmt strict isrec isread kind shape numrecs st stride,
  kind <> API_VAR1 ->
  check_scs fmt strict isrec isread kind shape numrecs (Some st) None stride <> NC_NOERR.
Proof.
  intros fmt strict isrec isread kind shape numrecs st stride Hk H.
  unfold check_scs in H. cbv zeta in H.
  destruct (hd 0 st <? 0); [discriminate H|].
  match type of H with (if negb (?e =? NC_NOERR) then _ else _) = _ => destruct (Z.eqb_spec e NC_NOERR) as [E1|E1] end;
    cbn [negb] in H; [|contradiction].
  match type of H with (if negb (?e =? NC_NOERR) then _ else _) = _ => destruct (Z.eqb_spec e NC_NOERR) as [E2|E2] end;
    cbn [negb] in H; [|contradiction].
  destruct kind; try discriminate H. apply Hk. reflexivity.
Qed.

(* var1, vara, vars, varm: one sub-request, checked by check_scs with the kind of the API; the
   count may be NULL for var1 only *)
Lemma one_request_ok : forall fmt strict isread kind shape numrecs s c t m e rs,
  match s with Some l => length l = length shape | None => True end /\
  match c with Some l => length l = length shape | None => True end /\
  match t with Some l => length l = length shape | None => True end ->
  (kind = API_VAR1 -> c = None /\ t = None) ->
  match shape with
  | [] => (NC_NOERR, Some [mkrreq [] [] None None])
  | _ =>
      let e := check_scs fmt strict (match shape with s0 :: _ => s0 =? 0 | [] => false end)
                         isread kind shape numrecs s c t in
      if negb (e =? NC_NOERR) then (e, None)
      else match s with
           | None => (NC_EINVALCOORDS, None)
           | Some st => (NC_NOERR, Some [mkrreq st (match c with Some x => x | None => map (fun _ => 1) shape end) t m])
           end
  end = (e, Some rs) ->
  Forall (fun r => (m = None -> rq_imap r = None) /\
              req_ok shape (rq_start r) (rq_count r) (stride_or_ones (length shape) (rq_stride r))) rs.
Proof.
  intros fmt strict isread kind shape numrecs s c t m e rs (Hls & Hlc & Hlt) Hk H.
  destruct shape as [|sh ss].
  { injection H as _ <-. constructor; [split; [reflexivity|exact I]|constructor]. }
  cbv zeta in H.
  match type of H with (if negb (?e0 =? NC_NOERR) then _ else _) = _ =>
    destruct (Z.eqb_spec e0 NC_NOERR) as [Ee|Ee] end; cbn [negb] in H; [|discriminate H].
  destruct s as [st|]; [|discriminate H]. injection H as _ <-.
  constructor; [|constructor]. split; [intros ->; reflexivity|].
  cbn [rq_start rq_count rq_stride].
  destruct c as [cn|].
  - exact (check_scs_req_ok fmt strict isread kind _ numrecs st cn t Hls Hlc Hlt Ee).
  - destruct kind; try (exfalso; revert Ee; apply check_scs_count_none; discriminate).
    destruct (Hk eq_refl) as [_ ->].
    exact (check_scs_var1_req_ok fmt strict isread _ numrecs st Hls Ee).
Qed.

Theorem check_request_req_ok : forall w f rank isread a r,
  form_lengths (ac_form a) (length (g_shape (acc_geom f a))) ->
  check_request w f rank isread a = (NC_NOERR, Some [r]) ->
  rq_ok (acc_geom f a) r.
Proof.
  intros w f rank isread a r Hfl H.
  unfold rq_ok, rq_strides. rewrite g_shape_acc_geom in *.
  unfold check_request in H. cbv zeta in H. unfold is_recvar in H.
  set (shape := var_shape (h_dims (f_hdr f)) (the_var f a)) in *.
  destruct (ac_form a) as [|[s|]|[s|] [c|]|[s|] [c|] [t|]|s c t m|reqs]; cbn [form_lengths] in Hfl;
    try contradiction; cbn [form_args] in H.
  - (* var1 *)
    destruct (Forall_inv (one_request_ok _ _ _ _ _ _ (Some s) None None None _ _ (conj Hfl (conj I I))
                            (fun _ => conj eq_refl eq_refl) H)) as [Him Hr].
    exact (conj (Him eq_refl) Hr).
  - (* vara *)
    destruct (Forall_inv (one_request_ok _ _ _ API_VARA _ _ (Some s) (Some c) None None _ _
                            (conj (proj1 Hfl) (conj (proj2 Hfl) I)) ltac:(discriminate) H)) as [Him Hr].
    exact (conj (Him eq_refl) Hr).
  - (* vars *)
    destruct (Forall_inv (one_request_ok _ _ _ API_VARS _ _ (Some s) (Some c) (Some t) None _ _ Hfl
                            ltac:(discriminate) H)) as [Him Hr].
    exact (conj (Him eq_refl) Hr).
  - (* vars, NULL stride *)
    destruct (Forall_inv (one_request_ok _ _ _ API_VARA _ _ (Some s) (Some c) None None _ _
                            (conj (proj1 Hfl) (conj (proj2 Hfl) I)) ltac:(discriminate) H)) as [Him Hr].
    exact (conj (Him eq_refl) Hr).
Qed.
(* ================================================================== *)
(** * 3. The stream of a put                                            *)
(* ================================================================== *)
Definition byte_ok (b : byte) : Prop := 0 <= b < 256.

Lemma be_bytes_range : forall n x, Forall byte_ok (be_bytes n x).
Proof.
  induction n as [|n IH]; intros x; cbn [be_bytes]; [constructor|].
  apply Forall_app. split; [apply IH|]. constructor; [|constructor].
  unfold byte_ok. pose proof (Z.mod_pos_bound x 256 ltac:(lia)). lia.
Qed.

Lemma enc_value_range : forall t v, Forall byte_ok (enc_value t v).
Proof. intros t v. unfold enc_value. destruct (is_float_type t); apply be_bytes_range. Qed.

Lemma byte_ok_defined : forall l, Forall byte_ok l -> existsb is_undef l = false.
Proof.
  induction l as [|b l IH]; intros H; [reflexivity|].
  inversion H as [|? ? Hb Hl]; subst. cbn [existsb]. rewrite (IH Hl).
  unfold is_undef, byte_ok in *. lia.
Qed.

Lemma Forall_flat_map_all {A B} (P : B -> Prop) : forall (F : A -> list B) l,
  (forall x, Forall P (F x)) -> Forall P (flat_map F l).
Proof.
  intros F l H. induction l as [|x l IH]; [constructor|].
  cbn [flat_map]. apply Forall_app. split; [apply H | exact IH].
Qed.

Lemma lbuf_positions_none : forall r, rq_imap r = None -> lbuf_positions r = zrange 0 (nelems_of r).
Proof. intros r H. unfold lbuf_positions. rewrite H. reflexivity. Qed.

(* the value the script pattern puts at stream position k *)
Definition put_elem (a : access) (xt k : Z) : list byte :=
  enc_value xt (pat_value (ac_seed a) k (pat_lim (eff_memt a xt) xt)).

Lemma put_stream_none : forall a xt k0 r, rq_imap r = None ->
  put_stream a xt k0 r = flat_map (fun p => put_elem a xt (k0 + p)) (zrange 0 (nelems_of r)).
Proof. intros a xt k0 r H. unfold put_stream. rewrite lbuf_positions_none by exact H. reflexivity. Qed.

Lemma Zlen_put_stream : forall a xt k0 r, rq_imap r = None -> 0 <= nelems_of r ->
  Zlen (put_stream a xt k0 r) = xlen_type xt * nelems_of r.
Proof.
  intros a xt k0 r Him Hn. rewrite put_stream_none by exact Him.
  rewrite (Zlen_flat_map_const _ (xlen_type xt)).
  - rewrite Zlen_zrange, Z.max_r by lia. apply Z.mul_comm.
  - intros p. apply Zlen_enc_value.
Qed.

(** the stream a put sends holds only defined bytes (in [0,256)), whatever the request
    (also through an imap) *)
Theorem put_stream_defined : forall a xt k0 r, Forall byte_ok (put_stream a xt k0 r).
Proof.
  intros a xt k0 r. unfold put_stream. apply Forall_flat_map_all.
  intros p. apply enc_value_range.
Qed.

Lemma zrange_split : forall n k, 0 <= k < n ->
  zrange 0 n = zrange 0 k ++ k :: zrange (k + 1) (n - k - 1).
Proof.
  intros n k Hk.
  replace n with (k + (1 + (n - k - 1))) at 1 by lia.
  rewrite zrange_app by lia. f_equal. replace (0 + k) with k by lia.
  rewrite zrange_app by lia. rewrite zrange_1. reflexivity.
Qed.

Lemma stream_elem_flat_map : forall (F : Z -> list byte) xsz n k,
  (forall p, Zlen (F p) = xsz) -> 0 <= k < n ->
  stream_elem xsz (flat_map F (zrange 0 n)) k = F k.
Proof.
  intros F xsz n k HF Hk. unfold stream_elem.
  rewrite (zrange_split n k Hk), flat_map_app. cbn [flat_map].
  assert (E : k * xsz = Zlen (flat_map F (zrange 0 k))).
  { rewrite (Zlen_flat_map_const F xsz) by exact HF. rewrite Zlen_zrange, Z.max_r by lia. lia. }
  rewrite E, zskipn_app_exact. rewrite <- (HF k). apply zfirstn_app_exact.
Qed.

Lemma stream_elem_put_stream : forall a xt r k, rq_imap r = None -> 0 <= k < nelems_of r ->
  stream_elem (xlen_type xt) (put_stream a xt 0 r) k = put_elem a xt k.
Proof.
  intros a xt r k Him Hk. rewrite put_stream_none by exact Him.
  rewrite (stream_elem_flat_map (fun p => put_elem a xt (0 + p)) (xlen_type xt)).
  - f_equal.
  - intros p. apply Zlen_enc_value.
  - exact Hk.
Qed.

(* ================================================================== *)
(** * 4. The offsets of an accepted request                             *)
(* ================================================================== *)
Definition rq_indices (g : geom) (r : rreq) : list (list Z) :=
  req_indices (rq_start r) (rq_count r) (rq_strides g r).

Lemma req_offsets_some : forall g r, wf_geom g -> rq_ok g r ->
  req_offsets g r = model_offsets g (rq_start r) (rq_count r) (Some (rq_strides g r)).
Proof.
  intros g r Hwf [_ Hreq]. unfold req_offsets, rq_strides in *.
  destruct (rq_stride r) as [t|]; [reflexivity|]. cbn [stride_or_ones] in *.
  rewrite model_offsets_eq_spec_none, model_offsets_eq_spec by assumption. reflexivity.
Qed.

Lemma req_offsets_spec : forall g r, wf_geom g -> rq_ok g r ->
  req_offsets g r = map (elem_off g) (rq_indices g r).
Proof.
  intros g r Hwf Hok. rewrite req_offsets_some by assumption. destruct Hok as [_ Hreq].
  rewrite model_offsets_eq_spec by assumption. reflexivity.
Qed.

Lemma rq_ok_nelems : forall g r, rq_ok g r -> 0 <= nelems_of r.
Proof.
  intros g r [_ Hreq]. unfold nelems_of. apply zprod_nonneg.
  eapply req_ok_count_nonneg. exact Hreq.
Qed.

Lemma Zlen_req_offsets : forall g r, wf_geom g -> rq_ok g r -> Zlen (req_offsets g r) = nelems_of r.
Proof.
  intros g r Hwf Hok. rewrite req_offsets_some by assumption. destruct Hok as [_ Hreq].
  apply Zlen_model_offsets; assumption.
Qed.

Lemma Zlen_rq_indices : forall g r, rq_ok g r -> Zlen (rq_indices g r) = nelems_of r.
Proof. intros g r [_ Hreq]. unfold rq_indices. exact (Zlen_req_indices _ _ _ _ Hreq). Qed.

Lemma rq_indices_idx_ok : forall g r idx, rq_ok g r -> In idx (rq_indices g r) -> idx_ok g idx.
Proof. intros g r idx [_ Hreq] Hin. eapply req_indices_idx_ok; eassumption. Qed.

Lemma req_offsets_disjoint : forall g r, wf_geom g -> rec_fits g -> rq_ok g r ->
  elems_disjoint (g_xsz g) (req_offsets g r).
Proof.
  intros g r Hwf Hfit Hok. rewrite req_offsets_some by assumption. destruct Hok as [_ Hreq].
  apply request_offsets_disjoint; assumption.
Qed.

(* ================================================================== *)
(** * 5. put_rank: the bytes of the file after the put                  *)
(* ================================================================== *)
(* the hypotheses under which the put is judged: the interpreter's own checks (booleans that
   can be evaluated), the ndims contract of the argument arrays, and the two layout facts
   about the variable (wf_geom: positive element size, dimension lengths, packed records for
   a single record variable; rec_fits: a record slot is not larger than the record) *)
Definition put_accepted (w : world) (f : filest) (rank : Z) (coll : bool) (a : access) (r : rreq)
  : Prop :=
  0 <= f_slot f < Zlen (w_disks w) /\
  sanity f true true coll a = NC_NOERR /\
  check_request w f rank false a = (NC_NOERR, Some [r]) /\
  iomismatch a [r] = false /\
  form_lengths (ac_form a) (length (g_shape (acc_geom f a))) /\
  wf_geom (acc_geom f a) /\ rec_fits (acc_geom f a).

Lemma put_accepted_rq_ok : forall w f rank coll a r,
  put_accepted w f rank coll a r -> rq_ok (acc_geom f a) r.
Proof.
  intros w f rank coll a r (_ & _ & Hchk & _ & Hfl & _). eapply check_request_req_ok; eassumption.
Qed.

Lemma var_region_ge_begin : forall g x, wf_geom g -> var_region g x -> g_begin g <= x.
Proof.
  intros g x (_ & Hrs & _) H. unfold var_region in H. destruct (g_isrec g); [|lia].
  destruct H as [i0 [Hi0 Hr]]. assert (0 <= i0 * g_recsize g) by nia. lia.
Qed.

Section PutDisk.
  Variables (f : filest) (a : access) (r : rreq) (d : disk).
  Let g := acc_geom f a.
  Let xt := acc_xt f a.
  Hypothesis Hwf : wf_geom g.
  Hypothesis Hfit : rec_fits g.
  Hypothesis Hok : rq_ok g r.

  Let D := put_disk f a r d.

  Lemma put_disk_len : Zlen (put_stream a xt 0 r) = g_xsz g * Zlen (req_offsets g r).
  Proof.
    rewrite Zlen_req_offsets by assumption.
    rewrite Zlen_put_stream; [reflexivity | exact (proj1 Hok) | eapply rq_ok_nelems; exact Hok].
  Qed.

  (** what the put stored is what a gather through the same offsets returns *)
  Theorem put_disk_roundtrip : dk_gather D (g_xsz g) (req_offsets g r) = put_stream a xt 0 r.
  Proof.
    unfold D, put_disk. fold g xt. apply gather_scatter.
    - apply req_offsets_disjoint; assumption.
    - exact put_disk_len.
  Qed.

  (** the element with the k-th index vector of the request holds the k-th pattern value *)
  Theorem put_disk_element : forall k, 0 <= k < nelems_of r ->
    dk_read D (elem_off g (znth (rq_indices g r) k [])) (g_xsz g) = put_elem a xt k.
  Proof.
    intros k Hk. pose proof Hwf as (Hx & _).
    assert (Ek : elem_off g (znth (rq_indices g r) k []) = znth (req_offsets g r) k 0).
    { rewrite req_offsets_spec by assumption. symmetry.
      apply znth_map. rewrite Zlen_rq_indices by assumption. exact Hk. }
    rewrite Ek. rewrite <- stream_elem_gather by (rewrite ?Zlen_req_offsets by assumption; lia).
    rewrite put_disk_roundtrip. apply stream_elem_put_stream; [exact (proj1 Hok)|exact Hk].
  Qed.

  (** FRAME: a byte that belongs to no addressed element keeps its value *)
  Theorem put_disk_frame : forall x,
    (forall idx, In idx (rq_indices g r) -> ~ in_elem (g_xsz g) (elem_off g idx) x) ->
    dk_get D x = dk_get d x.
  Proof.
    intros x H. unfold D, put_disk. fold g xt. apply scatter_get_out.
    intros o Ho. rewrite req_offsets_spec in Ho by assumption.
    apply in_map_iff in Ho. destruct Ho as [idx [<- Hidx]]. apply H. exact Hidx.
  Qed.

  (** ... in particular every other element of the same variable *)
  Corollary put_disk_frame_element : forall idx,
    idx_ok g idx -> ~ In idx (rq_indices g r) ->
    dk_read D (elem_off g idx) (g_xsz g) = dk_read d (elem_off g idx) (g_xsz g).
  Proof.
    intros idx Hidx Hnot. unfold D, put_disk. fold g xt. rewrite req_offsets_some by assumption.
    apply put_frame_element; try assumption. exact (proj2 Hok).
  Qed.

  (** ... every byte outside the variable's region: the header, the other variables, the
      padding between variables *)
  Corollary put_disk_frame_region : forall x, ~ var_region g x -> dk_get D x = dk_get d x.
  Proof.
    intros x Hx. apply put_disk_frame. intros idx Hin Hel. apply Hx.
    pose proof Hwf as (Hxs & _).
    eapply elem_in_region; [lia | eapply rq_indices_idx_ok; eassumption | exact Hel].
  Qed.

  (** ... every byte before the variable's begin (the header lies there) *)
  Corollary put_disk_frame_below : forall x, x < g_begin g -> dk_get D x = dk_get d x.
  Proof.
    intros x Hx. apply put_disk_frame_region. intros H.
    pose proof (var_region_ge_begin g x Hwf H). lia.
  Qed.

  (** ... every byte of a variable whose region does not meet this one *)
  Corollary put_disk_frame_other_var : forall g2 x,
    regions_disjoint g g2 -> var_region g2 x -> dk_get D x = dk_get d x.
  Proof. intros g2 x Hd H2. apply put_disk_frame_region. intros H1. exact (Hd x H1 H2). Qed.

  (** the file extent: never shrinks, and covers every addressed element *)
  Theorem put_disk_size :
    dk_size d <= dk_size D /\
    forall idx, In idx (rq_indices g r) -> elem_off g idx + g_xsz g <= dk_size D.
  Proof.
    pose proof Hwf as (Hxs & _). unfold D, put_disk. fold g xt. split.
    - apply scatter_size_mono; [exact Hxs | exact put_disk_len].
    - intros idx Hin. apply scatter_size_ge; [exact Hxs | exact put_disk_len |].
      rewrite req_offsets_spec by assumption. apply in_map. exact Hin.
  Qed.
End PutDisk.

(** Assembled: an accepted put through put_rank returns NC_NOERR; the new world
    differs from the old one only in the disk of the file's slot; on that disk the addressed
    elements hold the pattern stream (in row-major order of the request) and every other byte —
    the header, other variables' regions, other elements of this variable — is unchanged. *)
Theorem put_rank_frame : forall w id f rank coll a r,
  put_accepted w f rank coll a r ->
  let g := acc_geom f a in let xt := acc_xt f a in
  exists w',
    put_rank w id f rank coll a = (w', NC_NOERR, put_newrecs f a r, negb (nelems_of r =? 0)) /\
    same_but_disks w w' /\
    (forall s, s <> f_slot f -> get_disk w' s = get_disk w s) /\
    disk_of w' f = put_disk f a r (disk_of w f) /\
    dk_gather (disk_of w' f) (g_xsz g) (req_offsets g r) = put_stream a xt 0 r /\
    (forall k, 0 <= k < nelems_of r ->
       dk_read (disk_of w' f) (elem_off g (znth (rq_indices g r) k [])) (g_xsz g) =
       put_elem a xt k) /\
    (forall x, (forall idx, In idx (rq_indices g r) -> ~ in_elem (g_xsz g) (elem_off g idx) x) ->
       dk_get (disk_of w' f) x = dk_get (disk_of w f) x) /\
    (forall x, ~ var_region g x -> dk_get (disk_of w' f) x = dk_get (disk_of w f) x) /\
    (forall x, x < g_begin g -> dk_get (disk_of w' f) x = dk_get (disk_of w f) x) /\
    (forall g2 x, regions_disjoint g g2 -> var_region g2 x ->
       dk_get (disk_of w' f) x = dk_get (disk_of w f) x) /\
    dk_size (disk_of w f) <= dk_size (disk_of w' f).
Proof.
  intros w id f rank coll a r Hacc g xt.
  pose proof (put_accepted_rq_ok _ _ _ _ _ _ Hacc) as Hok.
  destruct Hacc as (Hslot & Hsan & Hchk & Hio & Hfl & Hwf & Hfit).
  destruct (put_rank_effect w id f rank coll a r Hslot Hsan Hchk Hio) as (w' & Hput & Hd & Hoth & Hsame).
  exists w'. split; [exact Hput|]. split; [exact Hsame|]. split; [exact Hoth|].
  split; [exact Hd|]. rewrite Hd.
  split; [apply put_disk_roundtrip; assumption|].
  split; [apply put_disk_element; assumption|].
  split; [apply put_disk_frame; assumption|].
  split; [apply put_disk_frame_region; assumption|].
  split; [apply put_disk_frame_below; assumption|].
  split; [apply put_disk_frame_other_var; assumption|].
  exact (proj1 (put_disk_size f a r (disk_of w f) Hwf Hok)).
Qed.
(* ================================================================== *)
(** * 6. get_into_buffer for a typed buffer of the external type        *)
(* ================================================================== *)
(* memory image of one element read from the file: an element with an undefined byte is
   rendered as msz undefined bytes *)
Definition elem_image (xsz : Z) (e : list byte) : list byte :=
  if existsb is_undef e then repeat UNDEF (Z.to_nat xsz) else mem_of_be e.

Lemma Zlen_elem_image : forall xsz e, 0 <= xsz -> Zlen e = xsz -> Zlen (elem_image xsz e) = xsz.
Proof.
  intros xsz e Hx He. unfold elem_image. destruct (existsb is_undef e).
  - rewrite Zlen_repeat. lia.
  - unfold mem_of_be, Zlen in *. rewrite rev_length. exact He.
Qed.

Lemma elem_image_defined : forall xsz e, Forall byte_ok e -> elem_image xsz e = mem_of_be e.
Proof. intros xsz e H. unfold elem_image. rewrite byte_ok_defined by exact H. reflexivity. Qed.

Lemma poke_app : forall bs pre mid post, Zlen mid = Zlen bs ->
  poke (pre ++ mid ++ post) (Zlen pre) bs = pre ++ bs ++ post.
Proof.
  induction bs as [|b bs IH]; intros pre mid post Hl.
  - rewrite Zlen_nil in Hl. apply Zlen_zero_nil in Hl. subst mid. reflexivity.
  - destruct mid as [|m mid]; [rewrite Zlen_nil, Zlen_cons in Hl; pose proof (Zlen_nonneg bs); lia|].
    rewrite !Zlen_cons in Hl. cbn [poke app]. rewrite zupd_app_exact.
    replace (pre ++ b :: mid ++ post) with ((pre ++ [b]) ++ mid ++ post)
      by (rewrite <- app_assoc; reflexivity).
    replace (Zlen pre + 1) with (Zlen (pre ++ [b])) by (rewrite Zlen_app, Zlen_cons, Zlen_nil; lia).
    rewrite IH by lia. rewrite <- app_assoc. reflexivity.
Qed.

(* one step of the inner fold of get_into_buffer *)
Definition gib_step (fmt : Z) (a : access) (xt k0 : Z)
           (acc : option (list byte * bool * bool)) (pe : Z * list byte)
  : option (list byte * bool * bool) :=
  let memt := eff_memt a xt in
  let msz := mem_size memt in
  match acc with
  | None => None
  | Some (buf, er, unk) =>
      let at_ := GUARD + buf_index (ac_buf a) (k0 + fst pe) * msz in
      if existsb is_undef (snd pe)
      then Some (poke buf at_ (repeat UNDEF (Z.to_nat msz)), er, true)
      else
      if (fmt <? 5) && (xt =? 1) && (memt =? 7)
      then Some (poke buf at_ (snd pe), er, unk)
      else
      match convert xt memt (snd pe) with
      | None => None
      | Some (be, e) => Some (poke buf at_ (mem_of_be be), er || e, unk)
      end
  end.

Lemma get_into_buffer_eq : forall fmt a xt rs,
  get_into_buffer fmt a xt rs =
  fold_left (fun acc0 x =>
               let '(k0, r, stream) := x in
               fold_left (gib_step fmt a xt k0)
                         (zip (lbuf_positions r) (chunk_list (xlen_type xt) stream)) acc0)
            rs
            (Some (blank_buf (buf_extent_list (ac_buf a) (map (fun x => snd (fst x)) rs) *
                              mem_size (eff_memt a xt)), false, false)).
Proof. reflexivity. Qed.

Lemma gib_step_typed : forall fmt a xt k0 buf er unk p e,
  ac_buf a = BTyped -> ac_memt a = xt ->
  gib_step fmt a xt k0 (Some (buf, er, unk)) (p, e) =
  Some (poke buf (GUARD + (k0 + p) * xlen_type xt) (elem_image (xlen_type xt) e), er,
        existsb is_undef e || unk).
Proof.
  intros fmt a xt k0 buf er unk p e Hb Hm. unfold gib_step, eff_memt, mem_size, elem_image.
  rewrite Hb, Hm. cbn [buf_index fst snd].
  destruct (existsb is_undef e); [reflexivity|].
  replace ((fmt <? 5) && (xt =? 1) && (xt =? 7)) with false by lia.
  unfold convert. rewrite Z.eqb_refl, orb_false_r. reflexivity.
Qed.

Definition blanks (xsz : Z) (elems : list (list byte)) : list byte :=
  @flat_map (list byte) byte (fun _ => @repeat byte 165 (Z.to_nat xsz)) elems.

Lemma gib_fold_typed : forall fmt a xt,
  ac_buf a = BTyped -> ac_memt a = xt -> 0 <= xlen_type xt ->
  forall elems j pre post er unk,
  Forall (fun e => Zlen e = xlen_type xt) elems ->
  Zlen pre = GUARD + j * xlen_type xt ->
  fold_left (gib_step fmt a xt 0) (zip (zseq j (length elems)) elems)
            (Some (pre ++ blanks (xlen_type xt) elems ++ post, er, unk)) =
  Some (pre ++ flat_map (elem_image (xlen_type xt)) elems ++ post, er,
        existsb (existsb is_undef) elems || unk).
Proof.
  intros fmt a xt Hb Hm Hx. set (xsz := xlen_type xt) in *.
  induction elems as [|e rest IH]; intros j pre post er unk Hall Hpre.
  - reflexivity.
  - apply Forall_cons_iff in Hall. destruct Hall as [He Hrest].
    cbn [length zseq zip fold_left]. rewrite (gib_step_typed fmt a xt 0 _ _ _ j e Hb Hm).
    fold xsz. unfold blanks. cbn [flat_map]. fold (blanks xsz rest).
    rewrite <- app_assoc.
    replace (GUARD + (0 + j) * xsz) with (Zlen pre) by lia.
    rewrite poke_app
      by (rewrite Zlen_repeat, Zlen_elem_image by (try exact He; lia); lia).
    rewrite (app_assoc pre (elem_image xsz e) (blanks xsz rest ++ post)).
    rewrite (IH (j + 1)); [| exact Hrest | rewrite Zlen_app, Zlen_elem_image by (try exact He; lia); lia].
    rewrite <- !app_assoc. cbn [existsb].
    f_equal. f_equal.
    destruct (existsb is_undef e), (existsb (existsb is_undef) rest), unk; reflexivity.
Qed.

Lemma repeat_blanks : forall xsz (elems : list (list byte)), 0 <= xsz ->
  @repeat byte 165 (Z.to_nat (Zlen elems * xsz)) = blanks xsz elems.
Proof.
  intros xsz elems Hx. induction elems as [|e rest IH].
  - rewrite Zlen_nil. reflexivity.
  - unfold blanks. cbn [flat_map]. fold (blanks xsz rest). rewrite <- IH, <- repeat_app.
    f_equal. rewrite Zlen_cons. pose proof (Zlen_nonneg rest). nia.
Qed.

Lemma chunks_concat {A} : forall n (elems : list (list A)) fuel, (0 < n)%nat ->
  Forall (fun e => length e = n) elems -> (length elems <= fuel)%nat ->
  Data.chunks n fuel (concat elems) = elems.
Proof.
  intros n elems. induction elems as [|e rest IH]; intros fuel Hn Hall Hf.
  - destruct fuel; reflexivity.
  - inversion Hall as [|? ? He Hrest]; subst.
    destruct fuel as [|fuel]; [cbn [length] in Hf; lia|].
    cbn [concat Data.chunks].
    destruct (e ++ concat rest) as [|b l] eqn:E.
    { destruct e; [cbn [length] in Hn; lia | discriminate E]. }
    rewrite <- E. rewrite firstn_app, skipn_app, firstn_all, skipn_all, Nat.sub_diag.
    cbn [firstn skipn app]. rewrite app_nil_r. f_equal.
    apply IH; [exact Hn | exact Hrest | cbn [length] in Hf; lia].
Qed.

Lemma chunk_list_concat : forall xsz (elems : list (list byte)), 0 < xsz ->
  Forall (fun e => Zlen e = xsz) elems -> chunk_list xsz (concat elems) = elems.
Proof.
  intros xsz elems Hx Hall. unfold chunk_list. apply chunks_concat.
  - lia.
  - eapply Forall_impl; [|exact Hall]. intros e He. cbv beta in He. unfold Zlen in He. lia.
  - induction Hall as [|e rest He _ IH]; [cbn [length]; lia|].
    cbn [concat length]. rewrite app_length. unfold Zlen in He. lia.
Qed.

Lemma nelems_or1_nonneg : forall r, Forall (fun c => 0 <= c) (rq_count r) -> nelems_or1 r = nelems_of r.
Proof.
  intros r H. unfold nelems_or1.
  replace (existsb (fun c => c <? 0) (rq_count r)) with false; [reflexivity|].
  symmetry. induction H as [|c l Hc _ IH]; [reflexivity|]. cbn [existsb]. rewrite IH. lia.
Qed.

(** get_into_buffer, one request, typed contiguous buffer, memory type = external type: the
    buffer is the two guard runs around the images of the elements, no NC_ERANGE, and the
    "undefined" flag says whether some element contains an undefined byte *)
Theorem get_into_buffer_typed : forall fmt a xt r elems,
  ac_buf a = BTyped -> ac_memt a = xt -> rq_imap r = None ->
  Forall (fun c => 0 <= c) (rq_count r) -> 0 < xlen_type xt ->
  Forall (fun e => Zlen e = xlen_type xt) elems -> Zlen elems = nelems_of r ->
  get_into_buffer fmt a xt [(0, r, concat elems)] =
  Some (guard_bytes ++ flat_map (elem_image (xlen_type xt)) elems ++ guard_bytes, false,
        existsb (existsb is_undef) elems).
Proof.
  intros fmt a xt r elems Hb Hm Him Hcnt Hx Hall Hlen.
  rewrite get_into_buffer_eq. cbn [map fst snd fold_left].
  rewrite Hb. cbn [buf_extent_list buf_extent_elems]. rewrite Him.
  rewrite nelems_or1_nonneg by exact Hcnt.
  unfold eff_memt, mem_size. rewrite Hb, Hm.
  rewrite lbuf_positions_none by exact Him.
  rewrite chunk_list_concat by (try exact Hall; lia).
  unfold blank_buf. rewrite <- Hlen. rewrite repeat_blanks by lia.
  unfold zrange. replace (Z.to_nat (Zlen elems)) with (length elems) by (unfold Zlen; lia).
  etransitivity.
  { apply (gib_fold_typed fmt a xt Hb Hm ltac:(lia) elems 0 guard_bytes guard_bytes false false Hall).
    reflexivity. }
  rewrite orb_false_r. reflexivity.
Qed.

(* ================================================================== *)
(** * 7. get_rank_op                                                    *)
(* ================================================================== *)
Lemma dk_gather_concat : forall d xsz offs,
  dk_gather d xsz offs = concat (map (fun o => dk_read d o xsz) offs).
Proof. intros d xsz offs. unfold dk_gather. apply flat_map_concat_map. Qed.

(* the elements a get reads, in the order of the request *)
Definition get_elems (w : world) (f : filest) (a : access) (r : rreq) : list (list byte) :=
  map (fun o => dk_read (disk_of w f) o (g_xsz (acc_geom f a))) (req_offsets (acc_geom f a) r).

Definition get_accepted (w : world) (f : filest) (rank : Z) (coll : bool) (a : access) (r : rreq)
  : Prop :=
  sanity f false true coll a = NC_NOERR /\
  check_request w f rank true a = (NC_NOERR, Some [r]) /\
  ac_buf a = BTyped /\ ac_memt a = acc_xt f a /\
  form_lengths (ac_form a) (length (g_shape (acc_geom f a))) /\
  wf_geom (acc_geom f a).

Lemma get_accepted_rq_ok : forall w f rank coll a r,
  get_accepted w f rank coll a r -> rq_ok (acc_geom f a) r.
Proof.
  intros w f rank coll a r (_ & Hchk & _ & _ & Hfl & _). eapply check_request_req_ok; eassumption.
Qed.

(** The interpreter step: a typed get whose memory type is the variable's
    external type returns the guard bytes around the memory images (little endian) of the
    elements found on the disk at the model offsets; NC_NOERR when all of them are defined,
    RC_ANY (not predicted) when some byte was never written. *)
Theorem get_rank_op_typed : forall w f rank coll a r,
  get_accepted w f rank coll a r ->
  let xsz := g_xsz (acc_geom f a) in
  let elems := get_elems w f a r in
  get_rank_op w f rank coll a =
  ((if existsb (existsb is_undef) elems then RC_ANY else NC_NOERR),
   [THex (guard_bytes ++ flat_map (elem_image xsz) elems ++ guard_bytes)]).
Proof.
  intros w f rank coll a r Hacc xsz elems.
  pose proof (get_accepted_rq_ok _ _ _ _ _ _ Hacc) as Hok.
  destruct Hacc as (Hsan & Hchk & Hb & Hm & Hfl & Hwf).
  pose proof Hwf as (Hx & _).
  unfold get_rank_op. rewrite Hsan. change (negb (NC_NOERR =? NC_NOERR)) with false. cbv iota.
  rewrite Hchk.
  assert (Hio : iomismatch a [r] = false) by (unfold iomismatch; rewrite Hb; reflexivity).
  rewrite Hio. cbn [with_bases map fst snd].
  fold (acc_geom f a). fold (req_offsets (acc_geom f a) r).
  rewrite dk_gather_concat. fold (get_elems w f a r). fold elems.
  rewrite (get_into_buffer_typed (h_format (f_hdr f)) a (v_type (the_var f a)) r elems).
  - reflexivity.
  - exact Hb.
  - exact Hm.
  - exact (proj1 Hok).
  - eapply req_ok_count_nonneg. exact (proj2 Hok).
  - exact Hx.
  - unfold elems, get_elems. apply Forall_map. apply Forall_forall. intros o _.
    rewrite Zlen_dk_read. rewrite g_xsz_acc_geom in *. unfold acc_xt in *. lia.
  - unfold elems, get_elems. rewrite Zlen_map. apply Zlen_req_offsets; assumption.
Qed.
Corollary get_rank_op_defined : forall w f rank coll a r es,
  get_accepted w f rank coll a r -> get_elems w f a r = es -> Forall (Forall byte_ok) es ->
  get_rank_op w f rank coll a =
  (NC_NOERR, [THex (guard_bytes ++ flat_map mem_of_be es ++ guard_bytes)]).
Proof.
  intros w f rank coll a r es Hacc <- Hdef.
  rewrite (get_rank_op_typed w f rank coll a r Hacc). cbv zeta.
  set (xsz := g_xsz (acc_geom f a)). set (es := get_elems w f a r) in *.
  assert (E : existsb (existsb is_undef) es = false /\ flat_map (elem_image xsz) es = flat_map mem_of_be es).
  { induction Hdef as [|e l He _ [IH1 IH2]]; [split; reflexivity|]. cbn [existsb flat_map].
    rewrite IH1, IH2, (byte_ok_defined _ He), (elem_image_defined _ _ He). split; reflexivity. }
  destruct E as [-> ->]. reflexivity.
Qed.

(* ================================================================== *)
(** * 8. get after put                                                  *)
(* ================================================================== *)
(* the get is issued on a (possibly later) world / file state that sees the same variable
   with the same geometry, and whose disk is the one the put left behind *)
Definition sees_put (w2 : world) (f2 : filest) (a2 : access) (f : filest) (a : access) (r : rreq)
           (d : disk) : Prop :=
  acc_geom f2 a2 = acc_geom f a /\ acc_xt f2 a2 = acc_xt f a /\
  disk_of w2 f2 = put_disk f a r d.

(* ... or, weaker (enough, and what a collective put by several ranks or a later numrecs
   update of the header leaves): a disk that agrees with the put's disk on the bytes of the
   elements the request r' reads *)
Definition sees_put_at (w2 : world) (f2 : filest) (a2 : access) (f : filest) (a : access)
           (r : rreq) (d : disk) (r' : rreq) : Prop :=
  acc_geom f2 a2 = acc_geom f a /\ acc_xt f2 a2 = acc_xt f a /\
  forall o j, In o (req_offsets (acc_geom f a) r') -> 0 <= j < g_xsz (acc_geom f a) ->
    dk_get (disk_of w2 f2) (o + j) = dk_get (put_disk f a r d) (o + j).

Lemma sees_put_at_of_eq : forall w2 f2 a2 f a r d, sees_put w2 f2 a2 f a r d ->
  forall r', sees_put_at w2 f2 a2 f a r d r'.
Proof.
  intros w2 f2 a2 f a r d (Hg & Hx & Hd) r'. split; [exact Hg|]. split; [exact Hx|].
  intros o j _ _. rewrite Hd. reflexivity.
Qed.

Lemma get_elems_eq : forall w2 f2 a2 f a r r' d, sees_put_at w2 f2 a2 f a r d r' ->
  get_elems w2 f2 a2 r' =
  map (fun o => dk_read (put_disk f a r d) o (g_xsz (acc_geom f a))) (req_offsets (acc_geom f a) r').
Proof.
  intros w2 f2 a2 f a r r' d (Hg & _ & Hd). unfold get_elems. rewrite Hg.
  apply map_ext_in. intros o Ho. apply dk_read_ext. intros x Hx.
  replace x with (o + (x - o)) by lia. apply Hd; [exact Ho | lia].
Qed.

(** The same request read back.  After an accepted put, a typed get (memory
    type = external type) of the SAME resolved request r, accepted by the read-side checks, on
    any world whose disk for the file is the one the put produced, returns NC_NOERR and the
    buffer  guard ++ (little-endian image of every pattern value, in request order) ++ guard.
    In particular no element is undefined. *)
Theorem get_after_put : forall w f rank coll a r d w2 f2 rank2 coll2 a2,
  put_accepted w f rank coll a r ->
  get_accepted w2 f2 rank2 coll2 a2 r ->
  sees_put_at w2 f2 a2 f a r d r ->
  get_rank_op w2 f2 rank2 coll2 a2 =
  (NC_NOERR,
   [THex (guard_bytes ++
          flat_map (fun k => mem_of_be (put_elem a (acc_xt f a) k)) (zrange 0 (nelems_of r)) ++
          guard_bytes)]).
Proof.
  intros w f rank coll a r d w2 f2 rank2 coll2 a2 Hput Hget Hsee.
  pose proof (put_accepted_rq_ok _ _ _ _ _ _ Hput) as Hok.
  destruct Hput as (_ & _ & _ & _ & _ & Hwf & Hfit).
  rewrite (get_rank_op_defined w2 f2 rank2 coll2 a2 r
             (map (put_elem a (acc_xt f a)) (zrange 0 (nelems_of r))) Hget).
  - rewrite flat_map_map_comm. reflexivity.
  - (* the elements read are the elements put *)
    rewrite (get_elems_eq w2 f2 a2 f a r r d Hsee).
    set (g := acc_geom f a) in *. set (xt := acc_xt f a) in *. set (D := put_disk f a r d).
    pose proof Hwf as (Hx & _).
    rewrite <- (chunk_list_concat (g_xsz g) (map (fun o => dk_read D o (g_xsz g)) (req_offsets g r)) Hx).
    2:{ apply Forall_map. apply Forall_forall. intros o _. rewrite Zlen_dk_read. lia. }
    rewrite <- dk_gather_concat. unfold D, g.
    rewrite (put_disk_roundtrip f a r d Hwf Hfit Hok). fold xt.
    rewrite put_stream_none by exact (proj1 Hok). rewrite flat_map_concat_map.
    rewrite chunk_list_concat; [| exact Hx |].
    + apply map_ext. intros k. f_equal.
    + apply Forall_map. apply Forall_forall. intros k _. unfold put_elem.
      rewrite Zlen_enc_value. reflexivity.
  - apply Forall_map. apply Forall_forall. intros k _. apply enc_value_range.
Qed.

(** ... and through ANY other accepted request r' on the same variable (another start / count /
    stride, overlapping or not): the get returns the images of the elements [elems]; element
    k' is the pattern value the put stored for the same index vector, or — for an index vector
    the put did not address — the content of the disk before the put.  The return code is
    RC_ANY exactly when some element read contains a never-written byte. *)
Theorem get_after_put_other : forall w f rank coll a r d w2 f2 rank2 coll2 a2 r',
  put_accepted w f rank coll a r ->
  get_accepted w2 f2 rank2 coll2 a2 r' ->
  sees_put_at w2 f2 a2 f a r d r' ->
  let g := acc_geom f a in let xt := acc_xt f a in
  let elems := get_elems w2 f2 a2 r' in
  get_rank_op w2 f2 rank2 coll2 a2 =
    ((if existsb (existsb is_undef) elems then RC_ANY else NC_NOERR),
     [THex (guard_bytes ++ flat_map (elem_image (g_xsz g)) elems ++ guard_bytes)]) /\
  Zlen elems = nelems_of r' /\
  forall k', 0 <= k' < nelems_of r' ->
    let idx' := znth (rq_indices g r') k' [] in
    (forall k, 0 <= k < nelems_of r -> znth (rq_indices g r) k [] = idx' ->
       znth elems k' [] = put_elem a xt k) /\
    (~ In idx' (rq_indices g r) ->
       znth elems k' [] = dk_read d (elem_off g idx') (g_xsz g)).
Proof.
  intros w f rank coll a r d w2 f2 rank2 coll2 a2 r' Hput Hget Hsee g xt elems.
  pose proof (put_accepted_rq_ok _ _ _ _ _ _ Hput) as Hok.
  pose proof (get_accepted_rq_ok _ _ _ _ _ _ Hget) as Hok'.
  destruct Hput as (_ & _ & _ & _ & _ & Hwf & Hfit).
  split.
  { rewrite (get_rank_op_typed w2 f2 rank2 coll2 a2 r' Hget). cbv zeta.
    destruct Hsee as (Hg & _). rewrite Hg. reflexivity. }
  unfold elems. rewrite (get_elems_eq w2 f2 a2 f a r r' d Hsee).
  destruct Hsee as (Hg & Hxt & Hd). rewrite Hg in Hok'. fold g in Hok', Hok, Hwf, Hfit |- *.
  pose proof Hwf as (Hx & _).
  split; [rewrite Zlen_map; apply Zlen_req_offsets; assumption|].
  intros k' Hk'. set (idx' := znth (rq_indices g r') k' []).
  pose proof (Zlen_req_offsets g r' Hwf Hok') as Hzl'.
  rewrite (znth_map _ (req_offsets g r') k' 0 []) by lia.
  rewrite <- (stream_elem_gather (put_disk f a r d) (g_xsz g) (req_offsets g r') k') by lia.
  assert (Hlen : Zlen (put_stream a xt 0 r) = g_xsz g * zprod (rq_count r)).
  { rewrite Zlen_put_stream; [reflexivity | exact (proj1 Hok) | eapply rq_ok_nelems; exact Hok]. }
  destruct (get_other_request g (rq_start r) (rq_count r) (rq_strides g r)
              (rq_start r') (rq_count r') (rq_strides g r') d (put_stream a xt 0 r) k'
              Hwf Hfit (proj2 Hok) (proj2 Hok') Hlen Hk') as [Hin Hout].
  rewrite <- !req_offsets_some in Hin, Hout by assumption.
  fold (rq_indices g r) in Hin, Hout. fold (rq_indices g r') in Hin, Hout. fold idx' in Hin, Hout.
  split.
  - intros k Hk E. unfold put_disk. fold g xt. rewrite (Hin k Hk E).
    apply stream_elem_put_stream; [exact (proj1 Hok)|exact Hk].
  - intros Hnot. unfold put_disk. fold g xt. apply Hout. exact Hnot.
Qed.
(* ================================================================== *)
(** * 9. indep_put: the script-level independent put                   *)
(* ================================================================== *)

Lemma acc_geom_indep_numrecs : forall f rank nn a,
  acc_geom (indep_numrecs f rank nn) a = acc_geom f a /\
  acc_xt (indep_numrecs f rank nn) a = acc_xt f a /\
  f_slot (indep_numrecs f rank nn) = f_slot f /\
  f_hdr (indep_numrecs f rank nn) = f_hdr f /\ f_lay (indep_numrecs f rank nn) = f_lay f.
Proof.
  intros f rank nn a. unfold indep_numrecs. destruct nn as [n|]; [|repeat split; reflexivity].
  destruct (rk_numrecs (get_rank f rank) <? n); repeat split; reflexivity.
Qed.

(** an accepted independent put through indep_put: observation NC_NOERR, the file's disk is
    the put_disk, the file state changes only in the rank's numrecs (same header, layout,
    geometry), other slots' disks are untouched *)
Theorem indep_put_effect : forall w id f rank a r,
  put_accepted w f rank false a r ->
  znth (w_files w) id None = Some f ->
  exists w'',
    indep_put w id f rank a = (w'', [(rank, NC_NOERR, [TSame])]) /\
    let f' := indep_numrecs f rank (put_newrecs f a r) in
    znth (w_files w'') id None = Some f' /\
    disk_of w'' f' = put_disk f a r (disk_of w f) /\
    (forall s, s <> f_slot f -> get_disk w'' s = get_disk w s) /\
    w_strict w'' = w_strict w /\ w_nprocs w'' = w_nprocs w.
Proof.
  intros w id f rank a r Hacc Hf.
  pose proof (znth_some_range _ _ _ Hf) as Hid.
  destruct Hacc as (Hslot & Hsan & Hchk & Hio & Hfl & Hwf & Hfit).
  destruct (put_rank_effect w id f rank false a r Hslot Hsan Hchk Hio)
    as (w' & Hput & Hd & Hoth & Hsame).
  destruct Hsame as (Hnp & Hfiles & Hids & Hhints & Hstrict & Hmu & Hnd).
  unfold indep_put. rewrite Hput. rewrite Hfiles, Hf.
  eexists. split; [reflexivity|]. cbv zeta.
  destruct (acc_geom_indep_numrecs f rank (put_newrecs f a r) a) as (_ & _ & Hsl & _).
  split; [|split; [|split; [|split]]].
  - apply znth_put_file_same. rewrite Hfiles. exact Hid.
  - rewrite disk_of_put_file. unfold disk_of in *. rewrite Hsl. exact Hd.
  - intros s Hs. rewrite get_disk_put_file. apply Hoth. exact Hs.
  - exact Hstrict.
  - exact Hnp.
Qed.

(** put (indep_put) then get (get_rank_op) on the world and file state the interpreter
    continues with: the image of the stream comes back *)
Theorem indep_put_then_get : forall w id f rank a r w'' obs rank2 coll2 a2,
  put_accepted w f rank false a r ->
  znth (w_files w) id None = Some f ->
  indep_put w id f rank a = (w'', obs) ->
  let f' := indep_numrecs f rank (put_newrecs f a r) in
  ac_var a2 = ac_var a ->
  get_accepted w'' f' rank2 coll2 a2 r ->
  znth (w_files w'') id None = Some f' /\
  get_rank_op w'' f' rank2 coll2 a2 =
  (NC_NOERR,
   [THex (guard_bytes ++
          flat_map (fun k => mem_of_be (put_elem a (acc_xt f a) k)) (zrange 0 (nelems_of r)) ++
          guard_bytes)]).
Proof.
  intros w id f rank a r w'' obs rank2 coll2 a2 Hacc Hf Hip f' Hv Hget.
  destruct (indep_put_effect w id f rank a r Hacc Hf) as (w3 & E & Hf' & Hd & _).
  rewrite E in Hip. injection Hip as <- _. split; [exact Hf'|].
  apply (get_after_put w f rank false a r (disk_of w f) w3 f' rank2 coll2 a2 Hacc Hget).
  destruct (acc_geom_indep_numrecs f rank (put_newrecs f a r) a2) as (Hg & Hx & _).
  apply sees_put_at_of_eq. unfold sees_put. unfold f' in *. rewrite Hg, Hx.
  unfold acc_geom, acc_xt, the_var. rewrite Hv. repeat split. exact Hd.
Qed.
(* ================================================================== *)
(** * 10. geom_of under the layout invariant: wf_geom and rec_fits hold *)
(* ================================================================== *)
Lemma rsum_filter : forall t3 : list (bool * Z * Z),
  rsum (map fst t3) =
  zsum (map (fun t : bool * Z * Z => snd (fst t)) (filter (fun t : bool * Z * Z => fst (fst t)) t3)).
Proof.
  induction t3 as [|[[k len] u] r IH]; [reflexivity|].
  cbn [map fst rsum filter]. destruct k; cbn [map zsum fst snd]; rewrite IH; reflexivity.
Qed.

(* the record size is at least the unpadded size of every record variable: its slot lies inside
   the record *)
Lemma rs_rule_ge_unpadded : forall (t3 : list (bool * Z * Z)) t, wf_t3 t3 ->
  In t t3 -> fst (fst t) = true -> snd t <= rs_rule t3.
Proof.
  intros t3 t Hwf Hin Hk. destruct (In_znth t3 t dt3 Hin) as (j & Hj & <-).
  pose proof (rec_slot_fits t3 j Hwf Hj Hk).
  pose proof (roff_nonneg (map fst t3) j (proj1 (wf_t3_lens t3 Hwf))). lia.
Qed.

Lemma rs_rule_single : forall (t3 : list (bool * Z * Z)) t,
  filter (fun t : bool * Z * Z => fst (fst t)) t3 = [t] -> rs_rule t3 = snd t.
Proof.
  intros t3 [[k ll] u] H. unfold rs_rule. rewrite rsum_filter, H.
  cbn [map zsum last_opt rev app fst snd].
  replace (ll + 0 =? ll) with true by lia. reflexivity.
Qed.

(* a variable of the header whose dimensions are usable: positive element size, the record
   dimension (length 0) only in front *)
Definition var_ok (h : hdr) (v : var) : Prop :=
  In v (h_vars h) /\ 0 < xlen_type (v_type v) /\ dims_wf (var_shape (h_dims h) v).

Lemma list_le1_in {A} : forall (l : list A) x, Zlen l <= 1 -> In x l -> l = [x].
Proof.
  intros l x Hl Hin. destruct l as [|y l]; [destruct Hin|].
  destruct l as [|z l].
  - destruct Hin as [->|[]]. reflexivity.
  - rewrite !Zlen_cons in Hl. pose proof (Zlen_nonneg l). lia.
Qed.

(** the geometry the interpreter derives for a variable ([geom_of]) is well formed and its
    records do not overlap, as soon as the file state's layout follows the recsize rule — the
    last conjunct of [lay_inv], established by enddef ([begins_layout_ok]) and kept by every
    redefinition and reopen ([reachable_lay_inv]) *)
Theorem geom_of_wf : forall f v,
  hdr_wf (f_hdr f) -> l_recsize (f_lay f) = rs_rule (t3of (f_hdr f)) -> var_ok (f_hdr f) v ->
  wf_geom (geom_of f v) /\ rec_fits (geom_of f v).
Proof.
  intros f v Hwf Hrs (Hin & Hx & Hdw).
  set (h := f_hdr f) in *. set (dims := h_dims h).
  pose proof (wf_t3of h Hwf) as Hw3.
  set (t := (is_recvar dims v, var_len dims v, unpadded dims v)).
  assert (Hint : In t (t3of h)) by (unfold t3of; apply in_map_iff; exists v; split; [reflexivity | exact Hin]).
  assert (Hunp : is_recvar dims v = true ->
                 unpadded dims v = zprod (tl (var_shape dims v)) * xlen_type (v_type v)).
  { intros Hrec. unfold unpadded, var_nelems_per_rec. unfold is_recvar in Hrec.
    destruct (var_shape dims v) as [|s0 ss]; [discriminate Hrec|]. rewrite Hrec. reflexivity. }
  assert (Hfil : is_recvar dims v = true ->
                 In t (filter (fun t : bool * Z * Z => fst (fst t)) (t3of h))).
  { intros Hrec. apply filter_In. split; [exact Hint | exact Hrec]. }
  unfold wf_geom, rec_fits, rec_packed, geom_of.
  cbn [g_xsz g_recsize g_shape g_nrecvars g_begin]. fold h dims.
  change (g_isrec (mkgeom (v_begin v) (xlen_type (v_type v)) (var_shape dims v)
                          (l_recsize (f_lay f)) (num_rec_vars h)))
    with (is_recvar dims v).
  rewrite Hrs.
  split; [split; [exact Hx | split; [exact (proj1 (rs_rule_bounds _ Hw3)) | split; [exact Hdw|]]]|].
  - (* packed records when there is a single record variable *)
    intros Hrec Hn. rewrite <- (Hunp Hrec).
    assert (Hone : filter (fun t : bool * Z * Z => fst (fst t)) (t3of h) = [t]).
    { apply list_le1_in; [|exact (Hfil Hrec)].
      unfold t3of. rewrite filter_map_comm, Zlen_map. cbn [fst]. exact Hn. }
    rewrite (rs_rule_single _ _ Hone). reflexivity.
  - intros Hrec. rewrite <- (Hunp Hrec).
    exact (rs_rule_ge_unpadded (t3of h) t Hw3 Hint Hrec).
Qed.

(* the checks of sanity, in its order *)
Lemma sanity_ok : forall f isput blocking coll a,
  sanity f isput blocking coll a = NC_NOERR ->
  isput && f_rdonly f = false /\ blocking && f_indef f = false /\
  blocking && coll && f_indep f = false /\ blocking && negb coll && negb (f_indep f) = false /\
  0 <= ac_var a < Zlen (h_vars (f_hdr f)).
Proof.
  intros f isput blocking coll a H. unfold sanity in H.
  destruct (isput && f_rdonly f); [discriminate H|].
  destruct (blocking && f_indef f); [discriminate H|].
  destruct (blocking && coll && f_indep f); [discriminate H|].
  destruct (blocking && negb coll && negb (f_indep f)); [discriminate H|].
  destruct (ac_var a =? -1); [discriminate H|].
  destruct ((ac_var a <? 0) || (ac_var a >=? Zlen (h_vars (f_hdr f)))) eqn:E; [discriminate H|].
  repeat split; lia.
Qed.

Lemma sanity_var_in : forall f isput blocking coll a,
  sanity f isput blocking coll a = NC_NOERR -> In (the_var f a) (h_vars (f_hdr f)).
Proof.
  intros f isput blocking coll a H. apply sanity_ok in H. unfold the_var. apply znth_In. tauto.
Qed.

(** the layout hypotheses of [put_accepted] / [get_accepted], discharged from the invariant *)
Corollary acc_geom_wf : forall f isput blocking coll a,
  sanity f isput blocking coll a = NC_NOERR ->
  hdr_wf (f_hdr f) -> l_recsize (f_lay f) = rs_rule (t3of (f_hdr f)) ->
  0 < xlen_type (acc_xt f a) -> dims_wf (g_shape (acc_geom f a)) ->
  wf_geom (acc_geom f a) /\ rec_fits (acc_geom f a).
Proof.
  intros f isput blocking coll a Hsan Hwf Hrs Hx Hdw. apply geom_of_wf; try assumption.
  split; [eapply sanity_var_in; exact Hsan | split; assumption].
Qed.
(* ================================================================== *)
(** * 11. C16 at interpreter level: after the first enddef a get of a   *)
(**       fill-mode fixed variable reads its fill value                 *)
(* ================================================================== *)
(** the fill at the first enddef (no record exists yet: nrecs = 0, every variable is new:
    start_vid = 0): every element of every fill-mode fixed variable holds the fill value.
    The segments written for another fixed variable stay inside that variable, and two fixed
    variables at different indices of a layout satisfying the invariant are apart. *)
Lemma first_fill_elem : forall d h lay n np v e,
  hdr_wf h -> lay_inv (t3of h) lay -> 1 <= np ->
  (forall v', In v' (h_vars (new_header h lay n)) -> v_nofill v' = false ->
     Zlen (var_fill_bytes v') = vxsz v') ->
  In v (h_vars (new_header h lay n)) -> v_nofill v = false ->
  is_recvar (h_dims h) v = false -> 0 < vxsz v ->
  0 <= e < nelems (new_header h lay n) v ->
  dk_read (do_fill d (new_header h lay n) lay 0 0 np) (v_begin v + e * vxsz v) (vxsz v) =
  var_fill_bytes v.
Proof.
  intros d h lay n np v e Hwf Hinv Hnp Hfl Hin Hnf Hfix Hx He.
  set (h1 := new_header h lay n) in *.
  apply do_fill_writes_fill; try assumption.
  - rewrite zskipn_0. exact Hin.
  - apply Hfl; assumption.
  - intros r off c v' Hr Hseg.
    apply fill_plan_in_iff in Hseg. rewrite zskipn_0 in Hseg.
    destruct Hseg as (Hin' & Hnf' & Hc & [(Hfix' & Hoff) | (_ & recno & Hrn & _)]); [|lia].
    assert (HL' : 0 <= nelems h1 v') by (apply nelems_nonneg; exact Hwf).
    destruct (share_inside np (nelems h1 v') r Hnp HL' Hr) as [Hs0 Hs1].
    pose proof (xlen_type_nonneg (v_type v')) as Hxs'. fold (vxsz v') in Hxs'.
    rewrite (Hfl v' Hin' Hnf').
    pose proof (proj1 (proj1 (var_len_unpadded (h_dims h) v))) as Hu.
    change (unpadded (h_dims h) v) with (nelems h1 v * vxsz v) in Hu.
    pose proof (proj1 (proj1 (var_len_unpadded (h_dims h) v'))) as Hu'.
    change (unpadded (h_dims h) v') with (nelems h1 v' * vxsz v') in Hu'.
    assert (Hseg_lo : v_begin v' <= off) by (subst off; nia).
    assert (Hseg_hi : off + c * vxsz v' <= v_begin v' + var_len (h_dims h) v') by (subst off c; nia).
    (* v is variable j and v' variable j' of the header: the same, or one after the other *)
    destruct (In_znth _ _ dv Hin) as (j & Hj & Ej). destruct (In_znth _ _ dv Hin') as (j' & Hj' & Ej').
    change (h_dims h1) with (h_dims h) in Hfix'.
    destruct (Z.lt_trichotomy j j') as [L|[E|L]].
    + pose proof (kept_fixed_apart h lay n j j' Hwf Hinv (proj1 Hj) L (proj2 Hj')) as A.
      cbv zeta in A. fold h1 in A. rewrite Ej, Ej' in A. specialize (A Hfix Hfix').
      right. right. clear - A Hu Hseg_lo. lia.
    + left. congruence.
    + pose proof (kept_fixed_apart h lay n j' j Hwf Hinv (proj1 Hj') L (proj2 Hj)) as A.
      cbv zeta in A. fold h1 in A. rewrite Ej, Ej' in A. specialize (A Hfix' Hfix).
      right. left. clear - A Hseg_hi. lia.
Qed.

Lemma fill_bytes_ok : forall t, Forall byte_ok (fill_bytes t).
Proof. intros t. unfold fill_bytes. apply be_bytes_range. Qed.

Lemma flat_map_const_repeat {A B} : forall (c : list B) (l : list A),
  flat_map (fun _ => c) l = concat (repeat c (length l)).
Proof. intros c l. induction l as [|x l IH]; [reflexivity|]. cbn [flat_map length repeat concat]. rewrite IH. reflexivity. Qed.

Lemma nelems_fixed : forall dims v, is_recvar dims v = false ->
  var_nelems_per_rec (var_shape dims v) = zprod (var_shape dims v).
Proof.
  intros dims v H. unfold is_recvar in H. unfold var_nelems_per_rec.
  destruct (var_shape dims v) as [|s0 ss]; [reflexivity|]. rewrite H. reflexivity.
Qed.

(** C16 at interpreter level.  A file created in this session; its first
    enddef succeeds (do_enddef returns NC_NOERR) and the header it keeps is encodable.  Then on
    the world and file state the interpreter continues with, ANY accepted typed get (memory
    type = external type; var1, vara or vars form; any rank; collective or independent) of a
    FIXED-size variable in FILL mode whose fill value consists of defined bytes (the default
    fill value always does) returns NC_NOERR and a buffer that holds the fill value in every
    element. *)
Theorem enddef_fill_reads_fill : forall w id f ea w',
  f_old f = None -> f_indef f = true -> f_isnew f = true -> l_begin_rec (f_lay f) = 0 ->
  hdr_wf (f_hdr f) ->
  0 <= env_h_align (f_align f) -> 0 <= env_v_align (f_align f) -> 0 <= env_r_align (f_align f) ->
  0 <= f_slot f < Zlen (w_disks w) -> 0 <= id < Zlen (w_files w) -> 1 <= w_nprocs w ->
  do_enddef w id f ea = Some (w', NC_NOERR) ->
  exists lay,
    let f'' := enddef_file f lay in
    znth (w_files w') id None = Some f'' /\
    (wf_hdr (f_hdr f'') = true ->
     forall rank coll a r,
       get_accepted w' f'' rank coll a r ->
       let v := the_var f'' a in
       v_nofill v = false -> is_recvar (h_dims (f_hdr f'')) v = false ->
       Forall byte_ok (var_fill_bytes v) ->
       get_rank_op w' f'' rank coll a =
       (NC_NOERR,
        [THex (guard_bytes ++
               concat (repeat (mem_of_be (var_fill_bytes v)) (Z.to_nat (nelems_of r))) ++
               guard_bytes)])).
Proof.
  intros w id f ea w' Hold Hindef Hnew Hbr0 Hwf Hah Hav Har Hslot Hid Hnp Hed.
  destruct (first_enddef_inv w id f ea w' Hold Hindef Hbr0 Hah Hav Har Hed)
    as (ha & va & ra & lay & _ & Hbeg & A1 & A3 & (Hha & Hha4) & (Hra & Hra4) & Hg & Ew).
  exists lay. cbv zeta.
  pose proof (proj1 (begins_layout_ok (f_hdr f) _ _ ha ra lay Hwf A1 A3 Hha Hha4 Hra Hra4 Hbeg)) as Hinv.
  split; [rewrite Ew; apply znth_put_set_same; exact Hid|].
  intros Hwfh rank coll a r Hget Hnf Hfix Hfb.
  set (f'' := enddef_file f lay) in *. set (v := the_var f'' a) in *.
  set (h1 := f_hdr f'') in *.
  pose proof (get_accepted_rq_ok _ _ _ _ _ _ Hget) as Hok.
  set (g := acc_geom f'' a) in *.
  rewrite (get_rank_op_defined w' f'' rank coll a r (map (fun _ => var_fill_bytes v) (rq_indices g r)) Hget).
  { rewrite flat_map_map_comm, flat_map_const_repeat. do 7 f_equal.
    pose proof (Zlen_rq_indices g r Hok) as Hz. unfold Zlen in Hz. clear - Hz. lia. }
  2:{ apply Forall_map. apply Forall_forall. intros idx _. exact Hfb. }
  destruct Hget as (Hsan & Hchk & Hb & Hm & Hfl & Hwg).
  pose proof Hwg as (Hx & _).
  assert (Ed : disk_of w' f'' = do_fill (write_header (get_disk w (f_slot f)) h1) h1 lay 0 0 (w_nprocs w)).
  { unfold disk_of. change (f_slot f'') with (f_slot f). rewrite Ew.
    rewrite get_disk_put_set_same by exact Hslot. unfold enddef_new_disk. cbv zeta.
    change (enddef_hdr f lay) with h1.
    assert (Hv : In v (h_vars h1)) by (eapply sanity_var_in; exact Hsan).
    destruct (h_vars h1); [destruct Hv | reflexivity]. }
  unfold get_elems. fold g. rewrite req_offsets_spec by assumption. rewrite map_map.
  apply map_ext_in. intros idx Hidx.
  pose proof (rq_indices_idx_ok g r idx Hok Hidx) as Hio. unfold idx_ok in Hio.
  assert (Hrec : g_isrec g = false) by exact Hfix.
  rewrite Hrec in Hio. rewrite elem_off_fixed by exact Hrec.
  destruct (lin_bounds _ _ Hio) as [L0 L1].
  rewrite Ed.
  change (g_begin g) with (v_begin v). change (g_xsz g) with (vxsz v).
  apply (first_fill_elem _ (f_hdr f) lay (enddef_numrecs f) (w_nprocs w) v); try assumption.
  - intros v' Hv' Hnf'. apply (fill_len_ok_of_guard h1 0 Hwfh Hg v'); [|exact Hnf'].
    rewrite zskipn_0. exact Hv'.
  - eapply sanity_var_in. exact Hsan.
  - change (new_header (f_hdr f) lay (enddef_numrecs f)) with h1. unfold nelems.
    rewrite (nelems_fixed _ _ Hfix).
    change (var_shape (h_dims h1) v) with (g_shape g). clear - L0 L1. lia.
Qed.

(* ================================================================== *)
(** * 12. coll_put: the script-level collective put                     *)
(* ================================================================== *)
Lemma check_request_strict : forall w w' f rank isread a, w_strict w' = w_strict w ->
  check_request w' f rank isread a = check_request w f rank isread a.
Proof. intros w w' f rank isread a H. unfold check_request. rewrite H. reflexivity. Qed.

Lemma same_but_disks_trans : forall w1 w2 w3,
  same_but_disks w1 w2 -> same_but_disks w2 w3 -> same_but_disks w1 w3.
Proof.
  intros w1 w2 w3 (A1 & A2 & A3 & A4 & A5 & A6 & A7) (B1 & B2 & B3 & B4 & B5 & B6 & B7).
  unfold same_but_disks. repeat split; congruence.
Qed.

(* the interpreter's own checks for the put of one rank of a collective call *)
Definition rank_put_ok (w : world) (f : filest) (ra : Z * access) (r : rreq) : Prop :=
  sanity f true true true (snd ra) = NC_NOERR /\
  check_request w f (fst ra) false (snd ra) = (NC_NOERR, Some [r]) /\
  iomismatch (snd ra) [r] = false.

(* the disk after the ranks' puts, applied in rank order *)
Definition coll_disk (f : filest) (ars : list (access * rreq)) (d : disk) : disk :=
  fold_left (fun d ar => put_disk f (fst ar) (snd ar) d) ars d.

Definition cp_step (id : Z) (f : filest) (acc : world * list (Z * Z * option Z)) (ra : Z * access)
  : world * list (Z * Z * option Z) :=
  let '(wc, out) := acc in
  let '(w', rc, nn, part) := put_rank wc id f (fst ra) true (snd ra) in
  (w', out ++ [(fst ra, rc, nn)]).

Definition cp_res (f : filest) (ras : list (Z * access)) (rs : list rreq) : list (Z * Z * option Z) :=
  map (fun p : (Z * access) * rreq => (fst (fst p), NC_NOERR, put_newrecs f (snd (fst p)) (snd p)))
      (zip ras rs).

(* the ranks' checks are stated for the world w0 the call starts in; the puts of the ranks before
   change disks only, and check_request reads nothing of the world but w_strict *)
Lemma cp_fold : forall id f w0 ras rs, Forall2 (rank_put_ok w0 f) ras rs ->
  forall w out,
  w_strict w = w_strict w0 -> 0 <= f_slot f < Zlen (w_disks w) ->
  exists w1,
    fold_left (cp_step id f) ras (w, out) = (w1, out ++ cp_res f ras rs) /\
    same_but_disks w w1 /\
    disk_of w1 f = coll_disk f (zip (map snd ras) rs) (disk_of w f) /\
    (forall s, s <> f_slot f -> get_disk w1 s = get_disk w s).
Proof.
  intros id f w0 ras rs Hall.
  induction Hall as [|ra r ras rs (Hsan & Hchk & Hio) _ IH]; intros w out Hst Hslot.
  - exists w. cbn [fold_left]. unfold cp_res. cbn [zip map]. rewrite app_nil_r.
    split; [reflexivity|]. split; [apply same_but_disks_refl|]. split; [reflexivity|].
    intros s _. reflexivity.
  - rewrite <- (check_request_strict w0 w f _ _ _ Hst) in Hchk.
    destruct (put_rank_effect w id f (fst ra) true (snd ra) r Hslot Hsan Hchk Hio)
      as (w' & Hput & Hd & Hoth & Hsame).
    cbn [fold_left]. unfold cp_step at 2. rewrite Hput.
    pose proof Hsame as (_ & _ & _ & _ & Hstrict & _ & Hnd).
    destruct (IH w' (out ++ [(fst ra, NC_NOERR, put_newrecs f (snd ra) r)]))
      as (w1 & Hf & Hs1 & Hd1 & Ho1); [congruence | rewrite Hnd; exact Hslot |].
    exists w1. split; [|split; [|split]].
    + rewrite Hf. unfold cp_res. cbn [zip map fst snd]. rewrite <- app_assoc. reflexivity.
    + eapply same_but_disks_trans; eassumption.
    + rewrite Hd1, Hd. reflexivity.
    + intros s Hs. rewrite (Ho1 s Hs). apply Hoth. exact Hs.
Qed.

Lemma coll_put_eq : forall w id f ras,
  coll_put w id f ras =
  let '(w1, res) := fold_left (cp_step id f) ras (w, []) in
  let fatal rc := (rc =? NC_EPERM) || (rc =? NC_EINDEFINE) || (rc =? NC_EINDEP) || (rc =? NC_ENOTINDEP) in
  if existsb (fun x => fatal (snd (fst x))) res then
    (w, map (fun x => (fst (fst x), snd (fst x), [TSame])) res)
  else
    match znth (w_files w1) id None with
    | None => (w1, [])
    | Some f1 =>
        let v_isrec := fun (ra : Z * access) =>
              let a := snd ra in
              if (0 <=? ac_var a) && (ac_var a <? Zlen (h_vars (f_hdr f1)))
              then is_recvar (h_dims (f_hdr f1)) (the_var f1 a) else false in
        let w2 := if existsb v_isrec ras
                  then coll_numrecs_sync w1 id f1 (map (fun x => snd x) res) else w1 in
        (w2, map (fun x => (fst (fst x), snd (fst x), [TSame])) res)
    end.
Proof. reflexivity. Qed.

Lemma cp_res_not_fatal : forall f ras rs,
  existsb (fun x : Z * Z * option Z =>
             (snd (fst x) =? NC_EPERM) || (snd (fst x) =? NC_EINDEFINE) ||
             (snd (fst x) =? NC_EINDEP) || (snd (fst x) =? NC_ENOTINDEP)) (cp_res f ras rs) = false.
Proof.
  intros f ras rs. unfold cp_res. induction (zip ras rs) as [|p l IH]; [reflexivity|].
  cbn [map existsb fst snd]. rewrite IH. reflexivity.
Qed.

Lemma cp_res_obs : forall (R : Z * access -> rreq -> Prop) f ras rs, Forall2 R ras rs ->
  map (fun x : Z * Z * option Z => (fst (fst x), snd (fst x), [TSame])) (cp_res f ras rs) =
  map (fun ra : Z * access => (fst ra, NC_NOERR, [TSame])) ras.
Proof.
  intros R f ras rs H. unfold cp_res. induction H as [|ra r ras rs _ _ IH]; [reflexivity|].
  cbn [zip map fst snd]. rewrite IH. reflexivity.
Qed.

(* the numrecs field occupies bytes 4..11 at most *)
Lemma write_numrecs_bytes_frame : forall d fmt n x, x < 4 \/ 12 <= x ->
  dk_get (write_numrecs_bytes d fmt n) x = dk_get d x.
Proof.
  intros d fmt n x Hx. unfold write_numrecs_bytes. rewrite dk_get_write.
  assert (Hl : Zlen (put_nn fmt n) <= 8) by (unfold put_nn; destruct (fmt <? 5); vm_compute; discriminate).
  destruct ((4 <=? x) && (x <? 4 + Zlen (put_nn fmt n))) eqn:Ec; [exfalso; lia|reflexivity].
Qed.

(** a collective put in which every rank's access passes the interpreter's checks: every rank
    observes NC_NOERR; the file's disk is the ranks' scatters applied in rank order, except
    possibly for the numrecs field of the header (bytes 4..11), rewritten when a record
    variable grew; the file state keeps its slot, layout, dimensions and variables (only
    numrecs change), hence every variable's geometry *)
Theorem coll_put_effect : forall w id f ras rs,
  0 <= f_slot f < Zlen (w_disks w) ->
  znth (w_files w) id None = Some f ->
  Forall2 (rank_put_ok w f) ras rs ->
  let D1 := coll_disk f (zip (map snd ras) rs) (disk_of w f) in
  exists w2 f2,
    coll_put w id f ras = (w2, map (fun ra => (fst ra, NC_NOERR, [TSame])) ras) /\
    znth (w_files w2) id None = Some f2 /\
    f_slot f2 = f_slot f /\ f_lay f2 = f_lay f /\
    h_dims (f_hdr f2) = h_dims (f_hdr f) /\ h_vars (f_hdr f2) = h_vars (f_hdr f) /\
    h_format (f_hdr f2) = h_format (f_hdr f) /\
    (forall a, acc_geom f2 a = acc_geom f a /\ acc_xt f2 a = acc_xt f a) /\
    (forall x, x < 4 \/ 12 <= x -> dk_get (disk_of w2 f2) x = dk_get D1 x) /\
    (forall s, s <> f_slot f -> get_disk w2 s = get_disk w s) /\
    w_strict w2 = w_strict w /\ w_nprocs w2 = w_nprocs w.
Proof.
  intros w id f ras rs Hslot Hf Hall D1.
  destruct (cp_fold id f w ras rs Hall w [] eq_refl Hslot) as (w1 & Hfold & Hsame & Hd1 & Ho1).
  pose proof Hsame as (Hnp & Hfiles & _ & _ & Hstrict & _ & Hnd).
  pose proof (znth_some_range _ _ _ Hf) as Hid.
  set (visrec := fun ra : Z * access =>
         if (0 <=? ac_var (snd ra)) && (ac_var (snd ra) <? Zlen (h_vars (f_hdr f)))
         then is_recvar (h_dims (f_hdr f)) (the_var f (snd ra)) else false).
  assert (Ecp : coll_put w id f ras =
                (if existsb visrec ras
                 then coll_numrecs_sync w1 id f (map (fun x : Z * Z * option Z => snd x) (cp_res f ras rs))
                 else w1,
                 map (fun ra : Z * access => (fst ra, NC_NOERR, [TSame])) ras)).
  { rewrite coll_put_eq, Hfold. cbn [app]. cbv beta iota zeta.
    rewrite cp_res_not_fatal. rewrite Hfiles. rewrite Hf. rewrite (cp_res_obs _ f ras rs Hall). reflexivity. }
  rewrite Ecp. clear Ecp.
  destruct (existsb visrec ras).
  - (* some record variable: numrecs agreement *)
    unfold coll_numrecs_sync. eexists _, _.
    split; [reflexivity|].
    split; [apply znth_put_set_same; rewrite Hfiles; exact Hid|].
    do 5 (split; [reflexivity|]).
    split; [intros a; split; reflexivity|].
    split.
    { intros x Hx. rewrite disk_of_put_file. unfold disk_of at 1. cbn [f_slot upd_ranks upd_hdr].
      rewrite get_disk_set_disk_same by (rewrite Hnd; exact Hslot). rewrite Hd1. fold D1.
      destruct (_ && _); [apply write_numrecs_bytes_frame; exact Hx|reflexivity]. }
    split.
    { intros s Hs. rewrite get_disk_put_set_other by exact (not_eq_sym Hs). apply Ho1. exact Hs. }
    split; [exact Hstrict | exact Hnp].
  - exists w1, f.
    split; [reflexivity|]. split; [rewrite Hfiles; exact Hf|].
    split; [reflexivity|]. split; [reflexivity|]. split; [reflexivity|]. split; [reflexivity|].
    split; [reflexivity|].
    split; [intros a; split; reflexivity|].
    split; [intros x _; rewrite Hd1; reflexivity|].
    split; [exact Ho1|]. split; [exact Hstrict | exact Hnp].
Qed.

(* ---------- all ranks put the same access (exec_all (OPut _ true a)) ---------- *)
(* the content of the disk before a put matters only outside the addressed elements *)
Lemma put_disk_ext_out : forall f a r d1 d2,
  wf_geom (acc_geom f a) -> rec_fits (acc_geom f a) -> rq_ok (acc_geom f a) r ->
  forall x,
  ((forall o, In o (req_offsets (acc_geom f a) r) -> ~ in_elem (g_xsz (acc_geom f a)) o x) ->
   dk_get d1 x = dk_get d2 x) ->
  dk_get (put_disk f a r d1) x = dk_get (put_disk f a r d2) x.
Proof.
  intros f a r d1 d2 Hwf Hfit Hok x Hext. unfold put_disk.
  set (g := acc_geom f a) in *. set (offs := req_offsets g r) in *.
  pose proof (req_offsets_disjoint g r Hwf Hfit Hok) as Hdis. fold offs in Hdis.
  pose proof (put_disk_len f a r Hwf Hok) as Hlen. fold g offs in Hlen.
  destruct (in_elems_dec (g_xsz g) offs x) as [(k & Hk & Hin)|Hout].
  - unfold in_elem in Hin. replace x with (znth offs k 0 + (x - znth offs k 0)) by lia.
    rewrite !scatter_get_in by (try assumption; lia). reflexivity.
  - rewrite !scatter_get_out by exact Hout. apply Hext, Hout.
Qed.

Lemma put_disk_ext : forall f a r d1 d2,
  wf_geom (acc_geom f a) -> rec_fits (acc_geom f a) -> rq_ok (acc_geom f a) r ->
  (forall x, dk_get d1 x = dk_get d2 x) ->
  forall x, dk_get (put_disk f a r d1) x = dk_get (put_disk f a r d2) x.
Proof. intros f a r d1 d2 Hwf Hfit Hok Hext x. apply put_disk_ext_out; auto. Qed.

Lemma put_disk_idem : forall f a r d,
  wf_geom (acc_geom f a) -> rec_fits (acc_geom f a) -> rq_ok (acc_geom f a) r ->
  forall x, dk_get (put_disk f a r (put_disk f a r d)) x = dk_get (put_disk f a r d) x.
Proof.
  intros f a r d Hwf Hfit Hok x. apply put_disk_ext_out; try assumption.
  intros Hout. apply scatter_get_out, Hout.
Qed.

Lemma coll_disk_same : forall f a r n d,
  wf_geom (acc_geom f a) -> rec_fits (acc_geom f a) -> rq_ok (acc_geom f a) r ->
  forall x, dk_get (coll_disk f (repeat (a, r) (S n)) d) x = dk_get (put_disk f a r d) x.
Proof.
  intros f a r n. induction n as [|n IH]; intros d Hwf Hfit Hok x.
  - reflexivity.
  - change (coll_disk f (repeat (a, r) (S (S n))) d)
      with (coll_disk f (repeat (a, r) (S n)) (put_disk f a r d)).
    rewrite IH by assumption. apply put_disk_idem; assumption.
Qed.

Lemma zip_repeat : forall (ranks : list Z) (a : access) (r : rreq),
  zip (map snd (map (fun k => (k, a)) ranks)) (repeat r (length ranks)) = repeat (a, r) (length ranks).
Proof.
  intros ranks a r. induction ranks as [|k l IH]; [reflexivity|].
  cbn [map length repeat zip snd]. rewrite IH. reflexivity.
Qed.

(** OPut collective with the same access on every rank (what exec_all runs), then a get: if the
    access is accepted on every rank (the write-side checks do not depend on the rank's
    numrecs, so all ranks resolve the same request r) every rank observes NC_NOERR, and a
    subsequent accepted typed get of the same request — on any rank, on the world and file
    state coll_put returns — reads back the image of the stream.  The numrecs update of the
    header (bytes 4..11) cannot disturb it because the variable begins at or after byte 12. *)
Theorem coll_put_same_then_get : forall w id f ranks a r,
  ranks <> [] ->
  0 <= f_slot f < Zlen (w_disks w) ->
  znth (w_files w) id None = Some f ->
  (forall k, In k ranks -> put_accepted w f k true a r) ->
  12 <= g_begin (acc_geom f a) ->
  exists w2 f2,
    coll_put w id f (map (fun k => (k, a)) ranks) =
      (w2, map (fun k => (k, NC_NOERR, [TSame])) ranks) /\
    znth (w_files w2) id None = Some f2 /\
    forall rank2 coll2 a2, ac_var a2 = ac_var a ->
      get_accepted w2 f2 rank2 coll2 a2 r ->
      get_rank_op w2 f2 rank2 coll2 a2 =
      (NC_NOERR,
       [THex (guard_bytes ++
              flat_map (fun k => mem_of_be (put_elem a (acc_xt f a) k)) (zrange 0 (nelems_of r)) ++
              guard_bytes)]).
Proof.
  intros w id f ranks a r Hne Hslot Hf Hall Hbeg.
  assert (Hall2 : Forall2 (rank_put_ok w f) (map (fun k => (k, a)) ranks) (repeat r (length ranks))).
  { clear Hne. induction ranks as [|k l IH]; [constructor|].
    cbn [map length repeat]. constructor.
    - destruct (Hall k (or_introl eq_refl)) as (_ & S1 & S2 & S3 & _).
      unfold rank_put_ok. cbn [fst snd]. auto.
    - apply IH. intros k' Hk'. apply Hall. right. exact Hk'. }
  destruct (coll_put_effect w id f _ _ Hslot Hf Hall2)
    as (w2 & f2 & Hcp & Hf2 & Hsl & Hlay & Hdims & Hvars & Hfmt & Hgeo & Hdisk & _).
  exists w2, f2. split.
  { rewrite Hcp. rewrite map_map. reflexivity. }
  split; [exact Hf2|].
  intros rank2 coll2 a2 Hv Hget.
  destruct ranks as [|k0 rest]; [contradiction|].
  pose proof (Hall k0 (or_introl eq_refl)) as Hacc.
  pose proof (put_accepted_rq_ok _ _ _ _ _ _ Hacc) as Hok.
  pose proof Hacc as (_ & _ & _ & _ & _ & Hwf & Hfit).
  apply (get_after_put w f k0 true a r (disk_of w f) w2 f2 rank2 coll2 a2 Hacc Hget).
  destruct (Hgeo a2) as [Hg2 Hx2].
  assert (Eg : acc_geom f a2 = acc_geom f a) by (unfold acc_geom, the_var; rewrite Hv; reflexivity).
  assert (Ex : acc_xt f a2 = acc_xt f a) by (unfold acc_xt, the_var; rewrite Hv; reflexivity).
  split; [congruence|]. split; [congruence|].
  intros o j Ho Hj.
  (* the byte lies inside the variable, above the numrecs field *)
  assert (Hge : g_begin (acc_geom f a) <= o + j).
  { apply (var_region_ge_begin _ _ Hwf). rewrite req_offsets_some in Ho by assumption.
    apply (request_in_region _ _ _ _ o _ Hwf (proj2 Hok) Ho). unfold in_elem. lia. }
  rewrite Hdisk by lia.
  rewrite zip_repeat. apply coll_disk_same; assumption.
Qed.

(* ================================================================== *)
(** * 13. Examples: a world built by the interpreter itself             *)
(* ================================================================== *)
Definition run (w : world) (ops : list op) : world :=
  fold_left (fun w o => fst (exec_all w o)) ops w.

Definition dflt_file : filest :=
  mkfile (mkhdr 0 0 [] [] []) empty_layout false false false false None false no_align [] 0 false.
Definition file_at (w : world) (id : Z) : filest :=
  match znth (w_files w) id None with Some f => f | None => dflt_file end.

(* put_accepted / get_accepted with the interpreter's own checks gathered into one equation
   that evaluation decides *)
Lemma put_accepted_checks : forall w f rank coll a r,
  ((0 <=? f_slot f) && (f_slot f <? Zlen (w_disks w)), sanity f true true coll a,
   check_request w f rank false a, iomismatch a [r]) = (true, NC_NOERR, (NC_NOERR, Some [r]), false) ->
  form_lengths (ac_form a) (length (g_shape (acc_geom f a))) ->
  wf_geom (acc_geom f a) /\ rec_fits (acc_geom f a) ->
  put_accepted w f rank coll a r.
Proof.
  intros w f rank coll a r H Hfl Hg. injection H as H1 H2 H3 H4.
  refine (conj _ (conj H2 (conj H3 (conj H4 (conj Hfl Hg))))). lia.
Qed.

Lemma get_accepted_checks : forall w f rank coll a r,
  (sanity f false true coll a, check_request w f rank true a, ac_buf a, ac_memt a) =
  (NC_NOERR, (NC_NOERR, Some [r]), BTyped, acc_xt f a) ->
  form_lengths (ac_form a) (length (g_shape (acc_geom f a))) -> wf_geom (acc_geom f a) ->
  get_accepted w f rank coll a r.
Proof.
  intros w f rank coll a r H Hfl Hg. injection H as H1 H2 H3 H4.
  exact (conj H1 (conj H2 (conj H3 (conj H4 (conj Hfl Hg))))).
Qed.

(* 2 ranks; CDF-5 file in slot 0; dims t (unlimited), x = 3, y = 4;
   a : int [x][y] (fixed), r : short [t][y] (record), s : double [t] (record);
   enddef; independent mode.  Layout: a at 512, r at 560, s at 568, recsize 16. *)
Definition ex_w : world :=
  run (world0 2)
      [OCreate 0 5 1; ODefDim 0 [116] 0; ODefDim 0 [120] 3; ODefDim 0 [121] 4;
       ODefVar 0 [97] 4 [1; 2]; ODefVar 0 [114] 3 [0; 2]; ODefVar 0 [115] 6 [0];
       OEnddef 0; OBeginIndep 0].
Definition ex_f : filest := file_at ex_w 0.

(* put_vars_short on r: records 1 and 3, columns 0 and 2 (a write beyond numrecs = 0) *)
Definition ex_a : access :=
  mkacc 1 (FVars (Some [1; 0]) (Some [2; 2]) (Some [2; 2])) 3 false BTyped 7.
Definition ex_r : rreq := mkrreq [1; 0] [2; 2] (Some [2; 2]) None.

Example ex_file : znth (w_files ex_w) 0 None = Some ex_f.
Proof. vm_compute. reflexivity. Qed.

Example ex_geom : acc_geom ex_f ex_a = mkgeom 560 2 [0; 4] 16 2.
Proof. vm_compute. reflexivity. Qed.

Example ex_hdr_wf : hdr_wf (f_hdr ex_f).
Proof. apply hdr_wf_b. vm_compute. reflexivity. Qed.

(* the layout facts are obtained from the invariant, not assumed *)
Example ex_geom_wf : wf_geom (acc_geom ex_f ex_a) /\ rec_fits (acc_geom ex_f ex_a).
Proof.
  apply (acc_geom_wf ex_f true true false ex_a).
  - vm_compute. reflexivity.
  - exact ex_hdr_wf.
  - vm_compute. reflexivity.
  - vm_compute. reflexivity.
  - rewrite ex_geom. cbn [g_shape dims_wf]. split; [lia | repeat constructor; lia].
Qed.

Example ex_put_accepted : put_accepted ex_w ex_f 0 false ex_a ex_r.
Proof.
  apply put_accepted_checks; [vm_compute; reflexivity | vm_compute; repeat split; reflexivity |].
  exact ex_geom_wf.
Qed.

(* put_rank_frame, instantiated: everything it promises holds of the computed world *)
Example ex_put_rank := put_rank_frame ex_w 0 ex_f 0 false ex_a ex_r ex_put_accepted.

(* ... and computed: return code, proposed numrecs 4, the four elements
   (record 1 at 560+16, record 3 at 560+48; columns 0 and 2 at +0 and +4), a neighbour
   element and the header untouched *)
Example ex_put_rank_compute :
  let '(w', rc, nn, part) := put_rank ex_w 0 ex_f 0 false ex_a in
  rc = NC_NOERR /\ nn = Some 4 /\ part = true /\
  dk_read (disk_of w' ex_f) 576 2 = put_elem ex_a 3 0 /\
  dk_read (disk_of w' ex_f) 580 2 = put_elem ex_a 3 1 /\
  dk_read (disk_of w' ex_f) 608 2 = put_elem ex_a 3 2 /\
  dk_read (disk_of w' ex_f) 612 2 = put_elem ex_a 3 3 /\
  dk_read (disk_of w' ex_f) 578 2 = dk_read (disk_of ex_w ex_f) 578 2 /\
  dk_read (disk_of w' ex_f) 0 304 = dk_read (disk_of ex_w ex_f) 0 304 /\
  dk_read (disk_of w' ex_f) 0 304 = encode_header (f_hdr ex_f).
Proof. vm_compute. repeat split; reflexivity. Qed.

(* the interpreter continues with this world and file state *)
Definition ex_w1 : world := fst (indep_put ex_w 0 ex_f 0 ex_a).
Definition ex_f1 : filest := indep_numrecs ex_f 0 (put_newrecs ex_f ex_a ex_r).

Example ex_indep_put := indep_put_effect ex_w 0 ex_f 0 ex_a ex_r ex_put_accepted ex_file.

Example ex_get_accepted_1 : sanity ex_f1 false true false ex_a = NC_NOERR.
Proof. vm_compute; reflexivity. Qed.
Example ex_get_accepted_2 : check_request ex_w1 ex_f1 0 true ex_a = (NC_NOERR, Some [ex_r]).
Proof. vm_compute; reflexivity. Qed.
Example ex_get_accepted_3 : ac_memt ex_a = acc_xt ex_f1 ex_a.
Proof. vm_compute; reflexivity. Qed.
Example ex_get_accepted_4 : form_lengths (ac_form ex_a) (length (g_shape (acc_geom ex_f1 ex_a))).
Proof. vm_compute; repeat split; reflexivity. Qed.
Example ex_get_accepted_5 : wf_geom (acc_geom ex_f1 ex_a).
Proof.
  destruct (acc_geom_indep_numrecs ex_f 0 (put_newrecs ex_f ex_a ex_r) ex_a) as (E & _).
  unfold ex_f1. rewrite E. exact (proj1 ex_geom_wf).
Qed.
Example ex_get_accepted : get_accepted ex_w1 ex_f1 0 false ex_a ex_r.
Proof. exact (conj ex_get_accepted_1 (conj ex_get_accepted_2 (conj eq_refl (conj ex_get_accepted_3 (conj ex_get_accepted_4 ex_get_accepted_5))))). Qed.

(* get_after_put through indep_put_then_get *)
Example ex_get_after_put :=
  indep_put_then_get ex_w 0 ex_f 0 ex_a ex_r ex_w1 (snd (indep_put ex_w 0 ex_f 0 ex_a))
    0 false ex_a ex_put_accepted ex_file (surjective_pairing _) eq_refl ex_get_accepted.

Example ex_get_after_put_compute :
  get_rank_op ex_w1 ex_f1 0 false ex_a =
  (NC_NOERR, [THex (guard_bytes ++ [90; 99; 179; 39; 60; 97; 149; 37] ++ guard_bytes)]).
Proof. vm_compute. reflexivity. Qed.

(* another request on the same variable: get_vara_short of records 0..1, all 4 columns.
   Elements (1,0) and (1,2) were written by the put; the other six were never written *)
Definition ex_a' : access := mkacc 1 (FVara (Some [0; 0]) (Some [2; 4])) 3 false BTyped 0.
Definition ex_r' : rreq := mkrreq [0; 0] [2; 4] None None.

Example ex_get_accepted'_1 : sanity ex_f1 false true false ex_a' = NC_NOERR.
Proof. vm_compute; reflexivity. Qed.
Example ex_get_accepted'_2 : check_request ex_w1 ex_f1 0 true ex_a' = (NC_NOERR, Some [ex_r']).
Proof. vm_compute; reflexivity. Qed.
Example ex_get_accepted'_3 : ac_memt ex_a' = acc_xt ex_f1 ex_a'.
Proof. vm_compute; reflexivity. Qed.
Example ex_get_accepted'_4 : form_lengths (ac_form ex_a') (length (g_shape (acc_geom ex_f1 ex_a'))).
Proof. vm_compute; repeat split; reflexivity. Qed.
Example ex_get_accepted'_5 : wf_geom (acc_geom ex_f1 ex_a').
Proof.
  destruct (acc_geom_indep_numrecs ex_f 0 (put_newrecs ex_f ex_a ex_r) ex_a') as (E & _).
  unfold ex_f1. rewrite E. assert (E2 : acc_geom ex_f ex_a' = acc_geom ex_f ex_a) by (vm_compute; reflexivity).
  rewrite E2. exact (proj1 ex_geom_wf).
Qed.
Example ex_get_accepted' : get_accepted ex_w1 ex_f1 0 false ex_a' ex_r'.
Proof. exact (conj ex_get_accepted'_1 (conj ex_get_accepted'_2 (conj eq_refl (conj ex_get_accepted'_3 (conj ex_get_accepted'_4 ex_get_accepted'_5))))). Qed.

Example ex_sees_put : sees_put ex_w1 ex_f1 ex_a' ex_f ex_a ex_r (disk_of ex_w ex_f).
Proof.
  destruct ex_indep_put as (w3 & E & _ & Hd & _).
  assert (Ew : ex_w1 = w3) by (unfold ex_w1; rewrite E; reflexivity).
  destruct (acc_geom_indep_numrecs ex_f 0 (put_newrecs ex_f ex_a ex_r) ex_a') as (Eg & Ex & _).
  unfold sees_put, ex_f1. rewrite Eg, Ex, Ew.
  split; [vm_compute; reflexivity | split; [vm_compute; reflexivity | exact Hd]].
Qed.

Example ex_get_other :=
  get_after_put_other ex_w ex_f 0 false ex_a ex_r (disk_of ex_w ex_f) ex_w1 ex_f1 0 false ex_a' ex_r'
    ex_put_accepted ex_get_accepted' (sees_put_at_of_eq _ _ _ _ _ _ _ ex_sees_put ex_r').

Example ex_get_other_compute :
  get_rank_op ex_w1 ex_f1 0 false ex_a' =
  (RC_ANY,
   [THex (guard_bytes ++
          [-1; -1; -1; -1; -1; -1; -1; -1; 90; 99; -1; -1; 179; 39; -1; -1] ++ guard_bytes)]).
Proof. vm_compute. reflexivity. Qed.

(* var1 (NULL count) and a scalar-free fixed variable through the same theorems:
   put_var1_int a[2][3] *)
Definition ex_a1 : access := mkacc 0 (FVar1 (Some [2; 3])) 4 false BTyped 11.
Definition ex_r1 : rreq := mkrreq [2; 3] [1; 1] None None.

Example ex_put_accepted1 : put_accepted ex_w ex_f 0 false ex_a1 ex_r1.
Proof.
  apply put_accepted_checks; [vm_compute; reflexivity | vm_compute; repeat split; reflexivity |].
  apply (acc_geom_wf ex_f true true false ex_a1).
  - vm_compute. reflexivity.
  - exact ex_hdr_wf.
  - vm_compute. reflexivity.
  - vm_compute. reflexivity.
  - assert (E : g_shape (acc_geom ex_f ex_a1) = [3; 4]) by (vm_compute; reflexivity).
    rewrite E. cbn [dims_wf]. split; [lia | repeat constructor; lia].
Qed.

Example ex_put_rank1 := put_rank_frame ex_w 0 ex_f 0 false ex_a1 ex_r1 ex_put_accepted1.

(* ---------- example for enddef_fill_reads_fill ---------- *)
Definition the_world (o : option (world * Z)) (w0 : world) : world :=
  match o with Some (w', _) => w' | None => w0 end.

Lemma some_world : forall (o : option (world * Z)) w0,
  match o with Some (_, rc) => rc =? NC_NOERR | None => false end = true ->
  o = Some (the_world o w0, NC_NOERR).
Proof.
  intros [[w' rc]|] w0 H; [|discriminate H]. cbn [the_world]. f_equal. f_equal. lia.
Qed.

Lemma some_inj {A} : forall (a b : A), Some a = Some b -> a = b.
Proof. intros a b H. inversion H. reflexivity. Qed.

(* 2 ranks; CDF-5 file in slot 0, fill mode on; dims t (unlimited), x = 5;
   a : int [x] (default fill), c : short [x] (_FillValue = 42), r : short [t][x],
   b : double [x] switched to no-fill; still in define mode *)
Definition fx_wdef : world :=
  run (world0 2)
      [OCreate 0 5 1; OSetFill 0 0; ODefDim 0 [116] 0; ODefDim 0 [120] 5;
       ODefVar 0 [97] 4 [1]; ODefVar 0 [99] 3 [1]; ODefVar 0 [114] 3 [0; 1];
       ODefVar 0 [98] 6 [1]; ODefVarFill 0 1 0 1 42; ODefVarFill 0 3 1 0 0].
Definition fx_fdef : filest := file_at fx_wdef 0.
Definition fx_ea : enddef_args := mkeargs 0 0 0 0.
(* the world after the enddef the interpreter runs *)
Definition fx_w : world := the_world (do_enddef fx_wdef 0 fx_fdef fx_ea) fx_wdef.
Definition fx_f : filest := file_at fx_w 0.

Example fx_enddef : do_enddef fx_wdef 0 fx_fdef fx_ea = Some (fx_w, NC_NOERR).
Proof. apply some_world. vm_compute. reflexivity. Qed.

Example fx_exec_enddef : fst (exec_all fx_wdef (OEnddef 0)) = fx_w.
Proof.
  unfold exec_all. cbv zeta.
  assert (E : lookup_file fx_wdef (slot_of (OEnddef 0)) = Some (0, fx_fdef)) by (vm_compute; reflexivity).
  rewrite E. assert (Et : f_tainted fx_fdef = false) by (vm_compute; reflexivity). rewrite Et.
  change (mkeargs 0 0 0 0) with fx_ea. rewrite fx_enddef. reflexivity.
Qed.

Example fx_file : znth (w_files fx_w) 0 None = Some fx_f.
Proof. vm_compute. reflexivity. Qed.

Example fx_vars :
  map (fun v => (v_name v, v_begin v, v_nofill v, var_fill_bytes v)) (h_vars (f_hdr fx_f)) =
  [([97], 512, false, [128; 0; 0; 1]); ([99], 532, false, [0; 42]);
   ([114], 584, false, [128; 1]); ([98], 544, true, [71; 158; 0; 0; 0; 0; 0; 0])].
Proof. vm_compute. reflexivity. Qed.

Example fx_hdr_wf : hdr_wf (f_hdr fx_fdef).
Proof. apply hdr_wf_b. vm_compute. reflexivity. Qed.

(* collective get_vara_short of c[1..3] on rank 1, and get_var1_int of a[4] on rank 0 *)
Definition fx_gc : access := mkacc 1 (FVara (Some [1]) (Some [3])) 3 false BTyped 0.
Definition fx_rc : rreq := mkrreq [1] [3] None None.
Definition fx_ga : access := mkacc 0 (FVar1 (Some [4])) 4 false BTyped 0.
Definition fx_ra : rreq := mkrreq [4] [1] None None.

Lemma fx_geom_wf : forall a, sanity fx_f false true true a = NC_NOERR ->
  0 < xlen_type (acc_xt fx_f a) -> dims_wf (g_shape (acc_geom fx_f a)) ->
  wf_geom (acc_geom fx_f a).
Proof.
  intros a Hs Hx Hd. apply (acc_geom_wf fx_f false true true a Hs).
  - apply hdr_wf_b. vm_compute. reflexivity.
  - vm_compute. reflexivity.
  - exact Hx.
  - exact Hd.
Qed.

Example fx_get_accepted_c : get_accepted fx_w fx_f 1 true fx_gc fx_rc.
Proof.
  apply get_accepted_checks; [vm_compute; reflexivity | vm_compute; repeat split; reflexivity |].
  apply fx_geom_wf; [vm_compute; reflexivity | vm_compute; reflexivity |].
  assert (E : g_shape (acc_geom fx_f fx_gc) = [5]) by (vm_compute; reflexivity).
  rewrite E. cbn [dims_wf]. split; [lia | constructor].
Qed.

Example fx_get_accepted_a : get_accepted fx_w fx_f 0 true fx_ga fx_ra.
Proof.
  apply get_accepted_checks; [vm_compute; reflexivity | vm_compute; repeat split; reflexivity |].
  apply fx_geom_wf; [vm_compute; reflexivity | vm_compute; reflexivity |].
  assert (E : g_shape (acc_geom fx_f fx_ga) = [5]) by (vm_compute; reflexivity).
  rewrite E. cbn [dims_wf]. split; [lia | constructor].
Qed.

(* the theorem, with every hypothesis discharged on the instance: the three elements of c read
   0x002a (little endian 2a 00), the element of a reads NC_FILL_INT = 0x80000001 *)
Example fx_fill_reads :
  get_rank_op fx_w fx_f 1 true fx_gc =
    (NC_NOERR, [THex (guard_bytes ++ [42; 0; 42; 0; 42; 0] ++ guard_bytes)]) /\
  get_rank_op fx_w fx_f 0 true fx_ga =
    (NC_NOERR, [THex (guard_bytes ++ [1; 0; 0; 128] ++ guard_bytes)]).
Proof.
  destruct (enddef_fill_reads_fill fx_wdef 0 fx_fdef fx_ea fx_w) as (lay & Hf & Hget).
  - vm_compute; reflexivity.
  - vm_compute; reflexivity.
  - vm_compute; reflexivity.
  - vm_compute; reflexivity.
  - exact fx_hdr_wf.
  - apply Z.leb_le; vm_compute; reflexivity.
  - apply Z.leb_le; vm_compute; reflexivity.
  - apply Z.leb_le; vm_compute; reflexivity.
  - split; [apply Z.leb_le | apply Z.ltb_lt]; vm_compute; reflexivity.
  - split; [apply Z.leb_le | apply Z.ltb_lt]; vm_compute; reflexivity.
  - apply Z.leb_le; vm_compute; reflexivity.
  - exact fx_enddef.
  - cbv zeta in Hf, Hget. rewrite fx_file in Hf. apply some_inj in Hf. rewrite <- Hf in Hget.
    assert (Hwfh : wf_hdr (f_hdr fx_f) = true) by (vm_compute; reflexivity).
    specialize (Hget Hwfh). split.
    + rewrite (Hget 1 true fx_gc fx_rc fx_get_accepted_c).
      * vm_compute. reflexivity.
      * vm_compute. reflexivity.
      * vm_compute. reflexivity.
      * assert (E : var_fill_bytes (the_var fx_f fx_gc) = [0; 42]) by (vm_compute; reflexivity).
        rewrite E. repeat constructor; unfold byte_ok; lia.
    + rewrite (Hget 0 true fx_ga fx_ra fx_get_accepted_a).
      * vm_compute. reflexivity.
      * vm_compute. reflexivity.
      * vm_compute. reflexivity.
      * assert (E : var_fill_bytes (the_var fx_f fx_ga) = fill_bytes 4) by (vm_compute; reflexivity).
        rewrite E. apply fill_bytes_ok.
Qed.

Example fx_fill_reads_compute :
  get_rank_op fx_w fx_f 1 true fx_gc =
    (NC_NOERR, [THex (guard_bytes ++ [42; 0; 42; 0; 42; 0] ++ guard_bytes)]).
Proof. vm_compute. reflexivity. Qed.

(* ---------- example for coll_put_effect / coll_put_same_then_get ---------- *)
(* the file of ex_w, left in collective mode *)
Definition cx_w : world :=
  run (world0 2)
      [OCreate 0 5 1; ODefDim 0 [116] 0; ODefDim 0 [120] 3; ODefDim 0 [121] 4;
       ODefVar 0 [97] 4 [1; 2]; ODefVar 0 [114] 3 [0; 2]; ODefVar 0 [115] 6 [0];
       OEnddef 0].
Definition cx_f : filest := file_at cx_w 0.
Definition cx_w2 : world := fst (coll_put cx_w 0 cx_f (map (fun k => (k, ex_a)) [0; 1])).
Definition cx_f2 : filest := file_at cx_w2 0.

Example cx_file : znth (w_files cx_w) 0 None = Some cx_f.
Proof. vm_compute. reflexivity. Qed.

(* this is what the step function runs for "put collective" on all ranks *)
Example cx_exec : exec_all cx_w (OPut 0 true ex_a) = coll_put cx_w 0 cx_f (map (fun k => (k, ex_a)) [0; 1]).
Proof.
  unfold exec_all. cbv zeta.
  assert (E : lookup_file cx_w (slot_of (OPut 0 true ex_a)) = Some (0, cx_f)) by (vm_compute; reflexivity).
  rewrite E. assert (Et : f_tainted cx_f = false) by (vm_compute; reflexivity). rewrite Et.
  unfold acc_unmodelled.
  assert (Er : all_ranks cx_w = [0; 1]) by (vm_compute; reflexivity). rewrite Er. reflexivity.
Qed.

Example cx_accepted : forall k, In k [0; 1] -> put_accepted cx_w cx_f k true ex_a ex_r.
Proof.
  assert (Hg : wf_geom (acc_geom cx_f ex_a) /\ rec_fits (acc_geom cx_f ex_a)).
  { assert (E : acc_geom cx_f ex_a = acc_geom ex_f ex_a) by (vm_compute; reflexivity).
    rewrite E. exact ex_geom_wf. }
  intros k [<-|[<-|[]]]; (apply put_accepted_checks;
    [vm_compute; reflexivity | vm_compute; repeat split; reflexivity | exact Hg]).
Qed.

Example cx_file2 : znth (w_files cx_w2) 0 None = Some cx_f2.
Proof. vm_compute. reflexivity. Qed.

Example cx_get_accepted : get_accepted cx_w2 cx_f2 1 true ex_a ex_r.
Proof.
  apply get_accepted_checks; [vm_compute; reflexivity | vm_compute; repeat split; reflexivity |].
  assert (E : acc_geom cx_f2 ex_a = acc_geom ex_f ex_a) by (vm_compute; reflexivity).
  rewrite E. exact (proj1 ex_geom_wf).
Qed.

(* both ranks put, numrecs becomes 4 (header bytes 4..11 rewritten), rank 1 reads back *)
Example cx_coll_get :
  snd (coll_put cx_w 0 cx_f (map (fun k => (k, ex_a)) [0; 1])) =
    [(0, NC_NOERR, [TSame]); (1, NC_NOERR, [TSame])] /\
  get_rank_op cx_w2 cx_f2 1 true ex_a =
    (NC_NOERR, [THex (guard_bytes ++ [90; 99; 179; 39; 60; 97; 149; 37] ++ guard_bytes)]) /\
  dk_read (disk_of cx_w2 cx_f2) 4 8 = [0; 0; 0; 0; 0; 0; 0; 4].
Proof.
  destruct (coll_put_same_then_get cx_w 0 cx_f [0; 1] ex_a ex_r) as (w2 & f2 & Hcp & Hf2 & Hget).
  - discriminate.
  - split; [apply Z.leb_le | apply Z.ltb_lt]; vm_compute; reflexivity.
  - exact cx_file.
  - exact cx_accepted.
  - apply Z.leb_le. vm_compute. reflexivity.
  - assert (Ew : w2 = cx_w2) by (unfold cx_w2; rewrite Hcp; reflexivity). subst w2.
    rewrite cx_file2 in Hf2. apply some_inj in Hf2. subst f2.
    split; [rewrite Hcp; reflexivity|]. split.
    + rewrite (Hget 1 true ex_a eq_refl cx_get_accepted). vm_compute. reflexivity.
    + vm_compute. reflexivity.
Qed.

(* ---------- why put_rank_effect needs "0 <= f_slot f < Zlen (w_disks w)" ---------- *)
(* a file state whose slot has no disk in the world (not reachable through exec_step, whose
   lookup_file fails for such a slot, but a legal argument of put_rank): every check passes,
   put_rank answers NC_NOERR, and nothing is written — set_disk outside the list is a no-op *)
Definition ex_f9 : filest :=
  mkfile (f_hdr ex_f) (f_lay ex_f) false true false false None false no_align (f_ranks ex_f) 9 false.

Example put_rank_effect_slot_cex :
  sanity ex_f9 true true false ex_a = NC_NOERR /\
  check_request ex_w ex_f9 0 false ex_a = (NC_NOERR, Some [ex_r]) /\
  iomismatch ex_a [ex_r] = false /\
  let '(w', rc, _, _) := put_rank ex_w 0 ex_f9 0 false ex_a in
  rc = NC_NOERR /\
  dk_exists (disk_of w' ex_f9) = false /\
  dk_exists (put_disk ex_f9 ex_a ex_r (disk_of ex_w ex_f9)) = true.
Proof. vm_compute. repeat split; reflexivity. Qed.

Print Assumptions coll_put_effect.
Print Assumptions coll_put_same_then_get.
Print Assumptions cx_coll_get.
Print Assumptions enddef_fill_reads_fill.
Print Assumptions fx_fill_reads.
Print Assumptions put_rank_effect.
Print Assumptions check_request_req_ok.
Print Assumptions put_rank_frame.
Print Assumptions put_stream_defined.
Print Assumptions get_rank_op_typed.
Print Assumptions get_after_put.
Print Assumptions get_after_put_other.
Print Assumptions indep_put_then_get.
Print Assumptions geom_of_wf.
Print Assumptions ex_get_other.
