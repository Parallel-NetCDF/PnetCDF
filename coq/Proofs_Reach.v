(* Proofs_Reach.v — the invariant of EVERY reachable state of the interpreter of Exec.v: its definition
   (world_inv, file_inv and their clauses; the script contract step_ok says which steps the theorem
   covers), the frame relation with the generic steps inv_change and inv_replace, and the define-mode
   metadata operations.  Proofs_Reach2.v: enddef, the numrecs agreements, redef, begin/end_indep, sync,
   close, abort, create, open.  Proofs_Reach3.v: put, fill_var_rec, the case analysis
   exec_step_preserves_inv, reachable_inv and the corollaries.  Proofs_Reach4.v: examples, and the
   counterexamples that show why the contract step_ok is needed. *)
From Pnc Require Import Base Gen_consts Header HeaderSpec Disk Exec.
From Pnc Require Import Proofs_Lists Proofs_Header Proofs_Layout.
From Pnc Require Import Proofs_Access.
From Pnc Require Import Proofs_Exec2.
Require Import Lia ZArith List Bool ZifyBool.
Import ListNotations.
Local Open Scope Z_scope.


(** * A. Definitions *)

Definition align_ok (c : aligncfg) : Prop :=
  0 <= env_h_align c /\ 0 <= env_v_align c /\ 0 <= env_r_align c.

(* what the guards of def_var guarantee of a variable (and what open_ok checks of a file
   found on disk): a legal type number, dimension ids that exist, the record dimension only
   in front *)
Definition var_good (dims : list dim) (v : var) : Prop :=
  1 <= v_type v <= 11 /\
  Forall (fun d => 0 <= d < Zlen dims) (v_dimids v) /\
  Forall (fun d => dim_size dims d <> 0) (tl (v_dimids v)).

Definition hdr_good (h : hdr) : Prop :=
  hdr_wf h /\ Forall (var_good (h_dims h)) (h_vars h) /\ 0 <= h_numrecs h.

(* the layout with its header extent capped at begin_var.  For a header WITH variables the
   layout invariant says l_xsz <= l_begin_var, so lay_core lay = lay; a file without variables
   that was closed and reopened has the layout (hdr_len, 0, 0, 0, []) of layout_of_hdr, whose
   begin_var 0 is below the header extent: only its core satisfies lay_inv.  [begins], the data
   movement and the fill never read l_xsz of the OLD layout. *)
Definition lay_core (lay : layout) : layout :=
  mklayout (Z.min (l_xsz lay) (l_begin_var lay)) (l_begin_var lay) (l_begin_rec lay)
           (l_recsize lay) (l_begins lay).

(* Proofs_Exec2.hdr_on_disk, for a disk and a header.  Proofs_Exec2.disk_has_hdr has the same text:
   its lemmas has_hdr_write_header and has_hdr_frame apply to this one by conversion *)
Definition disk_has_hdr (d : disk) (h : hdr) : Prop :=
  dk_exists d = true /\ hdr_len h <= dk_size d /\ dk_read d 0 (hdr_len h) = encode_header h.

(* the data-mode clauses of a header h with layout lay kept on disk d *)
Definition data_ok (d : disk) (h : hdr) (lay : layout) : Prop :=
  lay_inv (t3of h) (lay_core lay) /\
  (h_vars h <> [] -> lay_inv (t3of h) lay) /\
  map v_begin (h_vars h) = l_begins lay /\
  l_xsz lay = hdr_len h /\
  (wf_hdr h = true -> disk_has_hdr d h).

(* per-rank numrecs: never below the header's numrecs (which is what the file holds); equal to
   it on every rank unless the file is writable, in independent mode and has a record variable
   (then a rank may be ahead until the next sync) *)
Definition ranks_ok (np : Z) (f : filest) : Prop :=
  Zlen (f_ranks f) = np /\
  Forall (fun r => h_numrecs (f_hdr f) <= rk_numrecs r) (f_ranks f) /\
  (f_indep f = false \/ num_rec_vars (f_hdr f) = 0 \/ f_rdonly f = true ->
     Forall (fun r => rk_numrecs r = h_numrecs (f_hdr f)) (f_ranks f)).

Definition file_ok (np nd : Z) (d : disk) (f : filest) : Prop :=
  0 <= f_slot f < nd /\ hdr_good (f_hdr f) /\ align_ok (f_align f) /\ ranks_ok np f /\
  if f_indef f then
    f_indep f = false /\ f_rdonly f = false /\
    match f_old f with
    | None => f_isnew f = true /\ f_lay f = empty_layout
    | Some (oh, ol) =>
        f_isnew f = false /\ f_lay f = ol /\ hdr_good oh /\ data_ok d oh ol /\
        hdr_extends oh (f_hdr f) /\ h_numrecs (f_hdr f) = h_numrecs oh
    end
  else f_old f = None /\ f_isnew f = false /\ data_ok d (f_hdr f) (f_lay f).

Definition file_inv (w : world) (f : filest) : Prop :=
  file_ok (w_nprocs w) (Zlen (w_disks w)) (disk_of w f) f.

Definition slots_distinct (fs : list (option filest)) : Prop :=
  forall i j f g, znth fs i None = Some f -> znth fs j None = Some g ->
    f_slot f = f_slot g -> i = j.

Definition world_inv (w : world) : Prop :=
  1 <= w_nprocs w /\ 1 <= w_move_unit w /\ align_ok (w_hints w) /\
  slots_distinct (w_files w) /\
  (forall i f, znth (w_files w) i None = Some f -> f_tainted f = false -> file_inv w f).

(* the script contract: which steps the invariant theorem covers *)

(* no open file (tainted or not) sits on disk slot s *)
Definition slot_free (w : world) (s : Z) : bool :=
  forallb (fun o => match o with Some g => negb (f_slot g =? s) | None => true end) (w_files w).

Definition slot_in_range (w : world) (s : Z) : bool := (0 <=? s) && (s <? Zlen (w_disks w)).

(* the C arrays start/count/stride have ndims entries *)
Definition olen (o : option (list Z)) (n : nat) : bool :=
  match o with Some l => Nat.eqb (length l) n | None => true end.

Definition acc_lens_b (fm : form) (n : nat) : bool :=
  match fm with
  | FVar => true
  | FVar1 s => olen s n
  | FVara s c => olen s n && olen c n
  | FVars s c t => olen s n && olen c n && olen t n
  | FVarm s c t m => olen s n && olen c n && olen t n
  | FVarn reqs => forallb (fun sc => Nat.eqb (length (fst sc)) n && Nat.eqb (length (snd sc)) n) reqs
  end.

Definition put_acc_ok (f : filest) (a : access) : bool :=
  (ac_var a <? 0) || (ac_var a >=? Zlen (h_vars (f_hdr f))) ||
  acc_lens_b (ac_form a) (length (v_dimids (the_var f a))).

(* boolean readings of the clauses an opened file must satisfy *)
Definition var_good_b (dims : list dim) (v : var) : bool :=
  (1 <=? v_type v) && (v_type v <=? 11) &&
  forallb (fun d => (0 <=? d) && (d <? Zlen dims)) (v_dimids v) &&
  forallb (fun d => negb (dim_size dims d =? 0)) (tl (v_dimids v)).

Definition hdr_good_b (h : hdr) : bool :=
  forallb (fun d => 0 <=? d_size d) (h_dims h) &&
  forallb (var_good_b (h_dims h)) (h_vars h) && (0 <=? h_numrecs h).

Fixpoint contig_b (e : Z) (l : list (Z * Z)) : bool :=
  match l with [] => true | (b, len) :: r => (b =? e) && contig_b (e + len) r end.

Definition lay_inv_b (t3 : list (bool * Z * Z)) (lay : layout) : bool :=
  let vs := map fst t3 in
  let fl := sel false vs (l_begins lay) in
  let rl := sel true vs (l_begins lay) in
  Nat.eqb (length (l_begins lay)) (length vs) &&
  (l_xsz lay <=? l_begin_var lay) &&
  begins_increasing (l_begin_var lay) fl &&
  (l_begin_var lay =? match fl with (b, _) :: _ => b | [] => l_begin_rec lay end) &&
  (last_end (l_begin_var lay) fl <=? l_begin_rec lay) &&
  (l_begin_rec lay mod 4 =? 0) &&
  contig_b (l_begin_rec lay) rl &&
  (l_recsize lay =? rs_rule t3).

(* the validation of the file found on disk by open: when its first bytes decode, the decoded
   header is well formed, re-encodes to exactly those bytes, and the layout the library derives
   from it satisfies the layout invariant *)
Definition open_ok (d : disk) : bool :=
  negb (dk_exists d) ||
  match decode (dk_read d 0 (Z.min (dk_size d) 65536)) with
  | None => true
  | Some dc =>
      let h := dc_hdr dc in
      let lay := layout_of_hdr h (dc_len dc) in
      wf_hdr h && hdr_good_b h && (dc_len dc =? hdr_len h) && (hdr_len h <=? dk_size d) &&
      bytes_eqb (dk_read d 0 (hdr_len h)) (encode_header h) &&
      lay_inv_b (t3of h) (lay_core lay) &&
      (match h_vars h with [] => true | _ => lay_inv_b (t3of h) lay end)
  end.

Definition op_ok (w : world) (o : op) : bool :=
  match o with
  | OCreate s _ clobber =>
      slot_in_range w s && (slot_free w s || (dk_exists (get_disk w s) && (clobber =? 0)))
  | OOpen s _ =>
      negb (dk_exists (get_disk w s)) || (slot_in_range w s && slot_free w s && open_ok (get_disk w s))
  | OJunk s _ _ => slot_free w s
  | OPut s _ a =>
      match lookup_file w s with Some (_, f) => put_acc_ok f a | None => true end
  | _ => true
  end.

Definition step_ok (w : world) (s : step) : bool :=
  match s with
  | SAll o => op_ok w o
  | SOne _ o => op_ok w o
  | SEach os =>
      match os with
      | [] => true
      | o0 :: _ =>
          match lookup_file w (slot_of o0) with
          | Some (_, f) =>
              forallb (fun o => match o with OPut _ _ a => put_acc_ok f a | _ => true end) os
          | None => true
          end
      end
  end.

(** * B. Small lemmas *)

Lemma rz_Forall_zupd_in : forall A (P : A -> Prop) (l : list A) i v,
  Forall P l -> (0 <= i < Zlen l -> P v) -> Forall P (zupd l i v).
Proof.
  intros A P l. induction l as [|x l IH]; intros i v Hl Hv; [constructor|].
  inversion Hl as [|? ? Hx Hr]; subst. cbn [zupd]. rewrite Zlen_cons in Hv.
  pose proof (Zlen_nonneg l) as Hn.
  destruct (Z.eqb_spec i 0) as [E|E].
  - constructor; [apply Hv; lia|exact Hr].
  - constructor; [exact Hx|]. apply IH; [exact Hr|]. intros Hi. apply Hv. lia.
Qed.

Lemma rz_Forall_zupd : forall A (P : A -> Prop) (l : list A) i v,
  Forall P l -> P v -> Forall P (zupd l i v).
Proof. intros A P l i v Hl Hv. apply rz_Forall_zupd_in; [exact Hl|intros _; exact Hv]. Qed.

Lemma rz_Forall_map : forall A B (P : B -> Prop) (g : A -> B) (l : list A),
  (forall x, In x l -> P (g x)) -> Forall P (map g l).
Proof.
  intros A B P g l H. apply Forall_forall. intros y Hy. apply in_map_iff in Hy.
  destruct Hy as [x [<- Hx]]. apply H. exact Hx.
Qed.

Lemma rz_Zlen_all_ranks : forall w, 1 <= w_nprocs w -> Zlen (all_ranks w) = w_nprocs w.
Proof. intros w H. unfold all_ranks. rewrite Zlen_zrange. lia. Qed.

Lemma lookup_file_some : forall w slot id f, lookup_file w slot = Some (id, f) ->
  znth (w_files w) id None = Some f /\ 0 <= id < Zlen (w_files w).
Proof.
  intros w slot id f H. unfold lookup_file in H. cbv zeta in H.
  destruct (znth (w_ids w) slot (-1) <? 0) eqn:E; [discriminate H|].
  destruct (znth (w_files w) (znth (w_ids w) slot (-1)) None) as [g|] eqn:Ez; [|discriminate H].
  injection H as <- <-. split; [exact Ez|]. exact (znth_some_range _ _ _ Ez).
Qed.

Lemma slot_free_spec : forall w s i g, slot_free w s = true ->
  znth (w_files w) i None = Some g -> f_slot g <> s.
Proof.
  intros w s i g H Hz. unfold slot_free in H. rewrite forallb_forall in H.
  pose proof (znth_some_range _ _ _ Hz) as Hi.
  specialize (H (znth (w_files w) i None) (znth_In _ _ _ Hi)).
  rewrite Hz in H. lia.
Qed.

Lemma file_inv_of_znth : forall w id f, world_inv w -> znth (w_files w) id None = Some f ->
  f_tainted f = false -> file_inv w f.
Proof. intros w id f (_ & _ & _ & _ & Hfiles) Hz Ht. exact (Hfiles id f Hz Ht). Qed.

(* lay_core *)
Lemma lay_core_id : forall t3 lay, lay_inv t3 lay -> lay_core lay = lay.
Proof.
  intros t3 lay (_ & Hx & _). unfold lay_core. rewrite Z.min_l by exact Hx. destruct lay; reflexivity.
Qed.

Lemma lay_inv_core : forall t3 lay, lay_inv t3 lay -> lay_inv t3 (lay_core lay).
Proof. intros t3 lay H. rewrite (lay_core_id t3 lay H). exact H. Qed.

Lemma lay_core_fields : forall lay,
  l_begin_var (lay_core lay) = l_begin_var lay /\ l_begin_rec (lay_core lay) = l_begin_rec lay /\
  l_recsize (lay_core lay) = l_recsize lay /\ l_begins (lay_core lay) = l_begins lay.
Proof. intros lay. repeat split; reflexivity. Qed.

(* hdr_good *)
(* what var_good, t3of and hence the layout read of a variable *)
Definition vkey (v : var) : list Z * Z := (v_dimids v, v_type v).

Lemma vars_good_key : forall dims vs vs', map vkey vs' = map vkey vs ->
  Forall (var_good dims) vs -> Forall (var_good dims) vs'.
Proof.
  intros dims vs. induction vs as [|v vs IH]; intros [|v' vs'] E H; cbn [map] in E;
    try discriminate E; [constructor|].
  injection E as E1 E2 E3. inversion H as [|? ? Hv Hr]; subst.
  constructor; [unfold var_good in *; rewrite E1, E2; exact Hv|exact (IH vs' E3 Hr)].
Qed.

Lemma hdr_good_key : forall h h', hdr_good h -> h_dims h' = h_dims h ->
  map vkey (h_vars h') = map vkey (h_vars h) -> h_numrecs h' = h_numrecs h -> hdr_good h'.
Proof.
  intros h h' (H1 & H2 & H3) Ed Ev En. unfold hdr_good, hdr_wf. rewrite Ed, En.
  split; [exact H1|]. split; [|exact H3]. exact (vars_good_key _ _ _ Ev H2).
Qed.

Lemma var_good_app_dims : forall dims nd v, var_good dims v -> var_good (dims ++ nd) v.
Proof.
  intros dims nd v (Ht & Hids & Htl). split; [exact Ht|].
  pose proof (Zlen_nonneg nd) as Hn.
  split.
  - eapply Forall_impl; [|exact Hids]. intros d Hd. cbn beta in *. rewrite Zlen_app. lia.
  - assert (Hin : Forall (fun d => 0 <= d < Zlen dims) (tl (v_dimids v))).
    { destruct (v_dimids v) as [|x l]; [constructor|]. inversion Hids; assumption. }
    clear Hids. induction Htl as [|d l Hd Hl IH]; [constructor|].
    inversion Hin as [|? ? Hd' Hl']; subst. constructor; [|apply IH; exact Hl'].
    unfold dim_size in *. rewrite znth_app_l by lia. exact Hd.
Qed.

(* Proofs_Layout.hdr_extends_append, for a header not written as a constructor *)
Lemma hdr_extends_keys : forall h h' nd nv vars', hdr_good h ->
  h_dims h' = h_dims h ++ nd -> h_vars h' = vars' ++ nv -> map vkey vars' = map vkey (h_vars h) ->
  hdr_extends h h'.
Proof.
  intros h [fmt nr dims gatts vars] nd nv vars' (_ & Hv & _) Ed Ev Ek. cbn [h_dims h_vars] in Ed, Ev.
  subst dims vars. apply hdr_extends_append; [|exact Ek].
  eapply Forall_impl; [|exact Hv]. intros v (_ & Hids & _). exact Hids.
Qed.

Lemma hdr_extends_refl : forall h, hdr_extends h h.
Proof. intros h. exists []. rewrite app_nil_r. reflexivity. Qed.

Lemma hdr_extends_trans : forall a b c, hdr_extends a b -> hdr_extends b c -> hdr_extends a c.
Proof.
  intros a b c [e1 H1] [e2 H2]. exists (e1 ++ e2). rewrite H2, H1, app_assoc. reflexivity.
Qed.

(* a variable the guards accept has a usable geometry *)
Lemma var_good_geom : forall dims v, Forall (fun d => 0 <= d_size d) dims -> var_good dims v ->
  0 < xlen_type (v_type v) /\ dims_wf (var_shape dims v).
Proof.
  intros dims v Hwf (Ht & Hids & Htl). split.
  - pose proof (xlen_type_pos (v_type v) Ht). lia.
  - unfold dims_wf, var_shape. destruct (v_dimids v) as [|d0 ds]; cbn [map]; [exact I|].
    split; [apply dim_size_nonneg; exact Hwf|].
    cbn [tl] in Htl. clear Hids. induction Htl as [|d l Hd Hl IH]; cbn [map]; constructor.
    + pose proof (dim_size_nonneg dims d Hwf). lia.
    + exact IH.
Qed.

Lemma var_good_b_iff : forall dims v, var_good_b dims v = true <-> var_good dims v.
Proof.
  intros dims v. unfold var_good_b, var_good.
  rewrite !andb_true_iff, !forallb_forall, !Forall_forall. split.
  - intros [[[H1 H2] H3] H4]. split; [lia|].
    split; intros d Hd; [specialize (H3 d Hd)|specialize (H4 d Hd)]; lia.
  - intros (H1 & H2 & H3).
    repeat split; try lia; intros d Hd; [specialize (H2 d Hd)|specialize (H3 d Hd)]; lia.
Qed.

Lemma hdr_good_b_iff : forall h, hdr_good_b h = true <-> hdr_good h.
Proof.
  intros h. unfold hdr_good_b, hdr_good, hdr_wf.
  rewrite !andb_true_iff, !forallb_forall, !Forall_forall, Z.leb_le. split.
  - intros [[H1 H2] H3]. split; [intros d Hd; specialize (H1 d Hd); lia|]. split; [|exact H3].
    intros v Hv. apply var_good_b_iff. exact (H2 v Hv).
  - intros (H1 & H2 & H3). split; [split|exact H3].
    + intros d Hd. specialize (H1 d Hd). lia.
    + intros v Hv. apply var_good_b_iff. exact (H2 v Hv).
Qed.

Lemma contig_b_iff : forall l e, contig_b e l = true <-> contig e l.
Proof.
  induction l as [|[b len] r IH]; intros e; cbn [contig_b contig]; [split; trivial|].
  rewrite andb_true_iff, Z.eqb_eq, IH. split; intros [-> H]; (split; [reflexivity|exact H]).
Qed.

Lemma lay_inv_b_iff : forall t3 lay, lay_inv_b t3 lay = true <-> lay_inv t3 lay.
Proof.
  intros t3 lay. unfold lay_inv_b, lay_inv. cbv zeta.
  rewrite !andb_true_iff, Nat.eqb_eq, contig_b_iff, !Z.eqb_eq, !Z.leb_le. tauto.
Qed.

(* the frame relation *)
(* w' differs from w at most in file id and disk slot *)
Definition frame (w w' : world) (id slot : Z) : Prop :=
  w_nprocs w' = w_nprocs w /\ w_move_unit w' = w_move_unit w /\ w_hints w' = w_hints w /\
  Zlen (w_disks w') = Zlen (w_disks w) /\
  (forall j, j <> id -> znth (w_files w') j None = znth (w_files w) j None) /\
  (forall s, s <> slot -> get_disk w' s = get_disk w s) /\
  Zlen (w_files w') = Zlen (w_files w).

Lemma frame_refl : forall w id slot, frame w w id slot.
Proof. intros. unfold frame. repeat split; reflexivity. Qed.

Lemma frame_trans : forall w1 w2 w3 id slot,
  frame w1 w2 id slot -> frame w2 w3 id slot -> frame w1 w3 id slot.
Proof.
  intros w1 w2 w3 id slot (A1 & A2 & A3 & A4 & A5 & A6 & A7) (B1 & B2 & B3 & B4 & B5 & B6 & B7).
  unfold frame. repeat split; try congruence.
  - intros j Hj. rewrite (B5 j Hj). apply A5. exact Hj.
  - intros s Hs. rewrite (B6 s Hs). apply A6. exact Hs.
Qed.

Lemma frame_set_disk : forall w id slot d, frame w (set_disk w slot d) id slot.
Proof.
  intros w id slot d. unfold frame. repeat split; try reflexivity.
  - apply Zlen_w_disks_set_disk.
  - intros s Hs. apply get_disk_set_disk_other. lia.
Qed.

Lemma frame_put_file : forall w id slot x, frame w (put_file w id x) id slot.
Proof.
  intros w id slot x. unfold frame. repeat split; try reflexivity.
  - intros j Hj. apply znth_put_file_other. lia.
  - apply Zlen_w_files_put_file.
Qed.

Lemma frame_put_set : forall w id slot d x, frame w (put_file (set_disk w slot d) id x) id slot.
Proof.
  intros. eapply frame_trans; [apply frame_set_disk|apply frame_put_file].
Qed.

(* file_ok only reads the world through nprocs, the number of disks and the file's disk *)
Lemma file_inv_frame : forall w w' g,
  w_nprocs w' = w_nprocs w -> Zlen (w_disks w') = Zlen (w_disks w) ->
  get_disk w' (f_slot g) = get_disk w (f_slot g) -> file_inv w g -> file_inv w' g.
Proof. intros w w' g H1 H2 H3 H. unfold file_inv, disk_of in *. rewrite H1, H2, H3. exact H. Qed.

(** the generic step: the world changes at most in the entry id of the file table and in disk
    slot; no other open file sits on that slot; the new entry, if there is one, is a file on
    that slot satisfying the invariant *)
Lemma inv_change : forall w w' id slot,
  world_inv w ->
  w_nprocs w' = w_nprocs w -> w_move_unit w' = w_move_unit w -> align_ok (w_hints w') ->
  Zlen (w_disks w') = Zlen (w_disks w) ->
  (forall j, j <> id -> znth (w_files w') j None = znth (w_files w) j None) ->
  (forall s, s <> slot -> get_disk w' s = get_disk w s) ->
  (forall j g, j <> id -> znth (w_files w) j None = Some g -> f_slot g <> slot) ->
  match znth (w_files w') id None with
  | None => True
  | Some f' => f_slot f' = slot /\ (f_tainted f' = false -> file_inv w' f')
  end ->
  world_inv w'.
Proof.
  intros w w' id slot (Hnp & Hmu & _ & Hdist & Hfiles) F1 F2 F3 F4 F5 F6 Hfree Hnew.
  unfold world_inv. rewrite F1, F2.
  split; [exact Hnp|]. split; [exact Hmu|]. split; [exact F3|]. split.
  - intros i j a b Ha Hb Hs.
    destruct (Z.eq_dec i id) as [Ei|Ei]; destruct (Z.eq_dec j id) as [Ej|Ej]; [lia| | |].
    + subst i. rewrite Ha in Hnew. rewrite (F5 j Ej) in Hb.
      exfalso. apply (Hfree j b Ej Hb). rewrite <- Hs. exact (proj1 Hnew).
    + subst j. rewrite Hb in Hnew. rewrite (F5 i Ei) in Ha.
      exfalso. apply (Hfree i a Ei Ha). rewrite Hs. exact (proj1 Hnew).
    + rewrite (F5 i Ei) in Ha. rewrite (F5 j Ej) in Hb. exact (Hdist i j a b Ha Hb Hs).
  - intros i g Hg Ht. destruct (Z.eq_dec i id) as [Ei|Ei].
    + subst i. rewrite Hg in Hnew. exact (proj2 Hnew Ht).
    + rewrite (F5 i Ei) in Hg.
      apply (file_inv_frame w w' g F1 F4 (F6 _ (Hfree i g Ei Hg))). exact (Hfiles i g Hg Ht).
Qed.

(** ... when entry id held a file f: its slot is its own by slots_distinct *)
Lemma inv_update : forall w w' id f,
  world_inv w -> znth (w_files w) id None = Some f -> frame w w' id (f_slot f) ->
  match znth (w_files w') id None with
  | None => True
  | Some f' => f_slot f' = f_slot f /\ (f_tainted f' = false -> file_inv w' f')
  end ->
  world_inv w'.
Proof.
  intros w w' id f Hw Hz (F1 & F2 & F3 & F4 & F5 & F6 & _) Hnew.
  pose proof Hw as (_ & _ & Hal & Hdist & _).
  apply (inv_change w w' id (f_slot f) Hw F1 F2); try assumption.
  - rewrite F3. exact Hal.
  - intros j g Hj Hg C. apply Hj. exact (Hdist j id g f Hg Hz C).
Qed.

(* changing hints or the move unit; ids and the strict flag are not read at all *)
Lemma world_inv_set_hints : forall w c, world_inv w -> align_ok c -> world_inv (set_hints w c).
Proof.
  intros w c (H1 & H2 & H3 & H4 & H5) Hc. unfold world_inv.
  split; [exact H1|]. split; [exact H2|]. split; [exact Hc|]. split; [exact H4|exact H5].
Qed.

Lemma world_inv_set_move_unit : forall w u, world_inv w -> 1 <= u -> world_inv (set_move_unit w u).
Proof.
  intros w u (H1 & H2 & H3 & H4 & H5) Hu. unfold world_inv.
  split; [exact H1|]. split; [exact Hu|]. split; [exact H3|]. split; [exact H4|exact H5].
Qed.

Lemma align_ok_no_align : align_ok no_align.
Proof. unfold align_ok, no_align. cbn. lia. Qed.

(** adding a file at the first free id, on a free slot (create, open) *)
Lemma znth_store_file_any : forall fs f j, j <> first_free fs 0 ->
  znth (store_file fs f) j None = znth fs j None.
Proof.
  intros fs f j Hne. destruct (Z_lt_ge_dec j 0) as [Hl|Hl].
  { rewrite !znth_oob by lia. reflexivity. }
  destruct (Z_lt_ge_dec j (Zlen fs)) as [Hu|Hu].
  { apply znth_store_file_other; lia. }
  rewrite (znth_oob fs j None) by lia.
  unfold store_file. pose proof (first_free_0_bounds fs) as Hb.
  destruct (Z.ltb_spec (first_free fs 0) (Zlen fs)) as [Hlt|Hge].
  - apply znth_oob. rewrite Zlen_zupd. lia.
  - apply znth_oob. rewrite Zlen_app, Zlen_cons, Zlen_nil. lia.
Qed.

Lemma znth_first_free_none : forall fs, znth fs (first_free fs 0) None = None.
Proof.
  intros fs. pose proof (first_free_0_bounds fs) as Hb.
  destruct (Z_lt_ge_dec (first_free fs 0) (Zlen fs)) as [Hlt|Hge].
  - pose proof (first_free_none fs 0 ltac:(lia)) as H. rewrite Z.sub_0_r in H. exact H.
  - apply znth_oob. lia.
Qed.

Lemma inv_store : forall w w' f,
  world_inv w -> slot_free w (f_slot f) = true ->
  w_nprocs w' = w_nprocs w -> w_move_unit w' = w_move_unit w -> align_ok (w_hints w') ->
  Zlen (w_disks w') = Zlen (w_disks w) ->
  w_files w' = store_file (w_files w) f ->
  (forall s, s <> f_slot f -> get_disk w' s = get_disk w s) ->
  (f_tainted f = false -> file_inv w' f) ->
  world_inv w'.
Proof.
  intros w w' f Hw Hfree F1 F2 F3 F4 F5 F6 Hnew.
  apply (inv_change w w' (first_free (w_files w) 0) (f_slot f) Hw F1 F2 F3 F4).
  - intros j Hj. rewrite F5. apply znth_store_file_any. exact Hj.
  - exact F6.
  - intros j g _ Hg. exact (slot_free_spec w _ j g Hfree Hg).
  - rewrite F5, znth_store_file. split; [reflexivity|exact Hnew].
Qed.

(* the shape of exec_all on a file operation *)
Lemma with_file_inv : forall w slot (k : Z -> filest -> world * list obs) (bad none : list obs),
  world_inv w ->
  (forall id f, lookup_file w slot = Some (id, f) -> znth (w_files w) id None = Some f ->
                f_tainted f = false -> world_inv (fst (k id f))) ->
  world_inv (fst (match lookup_file w slot with
                  | Some (id, f) => if f_tainted f then (w, bad) else k id f
                  | None => (w, none)
                  end)).
Proof.
  intros w slot k bad none Hw Hk. destruct (lookup_file w slot) as [[id f]|] eqn:El; [|exact Hw].
  destruct (f_tainted f) eqn:Et; [exact Hw|].
  exact (Hk id f eq_refl (proj1 (lookup_file_some w slot id f El)) Et).
Qed.

(* exec_all on an operation of an open file: the goal becomes the continuation applied to the
   file id and its untainted state f *)
Tactic Notation "exec_all_file" constr(Hw) "as" ident(id) ident(f) :=
  unfold exec_all; cbv beta iota zeta delta [slot_of];
  apply with_file_inv; [exact Hw|]; intros id f Hl Hz Ht.

(* tainting a file: it leaves the invariant's scope *)
Lemma taint_slot_inv : forall w slot, world_inv w -> world_inv (taint_slot w slot).
Proof.
  intros w slot Hw. unfold taint_slot. destruct (lookup_file w slot) as [[id f]|] eqn:El; [|exact Hw].
  destruct (lookup_file_some w slot id f El) as [Hz Hid].
  apply (inv_update w _ id f Hw Hz (frame_put_file w id (f_slot f) _)).
  rewrite znth_put_file_same by exact Hid. split; [reflexivity|]. intros C. discriminate C.
Qed.

Lemma inv_replace : forall w w' id f f',
  world_inv w -> znth (w_files w) id None = Some f -> f_tainted f = false ->
  frame w w' id (f_slot f) -> znth (w_files w') id None = Some f' -> f_slot f' = f_slot f ->
  (file_inv w f -> f_tainted f' = false ->
     file_ok (w_nprocs w) (Zlen (w_disks w)) (get_disk w' (f_slot f)) f') ->
  world_inv w'.
Proof.
  intros w w' id f f' Hw Hz Ht Fr Hz' Hs Hn. apply (inv_update w w' id f Hw Hz Fr).
  rewrite Hz'. split; [exact Hs|]. intros Ht'.
  destruct Fr as (F1 & _ & _ & F4 & _). unfold file_inv, disk_of. rewrite Hs, F1, F4.
  exact (Hn (file_inv_of_znth w id f Hw Hz Ht) Ht').
Qed.

Lemma inv_put_file : forall w id f f',
  world_inv w -> znth (w_files w) id None = Some f -> f_tainted f = false ->
  f_slot f' = f_slot f ->
  (file_inv w f -> f_tainted f' = false ->
     file_ok (w_nprocs w) (Zlen (w_disks w)) (disk_of w f) f') ->
  world_inv (put_file w id (Some f')).
Proof.
  intros w id f f' Hw Hz Ht Hs Hn.
  apply (inv_replace w _ id f f' Hw Hz Ht (frame_put_file w id _ _)); [|exact Hs|].
  - apply znth_put_file_same. exact (znth_some_range _ _ _ Hz).
  - rewrite get_disk_put_file. exact Hn.
Qed.

(** * C. Define-mode metadata operations *)

(** a define-mode operation that replaces the header by one extending it (same numrecs) and
    at most the fill mode beside it *)
Lemma file_ok_indef_hdr : forall np nd d f h' fl,
  file_ok np nd d f -> f_indef f = true ->
  hdr_good h' -> hdr_extends (f_hdr f) h' -> h_numrecs h' = h_numrecs (f_hdr f) ->
  file_ok np nd d (mkfile h' (f_lay f) (f_indef f) (f_indep f) (f_rdonly f) (f_isnew f) (f_old f) fl
                          (f_align f) (f_ranks f) (f_slot f) (f_tainted f)).
Proof.
  intros np nd d f h' fl (Hs & _ & Ha & (R1 & R2 & R3) & Hm) Hindef Hg' Hext Hnr.
  rewrite Hindef in Hm. destruct Hm as (Hindep & Hro & Hold).
  unfold file_ok, ranks_ok.
  cbn [f_slot f_hdr f_align f_ranks f_indef f_indep f_rdonly f_old f_isnew f_lay]. rewrite Hindef, Hnr.
  split; [exact Hs|]. split; [exact Hg'|]. split; [exact Ha|].
  split. { split; [exact R1|]. split; [exact R2|]. intros _. apply R3. left. exact Hindep. }
  split; [exact Hindep|]. split; [exact Hro|].
  destruct (f_old f) as [[oh ol]|]; [|exact Hold].
  destruct Hold as (O1 & O2 & O3 & O4 & O5 & O6).
  split; [exact O1|]. split; [exact O2|]. split; [exact O3|]. split; [exact O4|].
  split; [exact (hdr_extends_trans _ _ _ O5 Hext)|congruence].
Qed.

Lemma file_ok_indef_key : forall np nd d f h' fl,
  file_ok np nd d f -> f_indef f = true ->
  h_dims h' = h_dims (f_hdr f) -> map vkey (h_vars h') = map vkey (h_vars (f_hdr f)) ->
  h_numrecs h' = h_numrecs (f_hdr f) ->
  file_ok np nd d (mkfile h' (f_lay f) (f_indef f) (f_indep f) (f_rdonly f) (f_isnew f) (f_old f) fl
                          (f_align f) (f_ranks f) (f_slot f) (f_tainted f)).
Proof.
  intros np nd d f h' fl Hok Hindef Ed Ev En. pose proof Hok as (_ & Hg & _).
  apply file_ok_indef_hdr; try assumption.
  - exact (hdr_good_key _ _ Hg Ed Ev En).
  - apply (hdr_extends_keys _ _ [] [] (h_vars h') Hg); [rewrite Ed| |exact Ev]; symmetry; apply app_nil_r.
Qed.

(* def_dim *)
Lemma def_dim_file_ok : forall np nd d f nm len f' rc ex,
  file_ok np nd d f -> do_def_dim f nm len = Some (f', rc, ex) ->
  file_ok np nd d f' /\ f_slot f' = f_slot f.
Proof.
  intros np nd d f nm len f' rc ex Hok H. unfold do_def_dim in H. cbv zeta in H.
  (* every error exit returns f itself *)
  assert (Hsame : forall r e, Some (f, r, e) = Some (f', rc, ex) -> file_ok np nd d f' /\ f_slot f' = f_slot f).
  { intros r e E. injection E as <- _ _. split; [exact Hok|reflexivity]. }
  destruct (negb (simple_name nm)); [discriminate H|].
  destruct (f_indef f) eqn:Hindef; cbn [negb] in H; [|exact (Hsame _ _ H)].
  destruct (negb (name_err nm =? NC_NOERR)); [exact (Hsame _ _ H)|].
  destruct ((len <? 0) || ((h_format (f_hdr f) <? 5) && (len >? NC_MAX_INT))) eqn:Elen; [exact (Hsame _ _ H)|].
  destruct ((len =? 0) && negb (unlim_dimid (f_hdr f) =? -1)); [exact (Hsame _ _ H)|].
  destruct (find_dim (f_hdr f) nm); [exact (Hsame _ _ H)|].
  injection H as <- _ _. split; [|reflexivity].
  pose proof Hok as (_ & Hg & _). pose proof Hg as (Hwf & Hvars & Hnr).
  apply (file_ok_indef_hdr np nd d f _ _ Hok Hindef); [|
    apply (hdr_extends_keys _ _ [mkdim nm len] [] (h_vars (f_hdr f)) Hg);
      [reflexivity|symmetry; apply app_nil_r|reflexivity] | reflexivity].
  split; [|split; [|exact Hnr]].
  - unfold hdr_wf. cbn [h_dims]. apply Forall_app. split; [exact Hwf|].
    constructor; [cbn [d_size]; lia|constructor].
  - eapply Forall_impl; [|exact Hvars]. intros v Hv. apply var_good_app_dims. exact Hv.
Qed.

(* def_var *)
Lemma existsb_false_Forall : forall A (p : A -> bool) l, existsb p l = false ->
  Forall (fun x => p x = false) l.
Proof.
  intros A p l H. apply Forall_forall. intros x Hx.
  destruct (p x) eqn:E; [|reflexivity]. exfalso.
  assert (existsb p l = true) by (apply existsb_exists; exists x; split; assumption). congruence.
Qed.

Lemma def_var_file_ok : forall np nd d f nm t dimids f' rc ex,
  file_ok np nd d f -> do_def_var f nm t dimids = Some (f', rc, ex) ->
  file_ok np nd d f' /\ f_slot f' = f_slot f.
Proof.
  intros np nd d f nm t dimids f' rc ex Hok H. unfold do_def_var in H. cbv zeta in H.
  assert (Hsame : forall r e, Some (f, r, e) = Some (f', rc, ex) -> file_ok np nd d f' /\ f_slot f' = f_slot f).
  { intros r e E. injection E as <- _ _. split; [exact Hok|reflexivity]. }
  destruct (negb (simple_name nm)); [discriminate H|].
  destruct (f_indef f) eqn:Hindef; cbn [negb] in H; [|exact (Hsame _ _ H)].
  destruct (negb (name_err nm =? NC_NOERR)); [exact (Hsame _ _ H)|].
  destruct ((1 <=? t) && (t <=? 11)) eqn:Et; cbn [negb] in H; [|exact (Hsame _ _ H)].
  destruct ((h_format (f_hdr f) <? 5) && (t >? 6)); [exact (Hsame _ _ H)|].
  destruct (existsb (fun d0 => (d0 <? 0) || (d0 >=? Zlen (h_dims (f_hdr f)))) dimids) eqn:Eids;
    [exact (Hsame _ _ H)|].
  destruct (existsb (fun d0 => dim_size (h_dims (f_hdr f)) d0 =? 0) (tl dimids)) eqn:Etl;
    [exact (Hsame _ _ H)|].
  destruct (find_var (f_hdr f) nm); [exact (Hsame _ _ H)|].
  destruct (negb (check_vlen (xlen_type t) (map (dim_size (h_dims (f_hdr f))) dimids) (NC_MAX_INT64 - 3)));
    [exact (Hsame _ _ H)|].
  injection H as <- _ _. split; [|reflexivity].
  pose proof Hok as (_ & (Hwf & Hvars & Hnr) & _).
  apply (file_ok_indef_hdr np nd d f _ _ Hok Hindef); [| |reflexivity].
  - split; [exact Hwf|]. split; [|exact Hnr]. cbn [h_vars h_dims].
    apply Forall_app. split; [exact Hvars|]. constructor; [|constructor].
    unfold var_good. cbn [v_type v_dimids]. split; [lia|]. split.
    + apply existsb_false_Forall in Eids. eapply Forall_impl; [|exact Eids].
      intros x Hx. cbn beta in Hx. lia.
    + apply existsb_false_Forall in Etl. eapply Forall_impl; [|exact Etl].
      intros x Hx. cbn beta in Hx. lia.
  - eexists. unfold t3of at 1. cbn [h_dims h_vars]. rewrite map_app. reflexivity.
Qed.

(* attributes and fill modes: the variable keys are unchanged *)
Lemma map_vkey_upd_atts : forall (varid : Z) (g : list att -> list att) vs s,
  map vkey (map (fun p : Z * var => let v := snd p in
                   if fst p =? varid
                   then mkvar (v_name v) (v_dimids v) (g (v_atts v)) (v_type v) (v_begin v) (v_nofill v)
                   else v) (zip (zseq s (length vs)) vs)) = map vkey vs.
Proof.
  intros varid g vs. induction vs as [|v vs IH]; intros s; [reflexivity|].
  cbn [length zseq zip map fst snd]. cbv zeta. rewrite IH. f_equal.
  destruct (s =? varid); reflexivity.
Qed.

Lemma upd_var_atts_key : forall h varid g,
  h_dims (upd_var_atts h varid g) = h_dims h /\
  map vkey (h_vars (upd_var_atts h varid g)) = map vkey (h_vars h) /\
  h_numrecs (upd_var_atts h varid g) = h_numrecs h.
Proof.
  intros h varid g. unfold upd_var_atts. destruct (varid =? -1); cbn [h_dims h_vars h_numrecs].
  - repeat split; reflexivity.
  - split; [reflexivity|]. split; [|reflexivity].
    unfold zrange. rewrite to_nat_Zlen. apply map_vkey_upd_atts.
Qed.

Lemma map_vkey_zupd : forall (l : list var) i v' d0, vkey v' = vkey (znth l i d0) ->
  map vkey (zupd l i v') = map vkey l.
Proof.
  induction l as [|x l IH]; intros i v' d0 E; [reflexivity|].
  cbn [zupd]. cbn [znth] in E. destruct (i =? 0).
  - cbn [map]. rewrite E. reflexivity.
  - cbn [map]. rewrite (IH (i - 1) v' d0 E). reflexivity.
Qed.

(** * D. exec_all on the operations of this file *)

Lemma exec_def_inv : forall w s id f (r : option (filest * Z * list tok)),
  world_inv w -> znth (w_files w) id None = Some f -> f_tainted f = false ->
  (forall f' rc ex, r = Some (f', rc, ex) ->
     forall np nd d, file_ok np nd d f -> file_ok np nd d f' /\ f_slot f' = f_slot f) ->
  world_inv (fst (match r with
                  | Some (f', rc, ex) => (put_file w id (Some f'), same_all w rc ex)
                  | None => (taint_slot w s, unmodelled w (all_ranks w))
                  end)).
Proof.
  intros w s id f r Hw Hz Ht Hr.
  destruct r as [[[f' rc] ex]|]; cbn [fst]; [|apply taint_slot_inv; exact Hw].
  pose proof (Hr f' rc ex eq_refl) as Hr'. apply (inv_put_file w id f f' Hw Hz Ht).
  - exact (proj2 (Hr' _ _ _ (file_inv_of_znth w id f Hw Hz Ht))).
  - intros Hf _. exact (proj1 (Hr' _ _ _ Hf)).
Qed.

Lemma exec_def_dim_inv : forall w s nm len, world_inv w ->
  world_inv (fst (exec_all w (ODefDim s nm len))).
Proof.
  intros w s nm len Hw. exec_all_file Hw as id f. apply (exec_def_inv w s id f _ Hw Hz Ht).
  intros f' rc ex E np nd d Hok. exact (def_dim_file_ok np nd d f nm len f' rc ex Hok E).
Qed.

Lemma exec_def_var_inv : forall w s nm t dimids, world_inv w ->
  world_inv (fst (exec_all w (ODefVar s nm t dimids))).
Proof.
  intros w s nm t dimids Hw. exec_all_file Hw as id f. apply (exec_def_inv w s id f _ Hw Hz Ht).
  intros f' rc ex E np nd d Hok. exact (def_var_file_ok np nd d f nm t dimids f' rc ex Hok E).
Qed.

Lemma exec_put_att_inv : forall w s varid nm t vals, world_inv w ->
  world_inv (fst (exec_all w (OPutAtt s varid nm t vals))).
Proof.
  intros w s varid nm t vals Hw. exec_all_file Hw as id f.
  destruct (negb (simple_name nm) || bytes_eqb nm fillvalue_name); [apply taint_slot_inv; exact Hw|].
  destruct (f_rdonly f); [exact Hw|].
  destruct (atts_of (f_hdr f) varid) as [l|]; [|exact Hw].
  destruct (att_bytes t vals) as [bs|]; [|apply taint_slot_inv; exact Hw].
  destruct (negb (name_err nm =? NC_NOERR)); [exact Hw|].
  destruct (negb ((1 <=? t) && (t <=? 11))); [exact Hw|].
  destruct ((h_format (f_hdr f) <? 5) && (t >? 6)); [exact Hw|].
  destruct (f_indef f) eqn:Hindef; [|apply taint_slot_inv; exact Hw].
  cbn [fst]. apply (inv_put_file w id f _ Hw Hz Ht); [reflexivity|].
  intros Hf _.
  destruct (upd_var_atts_key (f_hdr f) varid (fun l0 => set_att_list l0 (mkatt nm t (Zlen vals) bs)))
    as (K1 & K2 & K3).
  exact (file_ok_indef_key _ _ _ f _ (f_fill f) Hf Hindef K1 K2 K3).
Qed.

Lemma exec_set_fill_inv : forall w s mode, world_inv w ->
  world_inv (fst (exec_all w (OSetFill s mode))).
Proof.
  intros w s mode Hw. exec_all_file Hw as id f.
  destruct (f_rdonly f) eqn:Hro; [exact Hw|].
  destruct (f_indef f) eqn:Hindef; cbn [negb]; [|exact Hw].
  cbn [fst]. apply (inv_put_file w id f _ Hw Hz Ht); [reflexivity|].
  intros Hf _. rewrite <- Hindef, <- Hro.
  apply (file_ok_indef_key _ _ _ f _ _ Hf Hindef); try reflexivity.
  cbn [h_vars]. rewrite map_map. reflexivity.
Qed.

Lemma exec_def_var_fill_inv : forall w s varid nofill hasval val, world_inv w ->
  world_inv (fst (exec_all w (ODefVarFill s varid nofill hasval val))).
Proof.
  intros w s varid nofill hasval val Hw. exec_all_file Hw as id f.
  destruct (f_rdonly f) eqn:Hro; [exact Hw|].
  destruct (f_indef f) eqn:Hindef; cbn [negb]; [|exact Hw].
  destruct (varid =? -1); [exact Hw|].
  destruct ((varid <? 0) || (varid >=? Zlen (h_vars (f_hdr f)))); [exact Hw|].
  match goal with |- context [if ?c then (taint_slot _ _, _) else _] => destruct c end;
    [apply taint_slot_inv; exact Hw|].
  cbn [fst]. apply (inv_put_file w id f _ Hw Hz Ht); [reflexivity|].
  intros Hf _.
  apply (file_ok_indef_key _ _ _ f _ (f_fill f) Hf Hindef); try reflexivity.
  cbn [h_vars]. apply (map_vkey_zupd _ _ _ (mkvar [] [] [] 0 0 true)). reflexivity.
Qed.

(* operations that fall in the default branch of exec_all: the file is tainted *)
Lemma exec_taint_out_inv : forall w slot, world_inv w ->
  world_inv (fst (match lookup_file w slot with
                  | Some (id, f) => if f_tainted f then (w, unmodelled w (all_ranks w))
                                    else (taint_slot w slot, unmodelled w (all_ranks w))
                  | None => (w, same_all w NC_EBADID [TSkip])
                  end)).
Proof.
  intros w slot Hw.
  apply (with_file_inv w slot (fun _ _ => (taint_slot w slot, unmodelled w (all_ranks w)))); [exact Hw|].
  intros id f _ _ _. apply taint_slot_inv. exact Hw.
Qed.
