(* Proofs_Modes.v — C14: theorems about the mode state machine of Modes.v, for ARBITRARY call sequences.

   Method: the core of the state (two flag words, old, nrecv, hasrec, or "closed") ranges over a finite set.
   RC is reach_cores (Modes.v), found by breadth-first search.  One evaluation over RC x all_calls x the values
   of the auxiliary view that matter (both enumerations proved complete) computes cstep once per triple and checks
   on its result that the successor is in RC again and that each per-step property holds (chk_step); by induction
   every call sequence stays inside RC, and the properties are read off the table.  The request counters
   (unbounded naturals) only enter through view_aux, of which five calls read a part (relevant); each call is
   checked on the values of the part it reads.

   The theorems that depend on a defect switch of Gen_modes.v (FILL_VAR_REC_RETURNS_ERR) are stated for both
   values of the switch and proved for whichever value the current sources have, so the file still compiles
   after the library is repaired. *)
From Pnc Require Import Gen_consts Gen_modes Modes.
Require Import Lia ZArith List Bool.
Import ListNotations.
Local Open Scope Z_scope.

Lemma bools_complete (b : bool) : In b bools.
Proof. destruct b; cbn; auto. Qed.

Lemma call_of_code_code (c : call) : call_of_code (call_code c) = Some c.
Proof.
  (* one slot per constructor of call, its boolean arguments taken apart *)
  destruct c as [[]|[] [] []| |[]| | | | | | | | |[]| |[]| |[]|[]| | | |[] []|[] []|[]| | |[] []| | | | | | ];
    reflexivity.
Qed.
Lemma all_calls_complete (c : call) : In c all_calls.
Proof. exact (proj1 (find_some _ _ (call_of_code_code c))). Qed.

Lemma ost_eqb_eq a b : ost_eqb a b = true -> a = b.
Proof.
  destruct a as [d1 n1 o1 r1 h1], b as [d2 n2 o2 r2 h2]. unfold ost_eqb. cbn [dflag nflags old nrecv hasrec].
  rewrite !andb_true_iff. intros ((((Hd & Hn) & Ho) & Hr) & Hh).
  apply Z.eqb_eq in Hd, Hn. apply eqb_prop in Ho, Hr, Hh. congruence.
Qed.
Lemma ost_eqb_refl a : ost_eqb a a = true.
Proof. destruct a. unfold ost_eqb. cbn. rewrite !Z.eqb_refl, !eqb_reflx. reflexivity. Qed.
Lemma core_eqb_eq a b : core_eqb a b = true <-> a = b.
Proof.
  split.
  - destruct a, b; cbn; try discriminate; auto. intro H. f_equal. now apply ost_eqb_eq.
  - intros ->. destruct b; cbn; auto using ost_eqb_refl.
Qed.
Lemma core_mem_In x l : core_mem x l = true <-> In x l.
Proof.
  unfold core_mem. rewrite existsb_exists. split.
  - intros [y [Hy E]]. apply core_eqb_eq in E. now subst.
  - intro H. exists x. split; [assumption | now apply core_eqb_eq].
Qed.

Ltac split_andb :=
  repeat match goal with H : _ && _ = true |- _ => apply andb_prop in H; destruct H end.
Ltac bool2prop :=
  repeat match goal with
  | H : (_ =? _) = true |- _ => apply Z.eqb_eq in H
  | H : Bool.eqb _ _ = true |- _ => apply eqb_prop in H
  | H : core_eqb _ _ = true |- _ => apply core_eqb_eq in H
  end.

Definition RC : list core := Eval vm_compute in reach_cores.

(* most calls leave the core as it is, which saves the search of the table *)
Definition chk_closed (s : core) (r : core * Z) : bool := core_eqb (fst r) s || core_mem (fst r) RC.

Definition MODE_MASK : Z := Z.lor (Z.lor NC_MODE_RDONLY NC_MODE_DEF) (Z.lor NC_MODE_INDEP NC_MODE_CREATE).
Definition is_setfill (c : call) : bool := match c with SetFill _ => true | _ => false end.
Definition chk_mode_only (s : core) (c : call) (r : core * Z) : bool :=
  if is_mode_call c then true else if core_eqb (fst r) s then true else
  match s, fst r with
  | CClosed, CClosed => true
  | COpen o, COpen o' =>
      (Z.land (dflag o') MODE_MASK =? Z.land (dflag o) MODE_MASK) &&
      (Z.land (nflags o') MODE_MASK =? Z.land (nflags o) MODE_MASK) &&
      Bool.eqb (old o') (old o) &&
      (is_setfill c || ((dflag o' =? dflag o) && (nflags o' =? nflags o))) &&
      (* SetFill touches exactly the FILL bit, in both words alike *)
      (Z.land (dflag o') (Z.lnot NC_MODE_FILL) =? Z.land (dflag o) (Z.lnot NC_MODE_FILL)) &&
      (Z.land (nflags o') (Z.lnot NC_MODE_FILL) =? Z.land (nflags o) (Z.lnot NC_MODE_FILL))
  | _, _ => false
  end.

Definition is_close_abort (c : call) : bool := match c with Close | Abort => true | _ => false end.
Definition chk_rejected (s : core) (c : call) (r : core * Z) : bool :=
  if is_close_abort c then true else if ok (snd r) then true else core_eqb (fst r) s.

Definition fvr_ok (s : core) (c : call) : bool :=
  match c, s with
  | FillVarRec, COpen o => d_safe o || FILL_VAR_REC_RETURNS_ERR
  | _, _ => true
  end.
Definition chk_first (s : core) (c : call) (r : core * Z) (e : Z) : bool := negb (fvr_ok s c) || (snd r =? e).

Definition chk_permitted (r : core * Z) (e : Z) : bool := negb (ok e) || ok (snd r).

(* the reference automaton of the abstract mode *)
Definition amode_next (m : amode) (c : call) (rc : Z) : amode :=
  if negb (ok rc) then m else
  match c with
  | Enddef | EnddefX _ => MColl
  | Redef => MDefine
  | BeginIndep => MIndep
  | EndIndep => MColl
  | _ => m
  end.
Definition chk_auto (s : core) (c : call) (r : core * Z) : bool :=
  match s, fst r with
  | COpen o, COpen o' =>
      match c with
      | Create _ | Open _ _ _ => true
      | _ => match w_mode (view_of o'), amode_next (w_mode (view_of o)) c (snd r) with
             | MDefine, MDefine | MColl, MColl | MIndep, MIndep => Bool.eqb (w_ro (view_of o')) (w_ro (view_of o))
             | _, _ => false
             end
      end
  | CClosed, COpen o' =>
      match c with
      | Create _ => match w_mode (view_of o') with MDefine => negb (w_ro (view_of o')) | _ => false end
      | Open rw _ _ => match w_mode (view_of o') with MColl => Bool.eqb (w_ro (view_of o')) (negb rw) | _ => false end
      | _ => false
      end
  | COpen _, CClosed => is_close_abort c
  | CClosed, CClosed => true
  end.

(* what is checked of one step: s is the core before, c the call, r = cstep s v c, e = spec_err s v c *)
Definition chk_step (s : core) (c : call) (r : core * Z) (e : Z) : bool :=
  chk_closed s r && chk_mode_only s c r && chk_rejected s c r && chk_first s c r e && chk_permitted r e &&
  chk_auto s c r.

(* the part of the auxiliary view that call c reads, in the model and in the specification alike *)
Definition relevant (c : call) (v : auxv) : auxv :=
  match c with
  | Close => mkV (v_put v) (v_get v) false false
  | Detach => mkV false false (v_bput v) (v_abuf v)
  | BPut | Attach | InqBuffer => mkV false false false (v_abuf v)
  | _ => mkV false false false false
  end.
Definition views (c : call) : list auxv :=
  match c with
  | Close => flat_map (fun a => map (fun b => mkV a b false false) bools) bools
  | Detach => flat_map (fun a => map (mkV false false a) bools) bools
  | BPut | Attach | InqBuffer => map (mkV false false false) bools
  | _ => [mkV false false false false]
  end.
Lemma relevant_view c v : In (relevant c v) (views c).
Proof. destruct c; try (now left); destruct v as [[] [] [] []]; cbn; tauto. Qed.
Lemma relevant_only s v c :
  cstep s v c = cstep s (relevant c v) c /\ spec_err s v c = spec_err s (relevant c v) c.
Proof. destruct c, s; split; reflexivity. Qed.

Definition step_ok (s : core) (v : auxv) (c : call) : bool := chk_step s c (cstep s v c) (spec_err s v c).
Lemma step_sweep :
  forallb (fun s => forallb (fun c => forallb (fun v => step_ok s v c) (views c))
                            all_calls) RC = true.
Proof. vm_compute. reflexivity. Qed.
Lemma step_table s v c : In s RC -> step_ok s v c = true.
Proof.
  intro Hs. pose proof step_sweep as H.
  rewrite forallb_forall in H. specialize (H s Hs).
  rewrite forallb_forall in H. specialize (H c (all_calls_complete c)).
  rewrite forallb_forall in H. specialize (H _ (relevant_view c v)).
  unfold step_ok in *. now destruct (relevant_only s v c) as [-> ->].
Qed.

Lemma reach_closed s v c : In s RC -> In (fst (cstep s v c)) RC.
Proof.
  intro Hs. pose proof (step_table s v c Hs) as G. unfold step_ok, chk_step in G. split_andb.
  match goal with H : chk_closed _ _ = true |- _ => apply orb_prop in H; destruct H as [E|M] end.
  - apply core_eqb_eq in E. now rewrite E.
  - now apply core_mem_In.
Qed.

Lemma co_step st c : co (fst (step st c)) = fst (cstep (co st) (view_aux (ax st)) c).
Proof. unfold step. destruct (cstep (co st) (view_aux (ax st)) c). reflexivity. Qed.
Lemma rc_step st c : snd (step st c) = snd (cstep (co st) (view_aux (ax st)) c).
Proof. unfold step. destruct (cstep (co st) (view_aux (ax st)) c). reflexivity. Qed.

Lemma run_in_reach cs : forall st, In (co st) RC -> In (co (run st cs)) RC.
Proof.
  induction cs as [|c r IH]; intros st H; cbn [run]; [assumption|].
  apply IH. rewrite co_step. now apply reach_closed.
Qed.
Lemma reachable_in_table cs : In (co (run state0 cs)) RC.
Proof. apply run_in_reach. now left. Qed.

Lemma reachable_step cs c :
  let st := run state0 cs in
  let r := cstep (co st) (view_aux (ax st)) c in
  let e := spec_err (co st) (view_aux (ax st)) c in
  chk_mode_only (co st) c r = true /\ chk_rejected (co st) c r = true /\ chk_first (co st) c r e = true /\
  chk_permitted r e = true /\ chk_auto (co st) c r = true.
Proof.
  intros st r e. pose proof (step_table (co st) (view_aux (ax st)) c (reachable_in_table cs)) as G.
  unfold step_ok, chk_step in G. split_andb. auto.
Qed.

(* the auxiliary view never influences the core transition *)
Lemma core_indep s v c : fst (cstep s v c) = cnext s c.
Proof.
  unfold cnext. destruct s as [|o], c; try reflexivity; cbn [cstep];
    repeat match goal with |- context [if ?b then _ else _] => destruct b end; reflexivity.
Qed.

(* a closed handle has empty request queues and no attached buffer *)
Lemma closed_aux0 cs : co (run state0 cs) = CClosed -> ax (run state0 cs) = aux0.
Proof.
  assert (G : forall st, (co st = CClosed -> ax st = aux0) -> co (run st cs) = CClosed -> ax (run st cs) = aux0).
  { induction cs as [|c r IH]; intros st H; cbn [run]; [assumption|].
    apply IH. unfold step. destruct (cstep (co st) (view_aux (ax st)) c) as [s' rc] eqn:E. cbn [fst co ax].
    intro Hs. subst s'. reflexivity. }
  apply G. reflexivity.
Qed.

Definition chk_layers (s : core) : bool :=
  match s with
  | CClosed => true
  | COpen o =>
      Bool.eqb (d_def o) (n_def o) &&
      (d_def o || Bool.eqb (d_indep o) (n_indep o)) &&
      Bool.eqb (d_ro o) (n_ro o) &&
      Bool.eqb (d_fill o) (n_fill o) &&
      (negb (old o) || (n_def o && negb (n_new o))) &&
      (negb (n_new o) || n_def o) &&
      (negb (d_ro o) || negb (d_def o)) &&
      (negb (n_def o) || negb (n_indep o))
  end.
Lemma layers_table : forallb chk_layers RC = true.
Proof. vm_compute. reflexivity. Qed.

Theorem layers_agree :
  forall (cs : list call) (o : ost),
    co (run state0 cs) = COpen o ->
    d_def o = n_def o /\
    (d_def o = false -> d_indep o = n_indep o) /\
    d_ro o = n_ro o /\
    d_fill o = n_fill o /\
    (old o = true -> n_def o = true /\ n_new o = false) /\
    (n_new o = true -> n_def o = true) /\
    (d_ro o = true -> d_def o = false) /\
    (n_def o = true -> n_indep o = false).
Proof.
  intros cs o H.
  pose proof (proj1 (forallb_forall chk_layers RC) layers_table _ (reachable_in_table cs)) as G.
  rewrite H in G. cbn [chk_layers] in G. split_andb. bool2prop.
  repeat match goal with E : _ o = _ o |- _ => rewrite E in *; clear E end.
  destruct (n_def o), (d_indep o), (n_indep o), (n_ro o), (old o), (n_new o); cbn in *; try discriminate;
    repeat split; intros; try discriminate; reflexivity.
Qed.

Example layers_agree_ex : exists o, co (run state0 [Open true true false; Redef]) = COpen o /\ old o = true.
Proof. eexists. split; vm_compute; reflexivity. Qed.

(* why the INDEP clause is guarded: ncmpi_redef leaves NC_MODE_INDEP set in pncp->flag while ncmpio_redef
   leaves independent mode in ncp->flags; ncmpi_enddef clears the dispatcher bit later *)
Definition layers_agree_indep_full : Prop :=
  forall (cs : list call) (o : ost), co (run state0 cs) = COpen o -> d_indep o = n_indep o.
Theorem layers_agree_indep_refuted : ~ layers_agree_indep_full.
Proof. intro H. discriminate (H [Create false; Enddef; BeginIndep; Redef] _ eq_refl). Qed.
(* and the dispatcher's NC_MODE_CREATE bit is never cleared (it is never read either) *)
Definition layers_agree_create_full : Prop :=
  forall (cs : list call) (o : ost), co (run state0 cs) = COpen o ->
    fIsSet (dflag o) NC_MODE_CREATE = n_new o.
Theorem layers_agree_create_refuted : ~ layers_agree_create_full.
Proof. intro H. discriminate (H [Create false; Enddef] _ eq_refl). Qed.

(* the two layers agree on DEF, and on INDEP outside define mode, so the three modes read from both exclude one another *)
Theorem mode_unique :
  forall (cs : list call) (o : ost),
    co (run state0 cs) = COpen o ->
    exactly_one (in_define o) (in_coll o) (in_indep o) = true.
Proof.
  intros cs o H. destruct (layers_agree cs o H) as (D & I & _).
  unfold in_define, in_coll, in_indep. rewrite <- D. destruct (d_def o); [reflexivity|].
  rewrite <- (I eq_refl). destruct (d_indep o); reflexivity.
Qed.

Example mode_unique_ex :
  exists o, co (run state0 [Create false; DefVar true; Enddef; BeginIndep]) = COpen o /\ in_indep o = true.
Proof. eexists. split; [vm_compute; reflexivity | vm_compute; reflexivity]. Qed.

Theorem mode_changes_only_by :
  forall (cs : list call) (c : call),
    is_mode_call c = false ->
    match co (run state0 cs), co (fst (step (run state0 cs) c)) with
    | CClosed, CClosed => True
    | COpen o, COpen o' =>
        Z.land (dflag o') MODE_MASK = Z.land (dflag o) MODE_MASK /\
        Z.land (nflags o') MODE_MASK = Z.land (nflags o) MODE_MASK /\
        old o' = old o /\
        (is_setfill c = false -> dflag o' = dflag o /\ nflags o' = nflags o) /\
        Z.land (dflag o') (Z.lnot NC_MODE_FILL) = Z.land (dflag o) (Z.lnot NC_MODE_FILL) /\
        Z.land (nflags o') (Z.lnot NC_MODE_FILL) = Z.land (nflags o) (Z.lnot NC_MODE_FILL)
    | _, _ => False
    end.
Proof.
  intros cs c Hc. destruct (reachable_step cs c) as (G & _). set (st := run state0 cs) in *.
  unfold chk_mode_only in G. rewrite Hc in G. rewrite co_step.
  destruct (core_eqb _ _) eqn:E in G.
  { apply core_eqb_eq in E. rewrite E. destruct (co st); [exact I | repeat split; reflexivity]. }
  destruct (co st) as [|o]; destruct (fst (cstep _ _ c)) as [|o']; try discriminate G; auto.
  split_andb.
  match goal with H : is_setfill c || _ = true |- _ => rename H into HS end.
  bool2prop.
  split; [assumption|]. split; [assumption|]. split; [assumption|]. split; [|split; assumption].
  intro Hs. rewrite Hs in HS. cbn [orb] in HS. apply andb_prop in HS. destruct HS as [A B].
  apply Z.eqb_eq in A, B. split; assumption.
Qed.

Example mode_changes_only_by_ex :
  is_mode_call (Put true false) = false /\
  co (fst (step (run state0 [Create false; Enddef]) (Put true false))) = co (run state0 [Create false; Enddef]).
Proof. split; vm_compute; reflexivity. Qed.

Theorem rejected_no_effect :
  forall (cs : list call) (c : call),
    c <> Close -> c <> Abort ->
    snd (step (run state0 cs) c) <> NC_NOERR ->
    fst (step (run state0 cs) c) = run state0 cs.
Proof.
  intros cs c Hc Ha Hrc. destruct (reachable_step cs c) as (_ & G & _). pose proof (closed_aux0 cs) as Z0.
  destruct (run state0 cs) as [s a]. unfold step in *. cbn [co ax] in *.
  destruct (cstep s (view_aux a) c) as [s' rc]. unfold chk_rejected, ok in G. cbn [fst snd] in *.
  apply Z.eqb_neq in Hrc. rewrite Hrc in G.
  replace (is_close_abort c) with false in G by (destruct c; cbn; congruence).
  apply core_eqb_eq in G. subst s'. f_equal. unfold aux_step, ok. rewrite Hrc.
  (* closed stays closed: queues already empty *)
  destruct s; [symmetry; now apply Z0 | reflexivity].
Qed.

Example rejected_no_effect_ex :
  snd (step (run state0 [Create false; Enddef]) DefDim) = NC_ENOTINDEFINE /\ NC_ENOTINDEFINE <> NC_NOERR.
Proof. split; [vm_compute; reflexivity | discriminate]. Qed.

Theorem error_is_first_applicable_partial :
  forall (cs : list call) (c : call),
    fvr_ok (co (run state0 cs)) c = true ->
    snd (step (run state0 cs) c) =
    spec_err (co (run state0 cs)) (view_aux (ax (run state0 cs))) c.
Proof.
  intros cs c Hf. destruct (reachable_step cs c) as (_ & _ & G & _).
  unfold chk_first in G. rewrite Hf in G. cbn [negb orb] in G. apply Z.eqb_eq in G. now rewrite rc_step.
Qed.

Definition error_is_first_applicable_full : Prop :=
  forall (cs : list call) (c : call),
    snd (step (run state0 cs) c) =
    spec_err (co (run state0 cs)) (view_aux (ax (run state0 cs))) c.

(* the verdict for the sources as built *)
Theorem error_is_first_applicable_current :
  if FILL_VAR_REC_RETURNS_ERR then error_is_first_applicable_full else ~ error_is_first_applicable_full.
Proof.
  destruct FILL_VAR_REC_RETURNS_ERR eqn:E.
  - intros cs c. apply error_is_first_applicable_partial.
    unfold fvr_ok. destruct c; try reflexivity. destruct (co (run state0 cs)); try reflexivity.
    rewrite E. apply orb_true_r.
  - intro H. specialize (H [Create false; DefVar true] FillVarRec).
    first [ discriminate E | vm_compute in H; discriminate H ].
Qed.

Example error_is_first_applicable_ex :
  snd (step (run state0 [Open false true false; BeginIndep]) (Put true true)) = NC_EPERM /\
  snd (step (run state0 [Open true true false; BeginIndep]) (Put true true)) = NC_EINDEP /\
  snd (step (run state0 [Open true true false]) (Put true true)) = NC_ENOTVAR /\
  snd (step (run state0 [Open true true false]) (PutAtt AttNewBadType)) = NC_EBADTYPE.
Proof. repeat split; vm_compute; reflexivity. Qed.

(* close and abort always release the handle; what they return is what the specification lists for them:
   close reports pending requests, abort nothing *)
Theorem close_pending_cancels_and_reports :
  forall (cs : list call) (o : ost),
    co (run state0 cs) = COpen o ->
    let st := run state0 cs in
    fst (step st Close) = state0 /\
    snd (step st Close) = (if v_get (view_aux (ax st)) || v_put (view_aux (ax st)) then NC_EPENDING else NC_NOERR) /\
    fst (step st Abort) = state0 /\ snd (step st Abort) = NC_NOERR.
Proof.
  intros cs o H st. subst st.
  pose proof (error_is_first_applicable_partial cs Close eq_refl) as C.
  pose proof (error_is_first_applicable_partial cs Abort eq_refl) as A.
  rewrite H in C, A.
  repeat split; [|exact C| |exact A]; unfold step; rewrite H; reflexivity.
Qed.

Example close_pending_ex :
  snd (step (run state0 [Create false; DefVar false; Enddef; IPut false]) Close) = NC_EPENDING.
Proof. vm_compute. reflexivity. Qed.

Theorem permitted_succeeds :
  forall (cs : list call) (c : call),
    permitted (co (run state0 cs)) (view_aux (ax (run state0 cs))) c = true ->
    snd (step (run state0 cs) c) = NC_NOERR.
Proof.
  intros cs c Hp. destruct (reachable_step cs c) as (_ & _ & _ & G & _).
  unfold chk_permitted in G. fold (permitted (co (run state0 cs)) (view_aux (ax (run state0 cs))) c) in G.
  rewrite Hp in G. cbn [negb orb] in G. unfold ok in G. apply Z.eqb_eq in G.
  now rewrite rc_step.
Qed.

Example permitted_succeeds_ex :
  permitted (co (run state0 [Create false; DefVar false; Enddef])) (view_aux aux0) (Put true false) = true.
Proof. vm_compute. reflexivity. Qed.

Theorem mode_transitions :
  forall (cs : list call) (c : call) (o o' : ost),
    co (run state0 cs) = COpen o ->
    co (fst (step (run state0 cs) c)) = COpen o' ->
    (forall s, c <> Create s) -> (forall a b d, c <> Open a b d) ->
    w_mode (view_of o') = amode_next (w_mode (view_of o)) c (snd (step (run state0 cs) c)) /\
    w_ro (view_of o') = w_ro (view_of o).
Proof.
  intros cs c o o' H H' Hc Ho. destruct (reachable_step cs c) as (_ & _ & _ & _ & G).
  set (st := run state0 cs) in *.
  unfold chk_auto in G. rewrite co_step in H'. rewrite rc_step. rewrite H in G, H' |- *. rewrite H' in G.
  destruct c; try (exfalso; eapply Hc; reflexivity); try (exfalso; eapply Ho; reflexivity);
    (destruct (w_mode (view_of o')); destruct (amode_next _ _ _); try discriminate G;
     apply eqb_prop in G; (split; [reflexivity | exact G])).
Qed.

Theorem start_modes :
  forall (cs : list call) (c : call) (o' : ost),
    co (run state0 cs) = CClosed ->
    co (fst (step (run state0 cs) c)) = COpen o' ->
    match c with
    | Create _ => w_mode (view_of o') = MDefine /\ w_ro (view_of o') = false
    | Open rw _ _ => w_mode (view_of o') = MColl /\ w_ro (view_of o') = negb rw
    | _ => False
    end.
Proof.
  intros cs c o' H H'. destruct (reachable_step cs c) as (_ & _ & _ & _ & G).
  set (st := run state0 cs) in *.
  unfold chk_auto in G. rewrite co_step in H'. rewrite H in G, H'. rewrite H' in G.
  destruct c; try discriminate G.
  - destruct (w_mode (view_of o')); try discriminate G. split; [reflexivity|]. now destruct (w_ro (view_of o')).
  - destruct (w_mode (view_of o')); try discriminate G. split; [reflexivity|]. now apply eqb_prop in G.
Qed.

Definition RT : list (core * list call) := Eval vm_compute in reach_table.
(* RT_eq ties the evaluated table RT to Modes.reach_table.  Evaluating reach_table itself is what the obvious
   proof would do, but the independent checker has no VM and allocates 3.4e9 words on it; so a cheaper search,
   bfs_front, is evaluated instead and proved to return the same table.
   bfs_round visits every entry of its list again in every round, although the entries of earlier rounds have all
   their successors in the list already and add nothing; and most calls lead back to the entry being visited, which
   is in the list.  bfs_front, which is what gets evaluated, visits only what the last round added (as one fold over
   the pairs of entry and call) and does not search the list for the entry itself.  The list of calls is a section
   variable so that no conversion unfolds all_calls. *)
Section Frontier.
Variable cl : list call.
Definition pairs (l : list (core * list call)) : list (core * list call * call) := flat_map (fun p => map (pair p) cl) l.
Definition visit (acc : list (core * list call)) (pc : core * list call * call) :=
  let s' := cnext (fst (fst pc)) (snd pc) in
  if path_mem s' acc then acc else acc ++ [(s', snd (fst pc) ++ [snd pc])].
Definition visit' (acc : list (core * list call)) (pc : core * list call * call) :=
  let s' := cnext (fst (fst pc)) (snd pc) in
  if core_eqb s' (fst (fst pc)) then acc else if path_mem s' acc then acc else acc ++ [(s', snd (fst pc) ++ [snd pc])].
Definition visited (pc : core * list call * call) (l : list (core * list call)) : Prop := path_mem (cnext (fst (fst pc)) (snd pc)) l = true.

Lemma fold_pairs {A} (g : A -> core * list call * call -> A) l : forall acc,
  fold_left (fun a p => fold_left (fun a c => g a (p, c)) cl a) l acc = fold_left g (pairs l) acc.
Proof.
  induction l as [|p r IH]; intro acc; cbn [fold_left pairs flat_map]; [reflexivity|].
  rewrite fold_left_app, <- IH. f_equal. clear. revert acc. induction cl as [|c q IHc]; intro acc; cbn; auto.
Qed.
Lemma visited_app pc l z : visited pc l -> visited pc (l ++ z).
Proof. unfold visited, path_mem. rewrite existsb_app. now intros ->. Qed.
Lemma visits_grow ps : forall acc, exists z, fold_left visit ps acc = acc ++ z.
Proof.
  induction ps as [|pc r IH]; intro acc; cbn [fold_left]; [exists []; now rewrite app_nil_r|].
  destruct (IH (visit acc pc)) as [z ->]. unfold visit. destruct (path_mem _ acc); [now exists z|].
  eexists (_ :: z). now rewrite <- app_assoc.
Qed.
Lemma visits_skip ps acc : (forall pc, In pc ps -> visited pc acc) -> fold_left visit ps acc = acc.
Proof.
  induction ps as [|pc r IH]; cbn [fold_left]; intro H; [reflexivity|].
  replace (visit acc pc) with acc by (unfold visit; now rewrite (H pc) by now left).
  apply IH. intros q Hq. apply H. now right.
Qed.
Lemma visits_visited ps : forall acc pc, In pc ps -> visited pc (fold_left visit ps acc).
Proof.
  induction ps as [|a r IH]; intros acc pc H; [destruct H|]. destruct H as [<-|H]; cbn [fold_left]; [|now apply IH].
  destruct (visits_grow r (visit acc a)) as [z ->]. apply visited_app.
  unfold visited, visit. destruct (path_mem _ acc) eqn:E; [exact E|].
  unfold path_mem. rewrite existsb_app. cbn [existsb fst]. now rewrite (proj2 (core_eqb_eq _ _) eq_refl), orb_true_r.
Qed.
Lemma visits'_eq ps : forall acc, (forall pc, In pc ps -> In (fst pc) acc) -> fold_left visit' ps acc = fold_left visit ps acc.
Proof.
  induction ps as [|pc r IH]; intros acc H; cbn [fold_left]; [reflexivity|].
  assert (E : visit' acc pc = visit acc pc).
  { unfold visit', visit. cbv zeta. destruct (core_eqb _ _) eqn:E; [|reflexivity].
    assert (M : path_mem (cnext (fst (fst pc)) (snd pc)) acc = true)
      by (apply existsb_exists; exists (fst pc); split; [apply H; now left | exact E]).
    now rewrite M. }
  rewrite E. apply IH. intros q Hq. destruct (visits_grow [pc] acc) as [z G]. cbn [fold_left] in G. rewrite G.
  apply in_or_app. left. apply H. now right.
Qed.

Fixpoint bfs_front (k : nat) (old new : list (core * list call)) : list (core * list call) :=
  match k with
  | O => old ++ new
  | S k' => let l := old ++ new in bfs_front k' l (skipn (length l) (fold_left visit' (pairs new) l))
  end.
Lemma round_front old new :
  (forall pc, In pc (pairs old) -> visited pc (old ++ new)) ->
  exists z, fold_left visit (pairs (old ++ new)) (old ++ new) = (old ++ new) ++ z /\
            fold_left visit' (pairs new) (old ++ new) = (old ++ new) ++ z /\
            forall pc, In pc (pairs (old ++ new)) -> visited pc ((old ++ new) ++ z).
Proof.
  intro H. unfold pairs at 1 3. rewrite flat_map_app. fold (pairs old) (pairs new).
  rewrite fold_left_app, (visits_skip _ _ H), visits'_eq.
  2:{ intros pc Hpc. apply in_flat_map in Hpc. destruct Hpc as (p & Hp & Hpc). apply in_map_iff in Hpc.
      destruct Hpc as (c & <- & _). apply in_or_app. now right. }
  destruct (visits_grow (pairs new) (old ++ new)) as [z E]. exists z. split; [exact E|]. split; [exact E|].
  intros pc Hpc. rewrite <- E. apply in_app_or in Hpc. destruct Hpc as [Hpc|Hpc].
  - rewrite E. apply visited_app. now apply H.
  - now apply visits_visited.
Qed.
End Frontier.

Lemma bfs_round_pairs l : bfs_round l = fold_left visit (pairs all_calls l) l.
Proof. rewrite <- fold_pairs. unfold bfs_round, visit. cbn [fst snd]. reflexivity. Qed.
Lemma bfs_front_ok k : forall old new,
  (forall pc, In pc (pairs all_calls old) -> visited pc (old ++ new)) -> bfs k (old ++ new) = bfs_front all_calls k old new.
Proof.
  induction k as [|k IH]; intros old new H; cbn [bfs bfs_front]; [reflexivity|].
  destruct (round_front all_calls old new H) as (z & E1 & E2 & E3).
  rewrite E2, skipn_app, skipn_all, Nat.sub_diag. cbn [skipn app]. now rewrite <- (IH _ _ E3), bfs_round_pairs, E1.
Qed.
Lemma RT_eq : RT = reach_table.
Proof.
  transitivity (bfs_front all_calls REACH_K [] [(CClosed, [])]); [vm_compute; reflexivity|].
  symmetry. apply (bfs_front_ok REACH_K [] [(CClosed, [])]). intros pc [].
Qed.
Lemma RC_RT : RC = map fst RT.
Proof. vm_compute. reflexivity. Qed.
Lemma RC_eq : RC = reach_cores.
Proof. unfold reach_cores. rewrite <- RT_eq. exact RC_RT. Qed.
Lemma table_paths_ok :
  forallb (fun p : core * list call =>
             (Nat.leb (length (snd p)) REACH_K) && core_eqb (co (run state0 (snd p))) (fst p)) RT = true.
Proof. vm_compute. reflexivity. Qed.

Theorem reachable_within_k :
  forall cs : list call,
    exists cs' : list call,
      (length cs' <= REACH_K)%nat /\ co (run state0 cs') = co (run state0 cs).
Proof.
  intro cs. pose proof (reachable_in_table cs) as H.
  rewrite RC_RT in H. apply in_map_iff in H. destruct H as [[s p] [E Hin]].
  cbn [fst] in E. pose proof table_paths_ok as T. rewrite forallb_forall in T. specialize (T _ Hin).
  cbn [fst snd] in T. apply andb_prop in T. destruct T as [L C]. apply Nat.leb_le in L. apply core_eqb_eq in C.
  exists p. split; [exact L | congruence].
Qed.

(* REACH_K is tight: one state needs exactly REACH_K calls *)
Example reachable_within_k_tight :
  exists p, In p reach_table /\ length (snd p) = REACH_K.
Proof.
  rewrite <- RT_eq.
  exists (nth (length RT - 1) RT (CClosed, [])). split.
  - apply nth_In. vm_compute. lia.
  - vm_compute. reflexivity.
Qed.
Lemma reach_count : length reach_cores = 97%nat.
Proof. rewrite <- RC_eq. reflexivity. Qed.

(* the order in which the C functions test for the error codes the model uses *)
Fixpoint is_subseq (a b : list Z) : bool :=
  match a, b with
  | [], _ => true
  | _ :: _, [] => false
  | x :: a', y :: b' => if x =? y then is_subseq a' b' else is_subseq a b'
  end.
Lemma source_order_matches_model :
  hd 0 order_ncmpi_enddef = NC_ENOTINDEFINE /\
  is_subseq [NC_ENOTINDEFINE; NC_EINVAL] order_ncmpi__enddef = true /\
  order_ncmpi_redef = [NC_EPERM; NC_EINDEFINE] /\
  order_ncmpi_set_fill = [NC_EPERM; NC_ENOTINDEFINE] /\
  hd 0 order_ncmpi_def_dim = NC_ENOTINDEFINE /\
  hd 0 order_ncmpi_def_var = NC_ENOTINDEFINE /\
  hd 0 order_ncmpi_def_var_fill = NC_ENOTINDEFINE /\
  is_subseq [NC_EPERM; NC_EINDEFINE; NC_ENOTRECVAR; NC_EINDEP] order_ncmpi_fill_var_rec = true /\
  hd 0 order_ncmpi_rename_var = NC_EPERM /\ hd 0 order_ncmpi_rename_dim = NC_EPERM /\
  is_subseq [NC_EPERM; NC_ENOTINDEFINE; NC_ENOTVAR] order_ncmpi_del_att = true /\
  is_subseq [NC_EPERM; NC_ENOTVAR] order_sanity_check_put = true /\
  is_subseq [NC_EPERM; NC_EINDEFINE; NC_EINDEP; NC_ENOTINDEP; NC_ENOTVAR] order_sanity_check = true /\
  hd 0 order_ncmpio_begin_indep_data = NC_EINDEFINE /\ hd 0 order_ncmpio_end_indep_data = NC_EINDEFINE /\
  hd 0 order_ncmpio_sync = NC_EINDEFINE /\
  is_subseq [NC_EINDEFINE; NC_EPERM] order_ncmpio_sync_numrecs = true /\
  order_ncmpio_wait = [NC_EINDEFINE; NC_ENOTINDEP; NC_EINDEP] /\
  is_subseq [NC_EPREVATTACHBUF] order_ncmpio_buffer_attach = true /\
  order_ncmpio_buffer_detach = [NC_ENULLABUF; NC_EPENDINGBPUT] /\
  is_subseq [NC_ENOTINDEFINE] order_ncmpio_put_att = true /\
  is_subseq [NC_ENOTATT] order_ncmpio_del_att = true /\
  order_ncmpio_rename_var = [NC_ENOTINDEFINE] /\ order_ncmpio_rename_dim = [NC_ENOTINDEFINE] /\
  COMPLETE_NONBLOCKING_IO = false /\
  macro_NC_readonly_tests = NC_MODE_RDONLY /\ macro_NC_indef_tests = NC_MODE_DEF /\
  macro_NC_indep_tests = NC_MODE_INDEP /\ macro_NC_IsNew_tests = NC_MODE_CREATE /\ macro_NC_dofill_tests = NC_MODE_FILL /\
  create_flag_init = Z.lor NC_MODE_DEF NC_MODE_CREATE /\ open_flag_init = 0.
Proof. vm_compute. repeat split; reflexivity. Qed.
