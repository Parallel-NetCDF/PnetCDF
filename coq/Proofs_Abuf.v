(* Proofs_Abuf.v — proofs for property C13 about the executable models
     Abuf.v         (attached-buffer pool of buffered puts; what the library does to the caller's buffer)
     Nonblocking.v  (request queues: bput_alloc, post_varm, post_varn, commit_post, cancel, detach, close_pending)
   The pool: accounting, refusal test, region geometry, detach.
   The caller's buffer: in-place byte swap is undone at every exit, bput copies at post time,
   a get only modifies the selected bytes.  The sections come in the order the proofs need them. *)
From Pnc Require Import Nonblocking Proofs_Lists Proofs_Disk.
Require Import Lia ZArith List Bool ZifyBool.
Import ListNotations.
Local Open Scope Z_scope.

(* ====================================================================== *)
(* Definitions used in the statements                                      *)
(* ====================================================================== *)
Definition ab_wf (a : abuf) : Prop :=
  ab_used a = zsum (map snd (ab_table a)) /\ Forall (fun e => 0 < snd e) (ab_table a) /\ ab_used a <= ab_alloc a.
Definition tail_used (a : abuf) : Prop := match rev (ab_table a) with [] => True | e :: _ => fst e = true end.
Definition all_used (a : abuf) : Prop := Forall (fun e => fst e = true) (ab_table a).
Definition abops_pos (ops : list abop) : Prop := Forall (fun o => match o with ABput n => 0 < n | _ => True end) ops.

Fixpoint lifo_hist (a : abuf) (ops : list abop) : Prop :=
  match ops with
  | [] => True
  | o :: r => (match o with
               | AComplete idxs => exists k, 0 <= k <= ab_tail a /\ (forall i, In i idxs <-> ab_tail a - k <= i < ab_tail a)
               | _ => True end) /\ lifo_hist (ab_step a o) r
  end.

(* ====================================================================== *)
(* Generic list helpers (Z-indexed)                                        *)
(* ====================================================================== *)

Lemma zsum_map_snd_nonneg (t : list (bool * Z)) :
  Forall (fun e => 0 < snd e) t -> 0 <= zsum (map snd t).
Proof.
  induction 1 as [|e t He Ht IH]; cbn [zsum map]; lia.
Qed.

Lemma zfirstn_nil_l {A} n : zfirstn n (@nil A) = [].
Proof. reflexivity. Qed.

Lemma znth_nil {A} i (d : A) : znth [] i d = d.
Proof. reflexivity. Qed.

Lemma znth_app_l {A} (l r : list A) i d : i < Zlen l -> znth (l ++ r) i d = znth l i d.
Proof. apply Proofs_Lists.znth_app_l. Qed.

(* ====================================================================== *)
(* ncmpii_in_swapn is an involution                                       *)
(* ====================================================================== *)
Lemma swap_chunks_nil n e : swap_chunks n e [] = [].
Proof.
  induction n as [|n IH]; cbn [swap_chunks]; [reflexivity|].
  rewrite firstn_nil, skipn_nil. cbn [rev app]. exact IH.
Qed.

Lemma swap_chunks_length n e l : length (swap_chunks n e l) = length l.
Proof.
  revert l. induction n as [|n IH]; intros l; cbn [swap_chunks]; [reflexivity|].
  rewrite app_length, rev_length, IH, firstn_length, skipn_length. lia.
Qed.

Lemma swap_chunks_involutive n e l : swap_chunks n e (swap_chunks n e l) = l.
Proof.
  revert l. induction n as [|n IH]; intros l; cbn [swap_chunks]; [reflexivity|].
  destruct (Nat.le_gt_cases e (length l)) as [Hle|Hgt].
  - assert (Hlen : length (rev (firstn e l)) = e) by (rewrite rev_length, firstn_length; lia).
    rewrite firstn_app, skipn_app, Hlen, Nat.sub_diag.
    cbn [firstn skipn]. rewrite app_nil_r.
    rewrite (firstn_all2 (rev (firstn e l))) by lia.
    rewrite (skipn_all2 (rev (firstn e l))) by lia. cbn [app].
    rewrite rev_involutive, IH. apply firstn_skipn.
  - rewrite (firstn_all2 l) by lia. rewrite (skipn_all2 l) by lia.
    rewrite swap_chunks_nil, app_nil_r.
    rewrite (firstn_all2 (rev l)) by (rewrite rev_length; lia).
    rewrite (skipn_all2 (rev l)) by (rewrite rev_length; lia).
    rewrite swap_chunks_nil, app_nil_r. apply rev_involutive.
Qed.

Theorem swap_involutive : forall buf nelems esize,
  in_swapn (in_swapn buf nelems esize) nelems esize = buf.
Proof.
  intros buf nelems esize. unfold in_swapn.
  destruct ((esize <=? 1) || (nelems <=? 0)); [reflexivity|]. apply swap_chunks_involutive.
Qed.

Theorem in_swapn_length : forall buf nelems esize, length (in_swapn buf nelems esize) = length buf.
Proof.
  intros buf nelems esize. unfold in_swapn.
  destruct ((esize <=? 1) || (nelems <=? 0)); [reflexivity|]. apply swap_chunks_length.
Qed.

Example swap_involutive_ex :
  in_swapn [1;2;3;4;5;6;7;8;9] 2 4 = [4;3;2;1;8;7;6;5;9] /\
  in_swapn (in_swapn [1;2;3;4;5;6;7;8;9] 2 4) 2 4 = [1;2;3;4;5;6;7;8;9].
Proof. split; vm_compute; reflexivity. Qed.

(* ====================================================================== *)
(* the refusal test                                                       *)
(* ====================================================================== *)
Theorem abuf_insufficient_iff : forall a n, abuf_insufficient a n = true <-> ab_alloc a - ab_used a < n.
Proof. intros a n. unfold abuf_insufficient. lia. Qed.

Example abuf_insufficient_ex :
  abuf_insufficient (mkabuf 32 16 [(true, 16)]) 17 = true /\ abuf_insufficient (mkabuf 32 16 [(true, 16)]) 16 = false.
Proof. split; vm_compute; reflexivity. Qed.

(* ====================================================================== *)
(* well-formedness of the pool is an invariant of every history           *)
(* ====================================================================== *)
Lemma ab_wf_used_nonneg a : ab_wf a -> 0 <= ab_used a.
Proof. intros (Hu & Hp & _). rewrite Hu. now apply zsum_map_snd_nonneg. Qed.

Lemma map_snd_zupd_keep (t : list (bool * Z)) i b d :
  map snd (zupd t i (b, snd (znth t i d))) = map snd t.
Proof.
  revert i. induction t as [|e t IH]; intros i; [reflexivity|].
  cbn [zupd znth]. destruct (Z.eqb_spec i 0) as [Hz|Hz]; cbn [map snd]; [reflexivity|].
  now rewrite IH.
Qed.

Lemma release_alloc a i : ab_alloc (abuf_release a i) = ab_alloc a.
Proof. reflexivity. Qed.
Lemma release_used a i : ab_used (abuf_release a i) = ab_used a.
Proof. reflexivity. Qed.
Lemma release_sizes a i : map snd (ab_table (abuf_release a i)) = map snd (ab_table a).
Proof. unfold abuf_release. cbn [ab_table]. apply map_snd_zupd_keep. Qed.

Lemma fold_release_alloc idxs a : ab_alloc (fold_left abuf_release idxs a) = ab_alloc a.
Proof. revert a. induction idxs as [|i r IH]; intros a; cbn [fold_left]; [reflexivity|]. now rewrite IH. Qed.
Lemma fold_release_used idxs a : ab_used (fold_left abuf_release idxs a) = ab_used a.
Proof. revert a. induction idxs as [|i r IH]; intros a; cbn [fold_left]; [reflexivity|]. now rewrite IH. Qed.
Lemma fold_release_sizes idxs a : map snd (ab_table (fold_left abuf_release idxs a)) = map snd (ab_table a).
Proof.
  revert a. induction idxs as [|i r IH]; intros a; cbn [fold_left]; [reflexivity|].
  now rewrite IH, release_sizes.
Qed.

Lemma Forall_map_snd_pos (t t' : list (bool * Z)) :
  map snd t' = map snd t -> Forall (fun e => 0 < snd e) t -> Forall (fun e => 0 < snd e) t'.
Proof.
  intros Hm Ht.
  assert (H : Forall (fun z => 0 < z) (map snd t)) by (rewrite Forall_map; exact Ht).
  rewrite <- Hm in H. now rewrite Forall_map in H.
Qed.

Lemma fold_release_wf idxs a : ab_wf a -> ab_wf (fold_left abuf_release idxs a).
Proof.
  intros (Hu & Hp & Hle). unfold ab_wf.
  rewrite fold_release_used, fold_release_alloc, fold_release_sizes.
  repeat split; try assumption.
  eapply Forall_map_snd_pos; [apply fold_release_sizes|exact Hp].
Qed.

(* coalesce_rev strips the leading free entries *)
Lemma coalesce_rev_spec rt u :
  exists dropped,
    rt = dropped ++ fst (coalesce_rev rt u) /\
    snd (coalesce_rev rt u) = u - zsum (map snd dropped) /\
    Forall (fun e => fst e = false) dropped /\
    match fst (coalesce_rev rt u) with [] => True | e :: _ => fst e = true end.
Proof.
  revert u. induction rt as [|[b n] r IH]; intros u.
  - exists []. cbn. repeat split; try constructor. lia.
  - destruct b.
    + exists []. cbn. repeat split; try constructor. lia.
    + cbn [coalesce_rev]. destruct (IH (u - n)) as (dr & E1 & E2 & F & Hh).
      exists ((false, n) :: dr). cbn [app map snd zsum]. repeat split.
      * now rewrite <- E1.
      * rewrite E2. lia.
      * constructor; [reflexivity|exact F].
      * exact Hh.
Qed.

Lemma coalesce_alloc a : ab_alloc (abuf_coalesce a) = ab_alloc a.
Proof. unfold abuf_coalesce. destruct (coalesce_rev (rev (ab_table a)) (ab_used a)). reflexivity. Qed.

Lemma coalesce_wf a : ab_wf a -> ab_wf (abuf_coalesce a) /\ tail_used (abuf_coalesce a).
Proof.
  intros (Hu & Hp & Hle). unfold abuf_coalesce, tail_used.
  destruct (coalesce_rev_spec (rev (ab_table a)) (ab_used a)) as (dr & E1 & E2 & F & Hh).
  destruct (coalesce_rev (rev (ab_table a)) (ab_used a)) as [rt u'] eqn:E.
  cbn [fst snd] in E1, E2, Hh. cbn [ab_table ab_used ab_alloc].
  assert (Et : ab_table a = rev rt ++ rev dr).
  { rewrite <- rev_app_distr, <- E1. now rewrite rev_involutive. }
  rewrite Et in Hp. apply Forall_app in Hp. destruct Hp as [Hp1 Hp2].
  assert (Hs : zsum (map snd (ab_table a)) = zsum (map snd (rev rt)) + zsum (map snd dr)).
  { rewrite Et, map_app, zsum_app. f_equal. now rewrite map_rev, zsum_rev. }
  assert (Hd : 0 <= zsum (map snd dr)).
  { apply zsum_map_snd_nonneg. apply Forall_rev in Hp2. now rewrite rev_involutive in Hp2. }
  split.
  - unfold ab_wf. cbn [ab_table ab_used ab_alloc]. repeat split; [lia|exact Hp1|lia].
  - rewrite rev_involutive. exact Hh.
Qed.

Lemma ab_step_alloc a o : ab_alloc (ab_step a o) = ab_alloc a.
Proof.
  destruct o as [n|idxs|]; cbn [ab_step].
  - destruct (abuf_insufficient a n); reflexivity.
  - now rewrite coalesce_alloc, fold_release_alloc.
  - reflexivity.
Qed.

Lemma ab_run_alloc ops a : ab_alloc (ab_run a ops) = ab_alloc a.
Proof.
  unfold ab_run. revert a. induction ops as [|o r IH]; intros a; cbn [fold_left]; [reflexivity|].
  now rewrite IH, ab_step_alloc.
Qed.

Lemma malloc_wf a n : ab_wf a -> 0 < n -> abuf_insufficient a n = false ->
  ab_wf (fst (fst (abuf_malloc a n))).
Proof.
  intros (Hu & Hp & Hle) Hn Hi. unfold abuf_insufficient in Hi.
  unfold abuf_malloc, ab_wf. cbn [fst ab_table ab_used ab_alloc].
  rewrite map_app, zsum_app. cbn [map snd zsum]. repeat split.
  - lia.
  - apply Forall_app. split; [exact Hp|]. constructor; [exact Hn|constructor].
  - lia.
Qed.

Lemma ab_wf_empty n : 0 <= n -> ab_wf (mkabuf n 0 []).
Proof.
  intros Hn. unfold ab_wf. cbn [ab_table ab_used ab_alloc map zsum]. repeat split; [constructor|lia].
Qed.

Lemma ab_step_wf0 a o : ab_wf a -> match o with ABput n => 0 < n | _ => True end -> ab_wf (ab_step a o).
Proof.
  intros Hwf Ho. destruct o as [n|idxs|]; cbn [ab_step].
  - destruct (abuf_insufficient a n) eqn:Hi; [exact Hwf|now apply malloc_wf].
  - apply coalesce_wf. now apply fold_release_wf.
  - pose proof (ab_wf_used_nonneg a Hwf) as Hnn. destruct Hwf as (_ & _ & Hle).
    apply ab_wf_empty. lia.
Qed.

Lemma ab_step_wf a o : ab_wf a -> tail_used a ->
  match o with ABput n => 0 < n | _ => True end ->
  ab_wf (ab_step a o) /\ tail_used (ab_step a o).
Proof.
  intros Hwf Ht Ho. split; [now apply ab_step_wf0|]. destruct o as [n|idxs|]; cbn [ab_step].
  - destruct (abuf_insufficient a n); [exact Ht|].
    unfold tail_used, abuf_malloc. cbn [fst ab_table]. now rewrite rev_app_distr.
  - apply coalesce_wf. now apply fold_release_wf.
  - exact I.
Qed.

Theorem ab_run_wf : forall ops a, ab_wf a -> tail_used a -> abops_pos ops ->
  ab_wf (ab_run a ops) /\ tail_used (ab_run a ops).
Proof.
  unfold ab_run. induction ops as [|o r IH]; intros a Hwf Ht Hops; cbn [fold_left]; [now split|].
  inversion Hops as [|o' r' Ho Hr]; subst.
  destruct (ab_step_wf a o Hwf Ht Ho) as [Hwf' Ht']. now apply IH.
Qed.

Lemma ab_wf_init n : 0 < n -> ab_wf (mkabuf n 0 []) /\ tail_used (mkabuf n 0 []).
Proof.
  intros Hn. split; [apply ab_wf_empty; lia | exact I].
Qed.

Example ab_run_wf_ex :
  ab_wf (mkabuf 32 16 [(true, 16)]) /\ tail_used (mkabuf 32 16 [(true, 16)]) /\
  abops_pos [ABput 8; AComplete [0]; ABput 100; AResetAll; ABput 4].
Proof.
  split; [|split].
  - unfold ab_wf. cbn. repeat split; [repeat constructor; lia|lia].
  - exact eq_refl.
  - repeat constructor; lia.
Qed.

(* ====================================================================== *)
(* pending <= usage <= attached size                                      *)
(* ====================================================================== *)
Lemma pending_le_sizes (t : list (bool * Z)) :
  Forall (fun e => 0 < snd e) t -> zsum (map snd (filter fst t)) <= zsum (map snd t).
Proof.
  induction 1 as [|[b n] t He Ht IH]; cbn [filter map zsum fst snd]; [lia|].
  cbn [snd] in He. destruct b; cbn [map zsum snd]; lia.
Qed.

Lemma ab_wf_pending_le_usage a : ab_wf a -> abuf_pending a <= abuf_usage a <= ab_alloc a.
Proof.
  intros (Hu & Hp & Hle). unfold abuf_pending, abuf_usage. rewrite Hu at 1.
  split; [now apply pending_le_sizes|exact Hle].
Qed.

Theorem usage_ge_pending_from : forall ops a, ab_wf a -> tail_used a -> abops_pos ops ->
  abuf_pending (ab_run a ops) <= abuf_usage (ab_run a ops) <= ab_alloc a.
Proof.
  intros ops a Hwf Ht Hops.
  destruct (ab_run_wf ops a Hwf Ht Hops) as [Hwf' _].
  pose proof (ab_wf_pending_le_usage _ Hwf') as H.
  rewrite ab_run_alloc in H. exact H.
Qed.

Theorem usage_ge_pending : forall ops n, 0 < n -> abops_pos ops ->
  abuf_pending (ab_run (mkabuf n 0 []) ops) <= abuf_usage (ab_run (mkabuf n 0 []) ops) <= n.
Proof.
  intros ops n Hn Hops.
  destruct (ab_wf_init n Hn) as [Hwf Ht].
  exact (usage_ge_pending_from ops _ Hwf Ht Hops).
Qed.

Example usage_ge_pending_ex :
  let a := ab_run (mkabuf 32 0 []) [ABput 16; ABput 8; AComplete [0]; ABput 16] in
  abops_pos [ABput 16; ABput 8; AComplete [0]; ABput 16] /\ abuf_pending a = 8 /\ abuf_usage a = 24.
Proof. split; [repeat constructor; lia|split; vm_compute; reflexivity]. Qed.

(* ====================================================================== *)
(* usage = pending does NOT hold over all histories                       *)
(* ====================================================================== *)
Definition usage_eq_pending_full : Prop :=
  forall ops n, 0 < n -> abops_pos ops ->
    abuf_usage (ab_run (mkabuf n 0 []) ops) = abuf_pending (ab_run (mkabuf n 0 []) ops).

Lemma witness_pos : abops_pos [ABput 16; ABput 16; AComplete [0]].
Proof. repeat constructor; lia. Qed.

Example usage_eq_pending_witness :
  abuf_usage (ab_run (mkabuf 32 0 []) [ABput 16; ABput 16; AComplete [0]]) = 32 /\
  abuf_pending (ab_run (mkabuf 32 0 []) [ABput 16; ABput 16; AComplete [0]]) = 16.
Proof. split; vm_compute; reflexivity. Qed.

Theorem usage_eq_pending_refuted : ~ usage_eq_pending_full.
Proof.
  intros H. specialize (H [ABput 16; ABput 16; AComplete [0]] 32 ltac:(lia) witness_pos).
  vm_compute in H. discriminate H.
Qed.

(* ====================================================================== *)
(* refusal vs real free space                                             *)
(* ====================================================================== *)
Definition refused_iff_no_space_full : Prop :=
  forall ops n m, 0 < n -> 0 < m -> abops_pos ops ->
    (abuf_insufficient (ab_run (mkabuf n 0 []) ops) m = true <->
     n - abuf_pending (ab_run (mkabuf n 0 []) ops) < m).

Example refused_iff_no_space_witness :
  let a := ab_run (mkabuf 32 0 []) [ABput 16; ABput 16; AComplete [0]] in
  abuf_insufficient a 16 = true /\ 32 - abuf_pending a = 16.
Proof. split; vm_compute; reflexivity. Qed.

Theorem refused_iff_no_space_refuted : ~ refused_iff_no_space_full.
Proof.
  intros H.
  specialize (H [ABput 16; ABput 16; AComplete [0]] 32 16 ltac:(lia) ltac:(lia) witness_pos).
  destruct H as [H _]. specialize (H eq_refl). vm_compute in H. discriminate H.
Qed.

Theorem refused_if_no_space_from : forall ops a m, ab_wf a -> tail_used a -> abops_pos ops ->
  ab_alloc a - abuf_pending (ab_run a ops) < m ->
  abuf_insufficient (ab_run a ops) m = true.
Proof.
  intros ops a m Hwf Ht Hops Hlt.
  pose proof (usage_ge_pending_from ops a Hwf Ht Hops) as H.
  apply abuf_insufficient_iff. rewrite ab_run_alloc.
  unfold abuf_usage in H. lia.
Qed.

Theorem refused_if_no_space : forall ops n m, 0 < n -> 0 < m -> abops_pos ops ->
  n - abuf_pending (ab_run (mkabuf n 0 []) ops) < m ->
  abuf_insufficient (ab_run (mkabuf n 0 []) ops) m = true.
Proof.
  intros ops n m Hn _ Hops.
  destruct (ab_wf_init n Hn) as [Hwf Ht].
  exact (refused_if_no_space_from ops _ m Hwf Ht Hops).
Qed.

Example refused_if_no_space_ex :
  let a := ab_run (mkabuf 32 0 []) [ABput 16; ABput 8] in
  32 - abuf_pending a < 9 /\ abuf_insufficient a 9 = true.
Proof. split; vm_compute; reflexivity. Qed.

(* ====================================================================== *)
(* the in-place swap of a put is undone at the exit                       *)
(* ====================================================================== *)
Lemma user_buf_restored : forall (flag : bool) buf nelems xsz,
  user_buf_after_exit flag (user_buf_in_flight flag buf nelems xsz) nelems xsz = buf.
Proof.
  intros flag buf nelems xsz.
  unfold user_buf_after_exit, user_buf_in_flight. destruct flag; [apply swap_involutive|reflexivity].
Qed.

Theorem put_buffer_restored : forall api nconv nswap contig himap h nbytes buf nelems xsz,
  let flag := put_swaps_user_buf api nconv nswap contig himap h nbytes in
  user_buf_after_exit flag (user_buf_in_flight flag buf nelems xsz) nelems xsz = buf.
Proof. intros. apply user_buf_restored. Qed.

Example put_buffer_restored_ex :
  put_swaps_user_buf PIput false true true false SwapOn 8 = true /\
  user_buf_in_flight true [1;2;3;4;5;6;7;8] 2 4 = [4;3;2;1;8;7;6;5] /\
  user_buf_after_exit true (user_buf_in_flight true [1;2;3;4;5;6;7;8] 2 4) 2 4 = [1;2;3;4;5;6;7;8].
Proof. repeat split; vm_compute; reflexivity. Qed.

Lemma put_swaps_user_buf_iff : forall api nconv nswap contig himap h nbytes,
  put_swaps_user_buf api nconv nswap contig himap h nbytes = true <->
  nswap = true /\ nconv = false /\ contig = true /\ can_swap_in_place true h nbytes = true /\
  match api with PBlocking | PIput => himap = false | PIputVarn => True | PBput | PBputVarn => False end.
Proof.
  intros api nconv nswap contig himap h nbytes. unfold put_swaps_user_buf, xbuf_is_buf.
  destruct nswap; [|rewrite andb_false_r; intuition discriminate].
  destruct (can_swap_in_place true h nbytes), api, nconv, contig, himap; cbn; intuition discriminate.
Qed.

Theorem bput_never_swaps : forall nconv nswap contig himap h nbytes,
  put_swaps_user_buf PBput nconv nswap contig himap h nbytes = false.
Proof. reflexivity. Qed.

Theorem bput_varn_never_swaps : forall nconv nswap contig himap h nbytes,
  put_swaps_user_buf PBputVarn nconv nswap contig himap h nbytes = false.
Proof. reflexivity. Qed.

Theorem small_auto_never_swaps : forall api nconv nswap contig himap nbytes,
  nbytes <= NC_BYTE_SWAP_BUFFER_SIZE ->
  put_swaps_user_buf api nconv nswap contig himap SwapAuto nbytes = false.
Proof.
  intros api nconv nswap contig himap nbytes Hn.
  apply not_true_iff_false. rewrite put_swaps_user_buf_iff. intros (_ & _ & _ & H & _).
  cbn [can_swap_in_place] in H. lia.
Qed.

Example small_auto_never_swaps_ex :
  put_swaps_user_buf PIput false true true false SwapAuto 4096 = false /\
  put_swaps_user_buf PIput false true true false SwapAuto 4097 = true.
Proof. split; vm_compute; reflexivity. Qed.

Theorem swap_off_never_swaps : forall api nconv nswap contig himap nbytes,
  put_swaps_user_buf api nconv nswap contig himap SwapOff nbytes = false.
Proof.
  intros api nconv nswap contig himap nbytes.
  apply not_true_iff_false. rewrite put_swaps_user_buf_iff. intros (_ & _ & _ & H & _). discriminate H.
Qed.

(* ====================================================================== *)
(* detach                                                                 *)
(* ====================================================================== *)
Lemma detach_cases st :
  (st_abuf st = None /\ detach st = (st, NC_ENULLABUF)) \/
  (st_abuf st <> None /\ (exists l, In l (put_lead st) /\ 0 <= l_abuf_index l) /\ detach st = (st, NC_EPENDINGBPUT)) \/
  (st_abuf st <> None /\ (forall l, In l (put_lead st) -> l_abuf_index l < 0) /\
   detach st = (set_abuf st None, NC_NOERR)).
Proof.
  unfold detach. destruct (st_abuf st) as [a|]; [right|left; split; reflexivity].
  destruct (existsb _ _) eqn:Ex; [left|right]; (split; [discriminate|]); (split; [|reflexivity]).
  - apply existsb_exists in Ex. destruct Ex as (l & Hin & Hl). exists l. split; [exact Hin|lia].
  - rewrite <- not_true_iff_false, existsb_exists in Ex. intros l Hin.
    destruct (Z.ltb_spec (l_abuf_index l) 0) as [Hlt|Hge]; [exact Hlt|]. elim Ex. exists l. split; [exact Hin|lia].
Qed.

Theorem detach_requires_no_pending : forall st,
  snd (detach st) = NC_EPENDINGBPUT <->
  (st_abuf st <> None /\ exists l, In l (put_lead st) /\ 0 <= l_abuf_index l).
Proof.
  intros st. destruct (detach_cases st) as [(Ha & ->)|[(Ha & Hp & ->)|(Ha & Hn & ->)]]; cbn [snd].
  - split; [intros H; vm_compute in H; discriminate H | intros (H & _); contradiction].
  - split; [auto | reflexivity].
  - split; [intros H; vm_compute in H; discriminate H|]. intros (_ & l & Hin & Hl). specialize (Hn l Hin). lia.
Qed.

Theorem detach_ok : forall st, snd (detach st) = NC_NOERR ->
  st_abuf (fst (detach st)) = None /\ forall l, In l (put_lead st) -> l_abuf_index l < 0.
Proof.
  intros st. destruct (detach_cases st) as [(_ & ->)|[(_ & _ & ->)|(_ & Hn & ->)]]; cbn [snd fst]; intro H;
    try (vm_compute in H; discriminate H).
  split; [reflexivity | exact Hn].
Qed.

Definition ex_lead (id aidx tag : Z) (tf sw : bool) : lead :=
  mklead id dummy_geom None 0 1 (-1) tf sw aidx 0 1 None tag [].

Example detach_ex :
  let st := mkst [ex_lead 0 0 7 false false] [] [] [] 0 0 (Some (mkabuf 32 16 [(true, 16)])) 0 empty_disk in
  snd (detach st) = NC_EPENDINGBPUT /\
  snd (detach (set_put st [ex_lead 0 (-1) 7 false false] [])) = NC_NOERR.
Proof. split; vm_compute; reflexivity. Qed.

(* ====================================================================== *)
(* NC_EINSUFFBUF / NC_ENULLABUF of a bput                                 *)
(* ====================================================================== *)
Lemma enqueue_has_new sorted key leads reqs mk_lead mk_reqs n pl pr :
  enqueue sorted key leads reqs mk_lead mk_reqs n = (pl, pr) ->
  exists off, In (mk_lead off) pl.
Proof.
  unfold enqueue.
  destruct (if sorted then split_last_le (rev leads) key [] else (leads, [])) as [kept shifted].
  destruct shifted as [|s0 sh]; intros H; inversion H; subst; clear H.
  - exists (Zlen reqs). apply in_or_app. right. now left.
  - exists (l_nonlead_off s0). apply in_or_app. right. cbn [app]. now left.
Qed.

Definition bput_outcome (st : nbstate) (a : abuf) (nbytes : Z) (data : list byte) (r : nbstate * Z * Z) : Prop :=
  (nbytes = 0 /\ r = (st, NC_REQ_NULL, NC_NOERR)) \/
  (nbytes <> 0 /\ abuf_insufficient a nbytes = true /\ r = (st, NC_REQ_NULL, NC_EINSUFFBUF)) \/
  (nbytes <> 0 /\ abuf_insufficient a nbytes = false /\
   exists pl pr id l,
     r = (mkst pl (get_lead st) pr (get_reqs st) id (maxGetID st)
               (Some (fst (fst (abuf_malloc a nbytes)))) (st_numrecs st)
               (dk_write (st_mem st) (ABUF_BASE + ab_used a) data), id, NC_NOERR) /\
     In l pl /\ l_id l = id /\ l_xaddr l = ABUF_BASE + ab_used a /\ l_abuf_index l = ab_tail a).

Lemma post_varm_bput_cases st g start count stride xaddr data sw tag a :
  st_abuf st = Some a ->
  bput_outcome st a (zprod count * g_xsz g) data (post_varm st KBput g start count stride xaddr data sw tag).
Proof.
  intros Hab. set (nbytes := zprod count * g_xsz g). unfold post_varm. rewrite Hab. fold nbytes.
  destruct (Z.eqb_spec nbytes 0) as [Hz|Hnz]; [left; split; [exact Hz|reflexivity]|].
  right. unfold bput_alloc. rewrite Hab.
  destruct (abuf_insufficient a nbytes) eqn:Hi.
  - left. repeat split. exact Hnz.
  - right. split; [exact Hnz|]. split; [reflexivity|]. unfold abuf_malloc.
    cbn [negb Z.eqb NC_NOERR k_isput fst].
    match goal with |- context [enqueue ?s ?k ?ls ?rs ?ml ?mr ?n] =>
      destruct (enqueue s k ls rs ml mr n) as [pl pr] eqn:Enq;
      destruct (enqueue_has_new s k ls rs ml mr n pl pr Enq) as [off Hoff] end.
    eexists pl, pr, _, _. split; [reflexivity|].
    split; [exact Hoff|]. cbn [l_id l_xaddr l_abuf_index]. repeat split.
Qed.

Definition varn_nbytes (g : geom) (parts : list (list Z * option (list Z))) : Z :=
  zsum (map (fun p => zprod (part_count (fst p) (snd p)))
            (filter (fun p => negb (zprod (part_count (fst p) (snd p)) =? 0)) parts)) * g_xsz g.

Lemma post_varn_bput_cases st g parts xaddr data sw tag a :
  st_abuf st = Some a ->
  bput_outcome st a (varn_nbytes g parts) data (post_varn st KBput g parts xaddr data sw tag).
Proof.
  intros Hab. unfold varn_nbytes. set (nbytes := zsum _ * g_xsz g). unfold post_varn. rewrite Hab. fold nbytes.
  destruct (Z.eqb_spec nbytes 0) as [Hz|Hnz]; [left; split; [exact Hz|reflexivity]|].
  right. unfold bput_alloc. rewrite Hab.
  destruct (abuf_insufficient a nbytes) eqn:Hi.
  - left. repeat split. exact Hnz.
  - right. split; [exact Hnz|]. split; [reflexivity|]. unfold abuf_malloc.
    cbn [negb Z.eqb NC_NOERR k_isput fst].
    match goal with |- context [enqueue ?s ?k ?ls ?rs ?ml ?mr ?n] =>
      destruct (enqueue s k ls rs ml mr n) as [pl pr] eqn:Enq;
      destruct (enqueue_has_new s k ls rs ml mr n pl pr Enq) as [off Hoff] end.
    eexists pl, pr, _, _. split; [reflexivity|].
    split; [exact Hoff|]. cbn [l_id l_xaddr l_abuf_index]. repeat split.
Qed.

Lemma bput_outcome_einsuffbuf st a n data r : bput_outcome st a n data r -> 0 < n ->
  (snd r = NC_EINSUFFBUF <-> ab_alloc a - ab_used a < n).
Proof.
  intros Ho Hn. rewrite <- abuf_insufficient_iff.
  destruct Ho as [(Hz & _)|[(_ & Hi & ->)|(_ & Hi & pl & pr & id & l & -> & _)]]; [lia| |]; rewrite Hi; cbn [snd].
  - split; reflexivity.
  - split; intros H; [vm_compute in H|]; discriminate H.
Qed.

Theorem einsuffbuf_iff_varm : forall st g start count stride xaddr data sw tag a,
  st_abuf st = Some a -> 0 < zprod count * g_xsz g ->
  (snd (post_varm st KBput g start count stride xaddr data sw tag) = NC_EINSUFFBUF <->
   ab_alloc a - ab_used a < zprod count * g_xsz g).
Proof.
  intros st g start count stride xaddr data sw tag a Hab Hpos.
  exact (bput_outcome_einsuffbuf _ _ _ _ _ (post_varm_bput_cases st g start count stride xaddr data sw tag a Hab) Hpos).
Qed.

Theorem bput_without_attach : forall st g start count stride xaddr data sw tag,
  st_abuf st = None ->
  snd (post_varm st KBput g start count stride xaddr data sw tag) = NC_ENULLABUF.
Proof. intros. unfold post_varm. rewrite H. reflexivity. Qed.

Theorem einsuffbuf_iff_varn : forall st g parts xaddr data sw tag a,
  st_abuf st = Some a ->
  0 < zsum (map (fun p => zprod (part_count (fst p) (snd p)))
                (filter (fun p => negb (zprod (part_count (fst p) (snd p)) =? 0)) parts)) * g_xsz g ->
  (snd (post_varn st KBput g parts xaddr data sw tag) = NC_EINSUFFBUF <->
   ab_alloc a - ab_used a <
   zsum (map (fun p => zprod (part_count (fst p) (snd p)))
             (filter (fun p => negb (zprod (part_count (fst p) (snd p)) =? 0)) parts)) * g_xsz g).
Proof.
  intros st g parts xaddr data sw tag a Hab Hpos.
  exact (bput_outcome_einsuffbuf _ _ _ _ _ (post_varn_bput_cases st g parts xaddr data sw tag a Hab) Hpos).
Qed.

Theorem bput_without_attach_varn : forall st g parts xaddr data sw tag,
  st_abuf st = None ->
  snd (post_varn st KBput g parts xaddr data sw tag) = NC_ENULLABUF.
Proof. intros. unfold post_varn. rewrite H. reflexivity. Qed.

Definition ex_geom : geom := mkgeom 100 4 [8] 0 0.
Definition ex_st (a : abuf) : nbstate := mkst [] [] [] [] 0 0 (Some a) 0 empty_disk.

Example einsuffbuf_varm_ex :
  snd (post_varm (ex_st (mkabuf 32 24 [(true, 24)])) KBput ex_geom [0] [3] None 0 (repeat 1 12) false 5) = NC_EINSUFFBUF /\
  snd (post_varm (ex_st (mkabuf 32 16 [(true, 16)])) KBput ex_geom [0] [3] None 0 (repeat 1 12) false 5) = NC_NOERR /\
  snd (post_varm init_state KBput ex_geom [0] [3] None 0 (repeat 1 12) false 5) = NC_ENULLABUF.
Proof. repeat split; vm_compute; reflexivity. Qed.

Example einsuffbuf_varn_ex :
  snd (post_varn (ex_st (mkabuf 32 24 [(true, 24)])) KBput ex_geom [([0], Some [2]); ([4], None)] 0 (repeat 1 12) false 5) = NC_EINSUFFBUF /\
  snd (post_varn (ex_st (mkabuf 32 16 [(true, 16)])) KBput ex_geom [([0], Some [2]); ([4], None)] 0 (repeat 1 12) false 5) = NC_NOERR /\
  snd (post_varn init_state KBput ex_geom [([0], Some [2]); ([4], None)] 0 (repeat 1 12) false 5) = NC_ENULLABUF.
Proof. repeat split; vm_compute; reflexivity. Qed.

(* ====================================================================== *)
(* usage = pending on LIFO histories                                      *)
(* ====================================================================== *)
Theorem usage_eq_pending_all_used : forall a, ab_wf a -> all_used a -> abuf_usage a = abuf_pending a.
Proof.
  intros a (Hu & _ & _) Hall. unfold abuf_usage, abuf_pending.
  rewrite (filter_all_true fst (ab_table a) Hall). exact Hu.
Qed.

Lemma znth_fold_release idxs : forall a i, 0 <= i < Zlen (ab_table a) ->
  fst (znth (ab_table (fold_left abuf_release idxs a)) i (false, 0)) = true <->
  fst (znth (ab_table a) i (false, 0)) = true /\ ~ In i idxs.
Proof.
  induction idxs as [|x r IH]; intros a i Hi; cbn [fold_left In]; [tauto|].
  rewrite IH by (unfold abuf_release; cbn [ab_table]; rewrite Zlen_zupd; exact Hi).
  unfold abuf_release. cbn [ab_table].
  destruct (Z.eq_dec i x) as [->|Hne].
  - rewrite znth_zupd_same by exact Hi. cbn [fst]. intuition congruence.
  - rewrite znth_zupd_other by lia. intuition congruence.
Qed.

(* coalesce on a table whose free entries are exactly a suffix *)
Lemma coalesce_rev_all_false s rest u :
  Forall (fun e : bool * Z => fst e = false) s ->
  coalesce_rev (s ++ rest) u = coalesce_rev rest (u - zsum (map snd s)).
Proof.
  revert u. induction s as [|[b n] s IH]; intros u H; cbn [app map zsum snd].
  - f_equal. lia.
  - inversion H as [|e s' He Hs]; subst. cbn [fst] in He. subst b.
    cbn [coalesce_rev]. rewrite IH by exact Hs. f_equal. lia.
Qed.

Lemma coalesce_rev_head_true rt u :
  match rt with [] => True | e :: _ => fst e = true end -> coalesce_rev rt u = (rt, u).
Proof. destruct rt as [|[b n] r]; [reflexivity|]. cbn [fst]. intros ->. reflexivity. Qed.

Lemma coalesce_split_table a p s :
  ab_table a = p ++ s ->
  Forall (fun e => fst e = true) p -> Forall (fun e => fst e = false) s ->
  ab_table (abuf_coalesce a) = p.
Proof.
  intros Et Hp Hs. unfold abuf_coalesce. rewrite Et, rev_app_distr.
  rewrite coalesce_rev_all_false by (now apply Forall_rev).
  rewrite coalesce_rev_head_true.
  - cbn [ab_table]. apply rev_involutive.
  - apply Forall_rev in Hp. destruct (rev p) as [|e r]; [exact I|]. now inversion Hp.
Qed.

Lemma lifo_complete_all_used a idxs k :
  all_used a -> 0 <= k <= ab_tail a ->
  (forall i, In i idxs <-> ab_tail a - k <= i < ab_tail a) ->
  all_used (abuf_coalesce (fold_left abuf_release idxs a)).
Proof.
  intros Hall Hk Hidx. unfold all_used, ab_tail in *.
  set (t := ab_table a) in *. set (m := Zlen t - k).
  set (a' := fold_left abuf_release idxs a).
  assert (Hlen : Zlen (ab_table a') = Zlen t).
  { rewrite <- (Zlen_map snd (ab_table a')). unfold a'. rewrite fold_release_sizes. apply Zlen_map. }
  assert (Hused : forall i, 0 <= i < Zlen t -> fst (znth t i (false, 0)) = true).
  { intros i Hi. rewrite Forall_forall in Hall. apply Hall. apply znth_In. exact Hi. }
  (* the entries below m stay in use, those from m on are free: coalesce drops exactly the latter *)
  assert (Hp : Forall (fun e => fst e = true) (zfirstn m (ab_table a'))).
  { apply (Forall_znth _ _ (false, 0)). intros i Hi. rewrite Zlen_zfirstn in Hi. rewrite znth_zfirstn by lia.
    apply (znth_fold_release idxs a i); [fold t; lia|]. split; [apply Hused; lia | rewrite Hidx; lia]. }
  rewrite (coalesce_split_table a' _ _ (eq_sym (zfirstn_zskipn m (ab_table a')))); [exact Hp | exact Hp |].
  apply (Forall_znth _ _ (false, 0)). intros i Hi.
  rewrite Zlen_zskipn in Hi. rewrite znth_zskipn by lia.
  destruct (fst (znth (ab_table a') (m + i) (false, 0))) eqn:E; [|reflexivity].
  apply (znth_fold_release idxs a) in E; [|fold t; lia]. destruct E as [_ Hni]. exfalso. apply Hni, Hidx. lia.
Qed.

Lemma ab_step_lifo a o :
  ab_wf a -> all_used a ->
  match o with ABput n => 0 < n | _ => True end ->
  match o with
  | AComplete idxs => exists k, 0 <= k <= ab_tail a /\ (forall i, In i idxs <-> ab_tail a - k <= i < ab_tail a)
  | _ => True end ->
  ab_wf (ab_step a o) /\ all_used (ab_step a o).
Proof.
  intros Hwf Hall Ho Hl.
  split; [now apply ab_step_wf0|]. destruct o as [n|idxs|]; cbn [ab_step].
  - destruct (abuf_insufficient a n); [exact Hall|].
    unfold all_used, abuf_malloc. cbn [fst ab_table]. apply Forall_app. split; [exact Hall|].
    constructor; [reflexivity|constructor].
  - destruct Hl as (k & Hk & Hidx). now apply (lifo_complete_all_used a idxs k).
  - constructor.
Qed.

Theorem usage_eq_pending_lifo : forall ops a, ab_wf a -> all_used a -> abops_pos ops -> lifo_hist a ops ->
  abuf_usage (ab_run a ops) = abuf_pending (ab_run a ops) /\ all_used (ab_run a ops).
Proof.
  unfold ab_run. induction ops as [|o r IH]; intros a Hwf Hall Hops Hl; cbn [fold_left].
  - split; [now apply usage_eq_pending_all_used|exact Hall].
  - inversion Hops as [|o' r' Ho Hr]; subst. cbn [lifo_hist] in Hl. destruct Hl as [Hlo Hlr].
    destruct (ab_step_lifo a o Hwf Hall Ho Hlo) as [Hwf' Hall']. now apply IH.
Qed.

Example usage_eq_pending_lifo_ex :
  let ops := [ABput 16; ABput 8; ABput 4; AComplete [2; 1]; ABput 8; AComplete [1]; AComplete []] in
  ab_wf (mkabuf 32 0 []) /\ all_used (mkabuf 32 0 []) /\ abops_pos ops /\ lifo_hist (mkabuf 32 0 []) ops /\
  abuf_usage (ab_run (mkabuf 32 0 []) ops) = 16.
Proof.
  cbv zeta. split; [apply ab_wf_init; lia|]. split; [constructor|]. split; [repeat constructor; lia|].
  split; [|vm_compute; reflexivity].
  cbn [lifo_hist]. repeat split.
  - exists 2. match goal with |- context [ab_tail ?a] =>
      let v := eval vm_compute in (ab_tail a) in change (ab_tail a) with v end.
    split; [lia|]. intros i. cbn [In]. lia.
  - exists 1. match goal with |- context [ab_tail ?a] =>
      let v := eval vm_compute in (ab_tail a) in change (ab_tail a) with v end.
    split; [lia|]. intros i. cbn [In]. lia.
  - exists 0. match goal with |- context [ab_tail ?a] =>
      let v := eval vm_compute in (ab_tail a) in change (ab_tail a) with v end.
    split; [lia|]. intros i. cbn [In]. lia.
Qed.

(* ====================================================================== *)
(* the slices of the pool are disjoint and inside the pool                *)
(* ====================================================================== *)
Lemma zsum_zfirstn_nonneg (t : list (bool * Z)) i :
  Forall (fun e => 0 < snd e) t -> 0 <= zsum (map snd (zfirstn i t)).
Proof.
  intros H. revert i. induction H as [|e t He Ht IH]; intros i; [cbn; lia|].
  destruct (Z.leb_spec i 0) as [Hi|Hi].
  - rewrite zfirstn_nonpos by lia. cbn. lia.
  - rewrite zfirstn_cons by lia. cbn [map zsum]. specialize (IH (i - 1)). lia.
Qed.

Lemma offset_step (t : list (bool * Z)) i j :
  Forall (fun e => 0 < snd e) t -> 0 <= i < j -> j <= Zlen t ->
  zsum (map snd (zfirstn i t)) + snd (znth t i (false, 0)) <= zsum (map snd (zfirstn j t)).
Proof.
  intros H. revert i j. induction H as [|e t He Ht IH]; intros i j Hij Hj.
  - rewrite Zlen_nil in Hj. lia.
  - rewrite Zlen_cons in Hj. rewrite (zfirstn_cons j) by lia. cbn [map zsum].
    destruct (Z.eq_dec i 0) as [->|Hz].
    + rewrite zfirstn_nonpos by lia. rewrite znth_cons_0. cbn [map zsum].
      pose proof (zsum_zfirstn_nonneg t (j - 1) Ht). lia.
    + rewrite zfirstn_cons by lia. rewrite znth_cons_pos by lia. cbn [map zsum].
      specialize (IH (i - 1) (j - 1) ltac:(lia) ltac:(lia)). lia.
Qed.

Theorem abuf_regions_disjoint : forall a i j, ab_wf a -> 0 <= i < j -> j < ab_tail a ->
  abuf_offset a i + snd (znth (ab_table a) i (false,0)) <= abuf_offset a j.
Proof.
  intros a i j (Hu & Hp & Hle) Hij Hj. unfold abuf_offset, ab_tail in *.
  apply offset_step; [exact Hp|lia|lia].
Qed.

Theorem abuf_region_inside : forall a i, ab_wf a -> 0 <= i < ab_tail a ->
  0 <= abuf_offset a i /\ abuf_offset a i + snd (znth (ab_table a) i (false,0)) <= ab_alloc a.
Proof.
  intros a i (Hu & Hp & Hle) Hi. unfold abuf_offset, ab_tail in *. split.
  - now apply zsum_zfirstn_nonneg.
  - pose proof (offset_step (ab_table a) i (Zlen (ab_table a)) Hp ltac:(lia) ltac:(lia)) as H.
    rewrite (zfirstn_all (Zlen (ab_table a))) in H by lia. lia.
Qed.

Theorem abuf_malloc_offset : forall a n, ab_wf a ->
  let '(a', idx, off) := abuf_malloc a n in off = abuf_offset a' idx /\ idx = ab_tail a.
Proof.
  intros a n (Hu & Hp & Hle). unfold abuf_malloc, abuf_offset, ab_tail. cbn [ab_table].
  split; [|reflexivity].
  rewrite zfirstn_app_le by lia. rewrite zfirstn_all by lia. exact Hu.
Qed.

Example abuf_regions_ex :
  let a := mkabuf 64 28 [(true, 16); (false, 8); (true, 4)] in
  ab_wf a /\ abuf_offset a 0 = 0 /\ abuf_offset a 1 = 16 /\ abuf_offset a 2 = 24 /\ ab_tail a = 3.
Proof.
  cbv zeta. split; [|repeat split; vm_compute; reflexivity].
  unfold ab_wf. cbn. repeat split; [repeat constructor; cbn; lia|lia].
Qed.

(* ====================================================================== *)
(* get side: only the selected bytes of the caller's buffer change        *)
(* ====================================================================== *)
Theorem overwrite_length : forall buf off bs, length (overwrite buf off bs) = length buf.
Proof.
  induction buf as [|b r IH]; intros off bs; cbn [overwrite]; [reflexivity|].
  destruct (off >? 0).
  - cbn [length]. now rewrite IH.
  - destruct bs as [|x bs']; [reflexivity|]. cbn [length]. now rewrite IH.
Qed.

Theorem scatter_elems_length : forall pos buf el data, length (scatter_elems buf el pos data) = length buf.
Proof.
  induction pos as [|p r IH]; intros buf el data; cbn [scatter_elems]; [reflexivity|].
  now rewrite IH, overwrite_length.
Qed.

Lemma Zlen_overwrite buf off bs : Zlen (overwrite buf off bs) = Zlen buf.
Proof. unfold Zlen. now rewrite overwrite_length. Qed.

Lemma znth_overwrite_out : forall buf off bs x d, 0 <= off -> ~ (off <= x < off + Zlen bs) ->
  znth (overwrite buf off bs) x d = znth buf x d.
Proof.
  induction buf as [|b r IH]; intros off bs x d Hoff Hx; cbn [overwrite]; [reflexivity|].
  destruct (off >? 0) eqn:Eo.
  - destruct (Z.eq_dec x 0) as [->|Hz]; [reflexivity|].
    rewrite !znth_cons_pos by lia. apply IH; lia.
  - destruct bs as [|y bs']; [reflexivity|].
    rewrite Zlen_cons in Hx. pose proof (Zlen_nonneg bs') as Hnn.
    assert (Hz : x <> 0) by lia.
    rewrite !znth_cons_pos by lia. apply IH; lia.
Qed.

Lemma znth_overwrite_in : forall buf off bs x d, 0 <= off -> off <= x < off + Zlen bs -> x < Zlen buf ->
  znth (overwrite buf off bs) x d = znth bs (x - off) d.
Proof.
  induction buf as [|b r IH]; intros off bs x d Hoff Hx Hb.
  - rewrite Zlen_nil in Hb. lia.
  - rewrite Zlen_cons in Hb. cbn [overwrite]. destruct (off >? 0) eqn:Eo.
    + rewrite znth_cons_pos by lia. rewrite IH by lia. f_equal. lia.
    + assert (off = 0) by lia. subst off.
      destruct bs as [|y bs']; [rewrite Zlen_nil in Hx; lia|]. rewrite Zlen_cons in Hx.
      destruct (Z.eq_dec x 0) as [->|Hz]; [reflexivity|].
      rewrite znth_cons_pos by lia. rewrite IH by lia.
      rewrite (znth_cons_pos y bs' (x - 0)) by lia. f_equal. lia.
Qed.

Lemma covered_cons_not el p r x : ~ covered el (p :: r) x -> ~ (p * el <= x < p * el + el) /\ ~ covered el r x.
Proof.
  intros H. split.
  - intros Hp. apply H. exists p. split; [now left|exact Hp].
  - intros (q & Hq & Hr). apply H. exists q. split; [now right|exact Hr].
Qed.

(* needs the positions to be non-negative: a negative offset is clipped to 0 by `overwrite`
   (the C code would write before the buffer) *)
Theorem scatter_elems_frame : forall pos buf el data x d, 0 < el -> 0 <= x ->
  Forall (fun p => 0 <= p) pos ->
  ~ covered el pos x -> znth (scatter_elems buf el pos data) x d = znth buf x d.
Proof.
  induction pos as [|p r IH]; intros buf el data x d Hel Hx Hpos Hnc; cbn [scatter_elems]; [reflexivity|].
  inversion Hpos as [|p' r' Hp Hr]; subst.
  destruct (covered_cons_not el p r x Hnc) as [Hnp Hnr].
  rewrite IH by assumption.
  apply znth_overwrite_out; [nia|].
  pose proof (Zlen_zfirstn el data) as Hle.
  pose proof (Zlen_nonneg (zfirstn el data)) as Hnn. lia.
Qed.

(* without the non-negativity hypothesis the frame property is false *)
Example scatter_elems_frame_needs_nonneg :
  ~ covered 1 [-1] 0 /\ znth (scatter_elems [9; 9] 1 [-1] [7]) 0 0 = 7 /\ znth [9; 9] 0 0 = 9.
Proof.
  split; [|split; vm_compute; reflexivity].
  intros (p & [Hp|[]] & Hr). subst p. lia.
Qed.

Theorem unpack_xbuf_length : forall contig impos btpos el nelems buf idata tmp,
  length (unpack_xbuf contig impos btpos el nelems buf idata tmp) = length buf.
Proof.
  intros contig impos btpos el nelems buf idata tmp. unfold unpack_xbuf.
  destruct impos as [ip|]; destruct contig;
    rewrite ?scatter_elems_length, ?overwrite_length; reflexivity.
Qed.

Lemma not_covered_range el nelems x : 0 < el -> 0 <= nelems -> 0 <= x ->
  ~ covered el (zrange 0 nelems) x -> nelems * el <= x.
Proof.
  intros Hel Hn Hx Hnc.
  destruct (Z.le_gt_cases (nelems * el) x) as [Hle|Hgt]; [exact Hle|]. exfalso. apply Hnc.
  pose proof (Z.div_mod x el ltac:(lia)) as Hdm.
  pose proof (Z.mod_pos_bound x el Hel) as Hm.
  pose proof (Z.div_pos x el Hx Hel) as Hq.
  exists (x / el). split.
  - apply In_zrange. split; [lia|]. nia.
  - nia.
Qed.

Theorem get_writes_only_selected : forall contig impos btpos el nelems buf idata tmp x d,
  0 < el -> 0 <= nelems -> 0 <= x ->
  Forall (fun p => 0 <= p) (selected_positions contig impos btpos nelems) ->
  ~ covered el (selected_positions contig impos btpos nelems) x ->
  znth (unpack_xbuf contig impos btpos el nelems buf idata tmp) x d = znth buf x d.
Proof.
  intros contig impos btpos el nelems buf idata tmp x d Hel Hn Hx Hpos Hnc.
  unfold unpack_xbuf, selected_positions in *.
  destruct impos as [ip|]; destruct contig.
  - now apply scatter_elems_frame.
  - now apply scatter_elems_frame.
  - pose proof (not_covered_range el nelems x Hel Hn Hx Hnc) as Hge.
    apply znth_overwrite_out; [lia|].
    pose proof (Zlen_zfirstn (nelems * el) idata) as Hle. nia.
  - now apply scatter_elems_frame.
Qed.

Theorem scatter_elems_content : forall pos buf el data d,
  NoDup pos -> Forall (fun p => 0 <= p /\ (p + 1) * el <= Zlen buf) pos ->
  Zlen data = Zlen pos * el -> 0 < el ->
  forall k, 0 <= k < Zlen pos -> forall i, 0 <= i < el ->
  znth (scatter_elems buf el pos data) (znth pos k 0 * el + i) d = znth data (k * el + i) d.
Proof.
  induction pos as [|p r IH]; intros buf el data d Hnd Hb Hlen Hel k Hk i Hi.
  - rewrite Zlen_nil in Hk. lia.
  - rewrite Zlen_cons in Hk, Hlen.
    inversion Hnd as [|p' r' Hnotin Hnd']; subst.
    inversion Hb as [|p' r' [Hp0 Hpb] Hb']; subst.
    cbn [scatter_elems]. pose proof (Zlen_nonneg r) as Hr.
    assert (Hf : Zlen (zfirstn el data) = el) by (rewrite Zlen_zfirstn; nia).
    destruct (Z.eq_dec k 0) as [->|Hk0].
    + rewrite znth_cons_0.
      assert (Hpe : 0 <= p * el) by nia.
      assert (Hin : p * el + i < Zlen buf) by nia.
      rewrite scatter_elems_frame.
      * rewrite znth_overwrite_in by (rewrite ?Hf; lia).
        rewrite znth_zfirstn by lia. f_equal. lia.
      * exact Hel.
      * lia.
      * eapply Forall_impl; [|exact Hb']. cbn beta. intros q [Hq _]. exact Hq.
      * intros (q & Hq & Hrange). assert (q <> p) by (intros ->; contradiction). nia.
    + rewrite (znth_cons_pos p r k) by lia.
      rewrite (IH (overwrite buf (p * el) (zfirstn el data)) el (zskipn el data) d).
      * rewrite znth_zskipn by nia. f_equal. lia.
      * exact Hnd'.
      * rewrite Zlen_overwrite. exact Hb'.
      * rewrite Zlen_zskipn. nia.
      * exact Hel.
      * lia.
      * exact Hi.
Qed.

Example scatter_elems_ex :
  let buf := [90;91;92;93;94;95;96;97;98;99] in
  NoDup [3;0] /\ Forall (fun p => 0 <= p /\ (p + 1) * 2 <= Zlen buf) [3;0] /\
  scatter_elems buf 2 [3;0] [1;2;3;4] = [3;4;92;93;94;95;1;2;98;99] /\
  ~ covered 2 [3;0] 5 /\
  unpack_xbuf false (Some [1;0]) [3;0] 2 2 buf [1;2;3;4] [0;0;0;0] = [1;2;92;93;94;95;3;4;98;99].
Proof.
  cbv zeta. split; [|split; [|split; [|split]]].
  - repeat constructor; cbn [In]; lia.
  - repeat constructor; vm_compute; discriminate.
  - vm_compute; reflexivity.
  - intros (p & [Hp|[Hp|[]]] & Hr); subst p; lia.
  - vm_compute; reflexivity.
Qed.

(* ====================================================================== *)
(* every exit swaps back exactly the flagged buffers                      *)
(* ====================================================================== *)
Definition put_events (pl : list lead) : list event :=
  flat_map (fun l => (if l_swapbuf l then [EvSwapBack (l_tag l)] else []) ++ [EvPutDone (l_tag l)]) pl.

Lemma put_events_in l pl : In l pl ->
  In (EvPutDone (l_tag l)) (put_events pl) /\ (l_swapbuf l = true -> In (EvSwapBack (l_tag l)) (put_events pl)).
Proof.
  intros Hin. unfold put_events. split.
  - apply in_flat_map. exists l. split; [exact Hin|]. apply in_or_app. right. now left.
  - intros Hs. apply in_flat_map. exists l. split; [exact Hin|]. rewrite Hs. now left.
Qed.

Lemma put_events_swap t pl : In (EvSwapBack t) (put_events pl) ->
  exists l, In l pl /\ l_swapbuf l = true /\ l_tag l = t.
Proof.
  unfold put_events. intros H. apply in_flat_map in H. destruct H as (l & Hl & Hin).
  exists l. split; [exact Hl|].
  destruct (l_swapbuf l); cbn [app In] in Hin.
  - destruct Hin as [H|[H|[]]]; [|discriminate H]. inversion H. split; reflexivity.
  - destruct Hin as [H|[]]. discriminate H.
Qed.

Lemma compact_leads_fst leads : forall reqs i j,
  fst (compact_leads leads reqs i j) = filter (fun l => negb (l_to_free l)) leads.
Proof.
  induction leads as [|l r IH]; intros reqs i j; cbn [compact_leads filter]; [reflexivity|].
  destruct (l_to_free l); cbn [negb].
  - apply IH.
  - match goal with |- context [compact_leads r ?rq ?a ?b] =>
      specialize (IH rq a b); destruct (compact_leads r rq a b) as [ls rs] end.
    cbn [fst] in *. now rewrite IH.
Qed.

(* one queue through commit_post *)
Definition post_side (nl : Z) (leads : list lead) (reqs : list req) : list lead * list req :=
  if nl >? 0 then
    let '(pl, pr) := compact_leads leads reqs 0 0 in (pl, match pl with [] => [] | _ => pr end)
  else (leads, reqs).

Lemma post_side_leads nl leads reqs :
  fst (post_side nl leads reqs) = if nl >? 0 then filter (fun l => negb (l_to_free l)) leads else leads.
Proof.
  unfold post_side. destruct (nl >? 0); [|reflexivity].
  rewrite <- (compact_leads_fst leads reqs 0 0). destruct (compact_leads leads reqs 0 0). reflexivity.
Qed.

(* all of commit_post: each queue goes through post_side, the events are those of the flagged leads *)
Lemma commit_post_fields : forall st nwl nrl,
  st_mem (fst (commit_post st nwl nrl)) = st_mem st /\
  st_numrecs (fst (commit_post st nwl nrl)) = st_numrecs st /\
  (put_lead (fst (commit_post st nwl nrl)), put_reqs (fst (commit_post st nwl nrl)))
    = post_side nwl (put_lead st) (put_reqs st) /\
  (get_lead (fst (commit_post st nwl nrl)), get_reqs (fst (commit_post st nwl nrl)))
    = post_side nrl (get_lead st) (get_reqs st) /\
  maxPutID (fst (commit_post st nwl nrl)) = maxPutID st /\
  maxGetID (fst (commit_post st nwl nrl)) = maxGetID st /\
  snd (commit_post st nwl nrl) =
    (if nwl >? 0 then flat_map (fun l => (if l_swapbuf l then [EvSwapBack (l_tag l)] else []) ++ [EvPutDone (l_tag l)])
                               (filter l_to_free (put_lead st)) else []) ++
    (if nrl >? 0 then map (fun l => EvGetDone (l_tag l) (l_xaddr l) (l_nelems l * g_xsz (l_geom l)) (l_status l))
                          (filter l_to_free (get_lead st)) else []).
Proof.
  intros st nwl nrl. unfold commit_post, post_side.
  destruct (nwl >? 0).
  - destruct (compact_leads (put_lead st) (put_reqs st) 0 0) as [pl pr].
    cbn [get_lead get_reqs set_abuf set_put].
    destruct (nrl >? 0).
    + destruct (compact_leads (get_lead st) (get_reqs st) 0 0) as [gl gr]. cbn. repeat split; reflexivity.
    + cbn. rewrite app_nil_r. repeat split; reflexivity.
  - destruct (nrl >? 0).
    + destruct (compact_leads (get_lead st) (get_reqs st) 0 0) as [gl gr]. cbn. repeat split; reflexivity.
    + cbn. repeat split; reflexivity.
Qed.

Theorem commit_post_swaps_back : forall st nwl nrl st' ev,
  commit_post st nwl nrl = (st', ev) -> 0 < nwl ->
  forall l, In l (put_lead st) -> l_to_free l = true ->
  In (EvPutDone (l_tag l)) ev /\ (l_swapbuf l = true -> In (EvSwapBack (l_tag l)) ev).
Proof.
  intros st nwl nrl st' ev H Hn l Hl Hf.
  destruct (commit_post_fields st nwl nrl) as (_ & _ & _ & _ & _ & _ & Fev). rewrite H in Fev. cbn [snd] in Fev.
  subst ev. replace (nwl >? 0) with true by lia.
  assert (Hin : In l (filter l_to_free (put_lead st))) by (apply filter_In; now split).
  destruct (put_events_in l _ Hin) as [H1 H2].
  split; [|intros Hs]; apply in_or_app; left; auto.
Qed.

Theorem commit_post_swaps_only_flagged : forall st nwl nrl st' ev t,
  commit_post st nwl nrl = (st', ev) -> In (EvSwapBack t) ev ->
  exists l, In l (put_lead st) /\ l_to_free l = true /\ l_swapbuf l = true /\ l_tag l = t.
Proof.
  intros st nwl nrl st' ev t H Hin.
  destruct (commit_post_fields st nwl nrl) as (_ & _ & _ & _ & _ & _ & Fev). rewrite H in Fev. cbn [snd] in Fev.
  subst ev. apply in_app_or in Hin. destruct Hin as [Hin|Hin].
  - destruct (nwl >? 0); [|destruct Hin].
    apply put_events_swap in Hin. destruct Hin as (l & Hl & Hs & Ht).
    apply filter_In in Hl. destruct Hl as [Hl Hf]. exists l. auto.
  - destruct (nrl >? 0); [|destruct Hin].
    apply in_map_iff in Hin. destruct Hin as (l & Hl & _). discriminate Hl.
Qed.

(* the statement without `0 < nwl` is false (see commit_post_keeps_unflagged_counterexample) *)
Theorem commit_post_keeps_unflagged_partial : forall st nwl nrl st' ev,
  commit_post st nwl nrl = (st', ev) ->
  forall l, In l (put_lead st') -> In l (put_lead st) /\ (0 < nwl -> l_to_free l = false).
Proof.
  intros st nwl nrl st' ev H l Hl.
  destruct (commit_post_fields st nwl nrl) as (_ & _ & Fp & _). rewrite H in Fp. cbn [fst] in Fp.
  apply (f_equal fst) in Fp. cbn [fst] in Fp. rewrite Fp, post_side_leads in Hl.
  destruct (nwl >? 0) eqn:En.
  - apply filter_In in Hl. destruct Hl as [Hl Hf]. split; [exact Hl|]. intros _.
    destruct (l_to_free l); [discriminate Hf|reflexivity].
  - split; [exact Hl|lia].
Qed.

Definition ex_cp_st : nbstate :=
  mkst [ex_lead 0 (-1) 7 true true; ex_lead 2 (-1) 8 false true; ex_lead 4 (-1) 9 true false] []
       [dummy_req; dummy_req; dummy_req] [] 4 0 None 0 empty_disk.

Example commit_post_ex :
  snd (commit_post ex_cp_st 2 0) = [EvSwapBack 7; EvPutDone 7; EvPutDone 9] /\
  put_lead (fst (commit_post ex_cp_st 2 0)) = [ex_lead 2 (-1) 8 false true].
Proof. split; vm_compute; reflexivity. Qed.

(* with nwl = 0 nothing is processed: a lead that carries NC_REQ_TO_FREE stays in the queue *)
Example commit_post_keeps_unflagged_counterexample :
  let l := ex_lead 0 (-1) 7 true true in
  In l (put_lead (fst (commit_post ex_cp_st 0 0))) /\ l_to_free l = true.
Proof. split; vm_compute; auto. Qed.

(* ---------- cancel of ALL put requests ---------- *)
Theorem cancel_all_swaps_back : forall st num_req ids stat0,
  num_req = NC_PUT_REQ_ALL \/ num_req = NC_REQ_ALL ->
  put_lead (wr_st (cancel st num_req ids stat0)) = [] /\
  forall l, In l (put_lead st) ->
    In (EvPutDone (l_tag l)) (wr_ev (cancel st num_req ids stat0)) /\
    (l_swapbuf l = true -> In (EvSwapBack (l_tag l)) (wr_ev (cancel st num_req ids stat0))).
Proof.
  intros st num_req ids stat0 Hn. unfold NC_PUT_REQ_ALL, NC_REQ_ALL in Hn.
  unfold cancel. fold (put_events (put_lead st)).
  replace (num_req =? 0) with false by lia.
  replace (num_req <? NC_PUT_REQ_ALL) with false by (unfold NC_PUT_REQ_ALL; lia).
  replace (num_req <? 0) with true by lia.
  replace ((num_req =? NC_PUT_REQ_ALL) || (num_req =? NC_REQ_ALL)) with true
    by (unfold NC_PUT_REQ_ALL, NC_REQ_ALL; lia).
  cbn [wr_st wr_ev]. split; [reflexivity|].
  intros l Hl. destruct (put_events_in l _ Hl) as [H1 H2].
  split; [|intros Hs]; apply in_or_app; right; auto.
Qed.

Theorem cancel_all_swaps_only_flagged : forall st num_req ids stat0 t,
  num_req < 0 -> In (EvSwapBack t) (wr_ev (cancel st num_req ids stat0)) ->
  (num_req = NC_PUT_REQ_ALL \/ num_req = NC_REQ_ALL) /\
  exists l, In l (put_lead st) /\ l_swapbuf l = true /\ l_tag l = t.
Proof.
  intros st num_req ids stat0 t Hn. unfold cancel. fold (put_events (put_lead st)).
  replace (num_req =? 0) with false by lia.
  destruct (num_req <? NC_PUT_REQ_ALL); [intros []|].
  replace (num_req <? 0) with true by lia.
  cbn [wr_ev]. intros Hin. apply in_app_or in Hin. destruct Hin as [Hin|Hin].
  - destruct ((num_req =? NC_GET_REQ_ALL) || (num_req =? NC_REQ_ALL)); [|destruct Hin].
    apply in_map_iff in Hin. destruct Hin as (l & Hl & _). discriminate Hl.
  - destruct ((num_req =? NC_PUT_REQ_ALL) || (num_req =? NC_REQ_ALL)) eqn:Ecp; [|destruct Hin].
    split; [lia|]. now apply put_events_swap.
Qed.

Theorem cancel_all_get_keeps_puts : forall st ids stat0 t,
  put_lead (wr_st (cancel st NC_GET_REQ_ALL ids stat0)) = put_lead st /\
  ~ In (EvSwapBack t) (wr_ev (cancel st NC_GET_REQ_ALL ids stat0)).
Proof.
  intros st ids stat0 t. split; [reflexivity|].
  intros Hin. apply (cancel_all_swaps_only_flagged st NC_GET_REQ_ALL ids stat0 t) in Hin.
  - destruct Hin as [[H|H] _]; vm_compute in H; discriminate H.
  - reflexivity.
Qed.

Example cancel_all_ex :
  wr_ev (cancel ex_cp_st NC_PUT_REQ_ALL [] []) =
    [EvSwapBack 7; EvPutDone 7; EvSwapBack 8; EvPutDone 8; EvPutDone 9] /\
  put_lead (wr_st (cancel ex_cp_st NC_REQ_ALL [] [])) = [].
Proof. split; vm_compute; reflexivity. Qed.

(* ---------- cancel by request ids ---------- *)
Lemma l_set_off_self l : l_set_off l (l_nonlead_off l) = l.
Proof. destruct l; reflexivity. Qed.

Lemma remove_lead_some pl x : forall pl' f, remove_lead pl x = Some (pl', f) ->
  exists A B, pl = A ++ f :: B /\
    pl' = A ++ map (fun l' => l_set_off l' (l_nonlead_off l' - l_nonlead_num f)) B /\
    l_id f = x /\ x <> NC_REQ_NULL /\ Forall (fun l => l_id l <> x) A.
Proof.
  induction pl as [|a pl IH]; intros pl' f; cbn [remove_lead]; [discriminate|].
  destruct (negb (l_id a =? NC_REQ_NULL) && (l_id a =? x)) eqn:Em.
  - intros H. inversion H; subst; clear H. exists [], pl. repeat split; try constructor; lia.
  - destruct (remove_lead pl x) as [[r' f']|] eqn:Er; intros H; [|discriminate H].
    inversion H; subst; clear H.
    destruct (IH _ _ eq_refl) as (A & B & -> & -> & Hid & Hx & HA).
    exists (a :: A), B. repeat split; try assumption. constructor; [lia|exact HA].
Qed.

Lemma remove_lead_absent pl x : remove_lead pl x = None -> x <> NC_REQ_NULL ->
  Forall (fun l => l_id l <> x) pl.
Proof.
  intros H Hx. induction pl as [|a pl IH]; [constructor|]. cbn [remove_lead] in H.
  destruct (negb (l_id a =? NC_REQ_NULL) && (l_id a =? x)) eqn:Em; [discriminate|].
  destruct (remove_lead pl x) as [[r' f']|]; [discriminate|]. constructor; [lia|apply IH; reflexivity].
Qed.

Lemma remove_lead_sim pl x pl' f : remove_lead pl x = Some (pl', f) ->
  In f pl /\ l_id f = x /\ x <> NC_REQ_NULL /\
  forall l', In l' pl' -> exists l, In l pl /\ l_id l = l_id l' /\ l_tag l = l_tag l' /\ l_swapbuf l = l_swapbuf l'.
Proof.
  intros H. destruct (remove_lead_some _ _ _ _ H) as (A & B & -> & -> & Hid & Hx & _).
  split; [apply in_elt|]. split; [exact Hid|]. split; [exact Hx|].
  intros l' Hl'. apply in_app_or in Hl'. destruct Hl' as [Hl'|Hl'].
  - exists l'. split; [apply in_or_app; now left|]. repeat split.
  - apply in_map_iff in Hl'. destruct Hl' as (l0 & <- & Hl0).
    exists l0. split; [apply in_or_app; right; now right|]. repeat split.
Qed.

Lemma remove_lead_keeps pl y pl' f : remove_lead pl y = Some (pl', f) ->
  forall l, In l pl -> l_id l <> y -> exists off, In (l_set_off l off) pl'.
Proof.
  intros H l Hl Hne. destruct (remove_lead_some _ _ _ _ H) as (A & B & -> & -> & Hid & _).
  apply in_app_or in Hl. destruct Hl as [Hl|[->|Hl]]; [|congruence|].
  - exists (l_nonlead_off l). rewrite l_set_off_self. apply in_or_app. now left.
  - eexists. apply in_or_app. right. apply in_map_iff. exists l. split; [reflexivity|exact Hl].
Qed.

(* (tag, swap flag) of the put leads carrying id x, in queue order: a cancel of x takes the head *)
Definition byid (pl : list lead) (x : Z) : list (Z * bool) :=
  map (fun l => (l_tag l, l_swapbuf l)) (filter (fun l => l_id l =? x) pl).

Lemma byid_cons a pl x :
  byid (a :: pl) x = (if l_id a =? x then [(l_tag a, l_swapbuf a)] else []) ++ byid pl x.
Proof. unfold byid. cbn [filter]. destruct (l_id a =? x); reflexivity. Qed.

Lemma byid_app a b x : byid (a ++ b) x = byid a x ++ byid b x.
Proof. unfold byid. now rewrite filter_app, map_app. Qed.

Lemma byid_absent pl x : Forall (fun l => l_id l <> x) pl -> byid pl x = [].
Proof.
  induction 1 as [|b q Hb _ IH]; [reflexivity|]. rewrite byid_cons, IH.
  destruct (Z.eqb_spec (l_id b) x); [contradiction|reflexivity].
Qed.

Lemma byid_nil_absent pl x : byid pl x = [] -> forall l, In l pl -> l_id l <> x.
Proof.
  intros H l Hl E. apply map_eq_nil in H.
  assert (Hin : In l (filter (fun l => l_id l =? x) pl)) by (apply filter_In; split; [exact Hl|lia]).
  rewrite H in Hin. destruct Hin.
Qed.

Lemma byid_shift (f : lead -> Z) pl x : byid (map (fun l' => l_set_off l' (f l')) pl) x = byid pl x.
Proof. induction pl as [|a pl IH]; [reflexivity|]. cbn [map]. rewrite !byid_cons, IH. reflexivity. Qed.

Lemma byid_first pre l post : Forall (fun l' => l_id l' <> l_id l) pre ->
  byid (pre ++ l :: post) (l_id l) = (l_tag l, l_swapbuf l) :: byid post (l_id l).
Proof. intros H. rewrite byid_app, byid_cons, Z.eqb_refl, (byid_absent pre _ H). reflexivity. Qed.

Lemma remove_lead_byid pl y pl' f x : remove_lead pl y = Some (pl', f) ->
  byid pl x = (if y =? x then [(l_tag f, l_swapbuf f)] else []) ++ byid pl' x.
Proof.
  intros H. destruct (remove_lead_some _ _ _ _ H) as (A & B & -> & -> & Hid & _ & HA).
  rewrite !byid_app, byid_cons, byid_shift, Hid.
  destruct (Z.eqb_spec y x) as [->|Hne]; [rewrite (byid_absent A x HA)|]; reflexivity.
Qed.

Definition cres := (nbstate * list Z * list Z * Z * list event)%type.
Definition c_st (r : cres) : nbstate := fst (fst (fst (fst r))).
Definition c_ev (r : cres) : list event := snd r.

Ltac cancel_step :=
  match goal with |- context [cancel_ids ?a ?b ?c ?d ?e ?f] =>
    let E := fresh "E" in
    destruct (cancel_ids a b c d e f) as [[[[?q1 ?q2] ?q3] ?q4] ?q5] eqn:E;
    eexists _, _, _, _;
    split; [symmetry; exact (f_equal c_st E)|];
    split; [symmetry; exact (f_equal c_ev E)|]
  end.

(* one step of the loop of ncmpio_cancel, as far as the put queue and the events go *)
Lemma cancel_ids_cons st x r i stat rc ev :
  exists st1 stat1 rc1 ev1,
    c_st (cancel_ids st (x :: r) i stat rc ev) = c_st (cancel_ids st1 r (i + 1) stat1 rc1 ev1) /\
    c_ev (cancel_ids st (x :: r) i stat rc ev) = c_ev (cancel_ids st1 r (i + 1) stat1 rc1 ev1) /\
    ((put_lead st1 = put_lead st /\ (ev1 = ev \/ exists tg, ev1 = ev ++ [EvGetCancelled tg]) /\
      (x = NC_REQ_NULL \/ Z.land x 1 = 1 \/ remove_lead (put_lead st) x = None)) \/
     (x <> NC_REQ_NULL /\ Z.land x 1 <> 1 /\
      exists pl l, remove_lead (put_lead st) x = Some (pl, l) /\ put_lead st1 = pl /\
        ev1 = ev ++ (if l_swapbuf l then [EvSwapBack (l_tag l)] else []) ++ [EvPutDone (l_tag l)])).
Proof.
  cbn [cancel_ids].
  destruct (Z.eqb_spec x NC_REQ_NULL) as [Hx|Hx].
  { cancel_step. left. split; [reflexivity|]. split; [now left|now left]. }
  destruct (Z.eqb_spec (Z.land x 1) 1) as [Hodd|Hodd].
  { destruct (remove_lead (get_lead st) x) as [[gl l]|].
    - cancel_step. left. split; [reflexivity|]. split; [right; eexists; reflexivity|right; now left].
    - cancel_step. left. split; [reflexivity|]. split; [now left|right; now left]. }
  destruct (remove_lead (put_lead st) x) as [[pl l]|] eqn:Er.
  - cancel_step. right. split; [exact Hx|]. split; [exact Hodd|]. exists pl, l.
    split; [reflexivity|]. split; reflexivity.
  - cancel_step. left. split; [reflexivity|]. split; [now left|right; now right].
Qed.

Lemma cancel_ids_nil st i stat rc ev : c_ev (cancel_ids st [] i stat rc ev) = ev /\ c_st (cancel_ids st [] i stat rc ev) = st.
Proof. split; reflexivity. Qed.

Lemma cancel_ids_ev_incl ids : forall st i stat rc ev e,
  In e ev -> In e (c_ev (cancel_ids st ids i stat rc ev)).
Proof.
  induction ids as [|x r IH]; intros st i stat rc ev e He; [exact He|].
  destruct (cancel_ids_cons st x r i stat rc ev) as (st1 & stat1 & rc1 & ev1 & _ & Eev & Hc).
  rewrite Eev. apply IH.
  destruct Hc as [(_ & Hev & _)|(_ & _ & pl & l & _ & _ & Hev)].
  - destruct Hev as [->|(tg & ->)]; [exact He|]. apply in_or_app. now left.
  - subst ev1. apply in_or_app. now left.
Qed.

Lemma cancel_ids_swaps_back_gen ids : forall st i stat rc ev x t s q,
  byid (put_lead st) x = (t, s) :: q -> In x ids -> x <> NC_REQ_NULL -> Z.land x 1 <> 1 ->
  In (EvPutDone t) (c_ev (cancel_ids st ids i stat rc ev)) /\
  (s = true -> In (EvSwapBack t) (c_ev (cancel_ids st ids i stat rc ev))).
Proof.
  induction ids as [|a r IH]; intros st i stat rc ev x t s q Hf Hin Hx Hodd; [destruct Hin|].
  destruct (cancel_ids_cons st a r i stat rc ev) as (st1 & stat1 & rc1 & ev1 & _ & Eev & Hc).
  rewrite Eev.
  destruct Hc as [(Hpl & _ & Hwhy)|(Ha & Hao & pl & l & Er & Hpl & Hev)].
  - assert (Hne : a <> x).
    { intros ->. destruct Hwhy as [H|[H|H]]; [contradiction|contradiction|].
      rewrite (byid_absent _ _ (remove_lead_absent _ _ H Hx)) in Hf. discriminate Hf. }
    destruct Hin as [Hin|Hin]; [contradiction|].
    apply (IH st1 (i + 1) stat1 rc1 ev1 x t s q); try assumption. now rewrite Hpl.
  - rewrite (remove_lead_byid _ _ _ _ x Er) in Hf. destruct (Z.eqb_spec a x) as [->|Hne].
    + cbn [app] in Hf. inversion Hf; subst t s q.
      split; [|intros Hst]; apply cancel_ids_ev_incl; rewrite Hev.
      * apply in_or_app. right. apply in_or_app. right. now left.
      * apply in_or_app. right. apply in_or_app. left. rewrite Hst. now left.
    + destruct Hin as [Hin|Hin]; [contradiction|].
      apply (IH st1 (i + 1) stat1 rc1 ev1 x t s q); try assumption. rewrite Hpl. exact Hf.
Qed.

Lemma cancel_ids_swaps_only_gen ids : forall st i stat rc ev t,
  In (EvSwapBack t) (c_ev (cancel_ids st ids i stat rc ev)) ->
  In (EvSwapBack t) ev \/
  exists l, In l (put_lead st) /\ l_swapbuf l = true /\ l_tag l = t /\ In (l_id l) ids /\ l_id l <> NC_REQ_NULL.
Proof.
  induction ids as [|a r IH]; intros st i stat rc ev t Hin; [now left|].
  destruct (cancel_ids_cons st a r i stat rc ev) as (st1 & stat1 & rc1 & ev1 & _ & Eev & Hc).
  rewrite Eev in Hin. apply IH in Hin.
  destruct Hc as [(Hpl & Hev & _)|(Ha & Hao & pl & l & Er & Hpl & Hev)].
  - destruct Hin as [Hin|(l' & Hl' & Hs & Ht & Hid & Hnn)].
    + destruct Hev as [->|(tg & ->)]; [now left|].
      apply in_app_or in Hin. destruct Hin as [Hin|[Hin|[]]]; [now left|discriminate Hin].
    + right. exists l'. rewrite Hpl in Hl'. split; [exact Hl'|]. split; [exact Hs|]. split; [exact Ht|].
      split; [now right|exact Hnn].
  - destruct (remove_lead_sim _ _ _ _ Er) as (Hlin & Hlid & _ & Hsim).
    destruct Hin as [Hin|(l' & Hl' & Hs & Ht & Hid & Hnn)].
    + rewrite Hev in Hin. apply in_app_or in Hin. destruct Hin as [Hin|Hin]; [now left|].
      right. exists l. apply in_app_or in Hin. destruct Hin as [Hin|[Hin|[]]]; [|discriminate Hin].
      destruct (l_swapbuf l) eqn:Hs; [|destruct Hin]. destruct Hin as [Hin|[]]. inversion Hin.
      split; [exact Hlin|]. split; [reflexivity|]. split; [reflexivity|].
      split; [left; now symmetry|congruence].
    + right. rewrite Hpl in Hl'. destruct (Hsim l' Hl') as (l0 & Hl0 & H1 & H2 & H3).
      exists l0. split; [exact Hl0|]. split; [congruence|]. split; [congruence|].
      split; [right; congruence|congruence].
Qed.

Lemma cancel_pos st num_req ids stat0 : 0 < num_req ->
  wr_ev (cancel st num_req ids stat0) = c_ev (cancel_ids st ids 0 stat0 NC_NOERR []) /\
  put_lead (wr_st (cancel st num_req ids stat0)) = put_lead (c_st (cancel_ids st ids 0 stat0 NC_NOERR [])).
Proof.
  intros Hn. unfold cancel.
  replace (num_req =? 0) with false by lia.
  replace (num_req <? NC_PUT_REQ_ALL) with false by (unfold NC_PUT_REQ_ALL; lia).
  replace (num_req <? 0) with false by lia.
  destruct (cancel_ids st ids 0 stat0 NC_NOERR []) as [[[[q1 q2] q3] q4] q5]. split; reflexivity.
Qed.

(* a put lead that is the first of the queue with its id, whose id is named in req_ids, is
   cancelled: it leaves the queue (EvPutDone) and the caller's buffer is swapped back if flagged *)
Theorem cancel_ids_swaps_back : forall st num_req ids stat0 pre l post,
  0 < num_req -> put_lead st = pre ++ l :: post -> Forall (fun l' => l_id l' <> l_id l) pre ->
  In (l_id l) ids -> l_id l <> NC_REQ_NULL -> Z.land (l_id l) 1 <> 1 ->
  In (EvPutDone (l_tag l)) (wr_ev (cancel st num_req ids stat0)) /\
  (l_swapbuf l = true -> In (EvSwapBack (l_tag l)) (wr_ev (cancel st num_req ids stat0))).
Proof.
  intros st num_req ids stat0 pre l post Hn Hpl Hpre Hin Hx Hodd.
  rewrite (proj1 (cancel_pos st num_req ids stat0 Hn)).
  apply (cancel_ids_swaps_back_gen ids st 0 stat0 NC_NOERR [] (l_id l) (l_tag l) (l_swapbuf l) (byid post (l_id l)));
    try assumption.
  rewrite Hpl. now apply byid_first.
Qed.

Theorem cancel_ids_swaps_only_flagged : forall st num_req ids stat0 t,
  0 < num_req -> In (EvSwapBack t) (wr_ev (cancel st num_req ids stat0)) ->
  exists l, In l (put_lead st) /\ l_swapbuf l = true /\ l_tag l = t /\ In (l_id l) ids /\ l_id l <> NC_REQ_NULL.
Proof.
  intros st num_req ids stat0 t Hn Hin. rewrite (proj1 (cancel_pos st num_req ids stat0 Hn)) in Hin.
  apply cancel_ids_swaps_only_gen in Hin. destruct Hin as [[]|H]. exact H.
Qed.

Example cancel_ids_ex :
  wr_ev (cancel ex_cp_st 2 [4; 0] [0; 0]) = [EvPutDone 9; EvSwapBack 7; EvPutDone 7] /\
  map l_tag (put_lead (wr_st (cancel ex_cp_st 2 [4; 0] [0; 0]))) = [8] /\
  put_lead ex_cp_st = [] ++ ex_lead 0 (-1) 7 true true :: [ex_lead 2 (-1) 8 false true; ex_lead 4 (-1) 9 true false].
Proof. repeat split; vm_compute; reflexivity. Qed.

(* ---------- cancel by ids: what stays, what leaves ---------- *)
Lemma cancel_ids_keeps_gen ids : forall st i stat rc ev l,
  In l (put_lead st) -> ~ In (l_id l) ids ->
  exists off, In (l_set_off l off) (put_lead (c_st (cancel_ids st ids i stat rc ev))).
Proof.
  induction ids as [|a r IH]; intros st i stat rc ev l Hl Hni.
  - exists (l_nonlead_off l). rewrite l_set_off_self. exact Hl.
  - destruct (cancel_ids_cons st a r i stat rc ev) as (st1 & stat1 & rc1 & ev1 & Est & _ & Hc).
    rewrite Est.
    assert (Hne : l_id l <> a) by (intros E; apply Hni; left; now symmetry).
    assert (Hnr : ~ In (l_id l) r) by (intros E; apply Hni; now right).
    destruct Hc as [(Hpl & _ & _)|(_ & _ & pl & f & Er & Hpl & _)].
    + apply IH; [now rewrite Hpl|exact Hnr].
    + destruct (remove_lead_keeps _ _ _ _ Er l Hl Hne) as (off & Hoff).
      rewrite <- Hpl in Hoff.
      destruct (IH st1 (i + 1) stat1 rc1 ev1 (l_set_off l off) Hoff Hnr) as (off' & Hoff').
      exists off'. exact Hoff'.
Qed.

(* a put lead whose id is not named stays pending, untouched except for its position in the
   non-lead queue (in particular it keeps its swap flag, buffer address and pool index) *)
Theorem cancel_ids_keeps_unnamed : forall st num_req ids stat0 l,
  0 < num_req -> In l (put_lead st) -> ~ In (l_id l) ids ->
  exists off, In (l_set_off l off) (put_lead (wr_st (cancel st num_req ids stat0))).
Proof.
  intros st num_req ids stat0 l Hn Hl Hni. rewrite (proj2 (cancel_pos st num_req ids stat0 Hn)).
  now apply cancel_ids_keeps_gen.
Qed.

Lemma cancel_ids_byid ids : forall st i stat rc ev x, x <> NC_REQ_NULL -> Z.land x 1 <> 1 ->
  byid (put_lead (c_st (cancel_ids st ids i stat rc ev))) x =
  skipn (count_occ Z.eq_dec ids x) (byid (put_lead st) x).
Proof.
  induction ids as [|a r IH]; intros st i stat rc ev x Hx Hodd; [reflexivity|].
  destruct (cancel_ids_cons st a r i stat rc ev) as (st1 & stat1 & rc1 & ev1 & Est & _ & Hc).
  rewrite Est, IH by assumption. cbn [count_occ]. destruct (Z.eq_dec a x) as [->|Hne].
  - destruct Hc as [(Hpl & _ & Hwhy)|(_ & _ & pl & f & Er & Hpl & _)]; rewrite Hpl.
    + destruct Hwhy as [H|[H|H]]; [contradiction|contradiction|].
      rewrite (byid_absent _ _ (remove_lead_absent _ _ H Hx)). now rewrite !skipn_nil.
    + rewrite (remove_lead_byid _ _ _ _ x Er), Z.eqb_refl. reflexivity.
  - destruct Hc as [(Hpl & _ & _)|(_ & _ & pl & f & Er & Hpl & _)]; rewrite Hpl; [reflexivity|].
    rewrite (remove_lead_byid _ _ _ _ x Er). destruct (Z.eqb_spec a x); [contradiction|reflexivity].
Qed.

(* a named put request (valid even id carried by exactly one lead) is no longer in the queue *)
Theorem cancel_ids_removes_named : forall st num_req ids stat0 pre l post,
  0 < num_req -> put_lead st = pre ++ l :: post ->
  Forall (fun l' => l_id l' <> l_id l) pre -> Forall (fun l' => l_id l' <> l_id l) post ->
  In (l_id l) ids -> l_id l <> NC_REQ_NULL -> Z.land (l_id l) 1 <> 1 ->
  forall l', In l' (put_lead (wr_st (cancel st num_req ids stat0))) -> l_id l' <> l_id l.
Proof.
  intros st num_req ids stat0 pre l post Hn Hpl Hpre Hpost Hin Hx Hodd.
  rewrite (proj2 (cancel_pos st num_req ids stat0 Hn)).
  apply byid_nil_absent. rewrite cancel_ids_byid by assumption.
  rewrite Hpl, (byid_first _ _ _ Hpre), (byid_absent post _ Hpost).
  apply (count_occ_In Z.eq_dec) in Hin.
  destruct (count_occ Z.eq_dec ids (l_id l)) as [|n]; [lia|]. cbn [skipn]. apply skipn_nil.
Qed.

(* ---------- close with pending requests ---------- *)
Theorem close_pending_swaps_back : forall st l, In l (put_lead st) -> l_swapbuf l = true ->
  In (EvSwapBack (l_tag l)) (wr_ev (close_pending st)).
Proof.
  intros st l Hl Hs. unfold close_pending. cbn [wr_ev]. apply in_or_app. right.
  set (r1 := if 0 <? Zlen (get_lead st) then cancel st NC_GET_REQ_ALL [] [] else mkwr st NC_NOERR [] [] []).
  assert (Hpl : put_lead (wr_st r1) = put_lead st).
  { unfold r1. destruct (0 <? Zlen (get_lead st)); reflexivity. }
  rewrite Hpl.
  assert (Hpos : 0 <? Zlen (put_lead st) = true).
  { destruct (put_lead st) as [|a pl]; [destruct Hl|]. rewrite Zlen_cons. pose proof (Zlen_nonneg pl). lia. }
  rewrite Hpos.
  destruct (cancel_all_swaps_back (wr_st r1) NC_PUT_REQ_ALL [] [] (or_introl eq_refl)) as [_ H].
  rewrite Hpl in H. destruct (H l Hl) as [_ H2]. now apply H2.
Qed.

Example close_pending_ex :
  wr_ev (close_pending ex_cp_st) = [EvSwapBack 7; EvPutDone 7; EvSwapBack 8; EvPutDone 8; EvPutDone 9] /\
  wr_rc (close_pending ex_cp_st) = NC_EPENDING.
Proof. split; vm_compute; reflexivity. Qed.

(* ====================================================================== *)
(* a bput copies the data into the pool at posting time                   *)
(* ====================================================================== *)
Lemma map_zseq_znth (bs : list byte) : forall o (f : Z -> byte),
  (forall i, 0 <= i < Zlen bs -> f (o + i) = znth bs i 0) -> map f (zseq o (length bs)) = bs.
Proof.
  induction bs as [|b bs IH]; intros o f H; cbn [length zseq map]; [reflexivity|].
  pose proof (Zlen_nonneg bs) as Hnn. f_equal.
  - specialize (H 0). rewrite Z.add_0_r in H. rewrite H; [reflexivity|rewrite Zlen_cons; lia].
  - apply IH. intros i Hi. replace (o + 1 + i) with (o + (i + 1)) by lia.
    rewrite H by (rewrite Zlen_cons; lia). rewrite znth_cons_pos by lia. f_equal. lia.
Qed.

Lemma dk_read_write_same d o bs : dk_read (dk_write d o bs) o (Zlen bs) = bs.
Proof.
  unfold dk_read, zrange. unfold Zlen at 1. rewrite Nat2Z.id. apply map_zseq_znth.
  intros i Hi. rewrite dk_get_write.
  replace ((o <=? o + i) && (o + i <? o + Zlen bs)) with true by lia. f_equal. lia.
Qed.

Lemma bput_outcome_captures st a n data st' id :
  bput_outcome st a n data (st', id, NC_NOERR) -> id <> NC_REQ_NULL -> ab_wf a -> Zlen data = n ->
  exists l, In l (put_lead st') /\ l_id l = id /\ l_xaddr l = ABUF_BASE + ab_used a /\
            0 <= l_abuf_index l /\
            dk_read (st_mem st') (l_xaddr l) (Zlen data) = data /\
            ABUF_BASE <= l_xaddr l /\ l_xaddr l + Zlen data <= ABUF_BASE + ab_alloc a.
Proof.
  intros Ho Hid Hwf Hlen. pose proof (ab_wf_used_nonneg a Hwf) as Hnn.
  destruct Ho as [(_ & E)|[(_ & _ & E)|(_ & Hi & pl & pr & id0 & l & E & Hl & Hlid & Hlx & Hli)]].
  - congruence.
  - apply (f_equal snd) in E. vm_compute in E. discriminate E.
  - pose proof (f_equal (fun r => fst (fst r)) E) as Hst.
    pose proof (f_equal (fun r => snd (fst r)) E) as Hid0.
    cbv beta in Hst, Hid0. cbn [fst snd] in Hst, Hid0. subst st' id.
    exists l. cbn [put_lead st_mem].
    unfold abuf_insufficient in Hi.
    split; [exact Hl|]. split; [exact Hlid|]. split; [exact Hlx|].
    split; [rewrite Hli; apply Zlen_nonneg|].
    split; [rewrite Hlx; apply dk_read_write_same|].
    rewrite Hlx. split; lia.
Qed.

Theorem bput_captures_at_post : forall st g start count stride xaddr data sw tag st' id a,
  st_abuf st = Some a -> ab_wf a ->
  post_varm st KBput g start count stride xaddr data sw tag = (st', id, NC_NOERR) ->
  id <> NC_REQ_NULL -> Zlen data = zprod count * g_xsz g ->
  exists l, In l (put_lead st') /\ l_id l = id /\ l_xaddr l = ABUF_BASE + ab_used a /\
            0 <= l_abuf_index l /\
            dk_read (st_mem st') (l_xaddr l) (Zlen data) = data /\
            ABUF_BASE <= l_xaddr l /\ l_xaddr l + Zlen data <= ABUF_BASE + ab_alloc a.
Proof.
  intros st g start count stride xaddr data sw tag st' id a Hab Hwf Hpost Hid Hlen.
  pose proof (post_varm_bput_cases st g start count stride xaddr data sw tag a Hab) as Ho.
  rewrite Hpost in Ho. exact (bput_outcome_captures _ _ _ _ _ _ Ho Hid Hwf Hlen).
Qed.

Example bput_captures_ex :
  let st := ex_st (mkabuf 32 16 [(true, 16)]) in
  let r := post_varm st KBput ex_geom [0] [3] None 0 [1;2;3;4;5;6;7;8;9;10;11;12] false 5 in
  ab_wf (mkabuf 32 16 [(true, 16)]) /\ snd r = NC_NOERR /\ snd (fst r) = 0 /\
  dk_read (st_mem (fst (fst r))) (ABUF_BASE + 16) 12 = [1;2;3;4;5;6;7;8;9;10;11;12] /\
  map l_abuf_index (put_lead (fst (fst r))) = [1].
Proof.
  cbv zeta. split; [|repeat split; vm_compute; reflexivity].
  unfold ab_wf. cbn. repeat split; [repeat constructor; cbn; lia|lia].
Qed.

Theorem bput_varn_captures_at_post : forall st g parts xaddr data sw tag st' id a,
  st_abuf st = Some a -> ab_wf a ->
  post_varn st KBput g parts xaddr data sw tag = (st', id, NC_NOERR) ->
  id <> NC_REQ_NULL -> Zlen data = varn_nbytes g parts ->
  exists l, In l (put_lead st') /\ l_id l = id /\ l_xaddr l = ABUF_BASE + ab_used a /\
            0 <= l_abuf_index l /\
            dk_read (st_mem st') (l_xaddr l) (Zlen data) = data /\
            ABUF_BASE <= l_xaddr l /\ l_xaddr l + Zlen data <= ABUF_BASE + ab_alloc a.
Proof.
  intros st g parts xaddr data sw tag st' id a Hab Hwf Hpost Hid Hlen.
  pose proof (post_varn_bput_cases st g parts xaddr data sw tag a Hab) as Ho.
  rewrite Hpost in Ho. exact (bput_outcome_captures _ _ _ _ _ _ Ho Hid Hwf Hlen).
Qed.

(* ====================================================================== *)
(* element count (bnelems) vs buftype count (bufcount) in the blocking put   *)
(* ====================================================================== *)
Theorem put_buffer_restored_bnelems : forall api nconv nswap contig himap h nbytes bt buf xsz,
  put_blocking_buffer (put_swaps_user_buf api nconv nswap contig himap h nbytes) bt buf xsz = buf.
Proof.
  intros. unfold put_blocking_buffer. apply user_buf_restored.
Qed.

Definition swap_back_over_mpi_count_full : Prop :=
  forall flag bt buf xsz, put_blocking_buffer_mpi_count flag bt buf xsz = buf.
(* witness: 2 units of MPI_Type_contiguous(2, MPI_SHORT): swapping back over bufcount = 2 of the 4 elements leaves the
   second half of the buffer byte-swapped *)
Theorem swap_back_over_mpi_count_refuted : ~ swap_back_over_mpi_count_full.
Proof.
  intro H. specialize (H true (mkbt 2 2 true) [1; 2; 3; 4; 5; 6; 7; 8] 2).
  vm_compute in H. discriminate H.
Qed.
Example put_buffer_restored_bnelems_ex :
  put_blocking_buffer true (mkbt 2 2 true) [1; 2; 3; 4; 5; 6; 7; 8] 2 = [1; 2; 3; 4; 5; 6; 7; 8]
  /\ user_buf_in_flight true [1; 2; 3; 4; 5; 6; 7; 8] (bt_bnelems (mkbt 2 2 true)) 2 = [2; 1; 4; 3; 6; 5; 8; 7].
Proof. vm_compute. split; reflexivity. Qed.
Print Assumptions put_buffer_restored_bnelems.
