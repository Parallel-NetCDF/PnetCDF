(* Proofs_Meta.v — proofs about the metadata / namespace model Meta.v (property C07).
   Part 1: list helpers.  Part 2: the hash-bucket name table, for EVERY hash function whose range is below
   the table size; every update is a sequence of three moves on the buckets.  Part 3: attribute arrays and
   one open file: invariant, no undefined behaviour, refinement of the linear model (the attribute
   operations through their common tail).  Part 3b: the linear model keeps the header representable and
   obeys the write discipline.  Part 4: worlds and histories, name/id agreement, data-mode updates on disk,
   persistence (composition with Proofs_Header).  Part 5: the instance that is run.  Part 6: no growth in
   data mode.  Part 7: the order inside a bucket does not matter. *)
From Pnc Require Import Meta Proofs_Base Proofs_Lists Proofs_Header.
Require Import ZifyBool Arith Permutation.
Local Open Scope Z_scope.

Local Arguments Z.mul : simpl never.
Local Arguments Z.add : simpl never.
Local Arguments Z.sub : simpl never.
Local Arguments Z.div : simpl never.
Local Arguments Z.modulo : simpl never.
Local Arguments Z.pow : simpl never.
Local Arguments Z.of_nat : simpl never.
Local Arguments Z.to_nat : simpl never.

(** * Part 1: list helpers *)

Lemma bytes_eqb_refl : forall a, bytes_eqb a a = true.
Proof. exact Proofs_Base.bytes_eqb_refl. Qed.

Lemma nth_error_some_lt : forall A (l : list A) n x, nth_error l n = Some x -> (n < length l)%nat.
Proof. intros. apply nth_error_Some. congruence. Qed.

Lemma nth_error_lt_some : forall A (l : list A) n, (n < length l)%nat -> exists x, nth_error l n = Some x.
Proof. intros. destruct (nth_error l n) eqn:E; eauto. apply nth_error_None in E. lia. Qed.

Lemma nth_error_snoc : forall A (l : list A) x j,
  nth_error (l ++ [x]) j = if Nat.eqb j (length l) then Some x else nth_error l j.
Proof.
  intros A l x j. destruct (Nat.eqb_spec j (length l)) as [->|Hne].
  - rewrite nth_error_app2, Nat.sub_diag by lia. reflexivity.
  - destruct (Nat.lt_ge_cases j (length l)) as [H|H]; [apply nth_error_app1; assumption|].
    rewrite (proj2 (nth_error_None l j) H). apply nth_error_None. rewrite app_length. simpl. lia.
Qed.

Lemma NoDup_snoc_new : forall A (l : list A) x, NoDup l -> ~ In x l -> NoDup (l ++ [x]).
Proof.
  intros. apply NoDup_app_intro; [assumption | constructor; [intros []|constructor] |].
  intros y Hy [E|[]]. subst. contradiction.
Qed.

Lemma set_nth_length : forall A n (l : list A) x, length (set_nth n l x) = length l.
Proof. induction n; destruct l; simpl; intros; auto. Qed.

Lemma nth_error_set_nth : forall A i (l : list A) x j, (i < length l)%nat ->
  nth_error (set_nth i l x) j = if Nat.eqb j i then Some x else nth_error l j.
Proof. induction i; destruct l; destruct j; simpl; intros; try lia; auto. apply IHi. lia. Qed.

Lemma set_nth_same : forall A n (l : list A) x, nth_error l n = Some x -> set_nth n l x = l.
Proof.
  induction n; destruct l; simpl; intros; try discriminate; auto.
  - congruence.
  - f_equal. auto.
Qed.

Lemma map_set_nth : forall A B (f : A -> B) n l x, map f (set_nth n l x) = set_nth n (map f l) (f x).
Proof. induction n; destruct l; simpl; intros; auto. f_equal. auto. Qed.

Lemma del_nth_length : forall A n (l : list A), (n < length l)%nat ->
  length (del_nth n l) = pred (length l).
Proof.
  induction n; destruct l; simpl; intros; try lia.
  rewrite IHn by lia. destruct l; simpl in *; lia.
Qed.

Lemma nth_error_del_nth : forall A i (l : list A) j,
  nth_error (del_nth i l) j = nth_error l (if Nat.ltb j i then j else S j).
Proof.
  induction i; intros l j; destruct l; simpl.
  - destruct j; reflexivity.
  - reflexivity.
  - destruct (Nat.ltb j (S i)), j; reflexivity.
  - destruct j; [reflexivity|]. simpl. rewrite IHi. change (S j <? S i)%nat with (j <? i)%nat.
    destruct (j <? i)%nat; reflexivity.
Qed.

Lemma map_del_nth : forall A B (f : A -> B) n l, map f (del_nth n l) = del_nth n (map f l).
Proof. induction n; destruct l; simpl; intros; auto. f_equal. auto. Qed.

Lemma find_name_some : forall nm l i, find_name nm l = Some i ->
  nth_error l i = Some nm /\ forall j, (j < i)%nat -> nth_error l j <> Some nm.
Proof.
  induction l as [|x l IH]; simpl; intros i H; [discriminate|].
  destruct (bytes_eqb x nm) eqn:E.
  - inversion H; subst. apply bytes_eqb_iff in E. subst. split; [reflexivity|]. intros; lia.
  - destruct (find_name nm l) as [k|] eqn:F; simpl in H; [|discriminate]. inversion H; subst.
    destruct (IH k eq_refl) as [H1 H2]. split; [exact H1|].
    intros j Hj. destruct j; simpl.
    + apply bytes_eqb_neq in E. congruence.
    + apply H2. lia.
Qed.

Lemma find_name_none : forall nm l, find_name nm l = None <-> ~ In nm l.
Proof.
  induction l as [|x l IH]; simpl.
  - split; auto.
  - destruct (bytes_eqb x nm) eqn:E.
    + apply bytes_eqb_iff in E. subst. split; [discriminate | intro H; exfalso; apply H; auto].
    + apply bytes_eqb_neq in E. destruct (find_name nm l); simpl.
      * split; [discriminate|]. intro H. exfalso. destruct IH as [_ IH]. 
        assert (~ In nm l) by tauto. specialize (IH H0). discriminate.
      * split; auto. intros _ [H|H]; [congruence|]. apply IH in H; auto.
Qed.

Lemma find_name_unique : forall nm l i, NoDup l -> nth_error l i = Some nm -> find_name nm l = Some i.
Proof.
  intros nm l i Hnd Hi.
  destruct (find_name nm l) as [j|] eqn:F.
  - apply find_name_some in F. destruct F as [Hj _].
    f_equal. eapply NoDup_nth_error; eauto.
    + eapply nth_error_some_lt; eauto.
    + congruence.
  - apply find_name_none in F. exfalso. apply F. eapply nth_error_In; eauto.
Qed.

Lemma remove_id_in : forall id ids, NoDup ids -> In id ids ->
  exists ids', remove_id id ids = Some ids' /\ NoDup ids' /\
               forall j, In j ids' <-> (In j ids /\ j <> id).
Proof.
  induction ids as [|x ids IH]; simpl; intros Hnd Hin; [contradiction|].
  inversion Hnd; subst.
  destruct (Nat.eqb x id) eqn:E.
  - apply Nat.eqb_eq in E. subst. exists ids. split; [reflexivity|]. split; [assumption|].
    intro j. split.
    + intro Hj. split; [auto|]. intro; subst. contradiction.
    + intros [[Hj|Hj] Hne]; [congruence | assumption].
  - apply Nat.eqb_neq in E. destruct Hin as [Hin|Hin]; [contradiction|].
    destruct (IH H2 Hin) as (ids' & Hr & Hnd' & Hiff). rewrite Hr. simpl.
    exists (x :: ids'). split; [reflexivity|]. split.
    + constructor; [|assumption]. intro Hx. apply Hiff in Hx. tauto.
    + intro j. simpl. rewrite Hiff. split.
      * intros [Hj|[Hj Hne]]; [subst; split; auto | split; auto].
      * intros [[Hj|Hj] Hne]; auto.
Qed.

Lemma remove_id_notin : forall id ids, ~ In id ids -> remove_id id ids = None.
Proof.
  induction ids as [|x ids IH]; simpl; intro H; [reflexivity|].
  destruct (Nat.eqb x id) eqn:E.
  - apply Nat.eqb_eq in E. subst. exfalso. apply H. auto.
  - rewrite IH; [reflexivity|]. intro; apply H; auto.
Qed.

Lemma In_set_nth : forall A (l : list A) i x z, In z (set_nth i l x) -> z = x \/ In z l.
Proof.
  induction l as [|a l IH]; intros i x z; simpl; [destruct i; intros []|].
  destruct i; simpl; intros [H|H]; auto. apply IH in H. tauto.
Qed.

Lemma NoDup_set_nth_new : forall A (l : list A) i x, NoDup l -> ~ In x l -> NoDup (set_nth i l x).
Proof.
  induction l as [|y l IH]; intros i x Hnd Hni; simpl; [destruct i; constructor|].
  inversion Hnd; subst. simpl in Hni. destruct i; constructor; [tauto | assumption | | apply IH; tauto].
  intro Hin. apply In_set_nth in Hin. destruct Hin; [subst; tauto | contradiction].
Qed.

Lemma In_del_nth : forall A (l : list A) i z, In z (del_nth i l) -> In z l.
Proof.
  induction l as [|a l IH]; intros i z; simpl; [destruct i; intros []|].
  destruct i; simpl; [auto|]. intros [H|H]; auto. right. eapply IH; eauto.
Qed.

Lemma NoDup_del_nth : forall A (l : list A) i, NoDup l -> NoDup (del_nth i l).
Proof.
  induction l as [|a l IH]; intros i Hnd; simpl; [destruct i; constructor|].
  inversion Hnd; subst. destruct i; [assumption|].
  constructor; [|apply IH; assumption]. intro H. apply In_del_nth in H. contradiction.
Qed.

Lemma Forall_set_nth : forall A (P : A -> Prop) l i x, Forall P l -> P x -> Forall P (set_nth i l x).
Proof.
  induction l as [|a l IH]; intros i x Hf Hx; simpl; [destruct i; constructor|].
  inversion Hf; subst. destruct i; constructor; auto.
Qed.

Lemma Forall_nth_error : forall A (P : A -> Prop) l i x, Forall P l -> nth_error l i = Some x -> P x.
Proof. intros A P l i x Hf Hn. rewrite Forall_forall in Hf. apply Hf. eapply nth_error_In; eauto. Qed.

Lemma nth_in_range : forall A (l : list A) i, 0 <= i < Zlen l ->
  exists x, nth_error l (Z.to_nat i) = Some x /\ forall d, nth (Z.to_nat i) l d = x.
Proof.
  intros A l i H. destruct (nth_error_lt_some _ l (Z.to_nat i)) as [x Hx]; [unfold Zlen in H; lia|].
  exists x. split; [assumption|]. intro d. apply nth_error_nth. assumption.
Qed.

(** * Part 2: the hash-bucket name table, for every hash function with range below the size *)
(* a table size: a positive C int *)
Definition hs_ok (hs : Z) : Prop := 0 < hs <= NC_MAX_INT.

Section Tables.
Variable hashf : list byte -> Z -> Z.
Hypothesis hash_range : forall nm hs, hs_ok hs -> 0 <= hashf nm hs < hs.

Definition key (nm : list byte) (hs : Z) : nat := Z.to_nat (hashf nm hs).

(* bucket k holds, without repetition, exactly the ids of the names that hash to k *)
Definition bs_inv (names : list (list byte)) (hs : Z) (bs : list (list nat)) : Prop :=
  length bs = Z.to_nat hs /\
  forall k ids, nth_error bs k = Some ids ->
    NoDup ids /\ forall i, In i ids <-> exists nm, nth_error names i = Some nm /\ key nm hs = k.

(* nameT may be NULL only while nothing is defined *)
Definition tab_inv (names : list (list byte)) (t : ntab) : Prop :=
  hs_ok (nt_hsize t) /\
  match nt_tab t with
  | None => names = []
  | Some bs => bs_inv names (nt_hsize t) bs
  end.

Lemma key_lt : forall nm hs, hs_ok hs -> (key nm hs < Z.to_nat hs)%nat.
Proof. intros nm hs H. unfold key. pose proof (hash_range nm hs H). unfold hs_ok in H. lia. Qed.

Lemma bucket_ok : forall bs nm hs, hs_ok hs -> length bs = Z.to_nat hs ->
  exists ids, nth_error bs (key nm hs) = Some ids /\ bucket hashf bs nm hs = Some (key nm hs, ids).
Proof.
  intros bs nm hs Hhs Hlen. unfold bucket.
  pose proof (hash_range nm hs Hhs) as Hr.
  destruct (hashf nm hs <? 0) eqn:E; [lia|].
  destruct (nth_error_lt_some _ bs (key nm hs)) as [ids Hids].
  { rewrite Hlen. apply key_lt. assumption. }
  exists ids. unfold key in *. rewrite Hids. auto.
Qed.

Lemma scan_ids_spec : forall names nm ids,
  (forall i, In i ids -> exists x, nth_error names i = Some x) ->
  exists r, scan_ids names nm ids = Some r /\
    match r with
    | Some i => In i ids /\ nth_error names i = Some nm
    | None => forall i, In i ids -> nth_error names i <> Some nm
    end.
Proof.
  induction ids as [|i ids IH]; simpl; intro Hv.
  - exists None. split; [reflexivity|]. intros i [].
  - destruct (Hv i (or_introl eq_refl)) as [x Hx]. rewrite Hx.
    destruct (bytes_eqb x nm) eqn:E.
    + apply bytes_eqb_iff in E. subst. exists (Some i). auto.
    + apply bytes_eqb_neq in E.
      destruct IH as (r & Hr & Hspec). { intros j Hj. apply Hv. auto. }
      exists r. split; [assumption|]. destruct r as [j|].
      * destruct Hspec. auto.
      * intros j [Hj|Hj]; [subst; congruence | auto].
Qed.

(* lookup through the buckets: never out of bounds; an answer is a position of the name, "not found"
   means the name is absent *)
Lemma hfind_spec : forall names t nm, tab_inv names t ->
  exists r, hfind hashf names t nm = Some r /\
    match r with
    | Some i => nth_error names i = Some nm
    | None => ~ In nm names
    end.
Proof.
  intros names t nm [Hhs Hinv]. unfold hfind.
  destruct names as [|n0 names']. { exists None. auto. }
  destruct (nt_tab t) as [bs|]; [|discriminate].
  destruct Hinv as [Hlen Hb].
  destruct (bucket_ok bs nm _ Hhs Hlen) as (ids & Hids & Hbk). rewrite Hbk.
  destruct (Hb _ _ Hids) as [_ Hiff].
  destruct (scan_ids_spec (n0 :: names') nm ids) as (r & Hr & Hspec).
  { intros i Hi. apply Hiff in Hi. destruct Hi as (x & Hx & _). eauto. }
  exists r. split; [assumption|]. destruct r as [i|].
  - tauto.
  - intro Hin. apply In_nth_error in Hin. destruct Hin as [i Hi].
    apply (Hspec i); [|assumption]. apply Hiff. eauto.
Qed.

(* with distinct names, the bucket lookup IS the linear search (first match in
   definition order) *)
Theorem hfind_linear : forall names t nm, tab_inv names t -> NoDup names ->
  hfind hashf names t nm = Some (find_name nm names).
Proof.
  intros names t nm Hinv Hnd.
  destruct (hfind_spec names t nm Hinv) as (r & Hr & Hspec). rewrite Hr. f_equal.
  destruct r as [i|].
  - symmetry. apply find_name_unique; assumption.
  - symmetry. apply find_name_none. assumption.
Qed.

Lemma hfind_some_iff : forall names t nm i, tab_inv names t -> NoDup names ->
  (hfind hashf names t nm = Some (Some i) <-> nth_error names i = Some nm).
Proof.
  intros names t nm i Ht Hnd. rewrite (hfind_linear names t nm Ht Hnd). split; intro H.
  - injection H as H. apply find_name_some in H. tauto.
  - f_equal. apply find_name_unique; assumption.
Qed.

Lemma tab_calloc_inv : forall names t, tab_inv names t ->
  tab_inv names (tab_calloc t) /\ nt_hsize (tab_calloc t) = nt_hsize t /\
  exists bs, nt_tab (tab_calloc t) = Some bs.
Proof.
  intros names t [Hhs Hinv]. unfold tab_calloc.
  destruct (nt_tab t) as [bs|] eqn:E.
  - split; [|split; [reflexivity | eauto]]. split; [assumption|]. rewrite E. assumption.
  - subst. simpl. split; [|split; [reflexivity | eauto]].
    split; [assumption|]. simpl. split.
    + apply repeat_length.
    + intros k ids Hk. apply nth_error_In, repeat_spec in Hk. subst. split; [constructor|].
      intro i. split; [intros [] |]. intros (nm & Hnm & _). destruct i; discriminate.
Qed.

(* ---------- the three moves every table update is made of: remove, add, renumber ---------- *)
(* [bs_inv] with the names given as a partial function of the id: the state between two moves (an id taken out
   of its bucket and not yet put back, ids not yet renumbered) is described by masking or shifting that function.
   [bs_inv names] is [buckets (nth_error names)] by unfolding. *)
Definition buckets (f : nat -> option (list byte)) (hs : Z) (bs : list (list nat)) : Prop :=
  length bs = Z.to_nat hs /\
  forall k ids, nth_error bs k = Some ids ->
    NoDup ids /\ forall i, In i ids <-> exists nm, f i = Some nm /\ key nm hs = k.

Lemma buckets_names : forall f names hs bs, buckets f hs bs -> (forall j, nth_error names j = f j) ->
  bs_inv names hs bs.
Proof.
  intros f names hs bs [Hlen Hb] E. split; [assumption|]. intros k ids Hk.
  destruct (Hb k ids Hk) as [Hnd Hiff]. split; [assumption|]. intro i. rewrite E. apply Hiff.
Qed.

Lemma buckets_remove : forall f hs bs i old ids, buckets f hs bs -> f i = Some old ->
  nth_error bs (key old hs) = Some ids ->
  exists ids', remove_id i ids = Some ids' /\
    buckets (fun j => if Nat.eqb j i then None else f j) hs (set_nth (key old hs) bs ids').
Proof.
  intros f hs bs i old ids [Hlen Hb] Hi Hids.
  destruct (Hb _ _ Hids) as [Hnd Hiff].
  destruct (remove_id_in i ids Hnd) as (ids' & Hrm & Hnd' & Hiff'). { apply Hiff. eauto. }
  exists ids'. split; [assumption|]. split; [rewrite set_nth_length; assumption|].
  intros k l Hk. rewrite nth_error_set_nth in Hk by (eapply nth_error_some_lt; eauto).
  destruct (Nat.eqb_spec k (key old hs)) as [->|Hne].
  - injection Hk as <-. split; [assumption|]. intro j. rewrite Hiff', Hiff.
    destruct (Nat.eqb_spec j i) as [->|]; [|tauto].
    split; [intros [_ H]; congruence | intros (nm & D & _); discriminate].
  - destruct (Hb _ _ Hk) as [Hnd2 Hiff2]. split; [assumption|]. intro j. rewrite Hiff2.
    destruct (Nat.eqb_spec j i) as [->|]; [|reflexivity].
    split; intros (nm & Hnm & Hkey); congruence.
Qed.

Lemma buckets_add : forall f hs bs i new ids, buckets f hs bs -> f i = None ->
  nth_error bs (key new hs) = Some ids ->
  buckets (fun j => if Nat.eqb j i then Some new else f j) hs (set_nth (key new hs) bs (ids ++ [i])).
Proof.
  intros f hs bs i new ids [Hlen Hb] Hi Hids. split; [rewrite set_nth_length; assumption|].
  intros k l Hk. rewrite nth_error_set_nth in Hk by (eapply nth_error_some_lt; eauto).
  destruct (Nat.eqb_spec k (key new hs)) as [->|Hne].
  - injection Hk as <-. destruct (Hb _ _ Hids) as [Hnd Hiff]. split.
    + apply NoDup_snoc_new; [assumption|]. intro Hin. apply Hiff in Hin. destruct Hin as (nm & Hnm & _). congruence.
    + intro j. rewrite in_app_iff, Hiff. simpl. destruct (Nat.eqb_spec j i) as [->|].
      * split; eauto.
      * split; [intros [H|[H|[]]]; [assumption | congruence] | auto].
  - destruct (Hb _ _ Hk) as [Hnd Hiff]. split; [assumption|]. intro j. rewrite Hiff.
    destruct (Nat.eqb_spec j i) as [->|]; [|reflexivity].
    split; intros (nm & Hnm & Hkey); congruence.
Qed.

Definition dec_above (id j : nat) : nat := if Nat.ltb id j then pred j else j.

Lemma in_map_dec : forall id ids j, ~ In id ids ->
  (In j (map (dec_above id) ids) <-> In (if Nat.ltb j id then j else S j) ids).
Proof.
  intros id ids j Hni. rewrite in_map_iff. unfold dec_above. split.
  - intros (x & Hx & Hin).
    assert (x <> id) by (intro; subst; contradiction).
    replace (if Nat.ltb j id then j else S j) with x; [assumption|].
    destruct (Nat.ltb_spec id x); destruct (Nat.ltb_spec j id); lia.
  - intro Hin. eexists. split; [|exact Hin].
    destruct (Nat.ltb_spec j id); [destruct (Nat.ltb_spec id j) | destruct (Nat.ltb_spec id (S j))]; lia.
Qed.

Lemma NoDup_map_dec : forall id ids, NoDup ids -> ~ In id ids -> NoDup (map (dec_above id) ids).
Proof.
  intros id ids Hnd Hni. apply NoDup_map_inj_In; [|assumption].
  intros x y Hx Hy. unfold dec_above.
  assert (x <> id) by (intro; subst; contradiction).
  assert (y <> id) by (intro; subst; contradiction).
  destruct (Nat.ltb_spec id x); destruct (Nat.ltb_spec id y); lia.
Qed.

Lemma buckets_renumber : forall f hs bs i, buckets f hs bs -> f i = None ->
  buckets (fun j => f (if Nat.ltb j i then j else S j)) hs (renumber i bs).
Proof.
  intros f hs bs i [Hlen Hb] Hi. unfold renumber. split; [rewrite map_length; assumption|].
  intros k l Hk. rewrite nth_error_map in Hk.
  destruct (nth_error bs k) as [ids|] eqn:Hids; [|discriminate]. injection Hk as <-.
  destruct (Hb _ _ Hids) as [Hnd Hiff].
  assert (Hni : ~ In i ids). { intro Hin. apply Hiff in Hin. destruct Hin as (nm & Hnm & _). congruence. }
  change (fun j : nat => if (i <? j)%nat then Nat.pred j else j) with (dec_above i).
  split; [apply NoDup_map_dec; assumption|].
  intro j. rewrite in_map_dec by assumption. apply Hiff.
Qed.

Theorem hash_insert_inv : forall names t nm,
  tab_inv names t -> (exists bs, nt_tab t = Some bs) ->
  exists t', hash_insert hashf t nm (length names) = Some t' /\ tab_inv (names ++ [nm]) t' /\
             nt_hsize t' = nt_hsize t.
Proof.
  intros names t nm [Hhs Hinv] [bs Hbs]. unfold hash_insert. rewrite Hbs in *.
  destruct (bucket_ok bs nm _ Hhs (proj1 Hinv)) as (ids & Hids & Hbk). rewrite Hbk.
  eexists. split; [reflexivity|]. split; [|reflexivity]. split; [assumption|]. cbn [nt_tab nt_hsize].
  eapply buckets_names; [apply buckets_add; [exact Hinv | apply nth_error_None, Nat.le_refl | exact Hids]|].
  apply nth_error_snoc.
Qed.

(* ---------- ncmpio_update_name_lookup_table, ncmpio_hash_replace: remove, then add ---------- *)
Theorem hash_update_inv : forall names t i old new,
  tab_inv names t -> nth_error names i = Some old ->
  exists t', hash_update hashf t i old new = Some t' /\ tab_inv (set_nth i names new) t' /\
             nt_hsize t' = nt_hsize t.
Proof.
  intros names t i old new [Hhs Hinv] Hi. unfold hash_update.
  destruct (nt_tab t) as [bs|] eqn:Hbs; [|subst; destruct i; discriminate].
  destruct (bucket_ok bs old _ Hhs (proj1 Hinv)) as (ids & Hids & Hbk). rewrite Hbk.
  destruct (buckets_remove _ _ _ i old ids Hinv Hi Hids) as (ids' & Hrm & Hinv1). rewrite Hrm.
  destruct (bucket_ok _ new _ Hhs (proj1 Hinv1)) as (ids2 & Hids2 & Hbk2). rewrite Hbk2.
  eexists. split; [reflexivity|]. split; [|reflexivity]. split; [assumption|]. cbn [nt_tab nt_hsize].
  eapply buckets_names; [apply buckets_add; [exact Hinv1 | cbn beta; rewrite Nat.eqb_refl; reflexivity | exact Hids2]|].
  intro j. cbn beta. rewrite nth_error_set_nth by (eapply nth_error_some_lt; eauto).
  destruct (Nat.eqb j i); reflexivity.
Qed.

(* the two differ only where the id is not in the bucket of its old name, which the invariant excludes *)
Lemma hash_replace_update : forall t i old new t',
  hash_update hashf t i old new = Some t' -> hash_replace hashf t i old new = Some t'.
Proof.
  unfold hash_update, hash_replace. intros t i old new t' H.
  destruct (nt_tab t); [|discriminate]. destruct (bucket hashf _ old _) as [[k ids]|]; [|discriminate].
  destruct (remove_id i ids); [assumption | discriminate].
Qed.

Theorem hash_replace_inv : forall names t i old new,
  tab_inv names t -> nth_error names i = Some old ->
  exists t', hash_replace hashf t i old new = Some t' /\ tab_inv (set_nth i names new) t' /\
             nt_hsize t' = nt_hsize t.
Proof.
  intros names t i old new Ht Hi. destruct (hash_update_inv names t i old new Ht Hi) as (t' & Hu & H).
  exists t'. split; [apply hash_replace_update; assumption | assumption].
Qed.

(* ---------- hash_delete: remove, then renumber ---------- *)
Theorem hash_delete_inv : forall names t i nm,
  tab_inv names t -> nth_error names i = Some nm ->
  exists t', hash_delete hashf t nm i = Some (Some t') /\ tab_inv (del_nth i names) t' /\
             nt_hsize t' = nt_hsize t.
Proof.
  intros names t i nm [Hhs Hinv] Hi. unfold hash_delete.
  destruct (nt_tab t) as [bs|] eqn:Hbs; [|subst; destruct i; discriminate].
  destruct (bucket_ok bs nm _ Hhs (proj1 Hinv)) as (ids & Hids & Hbk). rewrite Hbk.
  destruct (buckets_remove _ _ _ i nm ids Hinv Hi Hids) as (ids' & Hrm & Hinv1). rewrite Hrm.
  eexists. split; [reflexivity|]. split; [|reflexivity]. split; [assumption|]. cbn [nt_tab nt_hsize].
  eapply buckets_names; [apply buckets_renumber; [exact Hinv1 | cbn beta; rewrite Nat.eqb_refl; reflexivity]|].
  intro j. cbn beta. rewrite nth_error_del_nth.
  destruct (Nat.ltb_spec j i); [destruct (Nat.eqb_spec j i) | destruct (Nat.eqb_spec (S j) i)]; try lia; reflexivity.
Qed.

Lemma populate_from_inv : forall names2 names1 t,
  tab_inv names1 t -> (exists bs, nt_tab t = Some bs) ->
  exists t', populate_from hashf t names2 (length names1) = Some t' /\ tab_inv (names1 ++ names2) t' /\
             nt_hsize t' = nt_hsize t.
Proof.
  induction names2 as [|nm names2 IH]; intros names1 t Hinv Hal; simpl.
  - exists t. rewrite app_nil_r. auto.
  - destruct (hash_insert_inv names1 t nm Hinv Hal) as (t1 & Hins & Hinv1 & Hhs1). rewrite Hins.
    assert (Hal1 : exists bs, nt_tab t1 = Some bs).
    { unfold hash_insert in Hins. destruct Hal as [bs Hbs]. rewrite Hbs in Hins.
      destruct (bucket hashf bs nm (nt_hsize t)) as [[k ids]|]; [|discriminate].
      inversion Hins. simpl. eauto. }
    destruct (IH (names1 ++ [nm]) t1 Hinv1 Hal1) as (t' & Hp & Hinv' & Hhs').
    rewrite app_length in Hp. simpl in Hp. replace (length names1 + 1)%nat with (S (length names1)) in Hp by lia.
    exists t'. rewrite <- app_assoc in Hinv'. simpl in Hinv'. split; [assumption|]. split; [assumption|]. congruence.
Qed.

Theorem hash_populate_inv : forall hs names, hs_ok hs ->
  exists t, hash_populate hashf hs names = Some t /\ tab_inv names t /\ nt_hsize t = hs.
Proof.
  intros hs names Hhs. unfold hash_populate. destruct names as [|n0 names'].
  - eexists. split; [reflexivity|]. split; [|reflexivity]. split; simpl; auto.
  - assert (H0 : tab_inv [] (mkntab hs None)) by (split; simpl; auto).
    destruct (tab_calloc_inv [] _ H0) as (Hinv & Hhs' & Hal).
    destruct (populate_from_inv (n0 :: names') [] _ Hinv Hal) as (t' & Hp & Hinv' & Hhs'').
    simpl in Hp. exists t'. split; [assumption|]. split; [assumption|].
    rewrite Hhs'', Hhs'. reflexivity.
Qed.

Theorem hash_dup_inv : forall names t, tab_inv names t ->
  exists t', hash_dup (nt_hsize t) (length names) t = Some t' /\ tab_inv names t' /\
             nt_hsize t' = nt_hsize t.
Proof.
  intros names t [Hhs Hinv]. unfold hash_dup.
  destruct names as [|n0 names']; simpl.
  - eexists. split; [reflexivity|]. split; [|reflexivity]. split; simpl; auto.
  - destruct (nt_tab t) as [bs|]; [|discriminate].
    destruct Hinv as [Hlen Hb]. rewrite Hlen, Nat.leb_refl.
    eexists. split; [reflexivity|]. split; [|reflexivity]. split; [assumption|]. simpl.
    rewrite <- Hlen, firstn_all. split; assumption.
Qed.

End Tables.

(** * Part 3: attribute arrays and one open file *)

(* [pre_split H]: H is a chain of precondition tests [if c then error else ...] = NC_NOERR;
   destruct every test and discard the branches that returned an error *)
Ltac pre_split H :=
  repeat match type of H with
         | (if ?c then _ else _) = _ => let E := fresh "E" in destruct c eqn:E
         end;
  try discriminate; try (unfold NC_NOERR in *; lia).

Lemma negb_eqb_false : forall e, negb (e =? NC_NOERR) = false -> e = NC_NOERR.
Proof. intros e H. apply negb_false_iff in H. apply Z.eqb_eq in H. assumption. Qed.

Lemma fmt_valid_cases : forall fmt, fmt_valid fmt = true -> fmt = 1 \/ fmt = 2 \/ fmt = 5.
Proof. unfold fmt_valid. intros. lia. Qed.

Lemma name_pre_len : forall nm, name_pre nm = NC_NOERR -> Zlen nm <= NC_MAX_NAME.
Proof.
  intros nm H. unfold name_pre in H. destruct nm as [|c nm]; [discriminate|].
  destruct (Zlen (c :: nm) >? NC_MAX_NAME) eqn:E; [discriminate | lia].
Qed.

Lemma def_dim_pre_ok : forall fmt indef dims nm size, def_dim_pre fmt indef dims nm size = NC_NOERR ->
  indef = true /\ name_pre nm = NC_NOERR /\ 0 <= size /\ (fmt = 5 \/ size <= NC_MAX_INT) /\
  Zlen dims <> NC_MAX_INT.
Proof.
  intros until size. unfold def_dim_pre. intro H. pre_split H.
  all: repeat split; try lia.
Qed.

Lemma def_var_pre_ok : forall fmt indef nv nm t, def_var_pre fmt indef nv nm t = NC_NOERR ->
  indef = true /\ name_pre nm = NC_NOERR /\ nv <> NC_MAX_INT /\
  (fmt_valid fmt = true -> valid_type fmt t = true).
Proof.
  intros until t. unfold def_var_pre. intro H. pre_split H.
  all: repeat split; try lia.
  all: intro Hf; apply fmt_valid_cases in Hf; unfold valid_type; destruct (fmt =? 5) eqn:Efive; lia.
Qed.

Lemma def_var_post_ok : forall dims t dimids, Zlen dims <= NC_MAX_INT ->
  def_var_post dims t dimids = NC_NOERR -> Forall (fun d => 0 <= d <= NC_MAX_INT) dimids.
Proof.
  intros dims t dimids Hl. unfold def_var_post. intro H.
  destruct (existsb (fun d => (d <? 0) || (d >=? Zlen dims)) dimids) eqn:E; [discriminate|].
  apply Forall_forall. intros d Hd.
  assert (Hx : ((d <? 0) || (d >=? Zlen dims)) = false).
  { destruct ((d <? 0) || (d >=? Zlen dims)) eqn:E2; [|reflexivity].
    assert (existsb (fun d => (d <? 0) || (d >=? Zlen dims)) dimids = true)
      by (apply existsb_exists; exists d; auto). congruence. }
  lia.
Qed.

Lemma put_att_pre_ok : forall fmt rd nv v nm t n, put_att_pre fmt rd nv v nm t n = NC_NOERR ->
  varid_ok nv v = true /\ name_pre nm = NC_NOERR /\ 0 <= n /\
  (fmt_valid fmt = true -> valid_type fmt t = true).
Proof.
  intros until n. unfold put_att_pre. intro H. pre_split H.
  all: repeat split; try lia.
  all: intro Hf; apply fmt_valid_cases in Hf; unfold valid_type; destruct (fmt =? 5) eqn:Efive; lia.
Qed.

Lemma get_att_pre_ok : forall nv v nm, get_att_pre nv v nm = NC_NOERR -> varid_ok nv v = true.
Proof. intros until nm. unfold get_att_pre. intro H. pre_split H. Qed.

Lemma del_att_pre_ok : forall rd ind nv v nm, del_att_pre rd ind nv v nm = NC_NOERR ->
  varid_ok nv v = true /\ ind = true.
Proof. intros until nm. unfold del_att_pre. intro H. pre_split H. Qed.

Lemma rename_att_pre_ok : forall rd nv v nm nnm, rename_att_pre rd nv v nm nnm = NC_NOERR ->
  varid_ok nv v = true /\ name_pre nnm = NC_NOERR.
Proof. intros until nnm. unfold rename_att_pre. intro H. pre_split H. Qed.

Lemma copy_att_pre_ok : forall rd nvi vi nvo vo nm, copy_att_pre rd nvi vi nvo vo nm = NC_NOERR ->
  varid_ok nvi vi = true /\ varid_ok nvo vo = true /\ name_pre nm = NC_NOERR.
Proof. intros until nm. unfold copy_att_pre. intro H. pre_split H. Qed.

Lemma rename_dim_pre_ok : forall rd nd id nm, rename_dim_pre rd nd id nm = NC_NOERR ->
  0 <= id < nd /\ name_pre nm = NC_NOERR.
Proof. intros until nm. unfold rename_dim_pre. intro H. pre_split H. Qed.

Lemma rename_var_pre_ok : forall rd nv id nm, rename_var_pre rd nv id nm = NC_NOERR ->
  0 <= id < nv /\ name_pre nm = NC_NOERR.
Proof. intros until nm. unfold rename_var_pre. intro H. pre_split H. Qed.

(* the common tail of put_att, del_att, rename_att and copy_att in either model: fetch the attribute array of
   varid, run an array operation on it, store the result unless the operation reports an error *)
Definition c_attr_tail (f : cfile) (v : Z) (C : cattrs -> option (cattrs * Z)) (o : list Z) (w : bool) : cres :=
  match get_ca (cf_meta f) v with
  | None => None
  | Some ca =>
    match C ca with
    | None => None
    | Some (ca', rc) =>
      if negb (rc =? NC_NOERR) then cret f [rc] else Some (set_meta f (set_ca (cf_meta f) v ca'), o, w)
    end
  end.

Definition s_attr_tail (f : sfile) (v : Z) (A : list att -> list att * Z) (o : list Z) (w : bool) : sres :=
  match get_sa (sf_hdr f) v with
  | None => sret f [UNMODELLED]
  | Some l =>
    let '(l', rc) := A l in
    if negb (rc =? NC_NOERR) then sret f [rc] else (set_hdr f (set_sa (sf_hdr f) v l'), o, w)
  end.

Section Refine.
Variable hashf : list byte -> Z -> Z.
Variable nfc : list byte -> list byte.
Hypothesis hash_range : forall nm hs, hs_ok hs -> 0 <= hashf nm hs < hs.

Notation tinv := (tab_inv hashf).

Lemma tab_define : forall names t nm, tinv names t -> NoDup names -> find_name nm names = None ->
  exists t', hash_insert hashf (tab_calloc t) nm (length names) = Some t' /\
             tinv (names ++ [nm]) t' /\ NoDup (names ++ [nm]) /\ nt_hsize t' = nt_hsize t.
Proof.
  intros names t nm Ht Hnd F. destruct (tab_calloc_inv hashf names t Ht) as (Ht1 & Hhs1 & Hal).
  destruct (hash_insert_inv hashf hash_range names _ nm Ht1 Hal) as (t' & Hins & Ht' & Hhs').
  exists t'. split; [assumption|]. split; [assumption|]. split; [|congruence].
  apply NoDup_snoc_new; [assumption|]. apply find_name_none. assumption.
Qed.

Lemma tab_rename : forall names t i old new, tinv names t -> NoDup names ->
  nth_error names i = Some old -> find_name new names = None ->
  exists t', hash_update hashf t i old new = Some t' /\
             tinv (set_nth i names new) t' /\ NoDup (set_nth i names new) /\ nt_hsize t' = nt_hsize t.
Proof.
  intros names t i old new Ht Hnd Hi F.
  destruct (hash_update_inv hashf hash_range names t i old new Ht Hi) as (t' & Hu & Ht' & Hhs').
  exists t'. split; [assumption|]. split; [assumption|]. split; [|assumption].
  apply NoDup_set_nth_new; [assumption|]. apply find_name_none. assumption.
Qed.

Definition ca_inv (ca : cattrs) : Prop := tinv (ca_names ca) (ca_tab ca) /\ NoDup (ca_names ca).

Lemma ca_find_linear : forall ca nm, ca_inv ca ->
  ca_find hashf ca nm = Some (find_name nm (map a_name (ca_vals ca))).
Proof. intros ca nm [H1 H2]. unfold ca_find. apply hfind_linear; assumption. Qed.

Lemma find_name_att : forall nm (l : list att) i, find_name nm (map a_name l) = Some i ->
  exists a, nth_error l i = Some a /\ a_name a = nm /\ nth i l dflt_att = a.
Proof.
  intros nm l i H. apply find_name_some in H. destruct H as [H _].
  rewrite nth_error_map in H. destruct (nth_error l i) as [a|] eqn:E; [|discriminate].
  simpl in H. inversion H. exists a. split; [reflexivity|]. split; [reflexivity|].
  eapply nth_error_nth; eauto.
Qed.

Definition aref (ca : cattrs) (cr : option (cattrs * Z)) (sr : list att * Z) : Prop :=
  exists ca', cr = Some (ca', snd sr) /\ ca_vals ca' = fst sr /\ ca_inv ca' /\
              nt_hsize (ca_tab ca') = nt_hsize (ca_tab ca).

Lemma aref_same : forall ca rc, ca_inv ca -> aref ca (Some (ca, rc)) (ca_vals ca, rc).
Proof. intros ca rc H. exists ca. auto. Qed.

Lemma c_attr_put_ref : forall indef ca nn t n data, ca_inv ca ->
  aref ca (c_attr_put hashf indef ca nn t n data) (s_attr_put indef (ca_vals ca) nn t n data).
Proof.
  intros indef ca nn t n data Hinv. unfold c_attr_put, s_attr_put.
  rewrite (ca_find_linear ca nn Hinv).
  destruct (find_name nn (map a_name (ca_vals ca))) as [i|] eqn:F.
  - destruct (find_name_att _ _ _ F) as (a & Ha & Hn & Hd). rewrite Hd.
    destruct (negb indef && (x_len_attrV t n >? att_xsz a)); [apply aref_same; assumption|].
    eexists. split; [reflexivity|]. split; [reflexivity|]. split; [|reflexivity].
    unfold ca_inv, ca_names in *. cbn [ca_vals ca_tab]. rewrite map_set_nth. cbn [a_name].
    rewrite set_nth_same; [assumption|]. rewrite nth_error_map, Ha. reflexivity.
  - destruct (negb indef); [apply aref_same; assumption|]. cbn [negb].
    destruct (Zlen (ca_vals ca) =? NC_MAX_INT); [apply aref_same; assumption|].
    destruct Hinv as [Ht Hnd].
    destruct (tab_define _ _ nn Ht Hnd F) as (t' & Hins & Ht' & Hnd' & Hhs').
    unfold ca_names in Hins. rewrite map_length in Hins. rewrite Hins.
    eexists. split; [reflexivity|]. split; [reflexivity|]. split; [|assumption].
    unfold ca_inv, ca_names in *. cbn [ca_vals ca_tab]. rewrite map_app. split; assumption.
Qed.

Lemma c_attr_rename_ref : forall indef ca nn nnew, ca_inv ca ->
  aref ca (c_attr_rename hashf indef ca nn nnew) (s_attr_rename indef (ca_vals ca) nn nnew).
Proof.
  intros indef ca nn nnew Hinv. unfold c_attr_rename, s_attr_rename.
  rewrite (ca_find_linear ca nn Hinv).
  destruct (find_name nn (map a_name (ca_vals ca))) as [i|] eqn:F; [|apply aref_same; assumption].
  rewrite (ca_find_linear ca nnew Hinv).
  destruct (find_name nnew (map a_name (ca_vals ca))) as [j|] eqn:F2; [apply aref_same; assumption|].
  destruct (find_name_att _ _ _ F) as (a & Ha & Hn & Hd). rewrite Hd.
  destruct (negb indef && (Zlen (a_name a) <? Zlen nnew)); [apply aref_same; assumption|].
  destruct Hinv as [Ht Hnd].
  destruct (tab_rename _ _ i _ nnew Ht Hnd (map_nth_error a_name _ _ Ha) F2) as (t' & Hu & Ht' & Hnd' & Hhs').
  rewrite (hash_replace_update hashf _ _ _ _ _ Hu).
  eexists. split; [reflexivity|]. split; [reflexivity|]. split; [|assumption].
  unfold ca_inv, ca_names in *. cbn [ca_vals ca_tab]. rewrite map_set_nth. split; assumption.
Qed.

Lemma c_attr_del_ref : forall ca nn, ca_inv ca ->
  aref ca (c_attr_del hashf ca nn) (s_attr_del (ca_vals ca) nn).
Proof.
  intros ca nn Hinv. unfold c_attr_del, s_attr_del.
  rewrite (ca_find_linear ca nn Hinv).
  destruct (find_name nn (map a_name (ca_vals ca))) as [i|] eqn:F; [|apply aref_same; assumption].
  destruct (find_name_att _ _ _ F) as (a & Ha & Hn & Hd).
  destruct Hinv as [Ht Hnd].
  pose proof (map_nth_error a_name _ _ Ha) as Hi. rewrite Hn in Hi.
  destruct (hash_delete_inv hashf hash_range _ _ i nn Ht Hi) as (t' & Hr & Ht' & Hhs').
  rewrite Hr. eexists. split; [reflexivity|]. split; [reflexivity|]. split; [|assumption].
  unfold ca_inv, ca_names in *. cbn [ca_vals ca_tab]. rewrite map_del_nth. split; [assumption|].
  apply NoDup_del_nth. assumption.
Qed.

Definition cv_inv (hs : Z) (v : cvar) : Prop :=
  ca_inv (cv_atts v) /\ nt_hsize (ca_tab (cv_atts v)) = hs.

Definition meta_inv (hs : Z) (m : cmeta) : Prop :=
  tinv (dnames m) (cm_dtab m) /\ NoDup (dnames m) /\
  tinv (vnames m) (cm_vtab m) /\ NoDup (vnames m) /\
  ca_inv (cm_gatts m) /\ Forall (cv_inv hs) (cm_vars m).

(* [tab_inv] of a file: every name table (dims, vars, global attributes, attributes of each variable)
   of the current header and of the copy kept since redef *)
Definition file_inv (f : cfile) : Prop :=
  hs_ok (cf_hs_vattr f) /\ meta_inv (cf_hs_vattr f) (cf_meta f) /\
  match cf_old f with Some o => meta_inv (cf_hs_vattr f) o | None => True end.

Definition fref (cr : cres) (sr : sres) : Prop :=
  exists f' o w, cr = Some (f', o, w) /\ sr = (abs_file f', o, w) /\ file_inv f'.

Lemma fref_same : forall f o, file_inv f -> fref (cret f o) (sret (abs_file f) o).
Proof. intros f o H. exists f, o, false. auto. Qed.

Lemma vnames_abs : forall vs, map v_name (map abs_var vs) = map cv_name vs.
Proof. intro vs. rewrite map_map. reflexivity. Qed.

Lemma nth_abs_var : forall vs i, nth i (map abs_var vs) dflt_var = abs_var (nth i vs dflt_cvar).
Proof. intros. exact (map_nth abs_var vs dflt_cvar i). Qed.

Lemma meta_inv_dims : forall hs m ds dt, meta_inv hs m -> tinv (map d_name ds) dt -> NoDup (map d_name ds) ->
  meta_inv hs (mkcmeta ds dt (cm_vars m) (cm_vtab m) (cm_gatts m)).
Proof. intros hs m ds dt (_ & _ & H) Ht Hnd. split; [exact Ht|]. split; [exact Hnd | exact H]. Qed.

Lemma meta_inv_vars : forall hs m vs vt, meta_inv hs m -> tinv (map cv_name vs) vt -> NoDup (map cv_name vs) ->
  Forall (cv_inv hs) vs -> meta_inv hs (mkcmeta (cm_dims m) (cm_dtab m) vs vt (cm_gatts m)).
Proof. intros hs m vs vt (Hd & Hdn & _ & _ & Hg & _) Ht Hnd Hf. repeat (split; [assumption|]). assumption. Qed.

Lemma get_sa_abs : forall fmt nr m v, get_sa (abs_hdr fmt nr m) v = option_map ca_vals (get_ca m v).
Proof.
  intros. unfold get_sa, get_ca, abs_hdr. simpl. rewrite Zlen_map.
  destruct (v =? -1); [reflexivity|].
  destruct ((0 <=? v) && (v <? Zlen (cm_vars m))); [|reflexivity].
  rewrite nth_error_map. destruct (nth_error (cm_vars m) (Z.to_nat v)); reflexivity.
Qed.

Lemma get_ca_inv : forall hs m v ca, meta_inv hs m -> get_ca m v = Some ca -> ca_inv ca.
Proof.
  intros hs m v ca (_ & _ & _ & _ & Hg & Hv) H. unfold get_ca in H.
  destruct (v =? -1); [inversion H; subst; assumption|].
  destruct ((0 <=? v) && (v <? Zlen (cm_vars m))); [|discriminate].
  destruct (nth_error (cm_vars m) (Z.to_nat v)) as [x|] eqn:E; [|discriminate].
  simpl in H. inversion H; subst. apply (Forall_nth_error _ _ _ _ _ Hv E).
Qed.

Lemma set_ca_abs : forall fmt nr m v ca0 ca, get_ca m v = Some ca0 ->
  abs_hdr fmt nr (set_ca m v ca) = set_sa (abs_hdr fmt nr m) v (ca_vals ca).
Proof.
  intros fmt nr m v ca0 ca H. unfold get_ca in H. unfold set_ca, set_sa, abs_hdr. simpl.
  destruct (v =? -1); [reflexivity|].
  destruct ((0 <=? v) && (v <? Zlen (cm_vars m))); [|discriminate].
  destruct (nth_error (cm_vars m) (Z.to_nat v)) as [x|] eqn:E; [|discriminate].
  simpl. f_equal. rewrite map_set_nth. simpl. f_equal.
  rewrite nth_abs_var, (nth_error_nth _ _ dflt_cvar E). reflexivity.
Qed.

Lemma get_ca_ok : forall f v, file_inv f -> varid_ok (Zlen (cm_vars (cf_meta f))) v = true ->
  exists ca, get_ca (cf_meta f) v = Some ca /\ ca_inv ca /\ get_sa (cf_hdr f) v = Some (ca_vals ca) /\
    forall ca', ca_inv ca' -> nt_hsize (ca_tab ca') = nt_hsize (ca_tab ca) ->
      meta_inv (cf_hs_vattr f) (set_ca (cf_meta f) v ca').
Proof.
  intros f v (_ & Hm & _) Hv. pose proof Hm as (Hd & Hdn & Hvt & Hvn & Hg & Hvs).
  unfold cf_hdr. rewrite get_sa_abs. unfold varid_ok in Hv. unfold get_ca, set_ca.
  destruct (v =? -1).
  { exists (cm_gatts (cf_meta f)). split; [reflexivity|]. split; [assumption|]. split; [reflexivity|].
    intros. unfold meta_inv in *. tauto. }
  simpl in Hv. rewrite Hv.
  destruct (nth_in_range _ (cm_vars (cf_meta f)) v) as (x & E & Hnth); [lia|].
  rewrite E, Hnth. destruct (Forall_nth_error _ _ _ _ _ Hvs E) as [Hxi Hxh].
  exists (cv_atts x). split; [reflexivity|]. split; [assumption|]. split; [reflexivity|]. intros ca' Hca Hhs.
  assert (Hn : map cv_name (set_nth (Z.to_nat v) (cm_vars (cf_meta f))
                 (mkcvar (cv_name x) (cv_type x) (cv_dimids x) (cv_begin x) ca')) = vnames (cf_meta f)).
  { rewrite map_set_nth. simpl. apply set_nth_same. unfold vnames. rewrite nth_error_map, E. reflexivity. }
  apply meta_inv_vars; try rewrite Hn; try assumption.
  apply Forall_set_nth; [assumption|]. split; simpl; [assumption | congruence].
Qed.

Lemma fref_meta : forall f m h o w, file_inv f -> meta_inv (cf_hs_vattr f) m ->
  abs_hdr (cf_fmt f) (cf_numrecs f) m = h ->
  fref (Some (set_meta f m, o, w)) (set_hdr (abs_file f) h, o, w).
Proof.
  intros f m h o w (H1 & _ & H3) Hm <-. exists (set_meta f m), o, w.
  split; [reflexivity|]. split; [reflexivity|]. split; [assumption|]. split; assumption.
Qed.

(* express the arguments of the linear model's operation on [abs_file f] through the fields of f *)
Ltac absn := unfold abs_file, cf_hdr, abs_hdr; cbn [sf_hdr sf_indef sf_rdonly sf_old_nvars h_format h_numrecs
  h_dims h_gatts h_vars]; rewrite ?Zlen_map, ?vnames_abs.

Lemma attr_tail_ref : forall f v C A o w, file_inv f -> varid_ok (Zlen (cm_vars (cf_meta f))) v = true ->
  (forall ca, ca_inv ca -> aref ca (C ca) (A (ca_vals ca))) ->
  fref (c_attr_tail f v C o w) (s_attr_tail (abs_file f) v A o w).
Proof.
  intros f v C A o w Hinv Hv HCA. unfold c_attr_tail, s_attr_tail.
  destruct (get_ca_ok f v Hinv Hv) as (ca & Hca & Hcai & Hsa & Hset).
  change (sf_hdr (abs_file f)) with (cf_hdr f). rewrite Hca, Hsa.
  destruct (HCA ca Hcai) as (ca' & HC & Hvals & Hcai' & Hhs). rewrite HC.
  destruct (A (ca_vals ca)) as [l' rc]. cbn [fst snd] in *. subst l'.
  destruct (negb (rc =? NC_NOERR)); [apply fref_same; assumption|].
  apply fref_meta; [assumption | apply Hset; assumption | eapply set_ca_abs; eassumption].
Qed.

Lemma c_def_dim_ref : forall f nm size, file_inv f ->
  fref (c_def_dim hashf nfc f nm size) (s_def_dim nfc (abs_file f) nm size).
Proof.
  intros f nm size Hinv. pose proof Hinv as (Hhs & Hm & Hold). pose proof Hm as (Hd & Hdn & _).
  unfold c_def_dim, s_def_dim. absn.
  destruct (negb (def_dim_pre _ _ _ _ _ =? NC_NOERR)).
  { apply fref_same. assumption. }
  fold (dnames (cf_meta f)). rewrite (hfind_linear hashf hash_range _ _ (nfc nm) Hd Hdn).
  destruct (find_name (nfc nm) (dnames (cf_meta f))) eqn:F. { apply fref_same. assumption. }
  destruct (tab_define _ _ _ Hd Hdn F) as (t' & Hins & Ht' & Hnd' & _).
  unfold dnames in *. rewrite map_length in Hins. rewrite Hins.
  apply fref_meta; [assumption | apply meta_inv_dims; try rewrite map_app; assumption | reflexivity].
Qed.

Lemma c_def_var_ref : forall f nm t dimids, file_inv f ->
  fref (c_def_var hashf nfc f nm t dimids) (s_def_var nfc (abs_file f) nm t dimids).
Proof.
  intros f nm t dimids Hinv. pose proof Hinv as (Hhs & Hm & Hold).
  pose proof Hm as (_ & _ & Hv & Hvn & _ & Hvs).
  unfold c_def_var, s_def_var. absn.
  destruct (negb (def_var_pre _ _ _ _ _ =? NC_NOERR)).
  { apply fref_same. assumption. }
  fold (vnames (cf_meta f)). rewrite (hfind_linear hashf hash_range _ _ (nfc nm) Hv Hvn).
  destruct (find_name (nfc nm) (vnames (cf_meta f))) eqn:F. { apply fref_same. assumption. }
  destruct (negb (def_var_post _ _ _ =? NC_NOERR)). { apply fref_same. assumption. }
  destruct (tab_define _ _ _ Hv Hvn F) as (t' & Hins & Ht' & Hnd' & _).
  unfold vnames in *. rewrite map_length in Hins. rewrite Hins.
  apply fref_meta; [assumption | | unfold abs_hdr; simpl; rewrite map_app; reflexivity].
  apply meta_inv_vars; try rewrite map_app; try assumption.
  apply Forall_app. split; [assumption|]. constructor; [|constructor].
  split; simpl; [|reflexivity]. split; simpl; [|constructor]. split; simpl; [assumption | reflexivity].
Qed.

Lemma c_put_att_ref : forall f v nm t vals, file_inv f ->
  fref (c_put_att hashf nfc f v nm t vals) (s_put_att nfc (abs_file f) v nm t vals).
Proof.
  intros f v nm t vals Hinv. unfold c_put_att, s_put_att. absn.
  destruct (negb (put_att_pre _ _ _ _ _ _ _ =? NC_NOERR)) eqn:E.
  { apply fref_same. assumption. }
  apply negb_eqb_false, put_att_pre_ok in E.
  unfold var_type_of. rewrite nth_abs_var. cbn [abs_var v_type].
  destruct (negb (fillvalue_rule _ _ _ _ _ _ =? NC_NOERR)).
  { apply fref_same. assumption. }
  destruct (att_put_value t vals) as [data ce].
  apply attr_tail_ref; [assumption | apply E|]. intros. apply c_attr_put_ref. assumption.
Qed.

Lemma c_del_att_ref : forall f v nm, file_inv f ->
  fref (c_del_att hashf nfc f v nm) (s_del_att nfc (abs_file f) v nm).
Proof.
  intros f v nm Hinv. unfold c_del_att, s_del_att. absn.
  destruct (negb (del_att_pre _ _ _ _ _ =? NC_NOERR)) eqn:E.
  { apply fref_same. assumption. }
  apply negb_eqb_false, del_att_pre_ok in E.
  apply attr_tail_ref; [assumption | apply E|]. intros. apply c_attr_del_ref. assumption.
Qed.

Lemma c_rename_att_ref : forall f v nm nnm, file_inv f ->
  fref (c_rename_att hashf nfc f v nm nnm) (s_rename_att nfc (abs_file f) v nm nnm).
Proof.
  intros f v nm nnm Hinv. unfold c_rename_att, s_rename_att. absn.
  destruct (negb (rename_att_pre _ _ _ _ _ =? NC_NOERR)) eqn:E.
  { apply fref_same. assumption. }
  apply negb_eqb_false, rename_att_pre_ok in E.
  apply attr_tail_ref; [assumption | apply E|]. intros. apply c_attr_rename_ref. assumption.
Qed.

Lemma c_copy_read_ref : forall f v nm, file_inv f -> varid_ok (Zlen (cm_vars (cf_meta f))) v = true ->
  c_copy_read hashf nfc f v nm = s_copy_read nfc (abs_file f) v nm /\
  c_copy_read hashf nfc f v nm <> None.
Proof.
  intros f v nm Hinv E. unfold c_copy_read, s_copy_read.
  destruct (get_ca_ok f v Hinv E) as (ca & Hca & Hcai & Hsa & _).
  change (sf_hdr (abs_file f)) with (cf_hdr f). rewrite Hca, Hsa, (ca_find_linear ca (nfc nm) Hcai).
  destruct (find_name (nfc nm) (map a_name (ca_vals ca))); split; auto; discriminate.
Qed.

Lemma c_copy_write_ref : forall f v nm a self, file_inv f ->
  varid_ok (Zlen (cm_vars (cf_meta f))) v = true ->
  fref (c_copy_write hashf nfc f v nm a self) (s_copy_write nfc (abs_file f) v nm a self).
Proof.
  intros f v nm a self Hinv E. unfold c_copy_write, s_copy_write. destruct self.
  - destruct (get_ca_ok f v Hinv E) as (ca & Hca & Hcai & Hsa & _).
    change (sf_hdr (abs_file f)) with (cf_hdr f). rewrite Hca, Hsa, (ca_find_linear ca (nfc nm) Hcai).
    apply fref_same. assumption.
  - apply attr_tail_ref; [assumption | assumption|]. intros. apply c_attr_put_ref. assumption.
Qed.

Lemma find_att_nth : forall nm (l : list att) i, find_name nm (map a_name l) = Some i ->
  exists a, nth_error l i = Some a /\ nth i l dflt_att = a.
Proof. intros. destruct (find_name_att _ _ _ H) as (a & H1 & _ & H3). eauto. Qed.

Lemma c_get_att_ref : forall f v nm, file_inv f ->
  fref (c_get_att hashf nfc f v nm) (s_get_att nfc (abs_file f) v nm).
Proof.
  intros f v nm Hinv. unfold c_get_att, s_get_att. absn.
  destruct (negb (get_att_pre _ _ _ =? NC_NOERR)) eqn:E.
  { apply fref_same. assumption. }
  apply negb_eqb_false, get_att_pre_ok in E.
  destruct (get_ca_ok f v Hinv E) as (ca & Hca & Hcai & Hsa & _).
  fold (abs_hdr (cf_fmt f) (cf_numrecs f) (cf_meta f)). fold (cf_hdr f).
  rewrite Hca, Hsa, (ca_find_linear ca (nfc nm) Hcai).
  destruct (find_name (nfc nm) (map a_name (ca_vals ca))); apply fref_same; assumption.
Qed.

Lemma c_inq_attid_ref : forall f v nm, file_inv f ->
  fref (c_inq_attid hashf nfc f v nm) (s_inq_attid nfc (abs_file f) v nm).
Proof.
  intros f v nm Hinv. unfold c_inq_attid, s_inq_attid. absn.
  destruct (negb (get_att_pre _ _ _ =? NC_NOERR)) eqn:E.
  { apply fref_same. assumption. }
  apply negb_eqb_false, get_att_pre_ok in E.
  destruct (get_ca_ok f v Hinv E) as (ca & Hca & Hcai & Hsa & _).
  fold (abs_hdr (cf_fmt f) (cf_numrecs f) (cf_meta f)). fold (cf_hdr f).
  rewrite Hca, Hsa, (ca_find_linear ca (nfc nm) Hcai).
  destruct (find_name (nfc nm) (map a_name (ca_vals ca))); apply fref_same; assumption.
Qed.

Lemma c_inq_dimid_ref : forall f nm, file_inv f ->
  fref (c_inq_dimid hashf nfc f nm) (s_inq_dimid nfc (abs_file f) nm).
Proof.
  intros f nm Hinv. pose proof Hinv as (_ & (Hd & Hdn & _) & _).
  unfold c_inq_dimid, s_inq_dimid. absn.
  destruct (negb (inq_id_pre nm =? NC_NOERR)). { apply fref_same. assumption. }
  fold (dnames (cf_meta f)). rewrite (hfind_linear hashf hash_range _ _ (nfc nm) Hd Hdn).
  destruct (find_name (nfc nm) (dnames (cf_meta f))); apply fref_same; assumption.
Qed.

Lemma c_inq_varid_ref : forall f nm, file_inv f ->
  fref (c_inq_varid hashf nfc f nm) (s_inq_varid nfc (abs_file f) nm).
Proof.
  intros f nm Hinv. pose proof Hinv as (_ & (_ & _ & Hv & Hvn & _) & _).
  unfold c_inq_varid, s_inq_varid. absn.
  destruct (negb (inq_id_pre nm =? NC_NOERR)). { apply fref_same. assumption. }
  fold (vnames (cf_meta f)). rewrite (hfind_linear hashf hash_range _ _ (nfc nm) Hv Hvn).
  destruct (find_name (nfc nm) (vnames (cf_meta f))); apply fref_same; assumption.
Qed.

Lemma c_inq_ref : forall f, file_inv f -> fref (c_inq f) (s_inq (abs_file f)).
Proof. intros f H. unfold c_inq, s_inq. apply fref_same. assumption. Qed.

Lemma c_rename_dim_ref : forall f id nm, file_inv f ->
  fref (c_rename_dim hashf nfc f id nm) (s_rename_dim nfc (abs_file f) id nm).
Proof.
  intros f id nm Hinv. pose proof Hinv as (Hhs & Hm & Hold). pose proof Hm as (Hd & Hdn & _).
  unfold c_rename_dim, s_rename_dim. absn.
  destruct (negb (rename_dim_pre _ _ _ _ =? NC_NOERR)) eqn:E.
  { apply fref_same. assumption. }
  apply negb_eqb_false, rename_dim_pre_ok in E.
  fold (dnames (cf_meta f)). rewrite (hfind_linear hashf hash_range _ _ (nfc nm) Hd Hdn).
  destruct (find_name (nfc nm) (dnames (cf_meta f))) as [j|] eqn:F.
  { destruct (Nat.eqb j (Z.to_nat id)); apply fref_same; assumption. }
  destruct (nth_in_range _ (cm_dims (cf_meta f)) id) as (old & Hold' & Hnth); [lia|].
  rewrite Hnth.
  destruct (negb (cf_indef f) && (Zlen (d_name old) <? Zlen (nfc nm))). { apply fref_same. assumption. }
  destruct (tab_rename _ _ _ _ _ Hd Hdn (map_nth_error d_name _ _ Hold') F) as (t' & Hu & Ht' & Hnd' & _).
  rewrite Hu. unfold dnames in *.
  apply fref_meta; [assumption | apply meta_inv_dims; try rewrite map_set_nth; assumption | reflexivity].
Qed.

Lemma c_rename_var_ref : forall f id nm, file_inv f ->
  fref (c_rename_var hashf nfc f id nm) (s_rename_var nfc (abs_file f) id nm).
Proof.
  intros f id nm Hinv. pose proof Hinv as (Hhs & Hm & Hold).
  pose proof Hm as (_ & _ & Hv & Hvn & _ & Hvs).
  unfold c_rename_var, s_rename_var. absn.
  destruct (negb (rename_var_pre _ _ _ _ =? NC_NOERR)) eqn:E.
  { apply fref_same. assumption. }
  apply negb_eqb_false, rename_var_pre_ok in E.
  fold (vnames (cf_meta f)). rewrite (hfind_linear hashf hash_range _ _ (nfc nm) Hv Hvn).
  destruct (find_name (nfc nm) (vnames (cf_meta f))) as [j|] eqn:F.
  { apply fref_same; assumption. }
  destruct (nth_in_range _ (cm_vars (cf_meta f)) id) as (old & Hold' & Hnth); [lia|].
  rewrite nth_abs_var, Hnth. simpl.
  destruct (negb (cf_indef f) && (Zlen (cv_name old) <? Zlen (nfc nm))). { apply fref_same. assumption. }
  destruct (tab_rename _ _ _ _ _ Hv Hvn (map_nth_error cv_name _ _ Hold') F) as (t' & Hu & Ht' & Hnd' & _).
  rewrite Hu. unfold vnames in *.
  apply fref_meta; [assumption | | unfold abs_hdr; simpl; rewrite map_set_nth; reflexivity].
  apply meta_inv_vars; try rewrite map_set_nth; try assumption.
  apply Forall_set_nth; [assumption|]. apply (Forall_nth_error _ _ _ _ _ Hvs Hold').
Qed.

(* ---------- redef (header copy incl. hash_table_copy) ---------- *)
Lemma dup_cattrs_ok : forall hs ca, ca_inv ca -> nt_hsize (ca_tab ca) = hs ->
  exists ca', dup_cattrs hs ca = Some ca' /\ ca_vals ca' = ca_vals ca /\ ca_inv ca' /\
              nt_hsize (ca_tab ca') = hs.
Proof.
  intros hs ca [Ht Hnd] Hhs. unfold dup_cattrs. subst hs.
  destruct (hash_dup_inv hashf _ _ Ht) as (t' & Hd & Ht' & Hhs').
  unfold ca_names in Hd. rewrite map_length in Hd. rewrite Hd.
  eexists. split; [reflexivity|]. split; [reflexivity|]. split; [|assumption].
  split; assumption.
Qed.

Lemma dup_vars_ok : forall hs vs, Forall (cv_inv hs) vs ->
  exists vs', dup_vars hs vs = Some vs' /\ map abs_var vs' = map abs_var vs /\
              map cv_name vs' = map cv_name vs /\ Forall (cv_inv hs) vs'.
Proof.
  induction vs as [|v vs IH]; intro Hf; simpl.
  - exists []. auto.
  - inversion Hf as [|? ? Hcv Hf']; subst. destruct Hcv as [Hca Hhs].
    destruct (dup_cattrs_ok hs (cv_atts v) Hca Hhs) as (ca' & Hd & Hv & Hi & Hh). rewrite Hd.
    destruct (IH Hf') as (vs' & Hd' & Ha & Hn & Hfa). rewrite Hd'.
    eexists. split; [reflexivity|]. simpl. split.
    { f_equal; [|assumption]. unfold abs_var. simpl. rewrite Hv. reflexivity. }
    split; [f_equal; assumption|]. constructor; [|assumption]. split; assumption.
Qed.

Lemma dup_meta_ok : forall hs m, meta_inv hs m ->
  exists o, dup_meta hs m = Some o /\ meta_inv hs o /\ Zlen (cm_vars o) = Zlen (cm_vars m).
Proof.
  intros hs m (Hd & Hdn & Hv & Hvn & Hg & Hvs). unfold dup_meta.
  destruct (hash_dup_inv hashf _ _ Hd) as (dt & Hdd & Hdt & _).
  unfold dnames in Hdd. rewrite map_length in Hdd. rewrite Hdd.
  destruct (dup_cattrs_ok _ (cm_gatts m) Hg eq_refl) as (ga & Hdg & Hgv & Hgi & _). rewrite Hdg.
  destruct (dup_vars_ok hs (cm_vars m) Hvs) as (vs & Hdv & Hva & Hvn' & Hvf). rewrite Hdv.
  destruct (hash_dup_inv hashf _ _ Hv) as (vt & Hdvt & Hvt & _).
  unfold vnames in Hdvt. rewrite map_length in Hdvt. rewrite Hdvt.
  eexists. split; [reflexivity|]. split.
  - unfold meta_inv, dnames, vnames in *. simpl. rewrite Hvn'. tauto.
  - simpl. unfold Zlen. f_equal. rewrite <- (map_length cv_name vs), Hvn', map_length. reflexivity.
Qed.

Lemma c_redef_ref : forall f, file_inv f -> fref (c_redef f) (s_redef (abs_file f)).
Proof.
  intros f Hinv. pose proof Hinv as (Hhs & Hm & Hold).
  unfold c_redef, s_redef.
  change (sf_rdonly (abs_file f)) with (cf_rdonly f). change (sf_indef (abs_file f)) with (cf_indef f).
  destruct (cf_rdonly f) eqn:Erd. { apply fref_same. assumption. }
  destruct (cf_indef f) eqn:Ein. { apply fref_same. assumption. }
  destruct (dup_meta_ok _ _ Hm) as (o & Hd & Hoi & Hlen). rewrite Hd.
  eexists _, _, _. split; [reflexivity|]. split.
  - unfold sret, abs_file, cf_hdr, abs_hdr. simpl. rewrite Hlen, Zlen_map. reflexivity.
  - split; [assumption|]. simpl. split; assumption.
Qed.

Lemma apply_begins_names : forall vs bl, map cv_name (apply_begins vs bl) = map cv_name vs.
Proof. induction vs as [|v vs IH]; intro bl; simpl; [reflexivity|]. destruct bl; simpl; f_equal; auto. Qed.

Lemma apply_begins_abs : forall vs bl, map abs_var (apply_begins vs bl) = s_apply_begins (map abs_var vs) bl.
Proof. induction vs as [|v vs IH]; intro bl; simpl; [reflexivity|]. destruct bl; simpl; f_equal; auto. Qed.

Lemma apply_begins_inv : forall hs vs bl, Forall (cv_inv hs) vs -> Forall (cv_inv hs) (apply_begins vs bl).
Proof.
  induction vs as [|v vs IH]; intros bl Hf; simpl; [constructor|].
  inversion Hf; subst. destruct bl; constructor; auto.
Qed.

Lemma c_enddef_ref : forall f bl, file_inv f -> fref (c_enddef f bl) (s_enddef (abs_file f) bl).
Proof.
  intros f bl Hinv. pose proof Hinv as (Hhs & Hm & Hold).
  pose proof Hm as (Hd & Hdn & Hv & Hvn & Hg & Hvs).
  unfold c_enddef, s_enddef. absn.
  destruct (negb (cf_indef f)). { apply fref_same. assumption. }
  fold (abs_hdr (cf_fmt f) (cf_numrecs f) (cf_meta f)). fold (cf_hdr f).
  destruct (negb (check_vlens (cf_hdr f) =? NC_NOERR)). { apply fref_same. assumption. }
  eexists _, _, _. split; [reflexivity|]. split.
  - unfold abs_file, cf_hdr, abs_hdr. simpl. rewrite apply_begins_abs. reflexivity.
  - split; [assumption|]. simpl. split; [|exact I].
    unfold meta_inv, dnames, vnames in *. simpl. rewrite apply_begins_names.
    split; [exact Hd|]. split; [exact Hdn|]. split; [exact Hv|]. split; [exact Hvn|]. split; [exact Hg|].
    apply apply_begins_inv. assumption.
Qed.

Definition hdr_nodup (h : hdr) : Prop :=
  NoDup (map d_name (h_dims h)) /\ NoDup (map v_name (h_vars h)) /\ NoDup (map a_name (h_gatts h)) /\
  Forall (fun v => NoDup (map a_name (v_atts v))) (h_vars h).

Definition hcfg_pos (c : hcfg) : Prop := hs_ok (hc_dim c) /\ hs_ok (hc_var c) /\ hs_ok (hc_gatt c) /\ hs_ok (hc_vatt c).

Definition hint_ok (g : option Z) : Prop := match g with Some v => v <= NC_MAX_INT | None => True end.

Lemma hint_size_pos : forall g d, hs_ok d -> hint_ok g -> hs_ok (hint_size g d).
Proof.
  intros g d H Hg. unfold hint_size. destruct g as [v|]; [|assumption]. simpl in Hg.
  destruct (v <=? 0) eqn:E; [assumption|]. unfold hs_ok. lia.
Qed.

(* with the repaired hint code (size <= 0 falls back to the default) every table size is positive *)
Lemma hcfg_of_pos : forall a b c d, hint_ok a -> hint_ok b -> hint_ok c -> hint_ok d ->
  hcfg_pos (hcfg_of a b c d).
Proof.
  intros. unfold hcfg_pos, hcfg_of. simpl.
  split; [|split; [|split]]; apply hint_size_pos; try assumption; unfold hs_ok; cbv; split; congruence.
Qed.

Lemma open_cattrs_ok : forall hs l, hs_ok hs -> NoDup (map a_name l) ->
  exists ca, open_cattrs hashf hs l = Some ca /\ ca_vals ca = l /\ ca_inv ca /\ nt_hsize (ca_tab ca) = hs.
Proof.
  intros hs l Hhs Hnd. unfold open_cattrs.
  destruct (hash_populate_inv hashf hash_range hs (map a_name l) Hhs) as (t & Hp & Ht & Hh). rewrite Hp.
  eexists. split; [reflexivity|]. split; [reflexivity|]. split; [|assumption]. split; assumption.
Qed.

Lemma open_vars_ok : forall hs vs, hs_ok hs -> Forall (fun v => NoDup (map a_name (v_atts v))) vs ->
  exists cvs, open_vars hashf hs vs = Some cvs /\ map abs_var cvs = map norm_var vs /\
              map cv_name cvs = map v_name vs /\ Forall (cv_inv hs) cvs.
Proof.
  intros hs vs Hhs. induction vs as [|v vs IH]; intro Hf; simpl.
  - exists []. auto.
  - inversion Hf as [|? ? Hv Hf']; subst.
    destruct (open_cattrs_ok hs (v_atts v) Hhs Hv) as (ca & Ho & Hvals & Hi & Hh). rewrite Ho.
    destruct (IH Hf') as (cvs & Ho' & Ha & Hn & Hfa). rewrite Ho'.
    eexists. split; [reflexivity|]. simpl. split.
    { f_equal; [|assumption]. unfold abs_var, norm_var. simpl. rewrite Hvals. reflexivity. }
    split; [f_equal; assumption|]. constructor; [|assumption]. split; assumption.
Qed.

Lemma c_open_file_ok : forall h rd c, hcfg_pos c -> hdr_nodup h ->
  exists f, c_open_file hashf h rd c = Some f /\ file_inv f /\
            abs_file f = mksfile (norm_hdr h) None false rd.
Proof.
  intros h rd c (Hd & Hv & Hg & Ha) (Hnd & Hnv & Hng & Hna). unfold c_open_file.
  destruct (hash_populate_inv hashf hash_range _ (map d_name (h_dims h)) Hd) as (dt & Hpd & Hdt & _). rewrite Hpd.
  destruct (open_vars_ok _ (h_vars h) Ha Hna) as (cvs & Hov & Hab & Hnm & Hcf). rewrite Hov.
  destruct (open_cattrs_ok _ (h_gatts h) Hg Hng) as (ga & Hog & Hgv & Hgi & _). rewrite Hog.
  destruct (hash_populate_inv hashf hash_range _ (map cv_name cvs) Hv) as (vt & Hpv & Hvt & _). rewrite Hpv.
  eexists. split; [reflexivity|]. split.
  - split; [assumption|]. simpl. split; [|exact I].
    unfold meta_inv, dnames, vnames. simpl. rewrite Hnm in *. tauto.
  - unfold abs_file, cf_hdr, abs_hdr, norm_hdr. simpl. rewrite Hab, Hgv. reflexivity.
Qed.

Lemma c_create_file_ok : forall fmt c, hcfg_pos c ->
  file_inv (c_create_file fmt c) /\
  abs_file (c_create_file fmt c) = mksfile (mkhdr fmt 0 [] [] []) None true false.
Proof.
  intros fmt c (Hd & Hv & Hg & Ha). split; [|reflexivity].
  split; [assumption|]. simpl. split; [|exact I].
  unfold meta_inv, dnames, vnames, ca_inv, ca_names, tab_inv. simpl.
  repeat match goal with |- _ /\ _ => split end; try assumption; try reflexivity; constructor.
Qed.

(* names of a file that satisfies the invariant are pairwise distinct (per table) *)
Lemma file_inv_nodup : forall f, file_inv f -> hdr_nodup (cf_hdr f).
Proof.
  intros f (_ & (Hd & Hdn & Hv & Hvn & Hg & Hvs) & _). unfold hdr_nodup, cf_hdr, abs_hdr. simpl.
  rewrite vnames_abs. split; [assumption|]. split; [assumption|]. split; [apply Hg|].
  rewrite Forall_map. eapply Forall_impl; [|exact Hvs]. intros v [[_ H] _]. exact H.
Qed.

End Refine.

(** * Part 3b: every operation of the linear model keeps the header representable in the file format
      (=> decodable) and obeys the write discipline *)

Section WellFormed.
Variable nfc : list byte -> list byte.
(* assumption on the NFC oracle: a normalised legal name still fits a 32-bit length field *)
Hypothesis nfc_len : forall nm, Zlen nm <= NC_MAX_NAME -> Zlen (nfc nm) <= NC_MAX_INT.

Definition att_ok (fmt : Z) (a : att) : Prop :=
  Zlen (a_name a) <= NC_MAX_INT /\ valid_type fmt (a_type a) = true /\
  0 <= a_nelems a <= NC_MAX_INT /\ Zlen (a_data a) = a_nelems a * xlen_type (a_type a).

Definition dim_ok (fmt : Z) (d : dim) : Prop :=
  Zlen (d_name d) <= NC_MAX_INT /\ 0 <= d_size d /\ (fmt = 5 \/ d_size d <= NC_MAX_INT) /\
  d_size d <= NC_MAX_INT64.

Definition var_ok (fmt : Z) (v : var) : Prop :=
  Zlen (v_name v) <= NC_MAX_INT /\ Zlen (v_dimids v) <= NC_MAX_INT /\
  Forall (fun d => 0 <= d <= NC_MAX_INT) (v_dimids v) /\
  Zlen (v_atts v) <= NC_MAX_INT /\ Forall (att_ok fmt) (v_atts v) /\
  valid_type fmt (v_type v) = true /\ 0 <= v_begin v < 4294967296.

Definition hdr_ok (h : hdr) : Prop :=
  fmt_valid (h_format h) = true /\ 0 <= h_numrecs h <= NC_MAX_INT /\
  Zlen (h_dims h) <= NC_MAX_INT /\ Forall (dim_ok (h_format h)) (h_dims h) /\
  Zlen (h_gatts h) <= NC_MAX_INT /\ Forall (att_ok (h_format h)) (h_gatts h) /\
  Zlen (h_vars h) <= NC_MAX_INT /\ Forall (var_ok (h_format h)) (h_vars h).

Lemma nn_ok_int : forall fmt x, 0 <= x <= NC_MAX_INT -> nn_ok fmt x = true.
Proof. intros fmt x Hx. unfold nn_ok, NC_MAX_INT in *. destruct (fmt <? 5); lia. Qed.

Lemma att_ok_wf : forall fmt a, att_ok fmt a -> wf_att fmt a = true.
Proof.
  intros fmt a (H1 & H2 & H3 & H4). unfold wf_att, wf_name. pose proof (Zlen_nonneg (a_name a)).
  rewrite !nn_ok_int, H2 by lia. lia.
Qed.

Lemma dim_ok_wf : forall fmt d, fmt_valid fmt = true -> dim_ok fmt d -> wf_dim fmt d = true.
Proof.
  intros fmt d Hf (H1 & H2 & H3 & H4). unfold wf_dim, wf_name. pose proof (Zlen_nonneg (d_name d)).
  rewrite nn_ok_int by lia. apply fmt_valid_cases in Hf.
  unfold nn_ok, NC_MAX_INT, NC_MAX_INT64 in *. destruct (fmt <? 5) eqn:E; lia.
Qed.

Lemma var_ok_wf : forall fmt v, var_ok fmt v -> wf_var fmt v = true.
Proof.
  intros fmt v (H1 & H2 & H3 & H4 & H5 & H6 & H7). unfold wf_var, wf_name.
  pose proof (Zlen_nonneg (v_name v)). pose proof (Zlen_nonneg (v_dimids v)).
  pose proof (Zlen_nonneg (v_atts v)).
  rewrite !nn_ok_int, H6 by lia.
  rewrite (Forall_forallb _ (nn_ok fmt) (v_dimids v))
    by (eapply Forall_impl; [|exact H3]; apply nn_ok_int).
  rewrite (Forall_forallb _ (wf_att fmt) (v_atts v))
    by (eapply Forall_impl; [|exact H5]; apply att_ok_wf).
  unfold off_ok. destruct (fmt =? 1); lia.
Qed.

Theorem hdr_ok_wf : forall h, hdr_ok h -> wf_hdr h = true.
Proof.
  intros h (Hf & Hn & H1 & H2 & H3 & H4 & H5 & H6). unfold wf_hdr.
  pose proof (Zlen_nonneg (h_dims h)). pose proof (Zlen_nonneg (h_gatts h)).
  pose proof (Zlen_nonneg (h_vars h)).
  change (fmt_ok (h_format h)) with (fmt_valid (h_format h)). rewrite Hf, !nn_ok_int by lia.
  rewrite (Forall_forallb _ (wf_dim (h_format h)) (h_dims h))
    by (eapply Forall_impl; [|exact H2]; intros; apply dim_ok_wf; assumption).
  rewrite (Forall_forallb _ (wf_att (h_format h)) (h_gatts h))
    by (eapply Forall_impl; [|exact H4]; apply att_ok_wf).
  rewrite (Forall_forallb _ (wf_var (h_format h)) (h_vars h))
    by (eapply Forall_impl; [|exact H6]; apply var_ok_wf).
  reflexivity.
Qed.

Lemma hdr_content_norm : forall h, hdr_content h = norm_hdr h.
Proof. reflexivity. Qed.

Lemma norm_hdr_ok : forall h, hdr_ok h -> hdr_ok (norm_hdr h).
Proof.
  intros h (Hf & Hn & H1 & H2 & H3 & H4 & H5 & H6). unfold hdr_ok, norm_hdr. simpl.
  rewrite Zlen_map. repeat (split; [assumption|]). rewrite Forall_map.
  eapply Forall_impl; [|exact H6]. intros v Hv. exact Hv.
Qed.

Lemma Zlen_set_nth : forall A i (l : list A) x, Zlen (set_nth i l x) = Zlen l.
Proof. intros. unfold Zlen. rewrite set_nth_length. reflexivity. Qed.

Lemma Zlen_del_nth_le : forall A i (l : list A), Zlen (del_nth i l) <= Zlen l.
Proof.
  intros A i l. unfold Zlen. revert i. induction l as [|a l IH]; intro i; simpl; [destruct i; simpl; lia|].
  destruct i; simpl; [lia|]. specialize (IH i). lia.
Qed.

Lemma Forall_del_nth : forall A (P : A -> Prop) i l, Forall P l -> Forall P (del_nth i l).
Proof.
  intros A P i l. revert i. induction l as [|a l IH]; intros i Hf; simpl; [destruct i; constructor|].
  inversion Hf; subst. destruct i; [assumption|]. constructor; auto.
Qed.

Lemma Forall_nth_d : forall A (P : A -> Prop) l i d, Forall P l -> P d -> P (nth i l d).
Proof.
  intros A P l. induction l as [|a l IH]; intros i d Hf Hd; destruct i; simpl; auto; inversion Hf; auto.
Qed.

Definition alist_ok (fmt : Z) (l : list att) : Prop := Zlen l <= NC_MAX_INT /\ Forall (att_ok fmt) l.

Lemma s_attr_put_ok : forall fmt indef l nn t n data, alist_ok fmt l ->
  Zlen nn <= NC_MAX_INT -> valid_type fmt t = true -> 0 <= n <= NC_MAX_INT ->
  Zlen data = n * xlen_type t -> alist_ok fmt (fst (s_attr_put indef l nn t n data)).
Proof.
  intros fmt indef l nn t n data [Hl Hf] Hn Ht Hne Hd. unfold s_attr_put.
  destruct (find_name nn (map a_name l)) as [i|] eqn:F.
  - destruct (find_name_att _ _ _ F) as (a & Ha & Hna & Hda). rewrite Hda.
    destruct (negb indef && (x_len_attrV t n >? att_xsz a)); simpl; [split; assumption|].
    split; [rewrite Zlen_set_nth; assumption|]. apply Forall_set_nth; [assumption|].
    pose proof (Forall_nth_error _ _ _ _ _ Hf Ha) as (Hn1 & _).
    split; [exact Hn1|]. simpl. auto.
  - destruct (negb indef); simpl; [split; assumption|].
    destruct (Zlen l =? NC_MAX_INT) eqn:E; simpl; [split; assumption|].
    split; [rewrite Zlen_snoc; lia|].
    apply Forall_app. split; [assumption|]. constructor; [|constructor]. split; simpl; auto.
Qed.

Lemma s_attr_rename_ok : forall fmt indef l nn nnew, alist_ok fmt l -> Zlen nnew <= NC_MAX_INT ->
  alist_ok fmt (fst (s_attr_rename indef l nn nnew)).
Proof.
  intros fmt indef l nn nnew [Hl Hf] Hn. unfold s_attr_rename.
  destruct (find_name nn (map a_name l)) as [i|] eqn:F; simpl; [|split; assumption].
  destruct (find_name nnew (map a_name l)); simpl; [split; assumption|].
  destruct (find_name_att _ _ _ F) as (a & Ha & Hna & Hda). rewrite Hda.
  destruct (negb indef && (Zlen (a_name a) <? Zlen nnew)); simpl; [split; assumption|].
  split; [rewrite Zlen_set_nth; assumption|]. apply Forall_set_nth; [assumption|].
  pose proof (Forall_nth_error _ _ _ _ _ Hf Ha) as (_ & H2 & H3 & H4).
  split; simpl; auto.
Qed.

Lemma s_attr_del_ok : forall fmt l nn, alist_ok fmt l -> alist_ok fmt (fst (s_attr_del l nn)).
Proof.
  intros fmt l nn [Hl Hf]. unfold s_attr_del.
  destruct (find_name nn (map a_name l)); simpl; [|split; assumption].
  split; [pose proof (Zlen_del_nth_le _ n l); lia | apply Forall_del_nth; assumption].
Qed.

Lemma get_sa_ok : forall h v l, hdr_ok h -> get_sa h v = Some l ->
  alist_ok (h_format h) l /\ forall l', alist_ok (h_format h) l' -> hdr_ok (set_sa h v l').
Proof.
  intros h v l Hok H. pose proof Hok as (Hf & Hn & H1 & H2 & H3 & H4 & H5 & H6).
  unfold get_sa in H. unfold set_sa.
  destruct (v =? -1).
  { inversion H; subst. split; [split; assumption|]. intros l' [Hl Hfa]. unfold hdr_ok. simpl. tauto. }
  destruct ((0 <=? v) && (v <? Zlen (h_vars h))); [|discriminate].
  destruct (nth_error (h_vars h) (Z.to_nat v)) as [x|] eqn:E; [|discriminate].
  simpl in H. inversion H; subst. rewrite (nth_error_nth _ _ dflt_var E).
  destruct (Forall_nth_error _ _ _ _ _ H6 E) as (A1 & A2 & A3 & A4 & A5 & A6 & A7).
  split; [split; assumption|]. intros l' [Hl Hfa].
  unfold hdr_ok. simpl. rewrite Zlen_set_nth.
  repeat (split; [assumption|]). apply Forall_set_nth; [assumption|]. unfold var_ok. simpl. tauto.
Qed.

Lemma att_put_value_len : forall t vals, Zlen (fst (att_put_value t vals)) = Zlen vals * xlen_type t.
Proof.
  intros t vals. unfold att_put_value.
  destruct (t =? 2) eqn:E2.
  { apply Z.eqb_eq in E2. subst. simpl. rewrite Zlen_map. change (xlen_type 2) with 1. lia. }
  destruct (is_float_type t); simpl.
  { apply Zlen_flat_map_const. intro; apply Zlen_enc_value. }
  destruct (t =? 11) eqn:E11; simpl.
  { apply Z.eqb_eq in E11. subst. apply Zlen_flat_map_const. intro; apply Zlen_enc_value. }
  apply Zlen_flat_map_const. intro v.
  destruct ((type_min t <=? v) && (v <=? type_max t)); [apply Zlen_enc_value | apply Zlen_fill_bytes].
Qed.

Definition op_repr (o : op) : Prop :=
  match o with
  | OCreate _ _ a b c d => hint_ok a /\ hint_ok b /\ hint_ok c /\ hint_ok d
  | OOpen _ _ a b c d => hint_ok a /\ hint_ok b /\ hint_ok c /\ hint_ok d
  | ODefDim _ _ size => size <= NC_MAX_INT64
  | ODefVar _ _ _ dimids => Zlen dimids <= NC_MAX_INT
  | OPutAtt _ _ _ _ vals => Zlen vals <= NC_MAX_INT
  | OEnddef _ bl => Forall (fun b => 0 <= b < 4294967296) bl
  | OClose _ bl => Forall (fun b => 0 <= b < 4294967296) bl
  | _ => True
  end.

Lemma nfc_ok : forall nm, name_pre nm = NC_NOERR -> Zlen (nfc nm) <= NC_MAX_INT.
Proof. intros nm H. apply nfc_len, name_pre_len. assumption. Qed.

(* write discipline: a step either rewrites the header on disk, or happens in define mode, or leaves header and
   mode alone *)
Definition sdisc (sf sf' : sfile) (w : bool) : Prop :=
  w = true \/
  (sf_indef sf' = true /\ (sf_indef sf = true \/ sf_hdr sf' = sf_hdr sf)) \/
  (sf_hdr sf' = sf_hdr sf /\ sf_indef sf' = sf_indef sf).

Notation shdr r := (sf_hdr (fst (fst r))).

Definition sgood (f : sfile) (r : sres) : Prop := hdr_ok (shdr r) /\ sdisc f (fst (fst r)) (snd r).

Lemma sgood_same : forall f o, hdr_ok (sf_hdr f) -> sgood f (sret f o).
Proof. intros f o H. split; [exact H|]. right. right. auto. Qed.

Lemma sgood_set : forall f h o w, hdr_ok h -> (sf_indef f = false -> w = true) -> sgood f (set_hdr f h, o, w).
Proof.
  intros f h o w H Hw. split; [exact H|]. unfold sdisc. simpl.
  destruct (sf_indef f); [auto | left; auto].
Qed.

Lemma negb_indef_w : forall f, sf_indef f = false -> negb (sf_indef f) = true.
Proof. intros f H. rewrite H. reflexivity. Qed.

Lemma attr_tail_good : forall f v A o w, hdr_ok (sf_hdr f) -> (sf_indef f = false -> w = true) ->
  (forall l, alist_ok (h_format (sf_hdr f)) l -> alist_ok (h_format (sf_hdr f)) (fst (A l))) ->
  sgood f (s_attr_tail f v A o w).
Proof.
  intros f v A o w Hok Hw HA. unfold s_attr_tail.
  destruct (get_sa (sf_hdr f) v) as [l|] eqn:G; [|apply sgood_same; assumption].
  destruct (get_sa_ok _ _ _ Hok G) as [Hl Hset]. apply HA in Hl. destruct (A l) as [l' rc]. simpl in Hl.
  destruct (negb (rc =? NC_NOERR)); [apply sgood_same; assumption|].
  apply sgood_set; [apply Hset; assumption | assumption].
Qed.

Lemma s_def_dim_good : forall f nm size, hdr_ok (sf_hdr f) -> size <= NC_MAX_INT64 ->
  sgood f (s_def_dim nfc f nm size).
Proof.
  intros f nm size Hok Hsz. unfold s_def_dim.
  destruct (negb (def_dim_pre _ _ _ _ _ =? NC_NOERR)) eqn:E;
    [apply sgood_same; assumption|].
  apply negb_eqb_false, def_dim_pre_ok in E. destruct E as (Ein & E1 & E2 & E3 & E4).
  destruct (find_name (nfc nm) (map d_name (h_dims (sf_hdr f)))); [apply sgood_same; assumption|].
  apply sgood_set; [|congruence].
  destruct Hok as (Hf & Hn & H1 & H2 & H3 & H4 & H5 & H6). unfold hdr_ok. simpl.
  rewrite Zlen_snoc.
  split; [assumption|]. split; [assumption|]. split; [lia|]. split; [|tauto].
  apply Forall_app. split; [assumption|]. constructor; [|constructor].
  split; simpl; [apply nfc_ok; assumption | tauto].
Qed.

Lemma s_def_var_good : forall f nm t dimids, hdr_ok (sf_hdr f) -> Zlen dimids <= NC_MAX_INT ->
  sgood f (s_def_var nfc f nm t dimids).
Proof.
  intros f nm t dimids Hok Hsz. unfold s_def_var.
  destruct (negb (def_var_pre _ _ _ _ _ =? NC_NOERR)) eqn:E;
    [apply sgood_same; assumption|].
  pose proof Hok as (Hf & Hn & H1 & H2 & H3 & H4 & H5 & H6).
  apply negb_eqb_false, def_var_pre_ok in E. destruct E as (Ein & E1 & E3 & E2). specialize (E2 Hf).
  destruct (find_name (nfc nm) (map v_name (h_vars (sf_hdr f)))); [apply sgood_same; assumption|].
  destruct (negb (def_var_post _ _ _ =? NC_NOERR)) eqn:E4; [apply sgood_same; assumption|].
  apply negb_eqb_false, (def_var_post_ok _ _ _ H1) in E4.
  apply sgood_set; [|congruence].
  unfold hdr_ok. simpl. rewrite Zlen_snoc.
  repeat (split; [assumption|]). split; [lia|].
  apply Forall_app. split; [assumption|]. constructor; [|constructor].
  unfold var_ok. simpl. split; [apply nfc_ok; assumption|]. split; [assumption|]. split; [assumption|].
  split; [unfold Zlen, NC_MAX_INT; simpl; lia|]. split; [constructor|]. split; [assumption | lia].
Qed.

Lemma s_put_att_good : forall f v nm t vals, hdr_ok (sf_hdr f) -> Zlen vals <= NC_MAX_INT ->
  sgood f (s_put_att nfc f v nm t vals).
Proof.
  intros f v nm t vals Hok Hsz. unfold s_put_att.
  destruct (negb (put_att_pre _ _ _ _ _ _ _ =? NC_NOERR)) eqn:E; [apply sgood_same; assumption|].
  apply negb_eqb_false, put_att_pre_ok in E. destruct E as (_ & E1 & E3 & E2). specialize (E2 (proj1 Hok)).
  destruct (negb (fillvalue_rule _ _ _ _ _ _ =? NC_NOERR)); [apply sgood_same; assumption|].
  pose proof (att_put_value_len t vals) as Hlen.
  destruct (att_put_value t vals) as [data ce]. simpl in Hlen.
  apply attr_tail_good; [assumption | apply negb_indef_w|].
  intros l Hl. apply s_attr_put_ok; auto using nfc_ok.
Qed.

Lemma s_del_att_good : forall f v nm, hdr_ok (sf_hdr f) -> sgood f (s_del_att nfc f v nm).
Proof.
  intros f v nm Hok. unfold s_del_att.
  destruct (negb (del_att_pre _ _ _ _ _ =? NC_NOERR)) eqn:E;
    [apply sgood_same; assumption|].
  apply negb_eqb_false, del_att_pre_ok in E.
  apply attr_tail_good; [assumption | destruct E; congruence|].
  intros l Hl. apply s_attr_del_ok. assumption.
Qed.

Lemma s_rename_att_good : forall f v nm nnm, hdr_ok (sf_hdr f) -> sgood f (s_rename_att nfc f v nm nnm).
Proof.
  intros f v nm nnm Hok. unfold s_rename_att.
  destruct (negb (rename_att_pre _ _ _ _ _ =? NC_NOERR)) eqn:E;
    [apply sgood_same; assumption|].
  apply negb_eqb_false, rename_att_pre_ok in E.
  apply attr_tail_good; [assumption | apply negb_indef_w|].
  intros l Hl. apply s_attr_rename_ok; [assumption | apply nfc_ok, E].
Qed.

(* copy_att: the attribute comes from another header; its type must be legal in the destination format
   (the check added by repair 549716e0) *)
Lemma s_copy_write_good : forall f v nm a self, hdr_ok (sf_hdr f) -> name_pre nm = NC_NOERR ->
  valid_type (h_format (sf_hdr f)) (a_type a) = true -> 0 <= a_nelems a <= NC_MAX_INT ->
  Zlen (a_data a) = a_nelems a * xlen_type (a_type a) ->
  sgood f (s_copy_write nfc f v nm a self).
Proof.
  intros f v nm a self Hok En Ht Hn Hd. unfold s_copy_write. destruct self.
  - destruct (get_sa (sf_hdr f) v); apply sgood_same; assumption.
  - apply attr_tail_good; [assumption | apply negb_indef_w|].
    intros l Hl. apply s_attr_put_ok; auto using nfc_ok.
Qed.

Lemma s_rename_dim_good : forall f id nm, hdr_ok (sf_hdr f) -> sgood f (s_rename_dim nfc f id nm).
Proof.
  intros f id nm Hok. unfold s_rename_dim.
  destruct (negb (rename_dim_pre _ _ _ _ =? NC_NOERR)) eqn:E;
    [apply sgood_same; assumption|].
  apply negb_eqb_false, rename_dim_pre_ok in E. destruct E as [E En].
  destruct (find_name (nfc nm) (map d_name (h_dims (sf_hdr f)))) as [j|].
  { destruct (Nat.eqb j (Z.to_nat id)); apply sgood_same; assumption. }
  destruct (nth_in_range _ (h_dims (sf_hdr f)) id) as (old & Hold & Hnth); [lia|].
  rewrite Hnth.
  destruct (negb (sf_indef f) && (Zlen (d_name old) <? Zlen (nfc nm))); [apply sgood_same; assumption|].
  apply sgood_set; [|apply negb_indef_w].
  destruct Hok as (Hf & Hn & H1 & H2 & H3 & H4 & H5 & H6). unfold hdr_ok. simpl. rewrite Zlen_set_nth.
  split; [assumption|]. split; [assumption|]. split; [assumption|]. split; [|tauto].
  apply Forall_set_nth; [assumption|].
  destruct (Forall_nth_error _ _ _ _ _ H2 Hold) as (_ & B1 & B2 & B3).
  split; simpl; [apply nfc_ok; assumption | tauto].
Qed.

Lemma s_rename_var_good : forall f id nm, hdr_ok (sf_hdr f) -> sgood f (s_rename_var nfc f id nm).
Proof.
  intros f id nm Hok. unfold s_rename_var.
  destruct (negb (rename_var_pre _ _ _ _ =? NC_NOERR)) eqn:E;
    [apply sgood_same; assumption|].
  apply negb_eqb_false, rename_var_pre_ok in E. destruct E as [E En].
  destruct (find_name (nfc nm) (map v_name (h_vars (sf_hdr f)))) as [j|]; [apply sgood_same; assumption|].
  destruct (nth_in_range _ (h_vars (sf_hdr f)) id) as (old & Hold & Hnth); [lia|].
  rewrite Hnth.
  destruct (negb (sf_indef f) && (Zlen (v_name old) <? Zlen (nfc nm))); [apply sgood_same; assumption|].
  apply sgood_set; [|apply negb_indef_w].
  destruct Hok as (Hf & Hn & H1 & H2 & H3 & H4 & H5 & H6). unfold hdr_ok. simpl. rewrite Zlen_set_nth.
  repeat (split; [assumption|]).
  apply Forall_set_nth; [assumption|].
  destruct (Forall_nth_error _ _ _ _ _ H6 Hold) as (_ & B1 & B2 & B3 & B4 & B5 & B6).
  unfold var_ok. simpl. split; [apply nfc_ok; assumption | tauto].
Qed.

Lemma s_redef_good : forall f, hdr_ok (sf_hdr f) -> sgood f (s_redef f).
Proof.
  intros f Hok. unfold s_redef. destruct (sf_rdonly f); [apply sgood_same; assumption|].
  destruct (sf_indef f); [apply sgood_same; assumption|]. split; [exact Hok|]. right. left. simpl. auto.
Qed.

Lemma s_apply_begins_ok : forall fmt vs bl, Forall (var_ok fmt) vs ->
  Forall (fun b => 0 <= b < 4294967296) bl -> Forall (var_ok fmt) (s_apply_begins vs bl).
Proof.
  induction vs as [|v vs IH]; intros bl Hv Hb; simpl; [constructor|].
  inversion Hv; subst. destruct bl as [|b bl].
  - constructor; [assumption|]. apply IH; [assumption | constructor].
  - inversion Hb; subst. constructor; [|apply IH; assumption].
    unfold var_ok in *. simpl. tauto.
Qed.

Lemma Zlen_s_apply_begins : forall vs bl, Zlen (s_apply_begins vs bl) = Zlen vs.
Proof.
  induction vs as [|v vs IH]; intro bl; simpl; [reflexivity|].
  destruct bl; rewrite !Zlen_cons, IH; reflexivity.
Qed.

Lemma s_enddef_good : forall f bl, hdr_ok (sf_hdr f) -> Forall (fun b => 0 <= b < 4294967296) bl ->
  sgood f (s_enddef f bl).
Proof.
  intros f bl Hok Hb. unfold s_enddef.
  destruct (negb (sf_indef f)); [apply sgood_same; assumption|].
  destruct (negb (check_vlens (sf_hdr f) =? NC_NOERR)); [apply sgood_same; assumption|].
  split; [|left; reflexivity].
  destruct Hok as (Hf & Hn & H1 & H2 & H3 & H4 & H5 & H6). unfold hdr_ok. simpl.
  rewrite Zlen_s_apply_begins. repeat (split; [assumption|]).
  apply s_apply_begins_ok; assumption.
Qed.

Lemma s_get_att_same : forall f v nm, exists o, s_get_att nfc f v nm = sret f o.
Proof.
  intros. unfold s_get_att. destruct (negb _); [eauto|]. destruct (get_sa _ _); [|eauto].
  destruct (find_name _ _); eauto.
Qed.

Lemma s_inq_attid_same : forall f v nm, exists o, s_inq_attid nfc f v nm = sret f o.
Proof.
  intros. unfold s_inq_attid. destruct (negb _); [eauto|]. destruct (get_sa _ _); [|eauto].
  destruct (find_name _ _); eauto.
Qed.

Lemma s_inq_dimid_same : forall f nm, exists o, s_inq_dimid nfc f nm = sret f o.
Proof. intros. unfold s_inq_dimid. destruct (negb _); [eauto|]. destruct (find_name _ _); eauto. Qed.

Lemma s_inq_varid_same : forall f nm, exists o, s_inq_varid nfc f nm = sret f o.
Proof. intros. unfold s_inq_varid. destruct (negb _); [eauto|]. destruct (find_name _ _); eauto. Qed.

Lemma sgood_inquiry : forall f r, hdr_ok (sf_hdr f) -> (exists o, r = sret f o) -> sgood f r.
Proof. intros f r Hok [o ->]. apply sgood_same. assumption. Qed.

End WellFormed.

(** * Part 4: worlds (file slots with their disk image) and histories *)
Section Histories.
Variable hashf : list byte -> Z -> Z.
Variable nfc : list byte -> list byte.
Hypothesis hash_range : forall nm hs, hs_ok hs -> 0 <= hashf nm hs < hs.
Hypothesis nfc_len : forall nm, Zlen nm <= NC_MAX_NAME -> Zlen (nfc nm) <= NC_MAX_INT.

Notation finv := (file_inv hashf).

Definition good_hdr (h : hdr) : Prop := hdr_ok h /\ hdr_nodup h.

(* a file on disk: absent, just created (empty), or starting with the encoding of a good header *)
Definition disk_ok (d : option (list byte)) : Prop :=
  d = None \/ d = Some [] \/
  exists h rest, good_hdr h /\ d = Some (encode_header h ++ rest).

(* invariant of a slot; the last clause is "a data-mode file has its current header on disk" *)
Definition slot_inv (sl : cslot) : Prop :=
  match cs_file sl with
  | None => disk_ok (cs_disk sl)
  | Some f => finv f /\ hdr_ok (cf_hdr f) /\
              (if cf_indef f then disk_ok (cs_disk sl)
               else exists rest, cs_disk sl = Some (encode_header (cf_hdr f) ++ rest))
  end.

Definition world_inv (w : cworld) : Prop := Forall slot_inv w.

Lemma slot_get_abs : forall w s, slot_get (abs_world w) s = option_map abs_slot (slot_get w s).
Proof.
  intros w s. unfold slot_get, abs_world. destruct (s <? 0); [reflexivity|].
  rewrite nth_error_map. reflexivity.
Qed.

Lemma slot_get_inv : forall w s sl, world_inv w -> slot_get w s = Some sl -> slot_inv sl.
Proof.
  intros w s sl Hw H. unfold slot_get in H. destruct (s <? 0); [discriminate|].
  eapply Forall_nth_error; eauto.
Qed.

Definition wref (cr : option (cworld * list Z)) (sr : sworld * list Z) : Prop :=
  exists w' ob, cr = Some (w', ob) /\ sr = (abs_world w', ob) /\ world_inv w'.

Lemma wref_same : forall w ob, world_inv w -> wref (Some (w, ob)) (abs_world w, ob).
Proof. intros w ob H. exists w, ob. auto. Qed.

Lemma wref_set : forall w i sl ob, world_inv w -> slot_inv sl ->
  wref (Some (set_nth i w sl, ob)) (set_nth i (abs_world w) (abs_slot sl), ob).
Proof.
  intros w i sl ob Hw Hsl. eexists _, _. split; [reflexivity|]. split.
  - unfold abs_world. rewrite map_set_nth. reflexivity.
  - apply Forall_set_nth; assumption.
Qed.

(* closes, in the [auto]s of the step lemmas below, every branch in which an operation returns an
   error code and leaves the world as it was *)
Local Hint Resolve wref_same : core.

Lemma open_file_inv : forall w s sl f, world_inv w -> slot_get w s = Some sl -> cs_file sl = Some f ->
  finv f /\ hdr_ok (cf_hdr f) /\
  (if cf_indef f then disk_ok (cs_disk sl)
   else exists rest, cs_disk sl = Some (encode_header (cf_hdr f) ++ rest)).
Proof.
  intros w s sl f Hw Hs Hf. pose proof (slot_get_inv _ _ _ Hw Hs) as H. unfold slot_inv in H.
  rewrite Hf in H. exact H.
Qed.

Lemma file_good_hdr : forall f, finv f -> hdr_ok (cf_hdr f) -> good_hdr (cf_hdr f).
Proof. intros f Hi Hok. split; [assumption | apply (file_inv_nodup hashf); assumption]. Qed.

Definition good_step (f : cfile) (gc : cfile -> cres) (gs : sfile -> sres) : Prop :=
  fref hashf (gc f) (gs (abs_file f)) /\ sgood (abs_file f) (gs (abs_file f)).

Lemma disk_after : forall f f' (disk : option (list byte)) wrote,
  finv f' -> hdr_ok (cf_hdr f') ->
  sdisc (abs_file f) (abs_file f') wrote ->
  (if cf_indef f then disk_ok disk else exists rest, disk = Some (encode_header (cf_hdr f) ++ rest)) ->
  hdr_ok (cf_hdr f) -> finv f ->
  (if cf_indef f' then disk_ok (if wrote then wr_hdr disk (cf_hdr f') else disk)
   else exists rest, (if wrote then wr_hdr disk (cf_hdr f') else disk) = Some (encode_header (cf_hdr f') ++ rest)).
Proof.
  intros f f' disk wrote Hi' Hok' Hd Hdisk Hok Hi.
  pose proof (file_good_hdr f' Hi' Hok') as Hg'. pose proof (file_good_hdr f Hi Hok) as Hg.
  unfold sdisc in Hd. simpl in Hd.
  destruct wrote.
  - unfold wr_hdr. destruct (cf_indef f'); [right; right|]; eauto.
  - destruct Hd as [Hd|[[Hd1 Hd2]|[Hd1 Hd2]]]; [discriminate| |].
    + rewrite Hd1. destruct Hd2 as [Hd2|Hd2].
      * rewrite Hd2 in Hdisk. assumption.
      * destruct (cf_indef f); [assumption|]. destruct Hdisk as [rest Hr].
        right. right. exists (cf_hdr f'), rest. rewrite Hd2. auto.
    + rewrite Hd2, Hd1. assumption.
Qed.

Lemma on_file_step : forall w s gc gs, world_inv w ->
  (forall sl f, slot_get w s = Some sl -> cs_file sl = Some f -> finv f -> hdr_ok (cf_hdr f) -> good_step f gc gs) ->
  wref (c_on_file w s gc) (s_on_file (abs_world w) s gs).
Proof.
  intros w s gc gs Hw Hg. unfold c_on_file, s_on_file. rewrite slot_get_abs.
  destruct (slot_get w s) as [sl|] eqn:Hs; simpl; [|auto].
  pose proof (slot_get_inv _ _ _ Hw Hs) as Hsl. unfold slot_inv in Hsl.
  destruct (cs_file sl) as [f|] eqn:Hf; simpl; [|auto].
  destruct Hsl as (Hfi & Hok & Hdisk).
  destruct (Hg sl f eq_refl Hf Hfi Hok) as ((f' & o & wr & Hc & Hsp & Hfi') & Hok' & Hdisc).
  rewrite Hc, Hsp. rewrite Hsp in Hok', Hdisc. simpl in Hok', Hdisc.
  apply wref_set; [assumption|]. unfold slot_inv. simpl. split; [assumption|]. split; [assumption|].
  eapply disk_after; eauto.
Qed.

Lemma put_var_norm : forall fmt dims v, put_var fmt dims (norm_var v) = put_var fmt dims v.
Proof. intros. destruct v. reflexivity. Qed.

Lemma encode_norm : forall h, encode_header (norm_hdr h) = encode_header h.
Proof.
  intros [fmt nr dims gatts vars]. unfold encode_header, norm_hdr.
  cbn [h_format h_numrecs h_dims h_gatts h_vars]. do 4 f_equal.
  unfold put_list. destruct vars as [|v vars]; [reflexivity|].
  rewrite flat_map_map_comm, (flat_map_ext _ _ (put_var_norm fmt dims)), Zlen_map. reflexivity.
Qed.

Lemma hdr_nodup_norm : forall h, hdr_nodup h -> hdr_nodup (norm_hdr h).
Proof.
  intros h (H1 & H2 & H3 & H4). unfold hdr_nodup, norm_hdr. simpl.
  rewrite map_map. split; [assumption|]. split; [exact H2|]. split; [assumption|].
  rewrite Forall_map. exact H4.
Qed.

Lemma check_vlens_novars : forall h, h_vars h = [] -> check_vlens h = NC_NOERR.
Proof. intros h H. unfold check_vlens. rewrite H. reflexivity. Qed.

Lemma decode_good : forall h rest, good_hdr h ->
  exists dc, decode (encode_header h ++ rest) = Some dc /\ dc_hdr dc = norm_hdr h.
Proof.
  intros h rest [Hok _]. exists (decoded_of h). split; [|reflexivity].
  apply decode_encode_full. apply hdr_ok_wf. assumption.
Qed.

Lemma close_trunc_ok : forall rd h rest, good_hdr h ->
  exists rest', close_trunc rd h (Some (encode_header h ++ rest)) = Some (encode_header h ++ rest').
Proof.
  intros rd h rest [Hok _]. unfold close_trunc.
  destruct (negb rd && (Zlen (h_vars h) =? 0)); cbn [option_map]; [|eauto].
  rewrite (hdr_len_encode h (hdr_ok_wf h Hok)), zfirstn_app_exact. exists []. rewrite app_nil_r. reflexivity.
Qed.

Lemma step_create : forall w s fmt c, world_inv w -> hcfg_pos c ->
  wref (c_create w s fmt c) (s_create (abs_world w) s fmt).
Proof.
  intros w s fmt c Hw Hc. unfold c_create, s_create. rewrite slot_get_abs.
  destruct (slot_get w s) as [sl|] eqn:Hs; simpl; [|auto].
  destruct (cs_file sl) as [f|] eqn:Hf; simpl; [auto|].
  destruct (negb (fmt_valid fmt)) eqn:Efmt; [auto|]. apply negb_false_iff in Efmt.
  apply (wref_set w _ (mkcslot (Some []) (Some (c_create_file fmt c)))); [assumption|].
  unfold slot_inv. simpl. split; [apply c_create_file_ok; assumption|]. split.
  - unfold hdr_ok. simpl. unfold Zlen, NC_MAX_INT. simpl. repeat split; try assumption; try lia; constructor.
  - right. left. reflexivity.
Qed.

Lemma step_open : forall w s mode c, world_inv w -> hcfg_pos c ->
  wref (c_open hashf w s mode c) (s_open (abs_world w) s mode).
Proof.
  intros w s mode c Hw Hc. unfold c_open, s_open. rewrite slot_get_abs.
  destruct (slot_get w s) as [sl|] eqn:Hs; simpl; [|auto].
  pose proof (slot_get_inv _ _ _ Hw Hs) as Hsl. unfold slot_inv in Hsl.
  destruct (cs_file sl) as [f|] eqn:Hf; simpl; [auto|].
  destruct Hsl as [Hd|[Hd|(h & rest & Hg & Hd)]]; rewrite Hd; [auto | simpl; auto |].
  destruct (decode_good h rest Hg) as (dc & Hdec & Hdc). rewrite Hdec, Hdc.
  destruct Hg as [Hok Hnd].
  destruct (c_open_file_ok hashf hash_range (norm_hdr h) (mode =? 0) c Hc (hdr_nodup_norm _ Hnd))
    as (f & Ho & Hfi & Habs).
  rewrite Ho, <- Habs. apply (wref_set w _ (mkcslot (Some (encode_header h ++ rest)) (Some f))); [assumption|].
  unfold slot_inv. cbn [cs_file cs_disk]. split; [assumption|].
  change (cf_hdr f) with (sf_hdr (abs_file f)). change (cf_indef f) with (sf_indef (abs_file f)).
  rewrite Habs. cbn [sf_hdr sf_indef]. split; [apply norm_hdr_ok, norm_hdr_ok; assumption|].
  exists rest. rewrite !encode_norm. reflexivity.
Qed.

Lemma step_close : forall w s bl, world_inv w -> Forall (fun b => 0 <= b < 4294967296) bl ->
  wref (c_close w s bl) (s_close (abs_world w) s bl).
Proof.
  intros w s bl Hw Hbl. unfold c_close, s_close. rewrite slot_get_abs.
  destruct (slot_get w s) as [sl|] eqn:Hs; simpl; [|auto].
  pose proof (slot_get_inv _ _ _ Hw Hs) as Hsl. unfold slot_inv in Hsl.
  destruct (cs_file sl) as [f|] eqn:Hf; simpl; [|auto].
  destruct Hsl as (Hfi & Hok & Hdisk).
  change (sf_indef (abs_file f)) with (cf_indef f).
  destruct (cf_indef f) eqn:Hin.
  - destruct (c_enddef_ref hashf f bl Hfi) as (f' & o & wr & Hc & Hsp & Hfi').
    rewrite Hc, Hsp.
    destruct (s_enddef_good (abs_file f) bl Hok Hbl) as [Hok' _]. rewrite Hsp in Hok'. simpl in Hok'.
    apply wref_set; [assumption|]. unfold slot_inv. cbn [cs_file cs_disk].
    pose proof (file_good_hdr f' Hfi' Hok') as Hg'.
    destruct wr.
    + unfold wr_hdr. destruct (close_trunc_ok (cf_rdonly f') (cf_hdr f')
          (zskipn (Zlen (encode_header (cf_hdr f'))) match cs_disk sl with Some d => d | None => [] end) Hg')
        as [rest' Hr].
      rewrite Hr. right. right. eauto.
    + (* enddef refused: nothing written; then the file has variables and is not truncated *)
      unfold c_enddef in Hc. rewrite Hin in Hc. simpl in Hc.
      destruct (negb (check_vlens (cf_hdr f) =? NC_NOERR)) eqn:Ev; [|discriminate].
      inversion Hc; subst f'. unfold close_trunc.
      destruct (negb (cf_rdonly f) && (Zlen (h_vars (cf_hdr f)) =? 0)) eqn:Et; [|assumption].
      exfalso. apply andb_true_iff in Et. destruct Et as [_ Et].
      rewrite check_vlens_novars in Ev; [discriminate|].
      apply Zlen_zero_nil. lia.
  - destruct Hdisk as [rest Hr]. apply wref_set; [assumption|]. unfold slot_inv. cbn [cs_file cs_disk]. rewrite Hr.
    pose proof (file_good_hdr f Hfi Hok) as Hg.
    destruct (close_trunc_ok (cf_rdonly f) (cf_hdr f) rest Hg) as [rest' Hr']. rewrite Hr'.
    right. right. eauto.
Qed.

Lemma s_copy_read_att : forall sf v nm a, hdr_ok (sf_hdr sf) -> s_copy_read nfc sf v nm = Some (inr a) ->
  att_ok (h_format (sf_hdr sf)) a.
Proof.
  intros sf v nm a Hok H. unfold s_copy_read in H.
  destruct (get_sa (sf_hdr sf) v) as [l|] eqn:G; [|discriminate].
  destruct (find_name (nfc nm) (map a_name l)) as [i|] eqn:F; [|discriminate].
  inversion H; subst a. destruct (find_name_att _ _ _ F) as (a & Ha & _ & Hd). rewrite Hd.
  destruct (get_sa_ok _ _ _ Hok G) as [[_ Hfa] _]. eapply Forall_nth_error; eauto.
Qed.

Lemma step_copy : forall w s v nm s2 v2, world_inv w ->
  wref (c_copy_att hashf nfc w s v nm s2 v2) (s_copy_att nfc (abs_world w) s v nm s2 v2).
Proof.
  intros w s v nm s2 v2 Hw. unfold c_copy_att, s_copy_att. rewrite !slot_get_abs.
  destruct (slot_get w s) as [sl1|] eqn:Hs1; simpl; [|auto].
  destruct (slot_get w s2) as [sl2|] eqn:Hs2; simpl; [|auto].
  destruct (cs_file sl1) as [fin|] eqn:Hf1; simpl; [|auto].
  destruct (cs_file sl2) as [fout|] eqn:Hf2; simpl; [|auto].
  destruct (open_file_inv _ _ _ _ Hw Hs1 Hf1) as (Hfi1 & Hok1 & _).
  destruct (open_file_inv _ _ _ _ Hw Hs2 Hf2) as (Hfi2 & Hok2 & _).
  rewrite !Zlen_map.
  destruct (negb (copy_att_pre _ _ _ _ _ _ =? NC_NOERR)) eqn:E; [auto|].
  apply negb_eqb_false, copy_att_pre_ok in E. destruct E as (Ev1 & Ev2 & En).
  destruct (c_copy_read_ref hashf nfc hash_range fin v nm Hfi1 Ev1) as [Hr Hnn].
  rewrite <- Hr. destruct (c_copy_read hashf nfc fin v nm) as [[rc|a]|] eqn:Hcr; [auto| |congruence].
  change (h_format (sf_hdr (abs_file fout))) with (cf_fmt fout).
  destruct ((cf_fmt fout <? 5) && (a_type a >? 6)) eqn:Echk; [auto|].
  apply on_file_step; [assumption|].
  intros sl f Hsl Hf Hfi Hok. rewrite Hs2 in Hsl. inversion Hsl; subst sl.
  rewrite Hf2 in Hf. inversion Hf; subst f.
  split; [apply c_copy_write_ref; assumption|].
  pose proof (s_copy_read_att (abs_file fin) v nm a Hok1 (eq_sym Hr)) as (A1 & A2 & A3 & A4).
  apply (s_copy_write_good nfc nfc_len); try assumption.
  change (h_format (sf_hdr (abs_file fout))) with (cf_fmt fout).
  change (h_format (sf_hdr (abs_file fin))) with (cf_fmt fin) in A2.
  destruct Hok2 as (Hfv & _). change (h_format (cf_hdr fout)) with (cf_fmt fout) in Hfv.
  apply fmt_valid_cases in Hfv. unfold valid_type in *.
  destruct (cf_fmt fin =? 5); destruct (cf_fmt fout =? 5) eqn:E5; lia.
Qed.

(* ---------- refinement of the linear model: one API call ---------- *)
Theorem step_refines : forall w o, world_inv w -> op_repr o ->
  exists w' ob, c_step hashf nfc w o = Some (w', ob) /\
                s_step nfc (abs_world w) o = (abs_world w', ob) /\ world_inv w'.
Proof.
  intros w o Hw Hr. change (wref (c_step hashf nfc w o) (s_step nfc (abs_world w) o)).
  assert (Hon : forall s gc gs, (forall f, finv f -> hdr_ok (cf_hdr f) -> good_step f gc gs) ->
            wref (c_on_file w s gc) (s_on_file (abs_world w) s gs)).
  { intros s gc gs H. apply on_file_step; [assumption|]. intros sl f _ _. apply H. }
  destruct o; cbn [c_step s_step]; cbn [op_repr] in Hr.
  - apply step_create; [assumption | apply hcfg_of_pos; tauto].
  - apply step_open; [assumption | apply hcfg_of_pos; tauto].
  - apply step_close; assumption.
  - apply Hon. intros f Hfi Hok. split; [apply c_enddef_ref | apply s_enddef_good]; assumption.
  - apply Hon. intros f Hfi Hok. split; [apply c_redef_ref | apply s_redef_good]; assumption.
  - apply Hon. intros f Hfi Hok. split; [apply c_def_dim_ref | apply (s_def_dim_good nfc nfc_len)]; assumption.
  - apply Hon. intros f Hfi Hok. split; [apply c_def_var_ref | apply (s_def_var_good nfc nfc_len)]; assumption.
  - apply Hon. intros f Hfi Hok. split; [apply c_put_att_ref | apply (s_put_att_good nfc nfc_len)]; assumption.
  - apply Hon. intros f Hfi Hok. split; [apply c_get_att_ref; assumption|].
    apply sgood_inquiry; [assumption | apply s_get_att_same].
  - apply Hon. intros f Hfi Hok. split; [apply c_del_att_ref | apply s_del_att_good]; assumption.
  - apply Hon. intros f Hfi Hok. split; [apply c_rename_dim_ref | apply (s_rename_dim_good nfc nfc_len)]; assumption.
  - apply Hon. intros f Hfi Hok. split; [apply c_rename_var_ref | apply (s_rename_var_good nfc nfc_len)]; assumption.
  - apply Hon. intros f Hfi Hok. split; [apply c_rename_att_ref | apply (s_rename_att_good nfc nfc_len)]; assumption.
  - apply step_copy; assumption.
  - apply Hon. intros f Hfi Hok. split; [apply c_inq_ref | apply sgood_same]; assumption.
  - apply Hon. intros f Hfi Hok. split; [apply c_inq_dimid_ref; assumption|].
    apply sgood_inquiry; [assumption | apply s_inq_dimid_same].
  - apply Hon. intros f Hfi Hok. split; [apply c_inq_varid_ref; assumption|].
    apply sgood_inquiry; [assumption | apply s_inq_varid_same].
  - apply Hon. intros f Hfi Hok. split; [apply c_inq_attid_ref; assumption|].
    apply sgood_inquiry; [assumption | apply s_inq_attid_same].
  - rewrite slot_get_abs. destruct (slot_get w s) as [sl|]; simpl; auto.
Qed.

(* ---------- refinement for whole histories => inq_matches_model ---------- *)
Theorem run_refines : forall ops w, world_inv w -> Forall op_repr ops ->
  exists w' obs, c_run hashf nfc w ops = Some (w', obs) /\
                 s_run nfc (abs_world w) ops = (abs_world w', obs) /\ world_inv w'.
Proof.
  induction ops as [|o ops IH]; intros w Hw Hr; simpl.
  - exists w, []. auto.
  - inversion Hr; subst.
    destruct (step_refines w o Hw H1) as (w1 & ob & Hc & Hs & Hw1). rewrite Hc, Hs.
    destruct (IH w1 Hw1 H2) as (w2 & obs & Hc2 & Hs2 & Hw2). rewrite Hc2, Hs2.
    exists w2, (ob :: obs). auto.
Qed.

Lemma world0_inv : forall n, world_inv (cworld0 n).
Proof.
  intro n. unfold world_inv, cworld0. apply Forall_forall. intros sl Hin.
  apply repeat_spec in Hin. subst. unfold slot_inv. simpl. left. reflexivity.
Qed.

Lemma abs_world0 : forall n, abs_world (cworld0 n) = sworld0 n.
Proof. intro n. unfold abs_world, cworld0, sworld0. induction n; simpl; [reflexivity|]. f_equal. assumption. Qed.

(* every observation (return codes, ids, inquiry dumps, lookups, file snapshots) of every history run on
   the hash-table implementation equals the observation of the linear reference model; no step is
   undefined behaviour *)
Theorem inq_matches_model : forall n ops, Forall op_repr ops ->
  exists w', c_run hashf nfc (cworld0 n) ops = Some (w', snd (s_run nfc (sworld0 n) ops)) /\ world_inv w'.
Proof.
  intros n ops Hr. destruct (run_refines ops (cworld0 n) (world0_inv n) Hr) as (w' & obs & Hc & Hs & Hw).
  rewrite abs_world0 in Hs. rewrite Hs. simpl. eauto.
Qed.

Lemma reachable_inv : forall n ops w' obs, Forall op_repr ops ->
  c_run hashf nfc (cworld0 n) ops = Some (w', obs) -> world_inv w'.
Proof.
  intros n ops w' obs Hr Hc.
  destruct (run_refines ops (cworld0 n) (world0_inv n) Hr) as (w2 & obs2 & Hc2 & _ & Hw). congruence.
Qed.

Theorem table_inv_reachable : forall n ops w' obs s sl f, Forall op_repr ops ->
  c_run hashf nfc (cworld0 n) ops = Some (w', obs) ->
  slot_get w' s = Some sl -> cs_file sl = Some f -> finv f.
Proof.
  intros n ops w' obs s sl f Hr Hc Hs Hf.
  apply (open_file_inv w' s sl f); [eapply reachable_inv; eauto | assumption | assumption].
Qed.

Theorem name_id_agree : forall f, finv f ->
  let m := cf_meta f in
  (forall i nm, hfind hashf (dnames m) (cm_dtab m) nm = Some (Some i) <-> nth_error (dnames m) i = Some nm) /\
  (forall i nm, hfind hashf (vnames m) (cm_vtab m) nm = Some (Some i) <-> nth_error (vnames m) i = Some nm) /\
  (forall v ca i nm, get_ca m v = Some ca ->
     (ca_find hashf ca nm = Some (Some i) <-> nth_error (ca_names ca) i = Some nm)).
Proof.
  intros f (Hhs & Hm & _). pose proof Hm as (Hd & Hdn & Hv & Hvn & Hg & Hvs). cbv zeta.
  split; [|split].
  - intros i nm. apply (hfind_some_iff hashf hash_range); assumption.
  - intros i nm. apply (hfind_some_iff hashf hash_range); assumption.
  - intros v ca i nm Hca. apply (hfind_some_iff hashf hash_range); apply (get_ca_inv hashf _ _ _ _ Hm Hca).
Qed.

(* ---------- data-mode updates are in the file (as an invariant of every reachable world) ---------- *)
Theorem datamode_update_in_file : forall n ops w' obs s sl f, Forall op_repr ops ->
  c_run hashf nfc (cworld0 n) ops = Some (w', obs) ->
  slot_get w' s = Some sl -> cs_file sl = Some f -> cf_indef f = false ->
  exists rest, cs_disk sl = Some (encode_header (cf_hdr f) ++ rest) /\
               hdr_len (cf_hdr f) = Zlen (encode_header (cf_hdr f)).
Proof.
  intros n ops w' obs s sl f Hr Hc Hs Hf Hin.
  destruct (open_file_inv w' s sl f (reachable_inv _ _ _ _ Hr Hc) Hs Hf) as (_ & Hok & H). rewrite Hin in H.
  destruct H as (rest & Hd). exists rest. split; [assumption|].
  apply hdr_len_encode, hdr_ok_wf. assumption.
Qed.

(* ---------- persistence: close, then open, gives the same header ---------- *)
Lemma norm_cf_hdr : forall f, norm_hdr (cf_hdr f) = cf_hdr f.
Proof.
  intro f. unfold norm_hdr, cf_hdr, abs_hdr. simpl. f_equal. rewrite map_map.
  apply map_ext. intro v. reflexivity.
Qed.

Lemma slot_get_set_same : forall A (w : list A) s sl x, slot_get w s = Some sl ->
  slot_get (set_nth (Z.to_nat s) w x) s = Some x.
Proof.
  intros A w s sl x H. unfold slot_get in *. destruct (s <? 0); [discriminate|].
  rewrite nth_error_set_nth, Nat.eqb_refl by (eapply nth_error_some_lt; eauto). reflexivity.
Qed.

Theorem persistence : forall w s sl f mode hd hv hg ha bl,
  hint_ok hd -> hint_ok hv -> hint_ok hg -> hint_ok ha ->
  world_inv w -> slot_get w s = Some sl -> cs_file sl = Some f -> cf_indef f = false ->
  exists w1 w2 sl2 f2,
    c_step hashf nfc w (OClose s bl) = Some (w1, [NC_NOERR]) /\
    c_step hashf nfc w1 (OOpen s mode hd hv hg ha) = Some (w2, [NC_NOERR]) /\
    slot_get w2 s = Some sl2 /\ cs_file sl2 = Some f2 /\ cf_hdr f2 = cf_hdr f /\ finv f2.
Proof.
  intros w s sl f mode hd hv hg ha bl Hh1 Hh2 Hh3 Hh4 Hw Hs Hf Hin.
  destruct (open_file_inv w s sl f Hw Hs Hf) as (Hfi & Hok & Hd). rewrite Hin in Hd. destruct Hd as (rest & Hd).
  pose proof (file_good_hdr f Hfi Hok) as Hg.
  destruct (close_trunc_ok (cf_rdonly f) (cf_hdr f) rest Hg) as [rest' Hr'].
  set (sl1 := mkcslot (Some (encode_header (cf_hdr f) ++ rest')) None).
  exists (set_nth (Z.to_nat s) w sl1).
  assert (Hs1 : slot_get (set_nth (Z.to_nat s) w sl1) s = Some sl1) by (eapply slot_get_set_same; eauto).
  destruct (decode_good (cf_hdr f) rest' Hg) as (dc & Hdec & Hdc).
  destruct Hg as [_ Hnd].
  destruct (c_open_file_ok hashf hash_range (norm_hdr (cf_hdr f)) (mode =? 0) (hcfg_of hd hv hg ha)
              (hcfg_of_pos _ _ _ _ Hh1 Hh2 Hh3 Hh4) (hdr_nodup_norm _ Hnd)) as (f2 & Ho & Hfi2 & Habs).
  exists (set_nth (Z.to_nat s) (set_nth (Z.to_nat s) w sl1)
                  (mkcslot (Some (encode_header (cf_hdr f) ++ rest')) (Some f2))).
  eexists _, f2. split.
  { cbn [c_step]. unfold c_close. rewrite Hs, Hf, Hin, Hd, Hr'. reflexivity. }
  split.
  { cbn [c_step]. unfold c_open. rewrite Hs1. unfold sl1. cbn [cs_file cs_disk].
    rewrite Hdec, Hdc, Ho. reflexivity. }
  split; [eapply slot_get_set_same; eauto|].
  split; [reflexivity|]. split; [|assumption].
  change (cf_hdr f2) with (sf_hdr (abs_file f2)). rewrite Habs. simpl. rewrite !norm_cf_hdr. reflexivity.
Qed.

End Histories.

(** * Part 5: the instance that is run (Bernstein hash), satisfiability examples, refuted variants *)

Lemma land_le : forall a b, 0 <= b -> Z.land a b <= b.
Proof.
  intros a b Hb.
  assert (H : Z.land a b + Z.land (Z.lnot a) b = b).
  { rewrite Z.add_nocarry_lxor.
    - apply Z.bits_inj'. intros n Hn. rewrite Z.lxor_spec, !Z.land_spec, Z.lnot_spec by assumption.
      destruct (Z.testbit a n), (Z.testbit b n); reflexivity.
    - apply Z.bits_inj'. intros n Hn. rewrite !Z.land_spec, Z.lnot_spec, Z.bits_0 by assumption.
      destruct (Z.testbit a n), (Z.testbit b n); reflexivity. }
  assert (0 <= Z.land (Z.lnot a) b) by (apply Z.land_nonneg; auto).
  lia.
Qed.

Lemma mask_range : forall X hs, hs_ok hs -> 0 <= s32 (Z.land X (u32 (hs - 1))) < hs.
Proof.
  intros X hs [H1 H2]. unfold NC_MAX_INT in *.
  assert (Hm : u32 (hs - 1) = hs - 1) by (unfold u32; apply Z.mod_small; lia).
  rewrite Hm.
  assert (Hle : Z.land X (hs - 1) <= hs - 1) by (apply land_le; lia).
  assert (Hge : 0 <= Z.land X (hs - 1)) by (apply Z.land_nonneg; right; lia).
  unfold s32, u32. rewrite Z.mod_small by lia.
  destruct (Z.land X (hs - 1) <? 2147483648) eqn:E; lia.
Qed.

(* the hash function in use has its range below every positive table size: key = x & (hsize-1) *)
Theorem bernstein_range : forall nm hs, hs_ok hs -> 0 <= bernstein nm hs < hs.
Proof. intros nm hs H. apply mask_range, H. Qed.

(* before repair c39b68a0 a size of 0 was accepted: then the key is the full 32-bit hash as an int, outside
   the (empty) table: the first insertion is an out-of-bounds access *)
Lemma hint_size_old_refuted :
  hint_size_old (Some 0) PNC_HSIZE_DIM = 0 /\
  c_def_dim bernstein nfc_tab (c_create_file 1 (mkhcfg (hint_size_old (Some 0) PNC_HSIZE_DIM) 256 64 8)) [120] 5 = None.
Proof. split; vm_compute; reflexivity. Qed.

Lemma hint_size_repaired : forall v d, hs_ok d -> v <= NC_MAX_INT -> hs_ok (hint_size (Some v) d).
Proof. intros. apply hint_size_pos; simpl; assumption. Qed.

(* lookup_hash_eq_linear needs distinct names: with duplicates (only possible in a file not written by this
   library) a rename reorders a bucket and the bucket lookup no longer returns the first match *)
Definition lookup_hash_eq_linear_full : Prop :=
  forall hashf names t nm, (forall n hs, hs_ok hs -> 0 <= hashf n hs < hs) ->
    tab_inv hashf names t -> hfind hashf names t nm = Some (find_name nm names).

Lemma lookup_hash_eq_linear_refuted : ~ lookup_hash_eq_linear_full.
Proof.
  intro H.
  specialize (H (fun _ _ => 0) [[97]; [97]] (mkntab 1 (Some [[1%nat; 0%nat]])) [97]).
  assert (Hr : forall (n : list byte) hs, hs_ok hs -> 0 <= (fun (_ : list byte) (_ : Z) => 0) n hs < hs)
    by (intros n hs [A B]; lia).
  specialize (H Hr). vm_compute in H.
  assert (Hinv : tab_inv (fun _ _ => 0) [[97]; [97]] (mkntab 1 (Some [[1%nat; 0%nat]]))).
  { split; [unfold hs_ok, NC_MAX_INT; simpl; lia|]. simpl. split; [reflexivity|].
    intros k ids Hk. destruct k as [|k]; simpl in Hk; [|destruct k; discriminate].
    inversion Hk; subst ids. split.
    - repeat constructor; simpl; intuition lia.
    - intro i. unfold key. simpl. split.
      + intros [Hi|[Hi|[]]]; subst i; simpl; eauto.
      + intros (n & Hn & _). destruct i as [|[|i]]; simpl in *; auto. destruct i; discriminate. }
  specialize (H Hinv). discriminate.
Qed.

(* ---------- the hypotheses are satisfiable: a non-trivial reachable world ---------- *)
Definition ex_ops : list op :=
  [OCreate 0 1 (Some 2) None (Some 1) None;
   ODefDim 0 [120] 5; ODefDim 0 [121] 0; ODefVar 0 [118] 4 [1; 0];
   OPutAtt 0 (-1) [97] 4 [7; 8]; OPutAtt 0 0 [98] 2 [65; 66]; ORenameDim 0 0 [122];
   OEnddef 0 [200]; ORenameAtt 0 (-1) [97] [99]; OInq 0; OClose 0 []; OOpen 0 0 None None None None;
   OInqDimid 0 [122]; OInq 0].

Example ex_ops_repr : Forall op_repr ex_ops.
Proof.
  unfold ex_ops.
  repeat (apply Forall_cons;
          [cbn [op_repr hint_ok]; unfold NC_MAX_INT, NC_MAX_INT64, Zlen; simpl;
           repeat match goal with |- _ /\ _ => split end; try lia; try exact I;
           repeat (first [apply Forall_nil | apply Forall_cons; [lia|]]) |]).
  apply Forall_nil.
Qed.

Example ex_run_defined :
  exists w obs, c_run bernstein nfc_tab (cworld0 1) ex_ops = Some (w, obs) /\
                snd (s_run nfc_tab (sworld0 1) ex_ops) = obs /\
                nth 12 obs [] = [NC_NOERR; 0].
Proof. eexists _, _. split; [vm_compute; reflexivity|]. split; vm_compute; reflexivity. Qed.

Example identity_nfc_len : forall nm, Zlen nm <= NC_MAX_NAME -> Zlen ((fun x : list byte => x) nm) <= NC_MAX_INT.
Proof. intros nm H. unfold NC_MAX_NAME, NC_MAX_INT in *. lia. Qed.

(* ---------- the NFC table used when the model is run satisfies the assumption on the oracle ---------- *)
Lemma is_prefix_len : forall p l, is_prefix p l = true -> (length p <= length l)%nat.
Proof.
  induction p as [|x p IH]; intros l H; simpl; [lia|].
  destruct l as [|y l]; simpl in H; [discriminate|].
  apply andb_true_iff in H. destruct H as [_ H]. apply IH in H. simpl. lia.
Qed.

Lemma nfc_pairs_shrink : forall k v, In (k, v) nfc_pairs -> (length v <= length k)%nat /\ (0 < length k)%nat.
Proof.
  intros k v H. unfold nfc_pairs in H. simpl in H.
  repeat (destruct H as [H|H]; [inversion H; subst; simpl; lia|]). contradiction.
Qed.

Lemma nfc_tab_f_len : forall fuel l, (length (nfc_tab_f fuel l) <= length l)%nat.
Proof.
  induction fuel as [|fuel IH]; intro l; [simpl; lia|].
  destruct l as [|c r]; [simpl; lia|]. cbn [nfc_tab_f].
  destruct (find (fun p => is_prefix (fst p) (c :: r)) nfc_pairs) as [[k v]|] eqn:F.
  - apply find_some in F. destruct F as [Hin Hp]. simpl in Hp.
    destruct (nfc_pairs_shrink k v Hin) as [Hs Hk]. apply is_prefix_len in Hp.
    rewrite app_length. specialize (IH (skipn (length k) (c :: r))). rewrite skipn_length in IH. lia.
  - simpl. specialize (IH r). lia.
Qed.

Theorem nfc_tab_len : forall nm, Zlen nm <= NC_MAX_NAME -> Zlen (nfc_tab nm) <= NC_MAX_INT.
Proof.
  intros nm H. unfold nfc_tab, Zlen in *. pose proof (nfc_tab_f_len (length nm) nm).
  unfold NC_MAX_NAME, NC_MAX_INT in *. lia.
Qed.

(* ---------- the theorems for the very model that is run against the library ---------- *)
Theorem inq_matches_model_instance : forall n ops, Forall op_repr ops ->
  exists w', c_run bernstein nfc_tab (cworld0 n) ops = Some (w', snd (s_run nfc_tab (sworld0 n) ops)) /\
             world_inv bernstein w'.
Proof. intros. apply (inq_matches_model bernstein nfc_tab bernstein_range nfc_tab_len). assumption. Qed.

(** * Part 6: a data-mode update never makes the header longer *)
(* for rndup: without this line lia fails on the goals below.  The hook set in Proofs_Base is not in
   force in this file: importing ZifyBool after Proofs_Base has put the empty hook back, and with the
   hook the [lia] of [pre_split] no longer closes its goals. *)
Ltac Zify.zify_post_hook ::= Z.div_mod_to_equations.

Lemma zsum_map_set_nth : forall A (g : A -> Z) l i a x, nth_error l i = Some a ->
  zsum (map g (set_nth i l x)) = zsum (map g l) - g a + g x.
Proof.
  induction l as [|y l IH]; intros i a x H; destruct i; simpl in *; try discriminate.
  - inversion H; subst. lia.
  - rewrite (IH i a x H). lia.
Qed.

Lemma x_len_is_rndup : forall t n, 1 <= t <= 11 -> 0 <= n ->
  x_len_attrV t n = rndup (n * xlen_type t) 4.
Proof.
  intros t n Ht Hn.
  assert (Hc : t = 1 \/ t = 2 \/ t = 3 \/ t = 4 \/ t = 5 \/ t = 6 \/ t = 7 \/ t = 8 \/ t = 9 \/ t = 10 \/ t = 11) by lia.
  unfold x_len_attrV, xlen_type, rndup.
  repeat (destruct Hc as [Hc|Hc]; [subst t; simpl; lia|]). subst t. simpl. lia.
Qed.

Section NoGrowth.
Variable nfc : list byte -> list byte.

Notation alen fmt l := (zsum (map (len_att fmt) l)).

Lemma s_attr_put_nogrow : forall fmt l nn t n data, Forall (att_ok fmt) l ->
  valid_type fmt t = true -> 0 <= n -> alen fmt (fst (s_attr_put false l nn t n data)) <= alen fmt l.
Proof.
  intros fmt l nn t n data Hf Ht Hn. unfold s_attr_put.
  destruct (find_name nn (map a_name l)) as [i|] eqn:F; simpl; [|lia].
  destruct (find_name_att _ _ _ F) as (a & Ha & Hna & Hda). rewrite Hda.
  destruct (x_len_attrV t n >? att_xsz a) eqn:E; simpl; [lia|].
  rewrite (zsum_map_set_nth _ (len_att fmt) l i a _ Ha).
  destruct (Forall_nth_error _ _ _ _ _ Hf Ha) as (_ & Hta & Hna' & _).
  unfold att_xsz in E.
  rewrite (x_len_is_rndup t n (valid_type_range _ _ Ht) Hn) in E.
  rewrite (x_len_is_rndup _ _ (valid_type_range _ _ Hta) (proj1 Hna')) in E.
  unfold len_att. simpl. lia.
Qed.

Lemma s_attr_rename_nogrow : forall fmt l nn nnew,
  alen fmt (fst (s_attr_rename false l nn nnew)) <= alen fmt l.
Proof.
  intros fmt l nn nnew. unfold s_attr_rename.
  destruct (find_name nn (map a_name l)) as [i|] eqn:F; simpl; [|lia].
  destruct (find_name nnew (map a_name l)); simpl; [lia|].
  destruct (find_name_att _ _ _ F) as (a & Ha & Hna & Hda). rewrite Hda.
  destruct (Zlen (a_name a) <? Zlen nnew) eqn:E; simpl; [lia|].
  rewrite (zsum_map_set_nth _ (len_att fmt) l i a _ Ha).
  unfold len_att. simpl. pose proof (rndup4_mono (Zlen nnew) (Zlen (a_name a))). lia.
Qed.

Lemma set_sa_nogrow : forall h v l0 l, get_sa h v = Some l0 ->
  alen (h_format h) l <= alen (h_format h) l0 -> hdr_len (set_sa h v l) <= hdr_len h.
Proof.
  intros h v l0 l G Hle. unfold get_sa in G. unfold set_sa.
  destruct (v =? -1).
  { inversion G; subst. unfold hdr_len, len_attarray. simpl. lia. }
  destruct ((0 <=? v) && (v <? Zlen (h_vars h))); [|discriminate].
  destruct (nth_error (h_vars h) (Z.to_nat v)) as [x|] eqn:E; [|discriminate].
  simpl in G. inversion G; subst l0.
  rewrite (nth_error_nth _ _ dflt_var E).
  unfold hdr_len. simpl. rewrite (zsum_map_set_nth _ _ _ _ x _ E).
  unfold len_var, len_attarray. simpl. lia.
Qed.

Lemma attr_tail_nogrow : forall f v A o w, hdr_ok (sf_hdr f) ->
  (forall l, Forall (att_ok (h_format (sf_hdr f))) l ->
             alen (h_format (sf_hdr f)) (fst (A l)) <= alen (h_format (sf_hdr f)) l) ->
  hdr_len (sf_hdr (fst (fst (s_attr_tail f v A o w)))) <= hdr_len (sf_hdr f).
Proof.
  intros f v A o w Hok HA. unfold s_attr_tail.
  destruct (get_sa (sf_hdr f) v) as [l|] eqn:G; [|simpl; lia].
  pose proof (HA l (proj2 (proj1 (get_sa_ok _ _ _ Hok G)))) as Hl. destruct (A l) as [l' rc]. simpl in Hl.
  destruct (negb (rc =? NC_NOERR)); simpl; [lia|]. eapply set_sa_nogrow; eauto.
Qed.

(* the other half of [datamode_update_in_file]: in data mode no operation makes the header longer, so the rewritten
   header stays within the space it had (names may only shrink, attribute values may only shrink) *)
Theorem datamode_no_growth : forall f, sf_indef f = false -> hdr_ok (sf_hdr f) ->
  (forall v nm t vals, hdr_len (sf_hdr (fst (fst (s_put_att nfc f v nm t vals)))) <= hdr_len (sf_hdr f)) /\
  (forall v nm nnm, hdr_len (sf_hdr (fst (fst (s_rename_att nfc f v nm nnm)))) <= hdr_len (sf_hdr f)) /\
  (forall id nm, hdr_len (sf_hdr (fst (fst (s_rename_dim nfc f id nm)))) <= hdr_len (sf_hdr f)) /\
  (forall id nm, hdr_len (sf_hdr (fst (fst (s_rename_var nfc f id nm)))) <= hdr_len (sf_hdr f)) /\
  (forall v nm a self, valid_type (h_format (sf_hdr f)) (a_type a) = true -> 0 <= a_nelems a ->
     hdr_len (sf_hdr (fst (fst (s_copy_write nfc f v nm a self)))) <= hdr_len (sf_hdr f)).
Proof.
  intros f Hin Hok. repeat split.
  - intros v nm t vals. unfold s_put_att.
    destruct (negb (put_att_pre _ _ _ v nm t _ =? NC_NOERR)) eqn:E; [simpl; lia|].
    apply negb_eqb_false, put_att_pre_ok in E. destruct E as (_ & _ & E3 & E2). specialize (E2 (proj1 Hok)).
    destruct (negb (fillvalue_rule _ _ _ _ _ _ =? NC_NOERR)); [simpl; lia|].
    destruct (att_put_value t vals) as [data ce]. rewrite Hin.
    apply attr_tail_nogrow; [assumption|]. intros l Hl. apply s_attr_put_nogrow; assumption.
  - intros v nm nnm. unfold s_rename_att.
    destruct (negb (rename_att_pre _ _ _ nm nnm =? NC_NOERR)); [simpl; lia|]. rewrite Hin.
    apply attr_tail_nogrow; [assumption|]. intros l _. apply s_attr_rename_nogrow.
  - intros id nm. unfold s_rename_dim.
    destruct (negb (rename_dim_pre _ _ id nm =? NC_NOERR)) eqn:E; [simpl; lia|].
    apply negb_eqb_false, rename_dim_pre_ok in E.
    destruct (find_name _ _) as [j|]. { destruct (Nat.eqb j (Z.to_nat id)); simpl; lia. }
    destruct (nth_in_range _ (h_dims (sf_hdr f)) id) as (old & Hold & Hnth); [lia|].
    rewrite Hnth. rewrite Hin. simpl.
    destruct (Zlen (d_name old) <? Zlen (nfc nm)) eqn:E2; simpl; [lia|].
    unfold hdr_len. simpl. rewrite (zsum_map_set_nth _ _ _ _ old _ Hold).
    unfold len_dim. simpl. pose proof (rndup4_mono (Zlen (nfc nm)) (Zlen (d_name old))). lia.
  - intros id nm. unfold s_rename_var.
    destruct (negb (rename_var_pre _ _ id nm =? NC_NOERR)) eqn:E; [simpl; lia|].
    apply negb_eqb_false, rename_var_pre_ok in E.
    destruct (find_name _ _) as [j|]; [simpl; lia|].
    destruct (nth_in_range _ (h_vars (sf_hdr f)) id) as (old & Hold & Hnth); [lia|].
    rewrite Hnth. rewrite Hin. simpl.
    destruct (Zlen (v_name old) <? Zlen (nfc nm)) eqn:E2; simpl; [lia|].
    unfold hdr_len. simpl. rewrite (zsum_map_set_nth _ _ _ _ old _ Hold).
    unfold len_var. simpl. pose proof (rndup4_mono (Zlen (nfc nm)) (Zlen (v_name old))). lia.
  - intros v nm a self Ht Hn. unfold s_copy_write. destruct self.
    { destruct (get_sa (sf_hdr f) v); simpl; lia. }
    rewrite Hin. apply attr_tail_nogrow; [assumption|]. intros l Hl. apply s_attr_put_nogrow; assumption.
Qed.

End NoGrowth.

(** * Part 7: correctness does not depend on the order of the ids inside a bucket *)

Lemma Forall2_nth_error_r : forall A B (R : A -> B -> Prop) l l' k y,
  Forall2 R l l' -> nth_error l' k = Some y -> exists x, nth_error l k = Some x /\ R x y.
Proof.
  intros A B R l l' k y H. revert k. induction H as [|a b l l' Hab H IH]; intros k Hk.
  - destruct k; discriminate.
  - destruct k; simpl in *; [inversion Hk; subst; eauto | apply IH; assumption].
Qed.

Lemma Forall2_len : forall A B (R : A -> B -> Prop) l l', Forall2 R l l' -> length l = length l'.
Proof. intros A B R l l' H. induction H; simpl; congruence. Qed.

Section BucketOrder.
Variable hashf : list byte -> Z -> Z.
Hypothesis hash_range : forall nm hs, hs_ok hs -> 0 <= hashf nm hs < hs.

(* the table invariant speaks about each bucket as a set: any reordering of any bucket keeps it *)
Theorem tab_inv_bucket_order_irrelevant : forall names hs bs bs',
  Forall2 (@Permutation nat) bs bs' ->
  tab_inv hashf names (mkntab hs (Some bs)) -> tab_inv hashf names (mkntab hs (Some bs')).
Proof.
  intros names hs bs bs' Hp [Hhs [Hlen Hb]]. split; [assumption|]. simpl in *. split.
  - rewrite <- (Forall2_len _ _ _ _ _ Hp). assumption.
  - intros k ids' Hk. destruct (Forall2_nth_error_r _ _ _ _ _ _ _ Hp Hk) as (ids & Hids & Hperm).
    destruct (Hb _ _ Hids) as [Hnd Hiff]. split.
    + eapply Permutation_NoDup; eauto.
    + intro i. rewrite <- Hiff. split; intro Hin.
      * eapply Permutation_in; [apply Permutation_sym|]; eauto.
      * eapply Permutation_in; eauto.
Qed.

(* hence lookup through ANY reordering of the buckets is still the linear search *)
Corollary lookup_any_bucket_order : forall names hs bs bs' nm,
  Forall2 (@Permutation nat) bs bs' -> tab_inv hashf names (mkntab hs (Some bs)) -> NoDup names ->
  hfind hashf names (mkntab hs (Some bs')) nm = Some (find_name nm names).
Proof.
  intros. apply hfind_linear; [assumption| |assumption].
  eapply tab_inv_bucket_order_irrelevant; eauto.
Qed.

(* rename (hash_replace appends the renamed, possibly small, id at the END of a bucket) followed by a delete
   (which renumbers EVERY stored id above the deleted one): invariant and lookup agreement hold whatever the
   order inside the buckets was and has become *)
Theorem replace_then_delete_any_order : forall names t i old new j nm,
  tab_inv hashf names t -> nth_error names i = Some old ->
  nth_error (set_nth i names new) j = Some nm ->
  exists t1 t2,
    hash_replace hashf t i old new = Some t1 /\
    hash_delete hashf t1 nm j = Some (Some t2) /\
    tab_inv hashf (del_nth j (set_nth i names new)) t2 /\
    (NoDup (del_nth j (set_nth i names new)) ->
     forall q, hfind hashf (del_nth j (set_nth i names new)) t2 q =
               Some (find_name q (del_nth j (set_nth i names new)))).
Proof.
  intros names t i old new j nm Ht Hi Hj.
  destruct (hash_replace_inv hashf hash_range names t i old new Ht Hi) as (t1 & Hr & Ht1 & _).
  destruct (hash_delete_inv hashf hash_range _ t1 j nm Ht1 Hj) as (t2 & Hd & Ht2 & _).
  exists t1, t2. split; [assumption|]. split; [assumption|]. split; [assumption|].
  intros Hnd q. apply hfind_linear; assumption.
Qed.

End BucketOrder.

(* the seeded variant of ncmpio_hash_delete that renumbers each bucket from its tail and stops at the first id
   below the deleted one (assuming increasing ids inside a bucket) *)
Fixpoint dec_from_tail (id : nat) (revl : list nat) : list nat :=
  match revl with
  | [] => []
  | j :: r => if Nat.ltb j id then revl else pred j :: dec_from_tail id r
  end.
Definition renumber_tail_walk (id : nat) (bs : list (list nat)) : list (list nat) :=
  map (fun l => rev (dec_from_tail id (rev l))) bs.

Definition hash_delete_tail_walk (hashf : list byte -> Z -> Z) (t : ntab) (nm : list byte) (id : nat)
  : option (option ntab) :=
  match nt_tab t with
  | None => None
  | Some bs =>
    match bucket hashf bs nm (nt_hsize t) with
    | None => None
    | Some (k, ids) =>
      match remove_id id ids with
      | None => Some None
      | Some ids' => Some (Some (mkntab (nt_hsize t) (Some (renumber_tail_walk id (set_nth k bs ids')))))
      end
    end
  end.

(* five attributes in one bucket; rename id 1 (its id goes to the end of the bucket); delete id 3: the tail
   walk stops at once, id 4 is not renumbered, and looking up the last attribute by name reads value[4] of an
   array of 4: out of bounds -- while the real renumbering answers id 3 *)
Lemma hash_delete_tail_walk_refuted :
  let names := [[97; 48]; [97; 49]; [97; 50]; [97; 51]; [97; 52]] in
  let names1 := set_nth 1 names [122; 49] in
  let t := mkntab 1 (Some [[0; 1; 2; 3; 4]%nat]) in
  exists t1,
    hash_replace bernstein t 1 [97; 49] [122; 49] = Some t1 /\
    (exists t2, hash_delete bernstein t1 [97; 51] 3 = Some (Some t2) /\
                hfind bernstein (del_nth 3 names1) t2 [97; 52] = Some (Some 3%nat)) /\
    (exists t2', hash_delete_tail_walk bernstein t1 [97; 51] 3 = Some (Some t2') /\
                 hfind bernstein (del_nth 3 names1) t2' [97; 52] = None).
Proof.
  cbv zeta. exists (mkntab 1 (Some [[0; 2; 3; 4; 1]%nat])). split; [vm_compute; reflexivity|]. split.
  - exists (mkntab 1 (Some [[0; 2; 3; 1]%nat])). split; vm_compute; reflexivity.
  - exists (mkntab 1 (Some [[0; 2; 4; 1]%nat])). split; vm_compute; reflexivity.
Qed.
