(* Proofs_NbGeom.v — GEOMETRY of the nonblocking-request model (Nonblocking.v):
   the two flattenings of a non-lead request (req_ftype, vars_flatten) and the record / varn
   splitting done when a request is posted address exactly the bytes of the row-major SPEC
   (Access.spec_offsets, Nonblocking.part_pairs / parts_pairs / lead_pairs).
   No axioms.
   Main results
     G1 areq_pairs_spec, areq_pairs_length
     G2 req_ftype_pairs, req_ftype_nonneg, req_ftype_total, req_ftype_contig_shape
     G3 vars_flatten_pairs, vars_flatten_pos
     G4 rec_split_pairs, rec_split_wf, rec_split_length, rec_split_lead, single_req_pairs
     G5 post_varm_reqs_ok, post_varn_reqs_ok *)
From Pnc Require Import NbSpec Proofs_Lists.
Require Import Lia ZArith List Bool ZifyBool.
Import ListNotations.
Local Open Scope Z_scope.
Local Arguments Z.mul : simpl never.
Local Arguments Z.add : simpl never.
Local Arguments Z.sub : simpl never.
Local Arguments Z.div : simpl never.
Local Arguments Z.of_nat : simpl never.
Local Arguments Z.to_nat : simpl never.

(* ================================================================== *)
(* 0. Small list facts                                                 *)
(* ================================================================== *)
Lemma nbg_zrange_zseq : forall A (l : list A), zrange 0 (Zlen l) = zseq 0 (length l).
Proof. intros. unfold zrange, Zlen. rewrite Nat2Z.id. reflexivity. Qed.

Lemma ones_like_ones : forall l, ones_like l = ones (length l).
Proof.
  unfold ones_like. induction l as [|x l IH]; cbn [map length]; [reflexivity|].
  rewrite ones_S, IH. reflexivity.
Qed.

Lemma ones_like_length : forall l, length (ones_like l) = length l.
Proof. intros. unfold ones_like. apply map_length. Qed.

Lemma nbg_last_Forall : forall (P : Z -> Prop) l d, Forall P l -> l <> [] -> P (last l d).
Proof.
  induction l as [|x l IH]; intros d HF Hne; [congruence|].
  inversion HF as [|? ? Hx Hl]; subst.
  destruct l as [|y l']; [cbn [last]; assumption|].
  change (last (x :: y :: l') d) with (last (y :: l') d).
  apply IH; [assumption | discriminate].
Qed.

(* ================================================================== *)
(* 1. Byte pairs of an element-offset list                             *)
(* ================================================================== *)
(* element k of offs (xsz bytes at file offset offs[k]) <-> buffer bytes [a + k*xsz, +xsz) *)
Fixpoint epairs (xsz a : Z) (offs : list Z) : list (Z * Z) :=
  match offs with
  | [] => []
  | o :: r => zip (zrange o xsz) (zrange a xsz) ++ epairs xsz (a + xsz) r
  end.

Lemma nbg_Zlen_zip_zrange : forall o a n, 0 <= n -> Zlen (zip (zrange o n) (zrange a n)) = n.
Proof.
  intros o a n Hn. unfold Zlen. rewrite zip_length by (rewrite !zrange_length; reflexivity).
  rewrite zrange_length. lia.
Qed.

Lemma epairs_length : forall xsz offs a, 0 <= xsz -> Zlen (epairs xsz a offs) = Zlen offs * xsz.
Proof.
  intros xsz. induction offs as [|o r IH]; intros a Hx.
  - reflexivity.
  - cbn [epairs]. rewrite Zlen_app, IH by assumption.
    rewrite nbg_Zlen_zip_zrange by assumption. rewrite Zlen_cons. lia.
Qed.

Lemma epairs_app : forall xsz l1 l2 a,
  epairs xsz a (l1 ++ l2) = epairs xsz a l1 ++ epairs xsz (a + Zlen l1 * xsz) l2.
Proof.
  intros xsz. induction l1 as [|o r IH]; intros l2 a.
  - cbn [app epairs]. f_equal. rewrite Zlen_nil. lia.
  - cbn [app epairs]. rewrite IH. rewrite <- app_assoc. do 3 f_equal.
    rewrite Zlen_cons. lia.
Qed.

Lemma epairs_index : forall xsz a offs k,
  flat_map (fun q => zip (zrange (snd q) xsz) (zrange (a + fst q * xsz) xsz))
           (zip (zseq k (length offs)) offs)
  = epairs xsz (a + k * xsz) offs.
Proof.
  intros xsz a. induction offs as [|o r IH]; intros k.
  - reflexivity.
  - cbn [length zseq zip flat_map fst snd epairs]. rewrite IH. do 2 f_equal. lia.
Qed.

Lemma part_pairs_epairs : forall g start count stride a,
  req_ok (g_shape g) start count stride ->
  part_pairs g (start, count, stride) a = epairs (g_xsz g) a (spec_offsets g start count stride).
Proof.
  intros g start count stride a Hreq. unfold part_pairs.
  replace (zrange 0 (zprod count)) with (zseq 0 (length (spec_offsets g start count stride))).
  2:{ rewrite spec_offsets_length_req by assumption. reflexivity. }
  rewrite epairs_index. f_equal. lia.
Qed.

(* the stream of file bytes of the elements, zipped with a contiguous buffer *)
Lemma epairs_blocks : forall xsz offs a, 0 <= xsz ->
  zip (flat_map (fun o => zrange o xsz) offs) (zrange a (Zlen offs * xsz)) = epairs xsz a offs.
Proof.
  intros xsz. induction offs as [|o r IH]; intros a Hx.
  - reflexivity.
  - cbn [flat_map epairs]. rewrite Zlen_cons.
    replace ((Zlen r + 1) * xsz) with (xsz + Zlen r * xsz) by lia.
    pose proof (Zlen_nonneg r) as Hr.
    rewrite zrange_app by nia.
    rewrite zip_app by (rewrite !zrange_length; reflexivity).
    rewrite IH by assumption. reflexivity.
Qed.

(* consecutive elements *)
Lemma epairs_run : forall xsz a o n, 0 <= xsz -> 0 <= n ->
  epairs xsz a (map (fun j => o + j * xsz) (zrange 0 n)) =
  zip (zrange o (n * xsz)) (zrange a (n * xsz)).
Proof.
  intros xsz a o n Hx Hn. rewrite <- epairs_blocks by assumption.
  rewrite Zlen_map, Zlen_zrange, Z.max_r by assumption.
  rewrite flat_map_map_comm. rewrite flat_map_zrange_blocks by assumption. reflexivity.
Qed.

Lemma blocks_bytes_elems : forall xsz offs,
  blocks_bytes (map (fun o => (o, xsz)) offs) = flat_map (fun o => zrange o xsz) offs.
Proof.
  intros. unfold blocks_bytes. rewrite flat_map_map_comm. apply flat_map_ext.
  intros o. reflexivity.
Qed.

(* ================================================================== *)
(* G1. areq_pairs                                                       *)
(* ================================================================== *)
Lemma areq_pairs_spec : forall a,
  areq_pairs a =
  flat_map (fun q => zip (zrange (snd q) (g_xsz (l_geom (a_lead a))))
                         (zrange (r_xaddr (a_req a) + fst q * g_xsz (l_geom (a_lead a)))
                                 (g_xsz (l_geom (a_lead a)))))
           (zip (zrange 0 (zprod (r_count (a_req a))))
                (spec_offsets (l_geom (a_lead a)) (r_start (a_req a)) (r_count (a_req a))
                              (req_stride (a_lead a) (a_req a)))).
Proof. reflexivity. Qed.

(* the element offsets of a non-lead request per SPEC *)
Definition areq_offs (a : areq) : list Z :=
  spec_offsets (l_geom (a_lead a)) (r_start (a_req a)) (r_count (a_req a))
               (req_stride (a_lead a) (a_req a)).

Lemma areq_pairs_epairs : forall a, areq_wf a ->
  areq_pairs a = epairs (g_xsz (l_geom (a_lead a))) (r_xaddr (a_req a)) (areq_offs a).
Proof.
  intros a H. pose proof H as (_ & _ & Hreq & _).
  unfold areq_pairs, areq_offs. apply part_pairs_epairs. assumption.
Qed.

Lemma areq_offs_length : forall a, areq_wf a -> Zlen (areq_offs a) = r_nelems (a_req a).
Proof.
  intros a H. pose proof H as (_ & _ & Hreq & Hn & Hpos & _).
  unfold areq_offs, Zlen. rewrite spec_offsets_length_req by assumption. lia.
Qed.

Lemma areq_pairs_length : forall a, areq_wf a ->
  Zlen (areq_pairs a) = r_nelems (a_req a) * g_xsz (l_geom (a_lead a)).
Proof.
  intros a H. rewrite areq_pairs_epairs by assumption.
  pose proof H as ((Hx & _) & _).
  rewrite epairs_length by lia. rewrite areq_offs_length by assumption. reflexivity.
Qed.

(* ================================================================== *)
(* G2. req_ftype                                                        *)
(* ================================================================== *)
(* the per-request file type is built on the SPEC offsets *)
Lemma areq_model_offsets : forall a, areq_wf a ->
  model_offsets (l_geom (a_lead a)) (r_start (a_req a)) (r_count (a_req a)) (l_stride (a_lead a))
  = areq_offs a.
Proof.
  intros a H. pose proof H as (Hwf & _ & Hreq & _).
  unfold areq_offs. unfold req_stride in *.
  destruct (l_stride (a_lead a)) as [t|].
  - apply model_offsets_eq_spec; assumption.
  - destruct (req_ok_lengths _ _ _ _ Hreq) as (Hls & _ & _).
    rewrite ones_like_ones in Hreq |- *. rewrite Hls in Hreq |- *.
    apply model_offsets_eq_spec_none; assumption.
Qed.

(* ftype_contig = true: the contiguous branch of filetype_create_vara *)
Lemma contig_model_offsets : forall g start count stride,
  ftype_contig g count stride = true -> zprod count <> 0 ->
  length count = length (g_shape g) ->
  model_offsets g start count stride =
  map (fun k => first_offset g start + k * g_xsz g) (zrange 0 (zprod count)).
Proof.
  intros g start count stride Hc Hz Hlc. unfold model_offsets.
  replace (zprod count =? 0) with false by lia.
  unfold ftype_contig in Hc.
  destruct (g_shape g) as [|sh ss] eqn:Es.
  - (* scalar *)
    destruct count as [|c ct]; [|discriminate].
    assert (Hv : vars_offsets g start [] stride = [g_begin g]).
    { unfold vars_offsets, vara_offsets. rewrite Es.
      destruct stride as [t|]; reflexivity. }
    rewrite Hv. unfold first_offset. rewrite Es. cbn [zprod]. rewrite zrange_1. cbn [map].
    f_equal. lia.
  - apply andb_true_iff in Hc. destruct Hc as [Hs Hctg].
    assert (Hv : vars_offsets g start count stride = vara_offsets g start count).
    { unfold vars_offsets. destruct stride as [t|]; [|reflexivity]. rewrite Hs. reflexivity. }
    rewrite Hv. unfold vara_offsets. rewrite Es. rewrite Hctg. reflexivity.
Qed.

Lemma req_ftype_bytes : forall a, areq_wf a ->
  blocks_bytes (snd (req_ftype a)) =
  flat_map (fun o => zrange o (g_xsz (l_geom (a_lead a)))) (areq_offs a).
Proof.
  intros a H. pose proof H as (Hwf & _ & Hreq & Hn & Hpos & _).
  destruct Hwf as (Hx & _).
  destruct (req_ok_lengths _ _ _ _ Hreq) as (_ & Hlc & _).
  rewrite <- (areq_model_offsets a H).
  unfold req_ftype. cbv zeta.
  destruct (ftype_contig (l_geom (a_lead a)) (r_count (a_req a)) (l_stride (a_lead a))) eqn:Ec;
    cbn [snd].
  - rewrite contig_model_offsets by (assumption || lia).
    unfold blocks_bytes. cbn [flat_map]. rewrite app_nil_r. unfold expand. cbn [fst snd].
    rewrite flat_map_map_comm. rewrite flat_map_zrange_blocks by lia.
    f_equal. rewrite Hn. lia.
  - apply blocks_bytes_elems.
Qed.

Theorem req_ftype_pairs : forall a, areq_wf a ->
  zip (blocks_bytes (snd (req_ftype a))) (expand (req_bblock a)) = areq_pairs a.
Proof.
  intros a H. rewrite areq_pairs_epairs by assumption.
  rewrite req_ftype_bytes by assumption.
  pose proof H as ((Hx & _) & _).
  unfold req_bblock, expand. cbn [fst snd].
  rewrite <- (areq_offs_length a H). apply epairs_blocks. lia.
Qed.

Lemma req_ftype_nonneg : forall a, areq_wf a ->
  Forall (fun b => 0 <= snd b) (snd (req_ftype a)).
Proof.
  intros a H. pose proof H as ((Hx & _) & _ & _ & _ & Hpos & _).
  unfold req_ftype. cbv zeta.
  destruct (ftype_contig (l_geom (a_lead a)) (r_count (a_req a)) (l_stride (a_lead a)));
    cbn [snd].
  - constructor; [cbn [snd]; nia | constructor].
  - apply Forall_forall. intros b Hb. apply in_map_iff in Hb. destruct Hb as [o [<- _]].
    cbn [snd]. lia.
Qed.

Lemma nbg_zsum_const : forall (xsz : Z) (offs : list Z),
  zsum (map snd (map (fun o => (o, xsz)) offs)) = Zlen offs * xsz.
Proof.
  intros xsz. induction offs as [|o r IH]; [reflexivity|].
  cbn [map zsum snd]. rewrite IH, Zlen_cons. lia.
Qed.

Lemma req_ftype_total : forall a, areq_wf a ->
  zsum (map snd (snd (req_ftype a))) = r_nelems (a_req a) * g_xsz (l_geom (a_lead a)).
Proof.
  intros a H. unfold req_ftype. cbv zeta.
  destruct (ftype_contig (l_geom (a_lead a)) (r_count (a_req a)) (l_stride (a_lead a)));
    cbn [snd].
  - cbn [map zsum snd]. lia.
  - rewrite nbg_zsum_const. rewrite areq_model_offsets by assumption.
    rewrite areq_offs_length by assumption. reflexivity.
Qed.

Lemma req_ftype_contig_shape : forall a, fst (req_ftype a) = true ->
  exists o l, snd (req_ftype a) = [(o, l)].
Proof.
  intros a H. unfold req_ftype in *. cbv zeta in *.
  destruct (ftype_contig (l_geom (a_lead a)) (r_count (a_req a)) (l_stride (a_lead a)));
    cbn [fst snd] in *; [eauto | discriminate].
Qed.

Example req_ftype_pairs_example :
  let l := mklead 0 gf3 (Some [2; 2; 3]) 0 1 (-1) false false (-1) 5000 12 None 0
                  [([1; 0; 2], [2; 3; 2], [2; 2; 3])] in
  let a := mkareq (mkreq 0 [1; 0; 2] [2; 3; 2] 12 5000) l 0 0 in
  areq_wf a /\ fst (req_ftype a) = false /\
  zip (blocks_bytes (snd (req_ftype a))) (expand (req_bblock a)) = areq_pairs a.
Proof.
  cbv zeta. split; [|split; vm_compute; reflexivity].
  unfold areq_wf. cbn [a_lead a_req l_geom l_stride r_start r_count r_nelems req_stride].
  refine (conj gf3_wf (conj _ (conj gf3_req (conj _ (conj _ (conj _ _)))))).
  - intros H. vm_compute in H. discriminate.
  - vm_compute. reflexivity.
  - lia.
  - intros H. vm_compute in H. discriminate.
  - reflexivity.
Qed.

Example req_ftype_pairs_example_contig :
  (* one record of the record variable gr3, a contiguous piece of it *)
  let l := mklead 0 gr3 None 0 1 6 false false (-1) 7000 8 None 0
                  [([5; 1; 0], [1; 2; 4], [1; 1; 1])] in
  let a := mkareq (mkreq 0 [5; 1; 0] [1; 2; 4] 8 7000) l 0 0 in
  areq_wf a /\ fst (req_ftype a) = true /\
  zip (blocks_bytes (snd (req_ftype a))) (expand (req_bblock a)) = areq_pairs a.
Proof.
  cbv zeta. split; [|split; vm_compute; reflexivity].
  unfold areq_wf. cbn [a_lead a_req l_geom l_stride r_start r_count r_nelems].
  destruct gr3_wf as [Hwf Hfit].
  refine (conj Hwf (conj Hfit (conj _ (conj _ (conj _ (conj _ I)))))).
  - unfold req_stride. cbn [l_stride r_start ones_like map gr3 g_shape req_ok dims_ok]. lia.
  - vm_compute. reflexivity.
  - lia.
  - intros _. reflexivity.
Qed.

(* ================================================================== *)
(* G3. vars_flatten                                                     *)
(* ================================================================== *)
Lemma stride_flatten_snd : forall g s c t,
  snd (stride_flatten g s c t) = if last t 1 =? 1 then last c 0 else 1.
Proof. reflexivity. Qed.

Lemma stride_flatten_seg_pos : forall g s c t, Forall (fun x => 1 <= x) c -> c <> [] ->
  1 <= snd (stride_flatten g s c t).
Proof.
  intros g s c t Hc Hne. rewrite stride_flatten_snd. destruct (last t 1 =? 1); [|lia].
  apply (nbg_last_Forall (fun x => 1 <= x)); assumption.
Qed.

(* stride_flatten + expansion of every block = SPEC, for a fixed-size variable and ANY stride
   (Proofs_Access.strided_path needs a truly strided request only to exclude the 1-D record
   variable) *)
Lemma strided_path_fixed : forall g start count stride,
  g_isrec g = false -> g_shape g <> [] ->
  length start = length (g_shape g) -> length count = length (g_shape g) ->
  length stride = length (g_shape g) ->
  flat_map (fun d => map (fun k => g_begin g + d + k * g_xsz g)
                         (zrange 0 (snd (stride_flatten g start count stride))))
           (fst (stride_flatten g start count stride))
  = spec_offsets g start count stride.
Proof.
  intros g start count stride Hnr Hne Hls Hlc Hlt.
  unfold spec_offsets.
  rewrite (map_ext _ _ (elem_off_dot g)).
  unfold stride_flatten. cbv zeta. cbn [fst snd]. fold (g_units g).
  assert (Hlu : length (g_units g) = length (g_shape g)) by apply dim_units_length.
  assert (Hul : last stride 1 = 1 -> last (g_units g) (g_xsz g) = g_xsz g).
  { intros _. apply last_g_units; [right; assumption | assumption]. }
  remember (g_units g) as units eqn:Eu.
  destruct (snoc_cases start) as [->|[so [sl ->]]];
    [destruct (g_shape g); [congruence | discriminate]|].
  destruct (snoc_cases count) as [->|[co [cl ->]]];
    [destruct (g_shape g); [congruence | discriminate]|].
  destruct (snoc_cases stride) as [->|[to [tl_ ->]]];
    [destruct (g_shape g); [congruence | discriminate]|].
  destruct (snoc_cases units) as [->|[uo [ul ->]]];
    [destruct (g_shape g); [congruence | discriminate]|].
  rewrite !app_length in *. cbn [length] in *.
  rewrite !removelast_last, !last_last in *.
  apply flatten_core; [lia | lia | lia | assumption].
Qed.

(* blocks of seg elements, buffer addresses consecutive *)
Lemma segs_epairs : forall xsz b L seg a0, 0 <= xsz -> 0 <= seg -> L = seg * xsz ->
  forall disps k,
  flat_map seg_pairs (map (fun p => (b + snd p, L, a0 + fst p * L))
                          (zip (zseq k (length disps)) disps))
  = epairs xsz (a0 + k * L)
           (flat_map (fun d => map (fun j => b + d + j * xsz) (zrange 0 seg)) disps).
Proof.
  intros xsz b L seg a0 Hx Hseg HL. induction disps as [|d r IH]; intros k.
  - reflexivity.
  - cbn [length zseq zip map flat_map fst snd]. rewrite IH. rewrite epairs_app. f_equal.
    + unfold seg_pairs, s_off, s_len, s_addr. cbn [fst snd].
      rewrite epairs_run by assumption. subst L. reflexivity.
    + f_equal. rewrite Zlen_map, Zlen_zrange. subst L. lia.
Qed.

(* the record-stripped request of vars_flatten *)
Definition vf_isrec (a : areq) : bool := g_isrec (l_geom (a_lead a)).
Definition vf_shape (a : areq) : list Z :=
  if vf_isrec a then tl (g_shape (l_geom (a_lead a))) else g_shape (l_geom (a_lead a)).
Definition vf_start (a : areq) : list Z :=
  if vf_isrec a then tl (r_start (a_req a)) else r_start (a_req a).
Definition vf_count (a : areq) : list Z :=
  if vf_isrec a then tl (r_count (a_req a)) else r_count (a_req a).
Definition vf_begin (a : areq) : Z :=
  g_begin (l_geom (a_lead a)) +
  (if vf_isrec a then hd 0 (r_start (a_req a)) * g_recsize (l_geom (a_lead a)) else 0).
Definition vf_stride0 (a : areq) : list Z :=
  match l_stride (a_lead a) with
  | Some t => if vf_isrec a then tl t else t
  | None => ones_like (vf_start a)
  end.
Definition vf_geom (a : areq) : geom :=
  mkgeom (vf_begin a) (g_xsz (l_geom (a_lead a))) (vf_shape a) 0 0.

Lemma vars_flatten_unfold : forall a,
  vars_flatten a =
  match vf_shape a with
  | [] => [(vf_begin a, g_xsz (l_geom (a_lead a)), r_xaddr (a_req a))]
  | _ :: _ =>
    let sf := stride_flatten (vf_geom a) (vf_start a) (vf_count a) (vf_stride0 a) in
    map (fun p => (vf_begin a + snd p, snd sf * g_xsz (l_geom (a_lead a)),
                   r_xaddr (a_req a) + fst p * (snd sf * g_xsz (l_geom (a_lead a)))))
        (zip (zrange 0 (Zlen (fst sf))) (fst sf))
  end.
Proof.
  intros a. unfold vars_flatten, vf_geom, vf_stride0, vf_begin, vf_count, vf_start, vf_shape,
    vf_isrec. cbv zeta.
  destruct (if g_isrec (l_geom (a_lead a)) then tl (g_shape (l_geom (a_lead a)))
            else g_shape (l_geom (a_lead a))) as [|z sh']; [reflexivity|].
  match goal with
  | |- (let '(d, s) := ?X in _) = _ => destruct X as [d s]
  end.
  reflexivity.
Qed.

Lemma vf_stride0_eq : forall a,
  vf_stride0 a = if vf_isrec a then tl (req_stride (a_lead a) (a_req a))
                 else req_stride (a_lead a) (a_req a).
Proof.
  intros a. unfold vf_stride0, req_stride, vf_start.
  destruct (l_stride (a_lead a)) as [t|]; [reflexivity|].
  destruct (vf_isrec a); [|reflexivity].
  destruct (r_start (a_req a)); reflexivity.
Qed.

Lemma strip_rec : forall g s0 st ct t0 ts,
  g_isrec g = true -> wf_geom g ->
  let g' := mkgeom (g_begin g + s0 * g_recsize g) (g_xsz g) (tl (g_shape g)) 0 0 in
  g_isrec g' = false /\
  spec_offsets g (s0 :: st) (1 :: ct) (t0 :: ts) = spec_offsets g' st ct ts.
Proof.
  intros g s0 st ct t0 ts Hrec Hwf g'.
  destruct Hwf as (_ & _ & Hd & _).
  destruct (g_isrec_cons g Hrec) as [ss Hs].
  assert (Hnr : g_isrec g' = false).
  { unfold g_isrec, g'. cbn [g_shape]. rewrite Hs in Hd |- *. cbn [tl dims_wf] in Hd |- *.
    destruct Hd as [_ Hd]. destruct ss as [|s1 ss']; [reflexivity|].
    inversion Hd as [|? ? H1 _]; subst. lia. }
  split; [assumption|].
  unfold spec_offsets. cbn [req_indices]. rewrite zrange_1. cbn [flat_map].
  rewrite app_nil_r. rewrite map_map. apply map_ext. intros x.
  rewrite elem_off_rec by assumption. rewrite elem_off_fixed by assumption.
  unfold g'. cbn [g_begin g_xsz g_shape]. lia.
Qed.

Lemma strip_fixed : forall g start count stride,
  g_isrec g = false ->
  let g' := mkgeom (g_begin g + 0) (g_xsz g) (g_shape g) 0 0 in
  g_isrec g' = false /\ spec_offsets g start count stride = spec_offsets g' start count stride.
Proof.
  intros g start count stride Hnr g'.
  assert (Hnr' : g_isrec g' = false) by exact Hnr.
  split; [assumption|].
  unfold spec_offsets. apply map_ext. intros x.
  rewrite !elem_off_fixed by assumption. unfold g'. cbn [g_begin g_xsz g_shape]. lia.
Qed.

Lemma vf_spec : forall a, areq_wf a ->
  g_isrec (vf_geom a) = false /\
  length (vf_start a) = length (vf_shape a) /\
  length (vf_count a) = length (vf_shape a) /\
  length (vf_stride0 a) = length (vf_shape a) /\
  Forall (fun c => 1 <= c) (vf_count a) /\
  areq_offs a = spec_offsets (vf_geom a) (vf_start a) (vf_count a) (vf_stride0 a).
Proof.
  intros a H. pose proof H as (Hwf & _ & Hreq & Hn & Hpos & Hrec & _).
  rewrite vf_stride0_eq. unfold areq_offs, vf_geom, vf_begin, vf_count, vf_start, vf_shape, vf_isrec.
  remember (req_stride (a_lead a) (a_req a)) as strd eqn:Es. clear Es.
  remember (l_geom (a_lead a)) as g eqn:Eg. clear Eg.
  remember (r_start (a_req a)) as start eqn:Est. clear Est.
  remember (r_count (a_req a)) as count eqn:Ect.
  assert (Hcp : Forall (fun c => 1 <= c) count).
  { apply zprod_nonzero_pos; [eapply req_ok_count_nonneg; eassumption | lia]. }
  clear Ect Hn Hpos.
  destruct (req_ok_lengths _ _ _ _ Hreq) as (Hls & Hlc & Hlt).
  destruct (g_isrec g) eqn:Erec.
  - specialize (Hrec eq_refl).
    destruct (g_isrec_cons g Erec) as [ss Hs].
    rewrite Hs in Hls, Hlc, Hlt. cbn [length] in Hls, Hlc, Hlt.
    destruct start as [|s0 st]; [discriminate|].
    destruct count as [|c0 ct]; [discriminate|].
    destruct strd as [|t0 ts]; [discriminate|].
    cbn [hd] in Hrec. subst c0. cbn [tl hd length] in *.
    inversion Hcp as [|? ? _ Hcp']; subst.
    destruct (strip_rec g s0 st ct t0 ts Erec Hwf) as [Hnr Hsp]. cbv zeta in Hnr, Hsp.
    rewrite Hs in *. cbn [tl length] in *.
    repeat split; try assumption; lia.
  - destruct (strip_fixed g start count strd Erec) as [Hnr Hsp]. cbv zeta in Hnr, Hsp.
    repeat split; assumption.
Qed.

Theorem vars_flatten_pairs : forall a, areq_wf a -> segs_pairs (vars_flatten a) = areq_pairs a.
Proof.
  intros a H. rewrite areq_pairs_epairs by assumption.
  destruct (vf_spec a H) as (Hnr & Hls & Hlc & Hlt & Hcp & Hsp).
  pose proof H as ((Hx & _) & _).
  rewrite Hsp. rewrite vars_flatten_unfold.
  pose proof (fun Hne => strided_path_fixed (vf_geom a) _ _ _ Hnr Hne Hls Hlc Hlt) as Hpath.
  destruct (vf_shape a) as [|z sh'] eqn:Esh.
  - cbn [length] in Hls, Hlc, Hlt.
    apply length_zero_iff_nil in Hls. apply length_zero_iff_nil in Hlc.
    apply length_zero_iff_nil in Hlt. rewrite Hls, Hlc, Hlt.
    unfold spec_offsets. cbn [req_indices map]. rewrite elem_off_fixed by assumption.
    change (g_shape (vf_geom a)) with (vf_shape a). rewrite Esh. cbn [lin].
    change (g_begin (vf_geom a)) with (vf_begin a).
    unfold segs_pairs. cbn [flat_map epairs]. unfold seg_pairs, s_off, s_len, s_addr.
    cbn [fst snd]. do 3 f_equal. lia.
  - cbv zeta.
    set (sf := stride_flatten (vf_geom a) (vf_start a) (vf_count a) (vf_stride0 a)).
    assert (Hseg : 1 <= snd sf).
    { apply stride_flatten_seg_pos; [assumption|]. intros E. rewrite E in Hlc. discriminate. }
    unfold segs_pairs. rewrite nbg_zrange_zseq.
    rewrite (segs_epairs (g_xsz (l_geom (a_lead a))) (vf_begin a)
               (snd sf * g_xsz (l_geom (a_lead a))) (snd sf) (r_xaddr (a_req a)))
      by (lia || reflexivity).
    rewrite <- Hpath by (change (vf_shape a <> []); rewrite Esh; discriminate).
    fold sf. f_equal. lia.
Qed.

Theorem vars_flatten_pos : forall a, areq_wf a -> Forall (fun s => 0 < s_len s) (vars_flatten a).
Proof.
  intros a H.
  destruct (vf_spec a H) as (Hnr & Hls & Hlc & Hlt & Hcp & Hsp).
  pose proof H as ((Hx & _) & _).
  rewrite vars_flatten_unfold.
  destruct (vf_shape a) as [|z sh'] eqn:Esh.
  - constructor; [|constructor]. unfold s_len. cbn [fst snd]. assumption.
  - cbv zeta.
    set (sf := stride_flatten (vf_geom a) (vf_start a) (vf_count a) (vf_stride0 a)).
    assert (Hseg : 1 <= snd sf).
    { apply stride_flatten_seg_pos; [assumption|]. intros E. rewrite E in Hlc. discriminate. }
    apply Forall_forall. intros s Hin. apply in_map_iff in Hin. destruct Hin as [p [<- _]].
    unfold s_len. cbn [fst snd]. nia.
Qed.

Example vars_flatten_pairs_example :
  (* one record of gr3, strided in the last dimension; and a strided request on gf3 *)
  let l := mklead 0 gr3 (Some [4; 1; 3]) 0 3 14 false false (-1) 7000 12 None 0
                  [([5; 1; 0], [3; 2; 2], [4; 1; 3])] in
  let a := mkareq (mkreq 0 [9; 1; 0] [1; 2; 2] 4 7032) l 0 0 in
  let l2 := mklead 2 gf3 (Some [2; 2; 1]) 3 1 (-1) false false (-1) 5000 24 None 0
                   [([1; 0; 2], [2; 3; 4], [2; 2; 1])] in
  let a2 := mkareq (mkreq 1 [1; 0; 2] [2; 3; 4] 24 5000) l2 0 0 in
  areq_wf a /\ segs_pairs (vars_flatten a) = areq_pairs a /\ Zlen (vars_flatten a) = 4 /\
  areq_wf a2 /\ segs_pairs (vars_flatten a2) = areq_pairs a2 /\ Zlen (vars_flatten a2) = 6.
Proof.
  cbv zeta. destruct gr3_wf as [Hwf Hfit].
  refine (conj _ (conj _ (conj _ (conj _ (conj _ _))))); try (vm_compute; reflexivity).
  - unfold areq_wf. cbn [a_lead a_req l_geom l_stride r_start r_count r_nelems req_stride].
    refine (conj Hwf (conj Hfit (conj _ (conj _ (conj _ (conj _ _)))))).
    + cbn [gr3 gf3 g_shape req_ok dims_ok]. lia.
    + vm_compute. reflexivity.
    + lia.
    + intros _. reflexivity.
    + reflexivity.
  - unfold areq_wf. cbn [a_lead a_req l_geom l_stride r_start r_count r_nelems req_stride].
    refine (conj gf3_wf (conj _ (conj _ (conj _ (conj _ (conj _ _)))))).
    + intros E. vm_compute in E. discriminate.
    + cbn [gr3 gf3 g_shape req_ok dims_ok]. lia.
    + vm_compute. reflexivity.
    + lia.
    + intros E. vm_compute in E. discriminate.
    + reflexivity.
Qed.

(* ================================================================== *)
(* G4. Record splitting (ncmpio_add_record_requests)                    *)
(* ================================================================== *)
Lemma rec_split_length : forall lo start count s0 nrec nel xaddr xsz,
  Zlen (rec_split lo start count s0 nrec nel xaddr xsz) = Z.max 0 nrec.
Proof.
  intros. unfold rec_split. rewrite Zlen_map. apply Zlen_zrange.
Qed.

Lemma rec_split_lead : forall lo start count s0 nrec nel xaddr xsz,
  Forall (fun q => r_lead_off q = lo) (rec_split lo start count s0 nrec nel xaddr xsz).
Proof.
  intros. unfold rec_split. apply Forall_forall. intros q Hq.
  apply in_map_iff in Hq. destruct Hq as [i [<- _]]. reflexivity.
Qed.

(* the SPEC enumerates record after record *)
Lemma spec_offsets_rec_split : forall g s0 st c0 ct t0 ts,
  spec_offsets g (s0 :: st) (c0 :: ct) (t0 :: ts) =
  flat_map (fun i => spec_offsets g ((s0 + i * t0) :: st) (1 :: ct) (t0 :: ts)) (zrange 0 c0).
Proof.
  intros. unfold spec_offsets. cbn [req_indices]. rewrite map_flat_map_comm.
  apply flat_map_ext. intros i. rewrite zrange_1. cbn [flat_map]. rewrite app_nil_r.
  replace (s0 + i * t0 + 0 * t0) with (s0 + i * t0) by lia. reflexivity.
Qed.

Lemma epairs_flat_map_const : forall xsz m (f : Z -> list Z) a n k,
  0 <= k -> (forall i, 0 <= i -> Zlen (f i) = m) ->
  epairs xsz (a + k * (m * xsz)) (flat_map f (zseq k n)) =
  flat_map (fun i => epairs xsz (a + i * (m * xsz)) (f i)) (zseq k n).
Proof.
  intros xsz m f a. induction n as [|n IH]; intros k Hk Hlen.
  - reflexivity.
  - cbn [zseq flat_map]. rewrite epairs_app. f_equal.
    rewrite <- IH by (lia || assumption). f_equal. rewrite Hlen by assumption. lia.
Qed.

Lemma rec_req_ok : forall ss s0 st c0 ct t0 ts i,
  req_ok (0 :: ss) (s0 :: st) (c0 :: ct) (t0 :: ts) -> 0 <= i ->
  req_ok (0 :: ss) ((s0 + i * t0) :: st) (1 :: ct) (t0 :: ts).
Proof.
  intros ss s0 st c0 ct t0 ts i H Hi. cbn [req_ok] in *.
  destruct H as (Hs & Hc & Ht & _ & Hd).
  refine (conj _ (conj _ (conj Ht (conj (or_introl eq_refl) Hd)))); nia.
Qed.

Lemma rec_split_core : forall l g lo start count strd xaddr,
  l_geom l = g -> g_isrec g = true -> wf_geom g -> rec_fits g ->
  req_ok (g_shape g) start count strd -> 0 < zprod count ->
  (forall q, length (r_start q) = length start -> req_stride l q = strd) ->
  (match l_stride l with Some t => length t = length (g_shape g) | None => True end) ->
  Forall (fun q => areq_wf (mkareq q l 0 0))
         (rec_split lo start count (hd 1 strd) (hd 1 count) (zprod count / hd 1 count) xaddr (g_xsz g)) /\
  flat_map (fun q => areq_pairs (mkareq q l 0 0))
           (rec_split lo start count (hd 1 strd) (hd 1 count) (zprod count / hd 1 count) xaddr (g_xsz g))
  = part_pairs g (start, count, strd) xaddr.
Proof.
  intros l g lo start count strd xaddr Hg Hrec Hwf Hfit Hreq Hpos Hrs Hlt.
  destruct (g_isrec_cons g Hrec) as [ss Hs].
  pose proof Hreq as Hreq0. rewrite Hs in Hreq.
  destruct start as [|s0 st]; [destruct count; destruct strd; contradiction|].
  destruct count as [|c0 ct]; [destruct strd; contradiction|].
  destruct strd as [|t0 ts]; [contradiction|].
  pose proof Hreq as Hreq1. cbn [req_ok] in Hreq1. destruct Hreq1 as (Hs0 & Hc0 & Ht0 & _ & Hd).
  cbn [hd]. cbn [zprod] in Hpos |- *.
  set (P := zprod ct) in *.
  assert (HP0 : 0 <= P).
  { apply zprod_nonneg. eapply dims_ok_count_nonneg; eassumption. }
  assert (HP : 1 <= P /\ 1 <= c0) by nia. destruct HP as [HP Hc1].
  replace (c0 * P / c0) with P by (rewrite Z.mul_comm, Z.div_mul by lia; reflexivity).
  assert (Hx : 0 < g_xsz g) by (destruct Hwf as (Hx & _); exact Hx).
  assert (Hqi : forall i, 0 <= i ->
            req_ok (g_shape g) ((s0 + i * t0) :: st) (1 :: ct) (t0 :: ts)).
  { intros i Hi. rewrite Hs. apply (rec_req_ok ss s0 st c0 ct t0 ts i); assumption. }
  assert (Hlen : forall i, 0 <= i ->
            Zlen (spec_offsets g ((s0 + i * t0) :: st) (1 :: ct) (t0 :: ts)) = P).
  { intros i Hi. unfold Zlen. rewrite spec_offsets_length_req by (apply Hqi; assumption).
    cbn [zprod]. fold P. lia. }
  unfold rec_split. cbn [hd tl]. split.
  - apply Forall_forall. intros q Hq. apply in_map_iff in Hq. destruct Hq as [i [<- Hi]].
    apply In_zrange in Hi. unfold areq_wf. cbn [a_lead a_req r_start r_count r_nelems].
    rewrite Hg. rewrite Hrs by reflexivity.
    refine (conj Hwf (conj Hfit (conj _ (conj _ (conj _ (conj _ Hlt)))))).
    + apply Hqi. lia.
    + cbn [zprod]. fold P. lia.
    + lia.
    + intros _. reflexivity.
  - rewrite flat_map_map_comm.
    rewrite part_pairs_epairs by assumption. rewrite spec_offsets_rec_split.
    change (zrange 0 c0) with (zseq 0 (Z.to_nat c0)).
    transitivity (epairs (g_xsz g) (xaddr + 0 * (P * g_xsz g))
                    (flat_map (fun i => spec_offsets g ((s0 + i * t0) :: st) (1 :: ct) (t0 :: ts))
                              (zseq 0 (Z.to_nat c0)))); [|f_equal; lia].
    rewrite epairs_flat_map_const by (lia || assumption).
    apply flat_map_ext_In. intros i Hi. apply In_zseq in Hi.
    unfold areq_pairs. cbn [a_lead a_req r_start r_count r_xaddr].
    rewrite Hg. rewrite Hrs by reflexivity.
    apply part_pairs_epairs. apply Hqi. lia.
Qed.

Lemma nbg_all_ones : forall l, Forall (fun t => 1 <= t) l ->
  forallb (fun x => x <=? 1) l = true -> l = ones (length l).
Proof.
  induction l as [|x l IH]; intros HF Hb; [reflexivity|].
  inversion HF as [|? ? Hx Hl]; subst. cbn [forallb] in Hb.
  apply andb_true_iff in Hb. destruct Hb as [Ha Hb].
  cbn [length]. rewrite ones_S. f_equal; [lia | apply IH; assumption].
Qed.

Lemma forallb_ones_like : forall l, forallb (fun x => x <=? 1) (ones_like l) = true.
Proof.
  unfold ones_like. induction l as [|x l IH]; [reflexivity|].
  cbn [map forallb]. rewrite IH. reflexivity.
Qed.

Lemma stride_eff_ones_like : forall l, stride_eff (Some (ones_like l)) = None.
Proof. intros. unfold stride_eff. rewrite forallb_ones_like. reflexivity. Qed.

(* what the lead's (effective) stride means for its non-lead requests *)
Lemma stride_eff_req_stride : forall l shape start count strd,
  req_ok shape start count strd -> l_stride l = stride_eff (Some strd) ->
  (forall q, length (r_start q) = length start -> req_stride l q = strd) /\
  (match stride_eff (Some strd) with Some t => hd 1 t | None => 1 end) = hd 1 strd /\
  (match l_stride l with Some t => length t = length shape | None => True end).
Proof.
  intros l shape start count strd Hreq Hl.
  destruct (req_ok_lengths _ _ _ _ Hreq) as (Hls & _ & Hlt).
  pose proof (req_ok_stride_pos _ _ _ _ Hreq) as Htp.
  unfold req_stride. rewrite Hl. unfold stride_eff.
  destruct (forallb (fun x => x <=? 1) strd) eqn:Ef.
  - pose proof (nbg_all_ones strd Htp Ef) as E1.
    refine (conj _ (conj _ I)).
    + intros q Hq. rewrite ones_like_ones. rewrite Hq, Hls, <- Hlt. symmetry. exact E1.
    + destruct strd as [|t ts]; [reflexivity|].
      cbn [length] in E1. rewrite ones_S in E1. injection E1 as E1 _. cbn [hd]. lia.
  - refine (conj _ (conj _ _)); [intros; reflexivity | reflexivity | assumption].
Qed.

Theorem rec_split_pairs : forall l g lo start count strd xaddr,
  g_isrec g = true -> wf_geom g -> rec_fits g ->
  req_ok (g_shape g) start count strd -> 0 < zprod count ->
  l_geom l = g -> l_stride l = stride_eff (Some strd) ->
  flat_map (fun q => areq_pairs (mkareq q l 0 0))
           (rec_split lo start count
                      (match stride_eff (Some strd) with Some t => hd 1 t | None => 1 end)
                      (hd 1 count) (zprod count / hd 1 count) xaddr (g_xsz g))
  = part_pairs g (start, count, strd) xaddr.
Proof.
  intros l g lo start count strd xaddr Hrec Hwf Hfit Hreq Hpos Hg Hl.
  destruct (stride_eff_req_stride l _ _ _ _ Hreq Hl) as (Hrs & Hhd & Hlt).
  rewrite Hhd. apply rec_split_core; assumption.
Qed.

Theorem rec_split_wf : forall l g lo start count strd xaddr,
  g_isrec g = true -> wf_geom g -> rec_fits g ->
  req_ok (g_shape g) start count strd -> 0 < zprod count ->
  l_geom l = g -> l_stride l = stride_eff (Some strd) ->
  Forall (fun q => areq_wf (mkareq q l 0 0))
         (rec_split lo start count
                    (match stride_eff (Some strd) with Some t => hd 1 t | None => 1 end)
                    (hd 1 count) (zprod count / hd 1 count) xaddr (g_xsz g)).
Proof.
  intros l g lo start count strd xaddr Hrec Hwf Hfit Hreq Hpos Hg Hl.
  destruct (stride_eff_req_stride l _ _ _ _ Hreq Hl) as (Hrs & Hhd & Hlt).
  rewrite Hhd. apply rec_split_core; assumption.
Qed.

Theorem single_req_pairs : forall l g lo start count strd xaddr,
  g_isrec g = false -> wf_geom g -> rec_fits g ->
  req_ok (g_shape g) start count strd -> 0 < zprod count ->
  l_geom l = g -> l_stride l = stride_eff (Some strd) ->
  areq_pairs (mkareq (mkreq lo start count (zprod count) xaddr) l 0 0)
  = part_pairs g (start, count, strd) xaddr /\
  areq_wf (mkareq (mkreq lo start count (zprod count) xaddr) l 0 0).
Proof.
  intros l g lo start count strd xaddr Hrec Hwf Hfit Hreq Hpos Hg Hl.
  destruct (stride_eff_req_stride l _ _ _ _ Hreq Hl) as (Hrs & Hhd & Hlt).
  split.
  - unfold areq_pairs. cbn [a_lead a_req r_start r_count r_xaddr].
    rewrite Hg. rewrite Hrs by reflexivity. reflexivity.
  - unfold areq_wf. cbn [a_lead a_req r_start r_count r_nelems].
    rewrite Hg. rewrite Hrs by reflexivity.
    refine (conj Hwf (conj Hfit (conj Hreq (conj eq_refl (conj Hpos (conj _ Hlt)))))).
    intros E. congruence.
Qed.

Example rec_split_example :
  (* 3 records (stride 4) of gr3, 4 elements each; the lead keeps the stride [4;1;3] *)
  let l := mklead 0 gr3 (stride_eff (Some [4; 1; 3])) 0 3 14 false false (-1) 7000 12 None 0
                  [([5; 1; 0], [3; 2; 2], [4; 1; 3])] in
  req_ok (g_shape gr3) [5; 1; 0] [3; 2; 2] [4; 1; 3] /\ 0 < zprod [3; 2; 2] /\
  map r_start (rec_split 0 [5; 1; 0] [3; 2; 2] 4 3 4 7000 8) = [[5; 1; 0]; [9; 1; 0]; [13; 1; 0]] /\
  map r_xaddr (rec_split 0 [5; 1; 0] [3; 2; 2] 4 3 4 7000 8) = [7000; 7032; 7064] /\
  flat_map (fun q => areq_pairs (mkareq q l 0 0)) (rec_split 0 [5; 1; 0] [3; 2; 2] 4 3 4 7000 8)
  = part_pairs gr3 ([5; 1; 0], [3; 2; 2], [4; 1; 3]) 7000.
Proof.
  cbv zeta. split; [exact gr3_req|]. split; [reflexivity|].
  repeat split; vm_compute; reflexivity.
Qed.

(* ================================================================== *)
(* G5. The non-lead requests built by post_varm / post_varn             *)
(* ================================================================== *)
(* one (start,count,stride) part: record-split or kept whole *)
Lemma piece_reqs_ok : forall g start count strd xaddr lo l,
  wf_geom g -> rec_fits g -> req_ok (g_shape g) start count strd -> 0 < zprod count ->
  l_geom l = g -> l_stride l = stride_eff (Some strd) ->
  let reqs := (if g_isrec g
               then rec_split lo start count
                              (match stride_eff (Some strd) with Some t => hd 1 t | None => 1 end)
                              (hd 1 count) (zprod count / hd 1 count) xaddr (g_xsz g)
               else [mkreq lo start count (zprod count) xaddr]) in
  Forall (fun q => areq_wf (mkareq q l 0 0)) reqs /\
  flat_map (fun q => areq_pairs (mkareq q l 0 0)) reqs = part_pairs g (start, count, strd) xaddr /\
  Forall (fun q => r_lead_off q = lo) reqs /\
  Zlen reqs = (if g_isrec g then hd 1 count else 1) /\ 0 < Zlen reqs.
Proof.
  intros g start count strd xaddr lo l Hwf Hfit Hreq Hpos Hg Hl. cbv zeta.
  destruct (g_isrec g) eqn:Erec.
  - assert (Hc1 : 1 <= hd 1 count).
    { assert (Hcp : Forall (fun c => 1 <= c) count).
      { apply zprod_nonzero_pos; [eapply req_ok_count_nonneg; eassumption | lia]. }
      destruct count as [|c0 ct]; cbn [hd]; [lia|].
      inversion Hcp; subst; assumption. }
    rewrite rec_split_length.
    refine (conj _ (conj _ (conj _ (conj _ _)))); try lia.
    + apply rec_split_wf; assumption.
    + apply rec_split_pairs; assumption.
    + apply rec_split_lead.
  - destruct (single_req_pairs l g lo start count strd xaddr Erec Hwf Hfit Hreq Hpos Hg Hl)
      as [Hp Hw].
    refine (conj _ (conj _ (conj _ (conj _ _)))).
    + constructor; [assumption | constructor].
    + cbn [flat_map]. rewrite app_nil_r. assumption.
    + constructor; [reflexivity | constructor].
    + reflexivity.
    + reflexivity.
Qed.

Theorem post_varm_reqs_ok : forall g start count stride xaddr lo l,
  post_ok g start count stride -> 0 < zprod count * g_xsz g ->
  l_geom l = g -> l_stride l = stride_eff stride -> l_xaddr l = xaddr ->
  l_orig l = [(start, count, match stride with Some t => t | None => ones_like count end)] ->
  let reqs := (if g_isrec g
               then rec_split lo start count
                              (match stride_eff stride with Some t => hd 1 t | None => 1 end)
                              (hd 1 count) (zprod count / hd 1 count) xaddr (g_xsz g)
               else [mkreq lo start count (zprod count) xaddr]) in
  Forall (fun q => areq_wf (mkareq q l 0 0)) reqs /\
  flat_map (fun q => areq_pairs (mkareq q l 0 0)) reqs = lead_pairs l /\
  Forall (fun q => r_lead_off q = lo) reqs /\
  Zlen reqs = (if g_isrec g then hd 1 count else 1) /\ 0 < Zlen reqs.
Proof.
  intros g start count stride xaddr lo l Hok Hnb Hg Hl Hxa Horig.
  destruct Hok as (Hwf & Hfit & Hreq).
  set (strd := match stride with Some t => t | None => ones_like count end) in *.
  assert (Hse : stride_eff stride = stride_eff (Some strd)).
  { unfold strd. destruct stride as [t|]; [reflexivity|].
    rewrite stride_eff_ones_like. reflexivity. }
  assert (Hpos : 0 < zprod count).
  { destruct Hwf as (Hx & _). nia. }
  assert (Hlp : lead_pairs l = part_pairs g (start, count, strd) xaddr).
  { unfold lead_pairs. rewrite Horig, Hg, Hxa. cbn [parts_pairs]. apply app_nil_r. }
  rewrite Hse in Hl |- *. rewrite Hlp.
  apply piece_reqs_ok; assumption.
Qed.

Lemma varn_reqs_core : forall g lo l,
  wf_geom g -> rec_fits g -> l_geom l = g -> l_stride l = None ->
  forall parts xaddr,
  Forall (fun p => req_ok (g_shape g) (fst p) (part_count (fst p) (snd p)) (ones_like (fst p)))
         parts ->
  Forall (fun q => areq_wf (mkareq q l 0 0)) (varn_reqs (g_isrec g) lo (g_xsz g) parts xaddr) /\
  flat_map (fun q => areq_pairs (mkareq q l 0 0)) (varn_reqs (g_isrec g) lo (g_xsz g) parts xaddr)
  = parts_pairs g (map (fun p => (fst p, part_count (fst p) (snd p), ones_like (fst p)))
                       (filter (fun p => negb (zprod (part_count (fst p) (snd p)) =? 0)) parts))
                xaddr /\
  Forall (fun q => r_lead_off q = lo) (varn_reqs (g_isrec g) lo (g_xsz g) parts xaddr) /\
  Zlen (varn_reqs (g_isrec g) lo (g_xsz g) parts xaddr)
  = zsum (map (fun p => if g_isrec g then hd 1 (part_count (fst p) (snd p)) else 1)
              (filter (fun p => negb (zprod (part_count (fst p) (snd p)) =? 0)) parts)).
Proof.
  intros g lo l Hwf Hfit Hg Hl.
  induction parts as [|[s c] r IH]; intros xaddr HF.
  - cbn [varn_reqs filter map parts_pairs zsum flat_map].
    refine (conj _ (conj eq_refl (conj _ eq_refl))); constructor.
  - pose proof (Forall_inv HF) as Hp. pose proof (Forall_inv_tail HF) as HF'. cbn [fst snd] in Hp.
    cbn [varn_reqs filter fst snd].
    destruct (zprod (part_count s c) =? 0) eqn:Ez; cbn [negb].
    + apply IH. assumption.
    + assert (Hpos : 0 < zprod (part_count s c)).
      { assert (0 <= zprod (part_count s c)); [|lia].
        apply zprod_nonneg. eapply req_ok_count_nonneg; eassumption. }
      assert (Hl' : l_stride l = stride_eff (Some (ones_like s))).
      { rewrite stride_eff_ones_like. assumption. }
      pose proof (piece_reqs_ok g s (part_count s c) (ones_like s) xaddr lo l
                    Hwf Hfit Hp Hpos Hg Hl') as Hpc.
      cbv zeta in Hpc. rewrite stride_eff_ones_like in Hpc.
      destruct Hpc as (P1 & P2 & P3 & P4 & _).
      destruct (IH (xaddr + zprod (part_count s c) * g_xsz g) HF') as (I1 & I2 & I3 & I4).
      cbn [map parts_pairs zsum fst snd].
      refine (conj _ (conj _ (conj _ _))).
      * apply Forall_app. split; assumption.
      * rewrite flat_map_app, P2, I2. reflexivity.
      * apply Forall_app. split; assumption.
      * rewrite Zlen_app, P4, I4. reflexivity.
Qed.

Theorem post_varn_reqs_ok : forall g parts xaddr lo l,
  postn_ok g parts -> l_geom l = g -> l_stride l = None -> l_xaddr l = xaddr ->
  l_orig l = map (fun p => (fst p, part_count (fst p) (snd p), ones_like (fst p)))
                 (filter (fun p => negb (zprod (part_count (fst p) (snd p)) =? 0)) parts) ->
  let reqs := varn_reqs (g_isrec g) lo (g_xsz g) parts xaddr in
  Forall (fun q => areq_wf (mkareq q l 0 0)) reqs /\
  flat_map (fun q => areq_pairs (mkareq q l 0 0)) reqs = lead_pairs l /\
  Forall (fun q => r_lead_off q = lo) reqs /\
  Zlen reqs = zsum (map (fun p => if g_isrec g then hd 1 (part_count (fst p) (snd p)) else 1)
                        (filter (fun p => negb (zprod (part_count (fst p) (snd p)) =? 0)) parts)).
Proof.
  intros g parts xaddr lo l Hok Hg Hl Hxa Horig. cbv zeta.
  destruct Hok as (Hwf & Hfit & _ & HF).
  unfold lead_pairs. rewrite Horig, Hg, Hxa.
  apply varn_reqs_core; assumption.
Qed.

(* the hypotheses are satisfiable: the terms are those inside post_varm / post_varn *)
Example post_varm_reqs_example :
  let g := gr3 in let start := [5; 1; 0] in let count := [3; 2; 2] in
  let stride := Some [4; 1; 3] in
  let l := mklead 0 g (stride_eff stride) 0 3 14 false false (-1) 7000 12 None 0
                  [(start, count, [4; 1; 3])] in
  post_ok g start count stride /\ 0 < zprod count * g_xsz g /\
  Zlen (rec_split 7 start count 4 3 4 7000 8) = 3 /\
  flat_map (fun q => areq_pairs (mkareq q l 0 0)) (rec_split 7 start count 4 3 4 7000 8)
  = lead_pairs l.
Proof.
  cbv zeta. destruct gr3_wf as [Hwf Hfit].
  split; [exact (conj Hwf (conj Hfit gr3_req))|].
  split; [reflexivity|]. split; vm_compute; reflexivity.
Qed.

Example post_varn_reqs_example :
  (* three parts on gr3, the second one empty (dropped); counts[2] = NULL *)
  let parts := [([5; 1; 0], Some [2; 2; 2]); ([0; 0; 0], Some [1; 0; 4]); ([1; 2; 3], None)] in
  let l := mklead 0 gr3 None 0 3 7 false false (-1) 9000 9 None 0
                  [([5; 1; 0], [2; 2; 2], [1; 1; 1]); ([1; 2; 3], [1; 1; 1], [1; 1; 1])] in
  postn_ok gr3 parts /\
  l_orig l = map (fun p => (fst p, part_count (fst p) (snd p), ones_like (fst p)))
                 (filter (fun p => negb (zprod (part_count (fst p) (snd p)) =? 0)) parts) /\
  Zlen (varn_reqs (g_isrec gr3) 4 (g_xsz gr3) parts 9000) = 3 /\
  flat_map (fun q => areq_pairs (mkareq q l 0 0)) (varn_reqs (g_isrec gr3) 4 (g_xsz gr3) parts 9000)
  = lead_pairs l.
Proof.
  cbv zeta. destruct gr3_wf as [Hwf Hfit].
  split.
  - refine (conj Hwf (conj Hfit (conj _ _))); [discriminate|].
    repeat (apply Forall_cons;
            [cbn [fst snd part_count ones_like map gr3 g_shape req_ok dims_ok]; lia|]).
    apply Forall_nil.
  - repeat split; vm_compute; reflexivity.
Qed.

(* ================================================================== *)
(* Assumptions                                                          *)
(* ================================================================== *)
Print Assumptions areq_pairs_length.
Print Assumptions req_ftype_pairs.
Print Assumptions req_ftype_total.
Print Assumptions vars_flatten_pairs.
Print Assumptions vars_flatten_pos.
Print Assumptions rec_split_pairs.
Print Assumptions rec_split_wf.
Print Assumptions single_req_pairs.
Print Assumptions post_varm_reqs_ok.
Print Assumptions post_varn_reqs_ok.
