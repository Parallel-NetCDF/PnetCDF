(* Proofs_Fill.v — "fill-value semantics": the per-rank partition of a variable at enddef
   (fill_share), the write plan (fill_plan) and its effect on the disk (do_fill).
   All statements hold for every number of processes / variable length / header. *)
From Pnc Require Import Base Header Disk Fill Proofs_Lists Proofs_Disk.
Require Import Lia ZArith ZifyBool List Bool.
Import ListNotations.
Local Open Scope Z_scope.

Lemma fl_Zlen_app : forall A (l1 l2 : list A), Zlen (l1 ++ l2) = Zlen l1 + Zlen l2.
Proof. exact @Zlen_app. Qed.

Lemma fold_left_flat_map : forall A B C (g : A -> C -> A) (f : B -> list C) (l : list B) (init : A),
  fold_left (fun acc b => fold_left g (f b) acc) l init = fold_left g (flat_map f l) init.
Proof.
  intros A B C g f l. induction l as [|b l IH]; intros init; cbn [fold_left flat_map].
  - reflexivity.
  - rewrite fold_left_app. apply IH.
Qed.

(* ------------------------------------------------------------------------- *)
(** * 1. fill_share is a partition of [0, var_len) into nprocs consecutive runs  *)
(* ------------------------------------------------------------------------- *)

Definition share_start (np L r : Z) : Z := fst (fill_share np r L).
Definition share_count (np L r : Z) : Z := snd (fill_share np r L).

(* element e belongs to rank r's share *)
Definition in_share (np L r e : Z) : Prop :=
  share_start np L r <= e < share_start np L r + share_count np L r.

Lemma fill_share_closed : forall np r L,
  fill_share np r L =
  (L / np * r + Z.min r (L mod np), L / np + (if r <? L mod np then 1 else 0)).
Proof.
  intros np r L. unfold fill_share. cbv zeta.
  destruct (r <? L mod np) eqn:E; f_equal; lia.
Qed.

Lemma share_divmod : forall np L, 1 <= np -> 0 <= L ->
  0 <= L / np /\ 0 <= L mod np < np /\ L = np * (L / np) + L mod np.
Proof.
  intros np L Hnp HL. split; [apply Z.div_pos; lia|].
  split; [apply Z.mod_pos_bound; lia | apply Z.div_mod; lia].
Qed.

Lemma share_start_eq : forall np L r,
  share_start np L r = L / np * r + Z.min r (L mod np).
Proof. intros. unfold share_start. rewrite fill_share_closed. reflexivity. Qed.

Lemma share_count_eq : forall np L r,
  share_count np L r = L / np + (if r <? L mod np then 1 else 0).
Proof. intros. unfold share_count. rewrite fill_share_closed. reflexivity. Qed.

Lemma share_count_nonneg : forall np L r, 1 <= np -> 0 <= L -> 0 <= share_count np L r.
Proof.
  intros np L r Hnp HL. rewrite share_count_eq.
  pose proof (share_divmod np L Hnp HL). destruct (r <? L mod np); lia.
Qed.

Lemma share_start_0 : forall np L, 1 <= np -> 0 <= L -> share_start np L 0 = 0.
Proof.
  intros np L Hnp HL. rewrite share_start_eq. pose proof (share_divmod np L Hnp HL). lia.
Qed.

Lemma share_start_succ : forall np L r,
  share_start np L (r + 1) = share_start np L r + share_count np L r.
Proof.
  intros np L r. rewrite !share_start_eq, share_count_eq.
  destruct (r <? L mod np) eqn:E; lia.
Qed.

Lemma share_start_np : forall np L, 1 <= np -> 0 <= L -> share_start np L np = L.
Proof.
  intros np L Hnp HL. rewrite share_start_eq. pose proof (share_divmod np L Hnp HL). lia.
Qed.

Lemma share_start_mono : forall np L r1 r2, 1 <= np -> 0 <= L -> r1 <= r2 ->
  share_start np L r1 <= share_start np L r2.
Proof.
  intros np L r1 r2 Hnp HL Hr. rewrite !share_start_eq.
  pose proof (share_divmod np L Hnp HL). nia.
Qed.

Theorem fill_share_partition : forall nprocs var_len, 1 <= nprocs -> 0 <= var_len ->
  (forall r, 0 <= snd (fill_share nprocs r var_len)) /\
  fst (fill_share nprocs 0 var_len) = 0 /\
  (forall r, 0 <= r < nprocs - 1 ->
     fst (fill_share nprocs (r + 1) var_len) =
     fst (fill_share nprocs r var_len) + snd (fill_share nprocs r var_len)) /\
  fst (fill_share nprocs (nprocs - 1) var_len) + snd (fill_share nprocs (nprocs - 1) var_len)
    = var_len.
Proof.
  intros np L Hnp HL. repeat split.
  - intros r. apply (share_count_nonneg np L r Hnp HL).
  - apply (share_start_0 np L Hnp HL).
  - intros r _. apply (share_start_succ np L r).
  - fold (share_start np L (np - 1)). fold (share_count np L (np - 1)).
    rewrite <- share_start_succ. replace (np - 1 + 1) with np by lia.
    apply share_start_np; assumption.
Qed.

(* every share lies inside [0, var_len) *)
Lemma share_inside : forall np L r, 1 <= np -> 0 <= L -> 0 <= r < np ->
  0 <= share_start np L r /\ share_start np L r + share_count np L r <= L.
Proof.
  intros np L r Hnp HL Hr. split.
  - rewrite <- (share_start_0 np L Hnp HL). apply share_start_mono; lia.
  - rewrite <- share_start_succ. rewrite <- (share_start_np np L Hnp HL) at 2.
    apply share_start_mono; lia.
Qed.

Lemma share_exists_nat : forall np L e (n : nat), 1 <= np -> 0 <= L ->
  0 <= e < share_start np L (Z.of_nat n) ->
  exists r, 0 <= r < Z.of_nat n /\ in_share np L r e.
Proof.
  intros np L e n Hnp HL. induction n as [|n IH]; intros He.
  - cbn [Z.of_nat] in He. rewrite share_start_0 in He by assumption. lia.
  - rewrite Nat2Z.inj_succ in *. unfold Z.succ in *.
    rewrite share_start_succ in He.
    destruct (Z_lt_ge_dec e (share_start np L (Z.of_nat n))) as [Hlt|Hge].
    + destruct (IH (conj (proj1 He) Hlt)) as (r & Hr & Hin). exists r. split; [lia | assumption].
    + exists (Z.of_nat n). split; [lia|]. unfold in_share. lia.
Qed.

Lemma share_unique : forall np L e r1 r2, 1 <= np -> 0 <= L ->
  in_share np L r1 e -> in_share np L r2 e -> r1 = r2.
Proof.
  intros np L e r1 r2 Hnp HL H1 H2. unfold in_share in *.
  destruct (Z.lt_trichotomy r1 r2) as [Hlt|[Heq|Hgt]]; [exfalso | assumption | exfalso].
  - pose proof (share_start_mono np L (r1 + 1) r2 Hnp HL ltac:(lia)) as Hm.
    rewrite share_start_succ in Hm. lia.
  - pose proof (share_start_mono np L (r2 + 1) r1 Hnp HL ltac:(lia)) as Hm.
    rewrite share_start_succ in Hm. lia.
Qed.

Theorem fill_share_exact_cover : forall nprocs var_len, 1 <= nprocs -> 0 <= var_len ->
  (* every share is inside [0, var_len) *)
  (forall r, 0 <= r < nprocs ->
     0 <= fst (fill_share nprocs r var_len) /\
     fst (fill_share nprocs r var_len) + snd (fill_share nprocs r var_len) <= var_len) /\
  (* every element is in exactly one share *)
  (forall e, 0 <= e < var_len ->
     exists r, (0 <= r < nprocs /\
                fst (fill_share nprocs r var_len) <= e <
                fst (fill_share nprocs r var_len) + snd (fill_share nprocs r var_len)) /\
               forall r', 0 <= r' < nprocs ->
                 fst (fill_share nprocs r' var_len) <= e <
                 fst (fill_share nprocs r' var_len) + snd (fill_share nprocs r' var_len) ->
                 r' = r).
Proof.
  intros np L Hnp HL. split.
  - intros r Hr. apply (share_inside np L r Hnp HL Hr).
  - intros e He.
    destruct (share_exists_nat np L e (Z.to_nat np) Hnp HL) as (r & Hr & Hin).
    { rewrite Z2Nat.id by lia. rewrite share_start_np by assumption. lia. }
    rewrite Z2Nat.id in Hr by lia.
    exists r. split; [split; [assumption | exact Hin]|].
    intros r' _ Hin'. apply (share_unique np L e r' r Hnp HL Hin' Hin).
Qed.

(* a negative length gives no positive count (so nothing is written) *)
Lemma share_count_neg_len : forall np L r, 1 <= np -> L < 0 -> share_count np L r <= 0.
Proof.
  intros np L r Hnp HL. rewrite share_count_eq.
  assert (L / np < 0) by (apply Z.div_lt_upper_bound; lia).
  destruct (r <? L mod np); lia.
Qed.

Example fill_share_3_7 :
  map (fun r => fill_share 3 r 7) [0; 1; 2] = [(0, 3); (3, 2); (5, 2)].
Proof. vm_compute. reflexivity. Qed.

Example fill_share_4_2 :   (* more ranks than elements: trailing ranks get empty shares *)
  map (fun r => fill_share 4 r 2) [0; 1; 2; 3] = [(0, 1); (1, 1); (2, 0); (2, 0)].
Proof. vm_compute. reflexivity. Qed.

(* ------------------------------------------------------------------------- *)
(** * 2. The write plan                                                         *)
(* ------------------------------------------------------------------------- *)

Definition nelems (h : hdr) (v : var) : Z := var_nelems_per_rec (var_shape (h_dims h) v).
Definition vxsz (v : var) : Z := xlen_type (v_type v).

Lemma in_share_seg : forall (b : bool) np r L base x (v : var) seg,
  In seg (if b then [] else let '(st, c) := fill_share np r L in [(base + st * x, c, v)]) <->
  b = false /\ seg = (base + share_start np L r * x, share_count np L r, v).
Proof.
  intros b np r L base x v seg. unfold share_start, share_count.
  destruct b; [split; [intros [] | intros [H _]; discriminate]|].
  destruct (fill_share np r L) as [st c]. cbn [In fst snd]. split.
  - intros [<-|[]]. auto.
  - intros [_ ->]. now left.
Qed.

(* exact description of the members of a rank's plan *)
Theorem fill_plan_in_iff : forall h lay sv nrecs np r off c v,
  In (off, c, v) (fill_plan h lay sv nrecs np r) <->
  In v (zskipn sv (h_vars h)) /\ v_nofill v = false /\
  c = share_count np (nelems h v) r /\
  ( (is_recvar (h_dims h) v = false /\
     off = v_begin v + share_start np (nelems h v) r * vxsz v)
    \/
    (is_recvar (h_dims h) v = true /\
     exists recno, 0 <= recno < nrecs /\
       off = v_begin v + l_recsize lay * recno + share_start np (nelems h v) r * vxsz v) ).
Proof.
  intros h lay sv nrecs np r off c v. unfold fill_plan, nelems, vxsz. cbv zeta.
  rewrite in_app_iff, !in_flat_map. setoid_rewrite in_flat_map.
  setoid_rewrite in_share_seg. setoid_rewrite filter_In. setoid_rewrite In_zrange.
  split.
  - intros [(v' & [Hnew Hfm] & Hb & E) | (recno & Hrn & v' & [Hnew Hfm] & Hb & E)];
      injection E as -> -> <-; apply negb_true_iff in Hfm.
    + repeat split; auto.
    + apply negb_false_iff in Hb. repeat split; auto.
      right. split; [exact Hb|]. exists recno. split; [lia | reflexivity].
  - intros (Hnew & Hfm & -> & [(Erec & ->) | (Erec & recno & Hrn & ->)]).
    + left. exists v. rewrite Hfm, Erec. auto.
    + right. exists recno. split; [lia|]. exists v. rewrite Hfm, Erec. auto.
Qed.

(* only NEW variables in fill mode are ever filled *)
Theorem fill_plan_only_new_fillmode : forall h lay sv nrecs np r off c v,
  In (off, c, v) (fill_plan h lay sv nrecs np r) ->
  In v (zskipn sv (h_vars h)) /\ v_nofill v = false.
Proof.
  intros h lay sv nrecs np r off c v H. apply fill_plan_in_iff in H.
  destruct H as (H1 & H2 & _). split; assumption.
Qed.

(* fixed-size variable: each element is in the segment of exactly one rank *)
Theorem fill_plan_fixed_cover : forall h lay sv nrecs np v e,
  1 <= np ->
  In v (zskipn sv (h_vars h)) -> v_nofill v = false -> is_recvar (h_dims h) v = false ->
  0 < vxsz v ->
  0 <= e < nelems h v ->
  exists r st c,
    (0 <= r < np /\
     In (v_begin v + st * vxsz v, c, v) (fill_plan h lay sv nrecs np r) /\
     st <= e < st + c) /\
    (forall r' st' c', 0 <= r' < np ->
       In (v_begin v + st' * vxsz v, c', v) (fill_plan h lay sv nrecs np r') ->
       st' <= e < st' + c' ->
       r' = r /\ st' = st /\ c' = c).
Proof.
  intros h lay sv nrecs np v e Hnp Hnew Hfm Hfix Hx He.
  set (L := nelems h v) in *.
  assert (HL : 0 <= L) by lia.
  destruct (fill_share_exact_cover np L Hnp HL) as [_ Hcov].
  destruct (Hcov e He) as (r & (Hr & Hin) & Huniq).
  exists r, (share_start np L r), (share_count np L r). split.
  - split; [assumption|]. split; [|exact Hin].
    apply fill_plan_in_iff. repeat split; try assumption.
    left. split; [assumption | reflexivity].
  - intros r' st' c' Hr' Hin' He'.
    apply fill_plan_in_iff in Hin'. fold L in Hin'.
    destruct Hin' as (_ & _ & Hc' & [ (_ & Hoff) | (Erec & _) ]); [|congruence].
    assert (Hst' : st' = share_start np L r').
    { apply (Z.mul_reg_r _ _ (vxsz v)); lia. }
    subst st' c'.
    assert (r' = r) by (apply Huniq; assumption).
    subst r'. repeat split; reflexivity.
Qed.

(* arithmetic: inside one variable's record slots, (record number, start) is determined by
   the byte offset as long as the slot (recsize) is at least the variable's record extent *)
Lemma rec_offset_inj : forall R x n recno recno' st st' cnt e,
  0 < x -> n * x <= R -> 0 <= e < n ->
  st' <= e < st' + cnt -> 0 <= st -> st + cnt <= n ->
  R * recno + st' * x = R * recno' + st * x ->
  recno = recno' /\ st' = st.
Proof.
  intros R x n recno recno' st st' cnt e Hx HR He Hst' Hst0 Hstn Heq.
  (* the two starts differ by less than one record slot *)
  assert (Hb : - R < (st' - st) * x < R) by nia.
  assert (recno = recno') by nia. subst. split; [reflexivity | nia].
Qed.

(* record variable: in every existing record each element is in the segment of exactly one rank *)
Theorem fill_plan_rec_cover : forall h lay sv nrecs np v recno e,
  1 <= np ->
  In v (zskipn sv (h_vars h)) -> v_nofill v = false -> is_recvar (h_dims h) v = true ->
  0 < vxsz v -> nelems h v * vxsz v <= l_recsize lay ->
  0 <= recno < nrecs ->
  0 <= e < nelems h v ->
  exists r st c,
    (0 <= r < np /\
     In (v_begin v + l_recsize lay * recno + st * vxsz v, c, v) (fill_plan h lay sv nrecs np r) /\
     st <= e < st + c) /\
    (forall r' st' c', 0 <= r' < np ->
       In (v_begin v + l_recsize lay * recno + st' * vxsz v, c', v)
          (fill_plan h lay sv nrecs np r') ->
       st' <= e < st' + c' ->
       r' = r /\ st' = st /\ c' = c).
Proof.
  intros h lay sv nrecs np v recno e Hnp Hnew Hfm Hrec Hx HR Hrn He.
  set (L := nelems h v) in *.
  assert (HL : 0 <= L) by lia.
  destruct (fill_share_exact_cover np L Hnp HL) as [_ Hcov].
  destruct (Hcov e He) as (r & (Hr & Hin) & Huniq).
  exists r, (share_start np L r), (share_count np L r). split.
  - split; [assumption|]. split; [|exact Hin].
    apply fill_plan_in_iff. repeat split; try assumption.
    right. split; [assumption|]. exists recno. split; [assumption | reflexivity].
  - intros r' st' c' Hr' Hin' He'.
    apply fill_plan_in_iff in Hin'. fold L in Hin'.
    destruct Hin' as (_ & _ & Hc' & [ (Efix & _) | (_ & recno' & Hrn' & Hoff) ]); [congruence|].
    destruct (share_inside np L r' Hnp HL Hr') as [Hs0 Hs1].
    subst c'.
    destruct (rec_offset_inj (l_recsize lay) (vxsz v) L recno recno'
                (share_start np L r') st' (share_count np L r') e) as [_ Hst']; try assumption; try lia.
    subst st'.
    assert (r' = r) by (apply Huniq; assumption).
    subst r'. repeat split; reflexivity.
Qed.

(* ------------------------------------------------------------------------- *)
(** * 3. Effect on the disk                                                     *)
(* ------------------------------------------------------------------------- *)

Definition write_seg (d : disk) (seg : Z * Z * var) : disk :=
  let '(off, c, v) := seg in dk_write d off (repeat_bytes (var_fill_bytes v) c).

(* all segments, rank by rank, in the order do_fill writes them *)
Definition all_segs (h : hdr) (lay : layout) (sv nrecs np : Z) : list (Z * Z * var) :=
  flat_map (fill_plan h lay sv nrecs np) (zrange 0 np).

Lemma do_fill_flat : forall d h lay sv nrecs np,
  do_fill d h lay sv nrecs np = fold_left write_seg (all_segs h lay sv nrecs np) d.
Proof.
  intros. unfold do_fill, all_segs.
  apply (fold_left_flat_map disk Z (Z * Z * var) write_seg (fill_plan h lay sv nrecs np)).
Qed.

Lemma in_all_segs : forall h lay sv nrecs np seg,
  In seg (all_segs h lay sv nrecs np) <->
  exists r, 0 <= r < np /\ In seg (fill_plan h lay sv nrecs np r).
Proof.
  intros. unfold all_segs. rewrite in_flat_map. split; intros (r & Hr & Hin); exists r.
  - apply In_zrange in Hr. split; [lia | assumption].
  - split; [apply In_zrange; lia | assumption].
Qed.

Lemma Zlen_repeat_bytes : forall bs c, Zlen (repeat_bytes bs c) = Z.max 0 c * Zlen bs.
Proof. intros bs c. unfold repeat_bytes. rewrite (Zlen_flat_map_const _ (Zlen bs)), Zlen_zrange by reflexivity. reflexivity. Qed.

Lemma znth_flat_const : forall A B (bs : list B) (l : list A) k j d,
  0 <= k < Zlen l -> 0 <= j < Zlen bs ->
  znth (flat_map (fun _ => bs) l) (k * Zlen bs + j) d = znth bs j d.
Proof.
  intros A B bs l. induction l as [|a l IH]; intros k j d Hk Hj.
  - rewrite Zlen_nil in Hk. lia.
  - rewrite Zlen_cons in Hk. cbn [flat_map]. rewrite znth_app by nia.
    destruct (Z.eq_dec k 0) as [->|Hk0].
    + replace (0 * Zlen bs + j <? Zlen bs) with true by lia. f_equal; lia.
    + replace (k * Zlen bs + j <? Zlen bs) with false by nia.
      replace (k * Zlen bs + j - Zlen bs) with ((k - 1) * Zlen bs + j) by lia.
      apply IH; lia.
Qed.

Lemma znth_repeat_bytes : forall bs c k j,
  0 <= k < c -> 0 <= j < Zlen bs ->
  znth (repeat_bytes bs c) (k * Zlen bs + j) 0 = znth bs j 0.
Proof.
  intros bs c k j Hk Hj. unfold repeat_bytes. apply znth_flat_const; [|assumption].
  rewrite Zlen_zrange. lia.
Qed.

(* a segment as the (offset, bytes) tile it writes: filling is a fold of tile writes *)
Definition seg_tile (seg : Z * Z * var) : Z * list byte :=
  let '(off, c, v) := seg in (off, repeat_bytes (var_fill_bytes v) c).

Lemma fold_write_seg : forall segs d,
  fold_left write_seg segs d = write_tiles (map seg_tile segs) d.
Proof.
  induction segs as [|[[off c] v] segs IH]; intros d; [reflexivity|].
  cbn [fold_left map]. rewrite write_tiles_cons. apply IH.
Qed.

Lemma covers_seg_tile : forall off c v x,
  covers (seg_tile (off, c, v)) x <-> 0 <= c /\ off <= x < off + c * Zlen (var_fill_bytes v).
Proof.
  intros off c v x. unfold covers, seg_tile. cbn [fst snd]. rewrite Zlen_repeat_bytes.
  pose proof (Zlen_nonneg (var_fill_bytes v)).
  destruct (Z.max_spec 0 c) as [[? ->]|[? ->]]; nia.
Qed.

(* FRAME: a byte outside every planned segment of every rank is unchanged by filling *)
Theorem do_fill_frame : forall d h lay sv nrecs np x,
  (forall r off c v, 0 <= r < np -> In (off, c, v) (fill_plan h lay sv nrecs np r) ->
     ~ (off <= x < off + c * Zlen (var_fill_bytes v))) ->
  dk_get (do_fill d h lay sv nrecs np) x = dk_get d x.
Proof.
  intros d h lay sv nrecs np x H. rewrite do_fill_flat, fold_write_seg.
  apply write_tiles_get_out. intros p Hp Hc.
  apply in_map_iff in Hp. destruct Hp as ([[off c] v] & <- & Hin).
  apply in_all_segs in Hin. destruct Hin as (r & Hr & Hin).
  apply (H r off c v Hr Hin). apply covers_seg_tile. exact Hc.
Qed.

(* the extent (bytes) of a variable that filling may touch *)
Definition in_fill_extent (h : hdr) (lay : layout) (nrecs : Z) (v : var) (x : Z) : Prop :=
  if is_recvar (h_dims h) v
  then exists recno, 0 <= recno < nrecs /\
         v_begin v + l_recsize lay * recno <= x <
         v_begin v + l_recsize lay * recno + nelems h v * Zlen (var_fill_bytes v)
  else v_begin v <= x < v_begin v + nelems h v * Zlen (var_fill_bytes v).

(* every segment lies inside the extent of its (new, fill-mode) variable *)
Lemma seg_inside_extent : forall h lay sv nrecs np r off c v x,
  1 <= np -> 0 <= r < np ->
  vxsz v = Zlen (var_fill_bytes v) ->
  In (off, c, v) (fill_plan h lay sv nrecs np r) ->
  off <= x < off + c * Zlen (var_fill_bytes v) ->
  in_fill_extent h lay nrecs v x.
Proof.
  intros h lay sv nrecs np r off c v x Hnp Hr Hxs Hin Hx.
  apply fill_plan_in_iff in Hin. destruct Hin as (_ & _ & Hc & Hcase).
  set (L := nelems h v) in *. rewrite Hxs in Hcase.
  set (fl := Zlen (var_fill_bytes v)) in *.
  pose proof (Zlen_nonneg (var_fill_bytes v)) as Hfl. fold fl in Hfl.
  destruct (Z_lt_ge_dec L 0) as [Hneg|HL'].
  { pose proof (share_count_neg_len np L r Hnp Hneg). exfalso. subst c. nia. }
  assert (HL : 0 <= L) by lia.
  destruct (share_inside np L r Hnp HL Hr) as [Hs0 Hs1].
  pose proof (share_count_nonneg np L r Hnp HL) as Hc0.
  assert (Hb : share_start np L r * fl + c * fl <= L * fl) by (subst c; nia).
  assert (Ha : 0 <= share_start np L r * fl) by nia.
  unfold in_fill_extent. fold L fl.
  destruct Hcase as [ (Erec & Hoff) | (Erec & recno & Hrn & Hoff) ]; rewrite Erec.
  - lia.
  - exists recno. split; [assumption | lia].
Qed.

(* FRAME, variable form: a byte outside the extents of all NEW FILL-MODE variables is never
   overwritten — old variables and no-fill variables are untouched as soon as the layout keeps
   them disjoint from the new fill-mode ones. *)
Theorem do_fill_frame_extent : forall d h lay sv nrecs np x,
  1 <= np ->
  (forall v, In v (zskipn sv (h_vars h)) -> v_nofill v = false ->
     vxsz v = Zlen (var_fill_bytes v) /\ ~ in_fill_extent h lay nrecs v x) ->
  dk_get (do_fill d h lay sv nrecs np) x = dk_get d x.
Proof.
  intros d h lay sv nrecs np x Hnp H. apply do_fill_frame.
  intros r off c v Hr Hin Hx.
  destruct (fill_plan_only_new_fillmode _ _ _ _ _ _ _ _ _ Hin) as [Hnew Hfm].
  destruct (H v Hnew Hfm) as [Hxs Hout].
  apply Hout. eapply seg_inside_extent; eassumption.
Qed.

(* element <-> byte arithmetic *)
Lemma elem_of_byte : forall st cnt e j x,
  0 < x -> 0 <= j < x -> 0 <= cnt ->
  (st * x <= e * x + j < st * x + cnt * x <-> st <= e < st + cnt).
Proof.
  intros st cnt e j x Hx Hj Hc. split; intros H; nia.
Qed.

(* after filling, every element of a new fill-mode fixed variable reads its fill value,
   provided no segment of ANOTHER variable overlaps this variable's extent *)
Theorem do_fill_writes_fill : forall d h lay sv nrecs np v e,
  1 <= np ->
  In v (zskipn sv (h_vars h)) -> v_nofill v = false -> is_recvar (h_dims h) v = false ->
  0 < vxsz v -> Zlen (var_fill_bytes v) = vxsz v ->
  0 <= e < nelems h v ->
  (forall r off c v', 0 <= r < np -> In (off, c, v') (fill_plan h lay sv nrecs np r) ->
     v' = v \/
     off + c * Zlen (var_fill_bytes v') <= v_begin v \/
     v_begin v + nelems h v * vxsz v <= off) ->
  dk_read (do_fill d h lay sv nrecs np) (v_begin v + e * vxsz v) (vxsz v) = var_fill_bytes v.
Proof.
  intros d h lay sv nrecs np v e Hnp Hnew Hfm Hfix Hx Hfl He Hdisj.
  set (L := nelems h v) in *. set (xs := vxsz v) in *.
  assert (HL : 0 <= L) by lia.
  apply (@znth_ext byte _ _ 0); [rewrite Zlen_dk_read; lia|].
  intros j Hj. rewrite Zlen_dk_read in Hj. rewrite znth_dk_read by lia.
  rewrite do_fill_flat, fold_write_seg. apply write_tiles_get_in.
  - (* some write covers the byte *)
    destruct (fill_plan_fixed_cover h lay sv nrecs np v e Hnp Hnew Hfm Hfix Hx He)
      as (r & st & c & (Hr & Hin & Hst) & _).
    exists (seg_tile (v_begin v + st * xs, c, v)). split.
    + apply in_map. apply in_all_segs. exists r. split; assumption.
    + apply covers_seg_tile. rewrite Hfl.
      assert (Hc0 : 0 <= c) by lia.
      pose proof (proj2 (elem_of_byte st c e j xs Hx ltac:(lia) Hc0) Hst). lia.
  - (* and every write that covers it stores the right value *)
    intros q Hq Hcov. apply in_map_iff in Hq. destruct Hq as ([[off c] v'] & <- & Hin).
    apply covers_seg_tile in Hcov. destruct Hcov as [Hc0 Hcov]. cbn [seg_tile fst snd].
    apply in_all_segs in Hin. destruct Hin as (r & Hr & Hin).
    destruct (Hdisj r off c v' Hr Hin) as [Heq | [Hlo | Hhi]].
    + subst v'. apply fill_plan_in_iff in Hin. fold L xs in Hin.
      destruct Hin as (_ & _ & Hc & [ (_ & Hoff) | (Erec & _) ]); [|congruence].
      rewrite Hfl in Hcov. subst off c.
      assert (Hin_sh : share_start np L r <= e < share_start np L r + share_count np L r).
      { apply (elem_of_byte _ _ e j xs); lia. }
      replace (v_begin v + e * xs + j - (v_begin v + share_start np L r * xs))
        with ((e - share_start np L r) * Zlen (var_fill_bytes v) + j) by (rewrite Hfl; lia).
      apply znth_repeat_bytes; lia.
    + exfalso. nia.
    + exfalso. assert ((e + 1) * xs <= L * xs) by (apply Z.mul_le_mono_nonneg_r; lia). lia.
Qed.

(* ------------------------------------------------------------------------- *)
(** * 4. Examples                                                               *)
(* ------------------------------------------------------------------------- *)

(* dims: t (unlimited), x = 7, y = 2.
   vars: old (fixed, existing), a (new fixed int [x]), n (new fixed int [x], NO-FILL),
         r (new record short [t][y]) *)
Definition fx_dims : list dim := [mkdim [116] 0; mkdim [120] 7; mkdim [121] 2].
Definition fx_old : var := mkvar [111] [1] [] 4 100 false.
Definition fx_a   : var := mkvar [97]  [1] [] 4 128 false.
Definition fx_n   : var := mkvar [110] [1] [] 4 156 true.
Definition fx_r   : var := mkvar [114] [0; 2] [] 3 184 false.
Definition fx_h : hdr := mkhdr 1 2 fx_dims [] [fx_old; fx_a; fx_n; fx_r].
Definition fx_lay : layout := mklayout 100 100 184 4 [100; 128; 156; 184].

Example fill_plan_ex :
  map (fun r => map (fun s => (fst (fst s), snd (fst s), v_name (snd s)))
                    (fill_plan fx_h fx_lay 1 2 3 r)) [0; 1; 2]
  = [ [(128, 3, [97]); (184, 1, [114]); (188, 1, [114])];
      [(140, 2, [97]); (186, 1, [114]); (190, 1, [114])];
      [(148, 2, [97]); (188, 0, [114]); (192, 0, [114])] ].
Proof. vm_compute. reflexivity. Qed.

(* hypotheses of the cover theorems are satisfiable on it *)
Example fill_plan_fixed_cover_ex :
  In fx_a (zskipn 1 (h_vars fx_h)) /\ v_nofill fx_a = false /\
  is_recvar (h_dims fx_h) fx_a = false /\ 0 < vxsz fx_a /\ nelems fx_h fx_a = 7.
Proof. repeat split. left. reflexivity. Qed.

Example fill_plan_rec_cover_ex :
  In fx_r (zskipn 1 (h_vars fx_h)) /\ v_nofill fx_r = false /\
  is_recvar (h_dims fx_h) fx_r = true /\ 0 < vxsz fx_r /\
  nelems fx_h fx_r * vxsz fx_r <= l_recsize fx_lay.
Proof.
  repeat split; try (vm_compute; discriminate).
  right. right. left. reflexivity.
Qed.

Definition fx_disk0 : disk := mkdisk true 200 (fun _ => 1).
Definition fx_disk1 : disk := do_fill fx_disk0 fx_h fx_lay 1 2 3.

Example do_fill_ex :
  (* a: seven int fill values (0x80000001), all three ranks' shares *)
  dk_read fx_disk1 128 28 = flat_map (fun _ => [128; 0; 0; 1]) (zrange 0 7) /\
  (* old and the no-fill variable n are untouched *)
  dk_read fx_disk1 100 28 = dk_read fx_disk0 100 28 /\
  dk_read fx_disk1 156 28 = dk_read fx_disk0 156 28 /\
  (* r: two records of two short fill values (0x8001) *)
  dk_read fx_disk1 184 8 = [128; 1; 128; 1; 128; 1; 128; 1] /\
  dk_read fx_disk1 192 4 = dk_read fx_disk0 192 4.
Proof. vm_compute. repeat split. Qed.

Example do_fill_writes_fill_ex :
  Zlen (var_fill_bytes fx_a) = vxsz fx_a /\
  forall r off c v', 0 <= r < 3 -> In (off, c, v') (fill_plan fx_h fx_lay 1 2 3 r) ->
     v' = fx_a \/ off + c * Zlen (var_fill_bytes v') <= v_begin fx_a \/
     v_begin fx_a + nelems fx_h fx_a * vxsz fx_a <= off.
Proof.
  split; [reflexivity|].
  intros r off c v' Hr Hin.
  assert (Hr3 : r = 0 \/ r = 1 \/ r = 2) by lia.
  destruct Hr3 as [?|[?|?]]; subst r; vm_compute in Hin;
    repeat (destruct Hin as [Hin|Hin]; [inversion Hin; subst; clear Hin|]); try contradiction;
    try (left; reflexivity); right; right; vm_compute; discriminate.
Qed.

Print Assumptions fill_share_partition.
Print Assumptions fill_share_exact_cover.
Print Assumptions fill_plan_in_iff.
Print Assumptions fill_plan_only_new_fillmode.
Print Assumptions fill_plan_fixed_cover.
Print Assumptions fill_plan_rec_cover.
Print Assumptions do_fill_frame.
Print Assumptions do_fill_frame_extent.
Print Assumptions do_fill_writes_fill.
