(* Proofs_Collective.v -- proofs about the model Collective.v (property C08).
   The observable call sequence (norm) of no building block depends on being the root; per API, ranks of
   one class produce one sequence (norm_class), hence collective_match_partial, its corollaries
   (match_by_class and the match_* theorems) and the refutation of the full statement with further witnesses; then errors_stay_local,
   safe_mode_uniform (each FULL / PARTIAL / REFUTED), never_crashes, fill at enddef. *)
From Coq Require Import ZArith List String Bool Lia PeanoNat.
From Pnc Require Import Gen_consts Gen_collsites Collective Proofs_Lists.
Import ListNotations.
Local Open Scope Z_scope.
Local Open Scope list_scope.

Lemma gen_codes_negative :
  NC_EMULTIDEFINE_FNC_ARGS < 0 /\ NC_EMULTIDEFINE_CMODE < 0 /\ NC_EMULTIDEFINE_OMODE < 0 /\
  NC_EMULTIDEFINE_FILL_MODE < 0 /\ NC_EMULTIDEFINE_VAR_FILL_VALUE < 0 /\
  NC_ENOTFILL < 0 /\ NC_ENOTRECVAR < 0 /\ NC_EINVAL_REQUEST < 0 /\ NC_EPENDING < 0.
Proof. vm_compute. repeat split; reflexivity. Qed.

(* site enumeration *)
Lemma all_sites_nth : forall s : site, nth_error all_sites (site_idx s) = Some s.
Proof. intro s; destruct s; reflexivity. Qed.

Lemma all_sites_complete : forall s : site, In s all_sites.
Proof. intro s. eapply nth_error_In. apply all_sites_nth. Qed.

(* site_idx numbers all_sites 0, 1, 2, ... in order *)
Lemma all_sites_nodup : NoDup all_sites.
Proof. apply (NoDup_map_inv site_idx). exact (seq_NoDup (List.length all_sites) 0). Qed.

(* the model lists its sites in the order of the generated table, so the two sides below sort
   the same list: no string is compared *)
Lemma sites_table : map site_info all_sites = gen_sites.
Proof. reflexivity. Qed.

(* the call sites of the sources as built are exactly the sites the model enumerates *)
Lemma sites_enumerated : model_sites = sort3 gen_sites.
Proof. unfold model_sites. rewrite sites_table. reflexivity. Qed.

(* coqchk redoes an evaluation with the kernel's lazy machine, where Collective.str_leb is dear
   (it compares characters as unary numbers).  So the order of gen_sites is checked by one pass over
   adjacent entries with a twin of site3_leb that compares characters in binary, and a list in
   order is a fixed point of the insertion sort *)
Fixpoint str_leb2 (a b : string) : bool :=
  match a, b with
  | EmptyString, _ => true
  | String _ _, EmptyString => false
  | String x a', String y b' =>
      match N.compare (Ascii.N_of_ascii x) (Ascii.N_of_ascii y) with
      | Lt => true | Gt => false | Eq => str_leb2 a' b'
      end
  end.

Definition site3_leb2 (x y : string * string * nat) : bool :=
  let '(f1, c1, n1) := x in let '(f2, c2, n2) := y in
  if str_leb2 f1 f2 && str_leb2 f2 f1
  then (if str_leb2 c1 c2 && str_leb2 c2 c1 then Nat.leb n1 n2 else str_leb2 c1 c2)
  else str_leb2 f1 f2.

Fixpoint sorted3 (l : list (string * string * nat)) : bool :=
  match l with x :: ((y :: _) as t) => site3_leb2 x y && sorted3 t | _ => true end.

Lemma str_leb2_eq : forall a b, str_leb2 a b = str_leb a b.
Proof.
  induction a as [|x a IH]; destruct b as [|y b]; cbn [str_leb2 str_leb]; try reflexivity.
  rewrite IH. unfold Ascii.nat_of_ascii.
  destruct (N.compare_spec (Ascii.N_of_ascii x) (Ascii.N_of_ascii y)) as [E|E|E];
    [rewrite E, Nat.ltb_irrefl; reflexivity | |];
    destruct (Nat.ltb_spec (N.to_nat (Ascii.N_of_ascii x)) (N.to_nat (Ascii.N_of_ascii y)));
    destruct (Nat.ltb_spec (N.to_nat (Ascii.N_of_ascii y)) (N.to_nat (Ascii.N_of_ascii x))); try reflexivity; lia.
Qed.

Lemma site3_leb2_eq : forall x y, site3_leb2 x y = site3_leb x y.
Proof. intros [[f1 c1] n1] [[f2 c2] n2]. unfold site3_leb2, site3_leb, str_eqb. rewrite !str_leb2_eq. reflexivity. Qed.

Lemma sort3_sorted : forall l, sorted3 l = true -> sort3 l = l.
Proof.
  induction l as [|x l IH]; intro H; [reflexivity|].
  change (sort3 (x :: l)) with (ins3 x (sort3 l)).
  destruct l as [|y t]; [reflexivity|].
  cbn [sorted3] in H. apply andb_true_iff in H. destruct H as [H1 H2].
  rewrite (IH H2). cbn [ins3]. rewrite <- site3_leb2_eq, H1. reflexivity.
Qed.

Lemma gen_sites_sorted : sort3 gen_sites = gen_sites.
Proof. apply sort3_sorted. vm_compute. reflexivity. Qed.

Lemma gen_sites_count : List.length gen_sites = gen_nsites /\ List.length all_sites = gen_nsites.
Proof. vm_compute. split; reflexivity. Qed.

(* observable sequences *)
Lemma norm_app : forall a b, norm (a ++ b) = norm a ++ norm b.
Proof. intros. unfold norm. rewrite filter_app, map_app. reflexivity. Qed.

Lemma norm_nil : norm [] = [].
Proof. reflexivity. Qed.

Fixpoint repl {A : Type} (n : nat) (l : list A) : list A :=
  match n with O => [] | S k => l ++ repl k l end.

Lemma norm_rep : forall n t, norm (rep n t) = repl n (norm t).
Proof.
  induction n; intro t; [reflexivity|].
  change (rep (S n) t) with (t ++ rep n t). rewrite norm_app, IHn. reflexivity.
Qed.

Lemma repl_nil : forall (A : Type) n, @repl A n [] = [].
Proof. induction n; cbn; auto. Qed.

Lemma norm_if : forall (b : bool) x y, norm (if b then x else y) = if b then norm x else norm y.
Proof. destruct b; reflexivity. Qed.

(* case split on every test (if, mode, variable kind, option) that the goal still shows; used where a
   building block is a tree of such tests and each leaf is closed the same way *)
Ltac brk :=
  repeat match goal with
         | |- context [if ?b then _ else _] => destruct b eqn:?
         | |- context [match ?x with MDefine => _ | MColl => _ | MIndep => _ end] => destruct x eqn:?
         | |- context [match ?x with VFixed => _ | VRecord => _ | VScalar => _ end] => destruct x eqn:?
         | |- context [match ?x with Some _ => _ | None => _ end] => destruct x eqn:?
         end.

(* the observable sequence of every building block does not depend on being the root *)
Lemma root_write_numrecs : forall c sh r1 r2 i, norm (write_numrecs c sh r1 i) = norm (write_numrecs c sh r2 i).
Proof. intros; unfold write_numrecs; destruct r1, r2, i, (c_hcoll c), (s_nrecvars sh =? 0); reflexivity. Qed.

Lemma root_sync_numrecs_indep : forall c sh r1 r2, norm (sync_numrecs_indep c sh r1) = norm (sync_numrecs_indep c sh r2).
Proof.
  intros; unfold sync_numrecs_indep. brk; try reflexivity;
  rewrite !norm_app; rewrite (root_write_numrecs c sh r1 r2); reflexivity.
Qed.

Lemma root_end_indep : forall c sh r1 r2, norm (end_indep c sh r1) = norm (end_indep c sh r2).
Proof. intros; unfold end_indep. brk; try reflexivity; apply root_sync_numrecs_indep. Qed.

Lemma root_write_header : forall c sh r1 r2, norm (write_header c sh r1) = norm (write_header c sh r2).
Proof.
  intros; unfold write_header. rewrite !norm_app. f_equal.
  destruct (c_hcoll c); [|reflexivity]. rewrite !norm_rep. f_equal.
  destruct r1, r2, (s_mode sh); reflexivity.
Qed.

Lemma root_aggr_init : forall c r1 r2, norm (aggr_init c r1) = norm (aggr_init c r2).
Proof. intros; unfold aggr_init; destruct (c_aggr c), r1, r2; reflexivity. Qed.

Lemma root_write_NC : forall c sh r1 r2, norm (write_NC c sh r1) = norm (write_NC c sh r2).
Proof.
  intros; unfold write_NC. rewrite !norm_app. f_equal.
  destruct (c_hcoll c); [|reflexivity]. rewrite !norm_rep. f_equal. destruct r1, r2; reflexivity.
Qed.

Lemma root_enddef_driver : forall c sh r1 r2, norm (enddef_driver c sh r1) = norm (enddef_driver c sh r2).
Proof.
  intros; unfold enddef_driver. rewrite !norm_app. rewrite (root_write_NC c sh r1 r2). reflexivity.
Qed.

Lemma root_hdr_fetch : forall c r1 r2, norm (hdr_fetch c r1) = norm (hdr_fetch c r2).
Proof. intros; unfold hdr_fetch. destruct (c_hcoll c), (c_safe c), r1, r2; reflexivity. Qed.

Lemma root_close_files : forall c sh u, norm (close_files c sh u) = norm (close_files c sh u).
Proof. reflexivity. Qed.

(* the data-access drivers *)
(* normal forms: what the other ranks see of set_view + transfer, of the numrecs update, of
   put_varm / getput_vard (reaches = the rank takes part in the numrecs Allreduce) *)
Definition nf_rw (isget : bool) : list (ckind * target) :=
  [(K_File_set_view, TFhColl); (if isget then K_File_read_coll else K_File_write_coll, TFhColl)].

Definition nf_numrecs (c : cfg) (sh : shared) (g : gsum) : list (ckind * target) :=
  if grow sh g then norm (write_numrecs c sh true false) else [].

Definition nf_getput (c : cfg) (sh : shared) (g : gsum) (isget reaches : bool) : list (ckind * target) :=
  nf_rw isget ++ (if reaches then [(K_Allreduce, TComm)] ++ nf_numrecs c sh g else []).

Lemma norm_zero_req : forall isget, norm (zero_req isget) = nf_rw isget.
Proof. destruct isget; reflexivity. Qed.

Lemma norm_sv_rw : forall r k isget, norm (set_view r k ++ rw isget) = nf_rw isget.
Proof. destruct r, k, isget; reflexivity. Qed.

Lemma norm_numrecs : forall c sh g r,
  norm (if grow sh g then write_numrecs c sh r false else []) = nf_numrecs c sh g.
Proof. intros. unfold nf_numrecs. destruct (grow sh g); [apply root_write_numrecs | reflexivity]. Qed.

(* the part put_varm and getput_vard share; ar = the Allreduce of the new number of records *)
Lemma norm_transfer : forall c sh g r k isget (b : bool) ar, norm ar = [(K_Allreduce, TComm)] ->
  norm (set_view r k ++ rw isget ++ (if b then ar ++ (if grow sh g then write_numrecs c sh r false else []) else [])) =
  nf_getput c sh g isget b.
Proof.
  intros c sh g r k isget b ar Har. rewrite app_assoc, norm_app, norm_sv_rw. unfold nf_getput. f_equal.
  destruct b; [|reflexivity]. rewrite norm_app, norm_numrecs, Har. reflexivity.
Qed.

Lemma norm_getput_driver : forall c sh g r isget z q,
  norm (getput_driver c sh g r isget z q) = nf_getput c sh g isget (negb isget && negb z && is_rec (d_vk q)).
Proof.
  intros. unfold getput_driver. destruct z.
  - rewrite andb_false_r. unfold nf_getput. cbn [andb]. rewrite app_nil_r.
    destruct (negb isget && c_aggr c) eqn:E; [|apply norm_zero_req].
    destruct isget; [discriminate E | apply norm_sv_rw].
  - rewrite andb_true_r. apply norm_transfer. reflexivity.
Qed.

Lemma norm_vard_driver : forall c sh g r isget z q,
  norm (vard_driver c sh g r isget z q) = nf_getput c sh g isget (negb isget && negb z && is_rec (d_vk q)).
Proof.
  intros. unfold vard_driver. destruct z.
  - rewrite andb_false_r. unfold nf_getput. cbn [andb]. rewrite app_nil_r. apply norm_zero_req.
  - rewrite andb_true_r. apply norm_transfer. reflexivity.
Qed.

Lemma root_getput_driver : forall c sh g r1 r2 isget zero r,
  norm (getput_driver c sh g r1 isget zero r) = norm (getput_driver c sh g r2 isget zero r).
Proof. intros. rewrite !norm_getput_driver. reflexivity. Qed.

Lemma root_vard_driver : forall c sh g r1 r2 isget zero r,
  norm (vard_driver c sh g r1 isget zero r) = norm (vard_driver c sh g r2 isget zero r).
Proof. intros. rewrite !norm_vard_driver. reflexivity. Qed.

(* wait_getput: neither the root nor the number of own requests nor the contiguity is observable *)
Definition nf_wait (c : cfg) (sh : shared) (g : gsum) (isget : bool) : list (ckind * target) :=
  nf_rw isget ++ (if negb isget then nf_numrecs c sh g else []).

Lemma norm_wait_getput : forall c sh g r isget n k,
  norm (wait_getput c sh g r isget n k) = nf_wait c sh g isget.
Proof.
  intros. unfold wait_getput, nf_wait. rewrite norm_app. f_equal.
  - destruct (negb isget && c_aggr c) eqn:E.
    + destruct isget; [discriminate E | apply norm_sv_rw].
    + destruct (n =? 0); [apply norm_zero_req | apply norm_sv_rw].
  - destruct isget; [reflexivity | apply norm_numrecs].
Qed.

Definition nf_commit (c : cfg) (sh : shared) (g : gsum) : list (ckind * target) :=
  [(K_Allreduce, TComm)] ++
  (if g_anyerr g then []
   else (if g_anyw g then nf_wait c sh g false else []) ++ (if g_anyr g then nf_wait c sh g true else [])).

Lemma norm_req_commit : forall c sh g r nw nr k, norm (req_commit c sh g r nw nr k) = nf_commit c sh g.
Proof.
  intros. unfold req_commit, nf_commit. rewrite norm_app. f_equal.
  destruct (g_anyerr g); [reflexivity|]. rewrite norm_app.
  destruct (g_anyw g), (g_anyr g); rewrite ?norm_wait_getput; reflexivity.
Qed.

Lemma root_req_commit : forall c sh g r1 r2 nw1 nr1 nw2 nr2 k1 k2,
  norm (req_commit c sh g r1 nw1 nr1 k1) = norm (req_commit c sh g r2 nw2 nr2 k2).
Proof. intros. rewrite !norm_req_commit. reflexivity. Qed.

(* the err_check block of the put/get dispatchers (var_getput.m4): in safe mode the ranks'
   error codes are reduced and the driver is entered iff all are zero; without safe mode a mode
   error (a function of the shared state: se) returns at once and any other error goes on *)
Definition nf_err_check (c : cfg) (g : gsum) (se : Z) (body : list (ckind * target)) : list (ckind * target) :=
  if c_safe c then (K_Allreduce, TComm) :: (if g_min1 g =? 0 then body else [])
  else if fatal se then [] else body.

Lemma norm_err_check : forall c g se e x t0 o0 (pe : trace * outcome) body,
  fatal e = fatal se ->
  (c_safe c = true -> norm t0 = body) -> (c_safe c = false -> norm (fst pe) = body) ->
  norm (fst (if c_safe c
             then if g_min1 g =? 0 then ([(S_allreduce_error_AR1, TComm)] ++ t0, o0)
                  else stop [(S_allreduce_error_AR1, TComm)] x
             else if fatal e then stop [] e else pe)) = nf_err_check c g se body.
Proof.
  intros c g se e x t0 o0 pe body F H0 He. unfold nf_err_check. rewrite F.
  destruct (c_safe c); [destruct (g_min1 g =? 0) | destruct (fatal se)]; cbn [fst stop]; try reflexivity.
  - rewrite norm_app, H0; reflexivity.
  - apply He; reflexivity.
Qed.

Lemma fatal_first : forall s e, fatal e = false -> fatal (if s =? 0 then e else s) = fatal s.
Proof.
  intros s e H. destruct (s =? 0) eqn:E; [|reflexivity]. apply Z.eqb_eq in E. rewrite E, H. reflexivity.
Qed.

Lemma wf_req_nonfatal : forall q, wf_local (LReq q) = true -> fatal (d_err q) = false.
Proof.
  intros q H. cbn in H. rewrite !andb_true_iff in H. destruct H as [[[_ H] _] _]. apply negb_true_iff, H.
Qed.

Lemma wf_wait_nonfatal : forall w, wf_local (LWait w) = true -> fatal (w_err w) = false.
Proof.
  intros w H. cbn in H. rewrite !andb_true_iff in H. destruct H as [[[_ H] _] _]. apply negb_true_iff, H.
Qed.

(* put/get of the forms var, var1, vara, vars, varm (drv = getput_driver) and vard (vard_driver) *)
Definition blocking (c : cfg) (sh : shared) (g : gsum) (isget : bool) (drv : bool -> dreq -> trace) (r : dreq)
  : trace * outcome :=
  let e := disp_err sh (negb isget) r in
  let ok := Ret (d_drv_err r) ((d_drv_err r =? 0) && d_nonzero r) in
  if c_safe c then
    if g_min1 g =? 0 then ([(S_allreduce_error_AR1, TComm)] ++ drv false r, ok)
    else stop [(S_allreduce_error_AR1, TComm)] (g_min1 g)
  else if fatal e then stop [] e
  else if e =? 0 then (drv false r, ok) else (drv true r, Ret e false).

Lemma norm_blocking : forall c sh g isget drv q,
  wf_local (LReq q) = true ->
  (forall z, norm (drv z q) = nf_getput c sh g isget (negb isget && negb z && is_rec (d_vk q))) ->
  norm (fst (blocking c sh g isget drv q)) =
  nf_err_check c g (state_err sh (negb isget))
    (nf_getput c sh g isget (Nat.eqb (sync_class c sh (A_vard isget) (LReq q)) 1)).
Proof.
  intros c sh g isget drv q W D. unfold blocking. cbv zeta.
  apply norm_err_check; [apply fatal_first, wf_req_nonfatal, W | |];
    intro S; cbn [sync_class]; rewrite S; cbn [orb].
  - rewrite D. destruct isget, (is_rec (d_vk q)); reflexivity.
  - destruct isget; cbn [negb];
      [destruct (disp_err sh false q =? 0) | destruct (disp_err sh true q =? 0)];
      cbn [fst]; rewrite D; destruct (is_rec (d_vk q)); reflexivity.
Qed.

Lemma norm_getput : forall c sh g r isget k q, wf_local (LReq q) = true ->
  norm (ctrace c sh (A_getput isget k) g r (LReq q)) =
  if multi c
  then nf_err_check c g (state_err sh (negb isget))
         (nf_getput c sh g isget (Nat.eqb (sync_class c sh (A_getput isget k) (LReq q)) 1))
  else [].
Proof.
  intros c sh g r isget k q W. unfold ctrace, exec. destruct (multi c); [|reflexivity].
  apply (norm_blocking c sh g isget (getput_driver c sh g r isget)); [exact W | intro; apply norm_getput_driver].
Qed.

Lemma norm_vard : forall c sh g r isget q, wf_local (LReq q) = true ->
  norm (ctrace c sh (A_vard isget) g r (LReq q)) =
  if multi c
  then nf_err_check c g (state_err sh (negb isget))
         (nf_getput c sh g isget (Nat.eqb (sync_class c sh (A_vard isget) (LReq q)) 1))
  else [].
Proof.
  intros c sh g r isget q W. unfold ctrace, exec. destruct (multi c); [|reflexivity].
  apply (norm_blocking c sh g isget (vard_driver c sh g r isget)); [exact W | intro; apply norm_vard_driver].
Qed.

Lemma varn_scalar_vk : forall q, varn_scalar q = true -> is_rec (d_vk q) = false.
Proof.
  intros q H. unfold varn_scalar in H. rewrite !andb_true_iff in H. destruct H as [_ H].
  destruct (d_vk q); [discriminate H | discriminate H | reflexivity].
Qed.

(* varn: a scalar variable goes through put_var/get_var, anything else through iput/iget + wait;
   neither NC_REQ_ZERO nor the number of requests is observable *)
Lemma norm_varn : forall c sh g r isget q, wf_local (LReq q) = true ->
  norm (ctrace c sh (A_varn isget) g r (LReq q)) =
  if multi c
  then nf_err_check c g (state_err sh (negb isget))
         (if varn_scalar q then nf_getput c sh g isget false else nf_commit c sh g)
  else [].
Proof.
  intros c sh g r isget q W. unfold ctrace, exec. destruct (multi c); [|reflexivity]. cbv beta zeta.
  destruct (varn_scalar q) eqn:S; cbv iota;
    (apply norm_err_check; [apply fatal_first, wf_req_nonfatal, W | |]); intros _; cbn [fst];
    rewrite ?norm_req_commit, ?norm_getput_driver, ?(varn_scalar_vk _ S), ?andb_false_r; reflexivity.
Qed.

Lemma norm_mgetput : forall c sh g r isget w, wf_local (LWait w) = true ->
  norm (ctrace c sh (A_mgetput isget) g r (LWait w)) =
  if multi c then nf_err_check c g (state_err sh (negb isget)) (nf_commit c sh g) else [].
Proof.
  intros c sh g r isget w W. unfold ctrace, exec. destruct (multi c); [|reflexivity]. cbv beta zeta.
  apply norm_err_check; [apply fatal_first, wf_wait_nonfatal, W | |]; intros _.
  - apply norm_req_commit.
  - destruct (_ =? 0); apply norm_req_commit.
Qed.

(* per API: ranks of the same class execute the same observable sequence *)
Lemma class_fill : forall c sh g r1 r2 f1 f2,
  sync_class c sh A_fill_var_rec (LFill f1) = sync_class c sh A_fill_var_rec (LFill f2) ->
  norm (ctrace c sh A_fill_var_rec g r1 (LFill f1)) = norm (ctrace c sh A_fill_var_rec g r2 (LFill f2)).
Proof.
  intros c sh g r1 r2 f1 f2 H. unfold ctrace, exec. destruct (multi c); [|reflexivity]. cbn [negb].
  cbn [sync_class] in H.
  destruct (c_safe c).
  - destruct (g_min1 g =? 0); cbn [fst stop]; [|reflexivity].
    destruct (g_min3 g =? 0); cbn [fst]; [|reflexivity].
    rewrite !norm_app, !norm_numrecs. reflexivity.
  - destruct (fill_derr sh f1 =? 0), (fill_derr sh f2 =? 0); cbn [negb orb] in H; cbn [negb fst stop];
      destruct (fill_drv_err f1 =? 0), (fill_drv_err f2 =? 0); cbn in H; try discriminate H; cbn [fst stop]; try reflexivity.
    rewrite !norm_app, !norm_numrecs. reflexivity.
Qed.

(* collective metadata calls *)
Definition meta_hdr (c : cfg) (sh : shared) (md : metadesc) (r : bool) : trace :=
  match s_mode sh with MDefine => [] | _ => if md_header md then write_header c sh r else [] end.

Lemma root_meta_hdr : forall c sh md r1 r2, norm (meta_hdr c sh md r1) = norm (meta_hdr c sh md r2).
Proof. intros; unfold meta_hdr. destruct (s_mode sh), (md_header md); try reflexivity; apply root_write_header. Qed.

Lemma meta_hdr_nonglobal : forall c sh md r,
  c_safe c = false -> meta_hdr_global c sh md = false -> norm (meta_hdr c sh md r) = [].
Proof.
  intros c sh md r S H. unfold meta_hdr, meta_hdr_global in *. unfold write_header. rewrite S.
  destruct (s_mode sh), (md_header md), (c_hcoll c); cbn in H; try discriminate H; try reflexivity;
    rewrite app_nil_r, norm_rep; cbn; destruct r; cbn; apply repl_nil.
Qed.

(* a call whose driver has no Allreduce of its own (def_dim) does not rewrite the header either:
   else, in safe mode, a rank with an error of its own would skip the header's collectives *)
Lemma metadesc_dar_header : forall m, md_dar (metadesc_of m) = None -> md_header (metadesc_of m) = false.
Proof. destruct m; cbn; intro H; try discriminate H; reflexivity. Qed.

(* safe mode: every decision on the way is taken on a reduced value *)
Lemma meta_exec_safe : forall c sh g r1 r2 md q1 q2,
  c_safe c = true -> (md_dar md = None -> md_header md = false) -> m_e0 q1 = 0 -> m_e0 q2 = 0 ->
  norm (fst (meta_exec c sh g r1 md q1)) = norm (fst (meta_exec c sh g r2 md q2)).
Proof.
  intros c sh g r1 r2 md q1 q2 S Hd E1 E2. unfold meta_exec. rewrite S, E1, E2. cbn [Z.eqb negb].
  destruct (md_dar md); [|rewrite (Hd eq_refl); cbv iota];
    brk; cbn [fst]; rewrite ?norm_app, ?norm_nil, ?app_nil_r, ?(root_write_header c sh r1 r2); reflexivity.
Qed.

Lemma meta_exec_unsafe : forall c sh g r md q, c_safe c = false ->
  fst (meta_exec c sh g r md q) =
  if negb (m_e0 q =? 0) || negb (first_err (m_e1 q) (m_e3 q) =? 0) then [] else meta_hdr c sh md r.
Proof.
  intros c sh g r md q S. unfold meta_exec. rewrite S.
  destruct (m_e0 q =? 0), (first_err (m_e1 q) (m_e3 q) =? 0); reflexivity.
Qed.

Lemma class_meta : forall c sh g r1 r2 m q1 q2,
  sync_class c sh (A_meta m) (LMeta q1) = sync_class c sh (A_meta m) (LMeta q2) ->
  norm (ctrace c sh (A_meta m) g r1 (LMeta q1)) = norm (ctrace c sh (A_meta m) g r2 (LMeta q2)).
Proof.
  intros c sh g r1 r2 m q1 q2 H. unfold ctrace, exec. destruct (multi c); [|reflexivity]. cbn [negb].
  cbn [sync_class] in H.
  destruct (c_safe c) eqn:S; cbn [negb andb orb] in H.
  - rewrite !orb_false_r, !andb_true_r in H.
    destruct (m_e0 q1 =? 0) eqn:E1, (m_e0 q2 =? 0) eqn:E2; try discriminate H.
    + apply Z.eqb_eq in E1, E2. apply meta_exec_safe; auto using metadesc_dar_header.
    + unfold meta_exec. rewrite E1, E2. reflexivity.
  - rewrite !meta_exec_unsafe by exact S.
    destruct (negb (m_e0 q1 =? 0) || _), (negb (m_e0 q2 =? 0) || _); cbn [andb] in H;
      try reflexivity; try apply root_meta_hdr;
      (destruct (meta_hdr_global c sh (metadesc_of m)) eqn:G; [discriminate H|]);
      rewrite meta_hdr_nonglobal by assumption; reflexivity.
Qed.

Lemma class__enddef : forall c sh g r1 r2 q1 q2,
  sync_class c sh A__enddef (LMeta q1) = sync_class c sh A__enddef (LMeta q2) ->
  norm (ctrace c sh A__enddef g r1 (LMeta q1)) = norm (ctrace c sh A__enddef g r2 (LMeta q2)).
Proof.
  intros c sh g r1 r2 q1 q2 H. unfold ctrace, exec. destruct (multi c); [|reflexivity]. cbn [negb].
  cbn [sync_class] in H.
  destruct (s_mode sh); cbn [andb] in H; rewrite ?andb_false_r in H.
  - destruct (c_safe c); cbn [negb andb] in H.
    + destruct (g_min1 g =? 0); cbn [fst stop]; [|reflexivity].
      destruct (g_min2 g =? 0); cbn [fst stop]; [|reflexivity].
      rewrite !norm_app. rewrite (root_enddef_driver c sh r1 r2). reflexivity.
    + destruct (m_e1 q1 =? 0), (m_e1 q2 =? 0); cbn in H; try discriminate H; cbn [fst stop]; try reflexivity.
      apply root_enddef_driver.
  - destruct (c_safe c); reflexivity.
  - destruct (c_safe c); reflexivity.
Qed.

Lemma class_create : forall c sh g r1 r2 q1 q2,
  sync_class c sh A_create (LMeta q1) = sync_class c sh A_create (LMeta q2) ->
  norm (ctrace c sh A_create g r1 (LMeta q1)) = norm (ctrace c sh A_create g r2 (LMeta q2)).
Proof.
  intros c sh g r1 r2 q1 q2 H. unfold ctrace, exec. destruct (multi c); [|reflexivity]. cbn [negb].
  cbn [sync_class] in H.
  destruct (m_e0 q1 =? 0), (m_e0 q2 =? 0); try discriminate H; cbn [negb fst stop]; [|reflexivity].
  destruct (s_noclobber sh); [destruct (s_exists_err sh)|]; cbn [fst stop]; try reflexivity;
    rewrite !norm_app; rewrite (root_aggr_init c r1 r2); reflexivity.
Qed.

Lemma class_open : forall c sh g r1 r2 q1 q2,
  sync_class c sh A_open (LMeta q1) = sync_class c sh A_open (LMeta q2) ->
  norm (ctrace c sh A_open g r1 (LMeta q1)) = norm (ctrace c sh A_open g r2 (LMeta q2)).
Proof.
  intros c sh g r1 r2 q1 q2 H. unfold ctrace, exec. destruct (multi c); [|reflexivity]. cbn [negb].
  cbn [sync_class] in H.
  destruct (m_e0 q1 =? 0), (m_e0 q2 =? 0); try discriminate H; cbn [negb fst stop]; [|reflexivity].
  destruct (s_exists_err sh); cbn [fst stop]; [reflexivity|].
  rewrite !norm_app, !norm_rep. rewrite (root_aggr_init c r1 r2), (root_hdr_fetch c r1 r2). reflexivity.
Qed.

(* close: pending requests are cancelled locally, so their number is not observable *)
Lemma class_close : forall c sh g r1 r2 l1 l2,
  admissible A_close l1 = true -> admissible A_close l2 = true ->
  norm (ctrace c sh A_close g r1 l1) = norm (ctrace c sh A_close g r2 l2).
Proof.
  intros c sh g r1 r2 l1 l2 A1 A2. unfold ctrace, exec. destruct (multi c); [|reflexivity].
  destruct l1; try discriminate A1; destruct l2; try discriminate A2; cbn [negb fst];
    rewrite !norm_app, !norm_if, (root_end_indep c sh r1 r2);
    (destruct (s_mode sh); [rewrite (root_enddef_driver c sh r1 r2)| |]); reflexivity.
Qed.

Lemma class_close_pend : forall c sh g r1 r2 w1 w2,
  norm (ctrace c sh A_close g r1 (LWait w1)) = norm (ctrace c sh A_close g r2 (LWait w2)).
Proof. intros. apply class_close; reflexivity. Qed.

Lemma class_noarg : forall c sh g r1 r2 a,
  admissible a LNone = true ->
  norm (ctrace c sh a g r1 LNone) = norm (ctrace c sh a g r2 LNone).
Proof.
  intros c sh g r1 r2 a A.
  destruct a; try discriminate A; try (apply class_close; reflexivity);
    unfold ctrace, exec; (destruct (multi c); [|reflexivity]); cbn [negb].
  - (* enddef *) destruct (s_mode sh); cbn [fst stop]; try reflexivity.
    rewrite !norm_app. rewrite (root_enddef_driver c sh r1 r2). reflexivity.
  - (* redef *) destruct (s_rdonly sh); [reflexivity|]. destruct (s_mode sh); cbn [fst stop]; try reflexivity; apply root_end_indep.
  - (* begin_indep *) destruct (s_mode sh); reflexivity.
  - (* end_indep *) destruct (s_mode sh); cbn [fst stop]; try reflexivity; apply root_end_indep.
  - (* sync *) destruct (s_mode sh); [reflexivity | |]; destruct (s_rdonly sh); cbn [fst]; try reflexivity.
    rewrite !norm_app. destruct (0 <? s_nrecvars sh); [|reflexivity].
    rewrite (root_sync_numrecs_indep c sh r1 r2). reflexivity.
  - (* sync_numrecs *) destruct (s_mode sh); cbn [fst stop]; try reflexivity;
      destruct ((0 <? s_nrecvars sh) && s_rdonly sh); cbn [fst stop]; try reflexivity. apply root_sync_numrecs_indep.
  - (* abort *) cbn [fst]. rewrite !norm_app. f_equal.
    destruct (s_isnew sh); [reflexivity|]. destruct (negb (s_rdonly sh)); [apply root_end_indep | reflexivity].
Qed.

Lemma norm_class : forall c sh a g r1 r2 l1 l2,
  admissible a l1 = true -> admissible a l2 = true ->
  wf_local l1 = true -> wf_local l2 = true ->
  sync_class c sh a l1 = sync_class c sh a l2 ->
  norm (ctrace c sh a g r1 l1) = norm (ctrace c sh a g r2 l2).
Proof.
  intros c sh a g r1 r2 l1 l2 A1 A2 W1 W2 H.
  destruct a; try (apply class_close; assumption);
    destruct l1; try discriminate A1; destruct l2; try discriminate A2;
    try (apply class_noarg; reflexivity).
  - apply class_create; assumption.
  - apply class_open; assumption.
  - apply class__enddef; assumption.
  - (* getput *) rewrite !norm_getput, H by assumption. reflexivity.
  - (* varn *) rewrite !norm_varn by assumption. cbn [sync_class] in H.
    destruct (varn_scalar r), (varn_scalar r0); try discriminate H; reflexivity.
  - (* vard *) rewrite !norm_vard, H by assumption. reflexivity.
  - (* mput / mget *) rewrite !norm_mgetput by assumption. reflexivity.
  - (* wait_all *) unfold ctrace, exec. destruct (multi c); [|reflexivity]. cbn [negb].
    destruct (s_mode sh); cbn [fst stop]; try reflexivity. rewrite !norm_req_commit. reflexivity.
  - apply class_fill; assumption.
  - apply class_meta; assumption.
Qed.

(* all ranks of one call *)
Definition ranks_ok (a : api) (ls : list local) : Prop :=
  Forall (fun l => admissible a l = true /\ wf_local l = true) ls.

(* the sequences of collectives of all ranks of one call: rank i passes (nth i ls) *)
Definition traces (c : cfg) (sh : shared) (a : api) (ls : list local) : list trace := map fst (run c sh a ls).

Definition all_match (ts : list trace) : Prop := forall t1 t2, In t1 ts -> In t2 ts -> norm t1 = norm t2.

Lemma in_run_from : forall c sh a g ls i p,
  In p (run_from c sh a g i ls) -> exists l root, In l ls /\ p = exec c sh a g root l.
Proof.
  induction ls as [|l ls IH]; intros i p H; cbn in H; [contradiction|].
  destruct H as [H | H].
  - exists l, (Nat.eqb i 0). split; [left; reflexivity | symmetry; exact H].
  - destruct (IH _ _ H) as [l' [r [Hin Hp]]]. exists l', r. split; [right; exact Hin | exact Hp].
Qed.

Lemma in_run_map : forall (B : Type) (f : trace * outcome -> B) c sh a ls y,
  In y (map f (run c sh a ls)) -> exists l root, In l ls /\ y = f (exec c sh a (gsum_ranks sh a ls) root l).
Proof.
  intros B f c sh a ls y H. apply in_map_iff in H. destruct H as [p [Hp Hin]].
  apply in_run_from in Hin. destruct Hin as [l [r [Hl He]]]. exists l, r. split; [exact Hl|].
  subst. reflexivity.
Qed.

Lemma nth_run_from : forall c sh a g ls i k l,
  nth_error ls k = Some l -> nth_error (run_from c sh a g i ls) k = Some (exec c sh a g (Nat.eqb (i + k) 0) l).
Proof.
  induction ls as [|x ls IH]; intros i k l H; destruct k; cbn in *; try discriminate H.
  - inversion H; subst. rewrite Nat.add_0_r. reflexivity.
  - rewrite (IH (S i) k l H). rewrite Nat.add_succ_r. reflexivity.
Qed.

(* the boolean verdict computed by the check is the proposition *)
Lemma nop_eqb_eq : forall x y, nop_eqb x y = true <-> x = y.
Proof.
  intros [k1 t1] [k2 t2]. unfold nop_eqb; cbn. split.
  - intro H. apply andb_true_iff in H. destruct H as [H1 H2].
    apply internal_ckind_dec_bl in H1. apply internal_target_dec_bl in H2. subst. reflexivity.
  - intro H. inversion H; subst. rewrite internal_ckind_dec_lb, internal_target_dec_lb; reflexivity.
Qed.

Lemma all_equal_spec : forall (A : Type) (eqb : A -> A -> bool), (forall x y, eqb x y = true <-> x = y) ->
  forall l, all_equal eqb l = true <-> (forall x y, In x l -> In y l -> x = y).
Proof.
  intros A eqb E. induction l as [|x l IH]; [cbn; split; [intros _ ? ? []| reflexivity]|].
  destruct l as [|y l].
  - cbn. split; [|reflexivity]. intros _ a b [Ha|[]] [Hb|[]]. subst. reflexivity.
  - change (all_equal eqb (x :: y :: l)) with (eqb x y && all_equal eqb (y :: l)).
    rewrite andb_true_iff, IH, E. split.
    + intros [Hxy Hl] a b Ha Hb.
      assert (K : forall z, In z (x :: y :: l) -> z = y).
      { intros z [Hz|Hz]; [rewrite <- Hz; exact Hxy | apply Hl; [exact Hz | left; reflexivity]]. }
      rewrite (K a Ha), (K b Hb). reflexivity.
    + intro H. split; [apply H; [left; reflexivity | right; left; reflexivity]|].
      intros a b Ha Hb. apply H; right; assumption.
Qed.

Lemma traces_match_spec : forall ts, traces_match ts = true <-> all_match ts.
Proof.
  intro ts. unfold traces_match, all_match.
  rewrite (all_equal_spec _ _ (list_eqb_iff _ nop_eqb_eq)). split.
  - intros H t1 t2 H1 H2. apply H; apply in_map; assumption.
  - intros H x y Hx Hy. apply in_map_iff in Hx. apply in_map_iff in Hy.
    destruct Hx as [t1 [E1 I1]]. destruct Hy as [t2 [E2 I2]]. subst. apply H; assumption.
Qed.

(* collective_match *)
(* FULL statement of the property: whatever each process passes, all ranks execute the same
   sequence of collectives *)
Definition collective_match_full : Prop :=
  forall c sh a ls, ranks_ok a ls -> all_match (traces c sh a ls).

(* PARTIAL: it holds for every assignment whose ranks agree on sync_class *)
Theorem collective_match_partial : forall c sh a ls,
  ranks_ok a ls ->
  (forall l1 l2, In l1 ls -> In l2 ls -> sync_class c sh a l1 = sync_class c sh a l2) ->
  all_match (traces c sh a ls).
Proof.
  intros c sh a ls OK H t1 t2 H1 H2.
  apply (in_run_map _ fst) in H1. apply (in_run_map _ fst) in H2.
  destruct H1 as [l1 [r1 [I1 E1]]]. destruct H2 as [l2 [r2 [I2 E2]]]. subst.
  unfold ranks_ok in OK. rewrite Forall_forall in OK.
  destruct (OK _ I1) as [A1 W1]. destruct (OK _ I2) as [A2 W2].
  apply norm_class; auto.
Qed.

(* the hypothesis is satisfiable on a non-trivial instance: three ranks, one valid, one zero-length,
   one with an invalid start, collective put on a FIXED-size variable *)
Definition cfg0 (np : Z) : cfg := mkCfg false false false false np 0.
Definition sh_data : shared := mkSh MColl false false 6 2 2 false 1 [] false false false [] [] 0 0 0 0 0 0.
Definition req_ok (vk : vkind) (newrec : Z) : local := LReq (mkReq 0 false vk true 0 true newrec false 1).
Definition req_zero (vk : vkind) : local := LReq (mkReq 0 false vk false 0 true 2 false 1).
Definition req_bad (e : Z) (vk : vkind) : local := LReq (mkReq e false vk true 0 true 2 false 1).

Example collective_match_partial_nonvacuous :
  let ls := [req_ok VFixed 2; req_zero VFixed; req_bad NC_EINVALCOORDS VFixed] in
  ranks_ok (A_getput false AK_vara) ls /\
  (forall l1 l2, In l1 ls -> In l2 ls ->
     sync_class (cfg0 3) sh_data (A_getput false AK_vara) l1 = sync_class (cfg0 3) sh_data (A_getput false AK_vara) l2) /\
  traces (cfg0 3) sh_data (A_getput false AK_vara) ls <> [[]; []; []].
Proof.
  cbn zeta. split; [|split].
  - repeat constructor.
  - intros l1 l2 H1 H2. cbn in H1, H2.
    destruct H1 as [H1|[H1|[H1|[]]]]; destruct H2 as [H2|[H2|[H2|[]]]]; subst; reflexivity.
  - vm_compute. discriminate.
Qed.

(* REFUTED (F4): a collective put on a RECORD variable, rank 0 valid, rank 1 with an invalid start:
   rank 0 executes the numrecs Allreduce of put_varm, rank 1 (ncmpio_getput_zero_req) does not *)
Definition F4_witness : list local := [req_ok VRecord 3; req_bad NC_EINVALCOORDS VRecord].

Theorem collective_match_refuted : ~ collective_match_full.
Proof.
  intro H.
  assert (OK : ranks_ok (A_getput false AK_vara) F4_witness) by (repeat constructor).
  specialize (H (cfg0 2) sh_data (A_getput false AK_vara) F4_witness OK).
  apply traces_match_spec in H. vm_compute in H. discriminate H.
Qed.

(* corollaries of collective_match_partial: where the property holds for EVERY assignment *)
Lemma match_by_class : forall k c sh a ls,
  ranks_ok a ls -> Forall (fun l => sync_class c sh a l = k) ls -> all_match (traces c sh a ls).
Proof.
  intros k c sh a ls OK H. apply collective_match_partial; [exact OK|]. rewrite Forall_forall in H.
  intros l1 l2 H1 H2. rewrite (H _ H1), (H _ H2). reflexivity.
Qed.

Lemma Forall_all : forall (A : Type) (P : A -> Prop) l, (forall x, P x) -> Forall P l.
Proof. intros A P l H. apply Forall_forall. intros x _. apply H. Qed.

(* collective get of every form (var, var1, vara, vars, varm, vard): any mixture of valid,
   zero-length and invalid requests, on variables of any kind *)
Theorem match_get : forall c sh k ls,
  ranks_ok (A_getput true k) ls -> all_match (traces c sh (A_getput true k) ls).
Proof.
  intros. apply (match_by_class 0); [assumption|]. apply Forall_all. intros []; reflexivity.
Qed.
Theorem match_get_vard : forall c sh ls,
  ranks_ok (A_vard true) ls -> all_match (traces c sh (A_vard true) ls).
Proof.
  intros. apply (match_by_class 0); [assumption|]. apply Forall_all. intros []; reflexivity.
Qed.

(* wait_all, mput/mget: any numbers of pending requests, invalid request ids, invalid arguments *)
Theorem match_wait_all : forall c sh ls,
  ranks_ok A_wait_all ls -> all_match (traces c sh A_wait_all ls).
Proof. intros. apply (match_by_class 0); [assumption|]. apply Forall_all. intros []; reflexivity. Qed.
Theorem match_mgetput : forall c sh isget ls,
  ranks_ok (A_mgetput isget) ls -> all_match (traces c sh (A_mgetput isget) ls).
Proof. intros. apply (match_by_class 0); [assumption|]. apply Forall_all. intros []; reflexivity. Qed.

(* collective put on variables that are not record variables (fixed-size or scalar): any mixture *)
Definition no_record (ls : list local) : Prop :=
  Forall (fun l => match l with LReq r => is_rec (d_vk r) = false | _ => True end) ls.
Theorem match_put_fixed : forall c sh k ls,
  ranks_ok (A_getput false k) ls -> no_record ls -> all_match (traces c sh (A_getput false k) ls).
Proof.
  intros c sh k ls OK NR. apply (match_by_class 0); [assumption|]. eapply Forall_impl; [|exact NR].
  intros [] NR'; try reflexivity. cbn [sync_class negb andb]. rewrite NR'. reflexivity.
Qed.
Theorem match_put_vard_fixed : forall c sh ls,
  ranks_ok (A_vard false) ls -> no_record ls -> all_match (traces c sh (A_vard false) ls).
Proof.
  intros c sh ls OK NR. apply (match_by_class 0); [assumption|]. eapply Forall_impl; [|exact NR].
  intros [] NR'; try reflexivity. cbn [sync_class negb andb]. rewrite NR'. reflexivity.
Qed.

(* collective put on record variables when no rank has a dispatcher-level error: valid and
   zero-length requests in any mixture, different records, different counts *)
Definition all_record_noerr (ls : list local) : Prop :=
  Forall (fun l => match l with LReq r => is_rec (d_vk r) = true /\ d_err r = 0 | _ => True end) ls.
Lemma match_put_record_noerr : forall c sh k ls,
  ranks_ok (A_getput false k) ls -> all_record_noerr ls -> state_err sh true = 0 ->
  all_match (traces c sh (A_getput false k) ls).
Proof.
  intros c sh k ls OK AR SE. apply (match_by_class 1); [assumption|].
  unfold all_record_noerr, ranks_ok in *. rewrite Forall_forall in *. intros l Hl.
  destruct (OK l Hl) as [D _]. specialize (AR l Hl). destruct l; try discriminate D. destruct AR as [R E].
  cbn. unfold disp_err. rewrite SE, R, E. cbn. rewrite orb_true_r. reflexivity.
Qed.

Theorem match_put_record_valid : forall sh k ls np,
  ranks_ok (A_getput false k) ls -> all_record_noerr ls -> state_err sh true = 0 ->
  all_match (traces (cfg0 np) sh (A_getput false k) ls).
Proof. intros sh k ls np. apply match_put_record_noerr. Qed.

(* varn when no rank takes the scalar-variable path *)
Definition no_scalar_path (ls : list local) : Prop :=
  Forall (fun l => match l with LReq r => varn_scalar r = false | _ => True end) ls.
Theorem match_varn_nonscalar : forall c sh isget ls,
  ranks_ok (A_varn isget) ls -> no_scalar_path ls -> all_match (traces c sh (A_varn isget) ls).
Proof.
  intros c sh isget ls OK NS. apply (match_by_class 0); [assumption|]. eapply Forall_impl; [|exact NS].
  intros [] NS'; try reflexivity. cbn. rewrite NS'. reflexivity.
Qed.

(* calls without per-rank arguments: enddef, redef, begin/end_indep_data, sync, sync_numrecs, close
   (also with different numbers of pending requests), abort -- from every mode, every history *)
Theorem match_noarg : forall c sh a ls,
  match a with A_enddef | A_redef | A_begin_indep | A_end_indep | A_sync | A_sync_numrecs | A_close | A_abort => True | _ => False end ->
  ranks_ok a ls -> all_match (traces c sh a ls).
Proof.
  intros c sh a ls Ha OK. apply (match_by_class 0); [assumption|]. apply Forall_all.
  destruct a; try contradiction Ha; intros []; reflexivity.
Qed.

(* fill_var_rec and the collective metadata calls in safe mode (no rank returning before the first
   collective), and the metadata calls without safe mode unless the header is written collectively *)
Theorem match_fill_safe : forall c sh ls,
  c_safe c = true -> ranks_ok A_fill_var_rec ls -> all_match (traces c sh A_fill_var_rec ls).
Proof.
  intros c sh ls S OK. apply (match_by_class 0); [assumption|]. apply Forall_all. intros []; try reflexivity. cbn. rewrite S. reflexivity.
Qed.

Definition no_e0 (ls : list local) : Prop :=
  Forall (fun l => match l with LMeta m => m_e0 m = 0 | _ => True end) ls.

Theorem match_meta_safe : forall c sh m ls,
  c_safe c = true -> ranks_ok (A_meta m) ls -> no_e0 ls -> all_match (traces c sh (A_meta m) ls).
Proof.
  intros c sh m ls S OK NE. apply (match_by_class 0); [assumption|]. eapply Forall_impl; [|exact NE].
  intros [] NE'; try reflexivity. cbn. rewrite S, NE'. reflexivity.
Qed.

Theorem match_meta_indep_header : forall c sh m ls,
  c_safe c = false -> c_hcoll c = false -> ranks_ok (A_meta m) ls -> all_match (traces c sh (A_meta m) ls).
Proof.
  intros c sh m ls S Hc OK. apply (match_by_class 0); [assumption|]. apply Forall_all.
  intros []; try reflexivity. cbn. unfold meta_hdr_global. rewrite S, Hc. rewrite !andb_false_r. reflexivity.
Qed.

Theorem match__enddef_safe : forall c sh ls,
  c_safe c = true -> ranks_ok A__enddef ls -> all_match (traces c sh A__enddef ls).
Proof.
  intros c sh ls S OK. apply (match_by_class 0); [assumption|]. apply Forall_all. intros []; try reflexivity. cbn. rewrite S. reflexivity.
Qed.

Theorem match_create_open : forall c sh a ls,
  (a = A_create \/ a = A_open) -> ranks_ok a ls -> no_e0 ls -> all_match (traces c sh a ls).
Proof.
  intros c sh a ls Ha OK NE. apply (match_by_class 0); [assumption|]. eapply Forall_impl; [|exact NE].
  intros l NE'. destruct Ha; subst; destruct l; try reflexivity; cbn; rewrite NE'; reflexivity.
Qed.

(* further refutation witnesses (each is replayed on the library by checks/C08.py) *)
Definition refutes (c : cfg) (sh : shared) (a : api) (ls : list local) : Prop :=
  ranks_ok a ls /\ run_matches c sh a ls = false.

Lemma refutes_full : forall c sh a ls, refutes c sh a ls -> ~ collective_match_full.
Proof.
  intros c sh a ls [OK R] H. specialize (H c sh a ls OK). apply traces_match_spec in H.
  unfold run_matches in R. unfold traces in H. congruence.
Qed.

(* ranks address variables of different kinds in one collective put *)
Example refuted_mixed_kinds : refutes (cfg0 2) sh_data (A_getput false AK_vara) [req_ok VRecord 3; req_ok VFixed 2].
Proof. split; [repeat constructor | vm_compute; reflexivity]. Qed.
(* ... also in safe mode *)
Example refuted_mixed_kinds_safe :
  refutes (mkCfg true false false false 2 0) sh_data (A_getput false AK_vara) [req_ok VRecord 3; req_ok VFixed 2].
Proof. split; [repeat constructor | vm_compute; reflexivity]. Qed.
(* varn: one rank addresses a scalar variable, another a non-scalar one with zero requests *)
Example refuted_varn_scalar :
  refutes (cfg0 2) sh_data (A_varn false) [req_ok VScalar 2; LReq (mkReq 0 false VFixed false 0 false 2 true 1)].
Proof. split; [repeat constructor | vm_compute; reflexivity]. Qed.
(* ... the SAME scalar variable, one rank with num = 0 *)
Example refuted_varn_scalar_num0 :
  refutes (cfg0 2) sh_data (A_varn false) [req_ok VScalar 2; LReq (mkReq 0 false VScalar false 0 false 2 true 1)].
Proof. split; [repeat constructor | vm_compute; reflexivity]. Qed.
(* vard put on a record variable, one rank with a bad varid *)
Example refuted_vard :
  refutes (cfg0 2) sh_data (A_vard false) [req_ok VRecord 3; LReq (mkReq NC_ENOTVAR true VFixed true 0 true 2 false 1)].
Proof. split; [repeat constructor | vm_compute; reflexivity]. Qed.
(* fill_var_rec without safe mode: one rank names a variable without fill mode *)
Example refuted_fill_var_rec :
  refutes (cfg0 2) sh_data A_fill_var_rec [LFill (mkF false true true false 2 true); LFill (mkF false true true true 2 false)].
Proof. split; [repeat constructor | vm_compute; reflexivity]. Qed.
Definition sh_define : shared := mkSh MDefine false false 6 2 2 false 1 [] false false false [] [] 0 0 0 0 0 0.
(* metadata call in data mode with the header written collectively (romio_no_indep_rw), no safe mode *)
Example refuted_rename_hcoll :
  refutes (mkCfg false true false false 2 0) sh_data (A_meta M_rename_var)
          [LMeta (mkM 0 0 0 0); LMeta (mkM 0 NC_ENOTVAR 0 0)].
Proof. split; [repeat constructor | vm_compute; reflexivity]. Qed.
(* _enddef with a negative argument on one rank, header written collectively *)
Example refuted__enddef_hcoll :
  refutes (mkCfg false true false false 2 0) sh_define A__enddef [LMeta (mkM 0 0 0 0); LMeta (mkM 0 NC_EINVAL 0 0)].
Proof. split; [repeat constructor | vm_compute; reflexivity]. Qed.

(* with MPI_File_write_all / MPI_File_write_at_all kept apart the property already fails for a
   FIXED-size variable: the erroring rank calls MPI_File_write_all (ncmpio_getput_zero_req), the
   valid rank MPI_File_write_at_all (ncmpio_read_write) *)
Theorem collective_match_strict_refuted :
  exists c sh a ls, ranks_ok a ls /\ traces_match_strict (traces c sh a ls) = false /\ traces_match (traces c sh a ls) = true.
Proof.
  exists (cfg0 2), sh_data, (A_getput false AK_vara), [req_ok VFixed 2; req_bad NC_EINVALCOORDS VFixed].
  split; [repeat constructor | split; vm_compute; reflexivity].
Qed.

(* errors_stay_local *)
Definition data_api (a : api) : bool :=
  match a with A_getput _ _ | A_varn _ | A_vard _ | A_mgetput _ | A_wait_all | A_fill_var_rec => true | _ => false end.

Definition valid_local (l : local) : Prop :=
  match l with
  | LReq r => d_err r = 0 /\ d_drv_err r = 0
  | LWait w => w_err w = 0 /\ w_badid w = false
  | LFill f => f_global f = false /\ f_valid f = true /\ f_isrec f = true /\ fill_drv_err f = 0
  | _ => True
  end.

(* the rank has something to transfer *)
Definition wants (a : api) (l : local) : bool :=
  match a, l with
  | A_varn _, LReq r => if varn_scalar r then d_nonzero r else negb (d_num0 r) && (0 <? d_nreq r)
  | _, LReq r => d_nonzero r
  | _, LWait w => (0 <? w_nw w) || (0 <? w_nr w)
  | _, LFill _ => true
  | _, _ => false
  end.

Definition state_ok (sh : shared) : Prop := s_mode sh = MColl /\ s_rdonly sh = false.

(* FULL: outside safe mode a rank with valid arguments gets NC_NOERR and its transfer is carried
   out, whatever the other ranks pass *)
Definition errors_stay_local_full : Prop :=
  forall c sh a ls i l,
    data_api a = true -> c_safe c = false -> multi c = true -> state_ok sh ->
    ranks_ok a ls -> nth_error ls i = Some l -> valid_local l ->
    exists st, cret c sh a (gsum_ranks sh a ls) (Nat.eqb i 0) l = Ret 0 st /\ (wants a l = true -> st = true).

Definition no_bad_request_id (ls : list local) : Prop :=
  Forall (fun l => match l with LWait w => w_badid w = false | _ => True end) ls.

Lemma anyerr_false : forall sh a ls, no_bad_request_id ls -> g_anyerr (gsum_ranks sh a ls) = false.
Proof.
  intros sh a ls H. unfold gsum_ranks, gsum_of; cbn [g_anyerr]. apply existsb_false.
  intros k Hk. apply in_map_iff in Hk. destruct Hk as [l [E Hl]]. subst k.
  unfold no_bad_request_id in H. rewrite Forall_forall in H. specialize (H _ Hl).
  destruct a, l; cbn; try reflexivity; try exact H.
Qed.

Lemma state_err_ok : forall sh p, state_ok sh -> state_err sh p = 0.
Proof. intros sh p [M R]. unfold state_err. rewrite M, R, andb_false_r. reflexivity. Qed.

Lemma disp_err_ok : forall sh p r, state_ok sh -> d_err r = 0 -> disp_err sh p r = 0.
Proof. intros sh p r SO E. unfold disp_err. rewrite (state_err_ok sh p SO). exact E. Qed.

(* a rank sees the other ranks only through the summary g, and a valid rank reads nothing of g but g_anyerr *)
Lemma valid_rank_noerr : forall c sh a g root l,
  data_api a = true -> c_safe c = false -> multi c = true -> state_ok sh ->
  admissible a l = true -> g_anyerr g = false -> valid_local l ->
  exists st, cret c sh a g root l = Ret 0 st /\ (wants a l = true -> st = true).
Proof.
  intros c sh a g root l DA S M SO AD AE V.
  unfold cret, exec. rewrite M. cbn [negb]. rewrite S.
  destruct a; cbn in DA; try discriminate DA; destruct l; cbn in AD; try discriminate AD; cbn [valid_local] in V.
  - (* getput *) destruct V as [E D]. rewrite (disp_err_ok sh _ r SO E), D. cbn. eauto.
  - (* varn *) destruct V as [E D]. rewrite (disp_err_ok sh _ r SO E), D.
    unfold wants, varn_nreq, varn_zero. rewrite E, D, AE.
    destruct (varn_scalar r); cbn; [eauto|]. destruct (d_num0 r); cbn; rewrite ?andb_true_r; eauto.
  - (* vard *) destruct V as [E D]. rewrite (disp_err_ok sh _ r SO E), D. cbn. eauto.
  - (* mgetput *) destruct V as [E _]. rewrite (state_err_ok sh _ SO), E, AE. cbn. eauto.
  - (* wait_all *) destruct V as [_ B]. destruct SO as [MC _]. rewrite MC, B, AE. cbn. eauto.
  - (* fill_var_rec *) destruct V as [G [Vv [R D]]]. destruct SO as [MC RO].
    unfold fill_derr. rewrite RO, MC, G, Vv, R, D. cbn. eauto.
Qed.

(* PARTIAL: it holds whenever no rank passes an invalid request id to wait_all *)
Theorem errors_stay_local_partial : forall c sh a ls i l,
  data_api a = true -> c_safe c = false -> multi c = true -> state_ok sh ->
  ranks_ok a ls -> no_bad_request_id ls -> nth_error ls i = Some l -> valid_local l ->
  exists st, cret c sh a (gsum_ranks sh a ls) (Nat.eqb i 0) l = Ret 0 st /\ (wants a l = true -> st = true).
Proof.
  intros c sh a ls i l DA S M SO OK NB NTH V.
  unfold ranks_ok in OK. rewrite Forall_forall in OK. destruct (OK l (nth_error_In _ _ NTH)) as [AD _].
  exact (valid_rank_noerr c sh a _ _ l DA S M SO AD (anyerr_false sh a ls NB) V).
Qed.

(* the hypotheses are satisfiable: F4's valid rank *)
Example errors_stay_local_nonvacuous :
  exists st, cret (cfg0 2) sh_data (A_getput false AK_vara) (gsum_ranks sh_data (A_getput false AK_vara) F4_witness) true (req_ok VRecord 3) = Ret 0 st /\ st = true.
Proof. eexists; split; vm_compute; reflexivity. Qed.

(* REFUTED: wait_all, rank 0 waits for one valid pending put, rank 1 passes an invalid request id:
   req_commit returns on EVERY rank after the Allreduce, rank 0 gets NC_NOERR but its request is dropped *)
Definition wait_witness : list local := [LWait (mkW 0 1 0 false false 2); LWait (mkW 0 0 0 true false 2)].

Theorem errors_stay_local_refuted : ~ errors_stay_local_full.
Proof.
  intro H.
  specialize (H (cfg0 2) sh_data A_wait_all wait_witness 0%nat (LWait (mkW 0 1 0 false false 2))).
  destruct H as [st [E W]]; try reflexivity; try (repeat constructor).
  vm_compute in E. inversion E; subst. specialize (W eq_refl). discriminate W.
Qed.

(* safe_mode_uniform *)
Definition rc_of (o : outcome) : option Z := match o with Ret rc _ => Some rc | Crash => None end.
Definition rets (c : cfg) (sh : shared) (a : api) (ls : list local) : list outcome := map snd (run c sh a ls).

Definition meta_like (a : api) : bool :=
  match a with A_meta _ | A__enddef | A_create | A_open | A_fill_var_rec => true | _ => false end.

(* FULL: with safe mode every rank of a collective metadata call returns the same code *)
Definition safe_mode_uniform_full : Prop :=
  forall c sh a ls, c_safe c = true -> multi c = true -> meta_like a = true -> ranks_ok a ls -> no_e0 ls ->
    forall o1 o2, In o1 (rets c sh a ls) -> In o2 (rets c sh a ls) -> rc_of o1 = rc_of o2.

(* APIs whose safe-mode blocks all end in `return minE` *)
Definition returns_min (a : api) : bool :=
  match a with
  | A_meta m => negb (md_keep_own (metadesc_of m)) && (match md_dar (metadesc_of m) with Some _ => true | None => false end)
  | A__enddef | A_create | A_open => true
  | _ => false
  end.

Lemma safe_rc_min : forall c sh a g r1 r2 l1 l2,
  c_safe c = true -> returns_min a = true ->
  admissible a l1 = true -> admissible a l2 = true ->
  (match l1 with LMeta m => m_e0 m = 0 | _ => True end) -> (match l2 with LMeta m => m_e0 m = 0 | _ => True end) ->
  rc_of (cret c sh a g r1 l1) = rc_of (cret c sh a g r2 l2).
Proof.
  intros c sh a g r1 r2 l1 l2 S RM A1 A2 E1 E2. unfold cret, exec.
  destruct (multi c); [|reflexivity]. cbn [negb].
  destruct a; cbn in RM; try discriminate RM;
    destruct l1; cbn in A1; try discriminate A1; destruct l2; cbn in A2; try discriminate A2; rewrite ?S.
  - (* create *) rewrite E1, E2. cbn [Z.eqb negb]. destruct (s_noclobber sh); [destruct (s_exists_err sh)|]; reflexivity.
  - (* open *) rewrite E1, E2. cbn [Z.eqb negb]. destruct (s_exists_err sh); reflexivity.
  - (* _enddef *) destruct (s_mode sh); try reflexivity.
    destruct (g_min1 g =? 0); [|reflexivity]. destruct (g_min2 g =? 0); reflexivity.
  - (* metadata calls: every block returns the reduced value *)
    unfold meta_exec. rewrite E1, E2, S. cbn [Z.eqb negb].
    apply andb_true_iff in RM. destruct RM as [K D]. apply negb_true_iff in K. rewrite K.
    destruct (md_dar (metadesc_of m)); [|discriminate D]. brk; reflexivity.
Qed.

(* PARTIAL: it holds for every API whose blocks return the minimum *)
Theorem safe_mode_uniform_partial : forall c sh a ls,
  c_safe c = true -> returns_min a = true -> ranks_ok a ls -> no_e0 ls ->
  forall o1 o2, In o1 (rets c sh a ls) -> In o2 (rets c sh a ls) -> rc_of o1 = rc_of o2.
Proof.
  intros c sh a ls S RM OK NE o1 o2 H1 H2.
  apply (in_run_map _ snd) in H1. apply (in_run_map _ snd) in H2.
  destruct H1 as [l1 [r1 [I1 E1]]]. destruct H2 as [l2 [r2 [I2 E2]]]. subst.
  unfold ranks_ok in OK. rewrite Forall_forall in OK. unfold no_e0 in NE. rewrite Forall_forall in NE.
  apply safe_rc_min; try assumption; try (apply OK; assumption).
  - specialize (NE _ I1). destruct l1; auto.
  - specialize (NE _ I2). destruct l2; auto.
Qed.

(* non-trivial instance: rename_var in data mode, three ranks, rank 1 passes another name, rank 2 another varid *)
Example safe_mode_uniform_nonvacuous :
  let c := mkCfg true false false false 3 0 in
  let ls := [LMeta (mkM 0 0 0 0); LMeta (mkM 0 0 (-256) 0); LMeta (mkM 0 0 NC_EMULTIDEFINE_FNC_ARGS 0)] in
  returns_min (A_meta M_rename_var) = true /\ ranks_ok (A_meta M_rename_var) ls /\ no_e0 ls /\
  map rc_of (rets c sh_data (A_meta M_rename_var) ls) = [Some NC_EMULTIDEFINE_FNC_ARGS; Some NC_EMULTIDEFINE_FNC_ARGS; Some NC_EMULTIDEFINE_FNC_ARGS].
Proof. cbn zeta. repeat split; try (repeat constructor); vm_compute; reflexivity. Qed.

(* REFUTED: fill_var_rec, rank 0 names a record variable without fill mode (NC_ENOTFILL), rank 1 a
   different record variable (NC_EMULTIDEFINE_FNC_ARGS): ncmpio_fill_var_rec keeps the rank's own error *)
Definition fill_safe_witness : list local :=
  [LFill (mkF false true true true 2 true); LFill (mkF false true true false 2 false)].

Theorem safe_mode_uniform_refuted : ~ safe_mode_uniform_full.
Proof.
  intro H.
  specialize (H (mkCfg true false false false 2 0) sh_data A_fill_var_rec fill_safe_witness eq_refl eq_refl eq_refl).
  assert (OK : ranks_ok A_fill_var_rec fill_safe_witness) by (repeat constructor).
  assert (NE : no_e0 fill_safe_witness) by (repeat constructor).
  specialize (H OK NE (Ret NC_ENOTFILL false) (Ret NC_EMULTIDEFINE_FNC_ARGS false)).
  assert (K : rc_of (Ret NC_ENOTFILL false) = rc_of (Ret NC_EMULTIDEFINE_FNC_ARGS false)).
  { apply H; vm_compute; tauto. }
  vm_compute in K. discriminate K.
Qed.

(* argument errors of the data-access calls are made collective by safe mode *)
Theorem safe_mode_data_errors_uniform : forall c sh a g r l,
  c_safe c = true -> multi c = true ->
  match a with A_getput _ _ | A_varn _ | A_vard _ | A_mgetput _ => True | _ => False end ->
  admissible a l = true -> g_min1 g <> 0 ->
  cret c sh a g r l = Ret (g_min1 g) false.
Proof.
  intros c sh a g r l S M Ha A G. unfold cret, exec. rewrite M. cbn [negb].
  apply Z.eqb_neq in G.
  destruct a; try contradiction Ha; destruct l; cbn in A; try discriminate A; rewrite S, G; reflexivity.
Qed.

(* no path of the model ends in undefined behaviour (ncmpi_fill_var_rec returns its own error before
   entering the driver since commit 080701ed) *)
Theorem never_crashes : forall c sh a g r l, cret c sh a g r l <> Crash.
Proof.
  intros c sh a g r l H. unfold cret, exec in H.
  destruct (multi c); [|discriminate H]. cbn [negb] in H.
  destruct a; destruct l; cbn [snd] in H;
    try (unfold meta_exec in H);
    repeat match type of H with
           | snd (if ?b then _ else _) = _ => destruct b eqn:?
           | snd (match ?x with MDefine => _ | MColl => _ | MIndep => _ end) = _ => destruct x eqn:?
           | snd (match ?x with Some _ => _ | None => _ end) = _ => destruct x eqn:?
           | snd (let (_, _) := ?x in _) = _ => destruct x eqn:?
           end; cbn [snd stop] in H; try discriminate H.
  all: try (match goal with E : (if ?b then _ else _) = (_, _) |- _ => destruct b; inversion E; subst; discriminate end).
Qed.

(* fill at enddef *)
(* fillerup_aggregate's collective block is a function of the shared state only: it is executed iff there
   is a segment, and the number of segments does not depend on the rank *)
Theorem fill_block_spec : forall sh,
  fill_new sh = if (0 <? s_nvars sh) && (0 <? fill_nvars sh) && (0 <? fill_j sh)
                then [(S_fillerup_aggregate_SV1, TFhColl); (S_fillerup_aggregate_WAA1, TFhColl); (S_fillerup_aggregate_SV2, TFhColl)]
                else [].
Proof. reflexivity. Qed.

Lemma count_nv_nonneg : forall f l, 0 <= count_nv f l.
Proof. intros; unfold count_nv; lia. Qed.

Lemma count_nv_cons : forall f v l, count_nv f (v :: l) = (if f v then 1 else 0) + count_nv f l.
Proof. intros. unfold count_nv. cbn [filter]. destruct (f v); cbn [List.length]; lia. Qed.

(* when there is no segment no rank has anything to write: returning on j = 0 loses nothing *)
Theorem fill_no_segment_no_data : forall np rank sh,
  0 <= fill_old_numrecs sh -> fill_j sh = 0 -> fill_buf_len np rank sh = 0.
Proof.
  intros np rank sh Hn. unfold fill_j, fill_buf_len.
  induction (s_newvars sh) as [|v l IH]; intro H; [reflexivity|].
  rewrite !count_nv_cons in H. cbn [fold_right].
  pose proof (count_nv_nonneg (fun v => nv_fill v && negb (nv_isrec v)) l).
  pose proof (count_nv_nonneg (fun v => nv_fill v && nv_isrec v) l).
  destruct (nv_fill v), (nv_isrec v); cbn [andb negb] in H.
  - (* a record variable in fill mode counts one segment per old record: there is none *)
    assert (E : fill_old_numrecs sh = 0) by nia. rewrite IH by nia. rewrite E. reflexivity.
  - nia.
  - apply IH. lia.
  - apply IH. lia.
Qed.

(* ... but a rank can have nothing to write although there are segments (variables with fewer elements than
   ranks): an early return on the rank's own amount (buf_len = 0) would NOT be taken by all ranks.
   Witness: 2 ranks, one new scalar in fill mode -- rank 0 writes it, rank 1 writes nothing. *)
Theorem fill_exit_on_own_amount_would_mismatch :
  exists np sh r1 r2, 0 <= r1 < np /\ 0 <= r2 < np /\ 0 < fill_j sh /\
                      fill_buf_len np r1 sh = 0 /\ 0 < fill_buf_len np r2 sh.
Proof.
  exists 2, (mkSh MDefine false true 1 0 0 false 1 [mkNv false true 1] false false false [] [] 0 0 0 0 0 0), 1, 0.
  vm_compute. repeat split; try reflexivity; discriminate.
Qed.

(* enddef / close-from-define-mode with new variables in fill mode of any sizes: all ranks match
   (instance of match_noarg, stated for the record) *)
Theorem match_enddef_fill : forall c sh ls,
  ranks_ok A_enddef ls -> all_match (traces c sh A_enddef ls).
Proof. intros. apply match_noarg; [exact I | assumption]. Qed.
