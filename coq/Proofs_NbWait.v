(* Proofs_NbWait.v — the COMPLETION side of the nonblocking API (Nonblocking.v sections 3, 4 and 6):
   extract_reqs (ALL paths, the three "same as ALL" shortcuts, the subset path), annotate,
   commit_io, commit_post (compact_leads, set_lead_range), wait_one.
   Statement-level definitions are in NbSpec.v.  No axioms.

   Contents
     0  list helpers (filter, flat_map, NoDup); slice and the congruence lemmas for
        areq_wf / areq_pairs / chunk_ok come from Proofs_NbQueue.v
     1  lead_same, layouts (`lay`): the non-lead queue as the concatenation of the leads' segments
     2  flag_all / flag_first / ex_mark / ex_copy : closed forms (mark_lead, mark_list)
     3  coalesce_nonlead, compact_leads on layouts
     4  side_ok : what extract_reqs does to one queue (put or get).  extract_paths: a call either runs the
        subset path (extract_subset) or takes each queue as a whole; extract_sides: side_ok on all paths
     W1 extract_leads_same
     W2 extract_put_slices, extract_get_slices
     W3 wait_put_pairs, wait_get_pairs
     W4 extract_all_flags, subset_flags, status_own_partial, subset_ids_reset, subset_statuses
     W5 wait_one_inv            (intermediate invariant: mid_inv, extract_mid_inv)
     W6 wait_subset_frame_partial, wait_nreqs, wait_completed_gone
     W7 wait_events_put, wait_events_get
     F  fx = true (the repaired library): fixed_struct, subset_flags_fixed, status_own_fixed,
        ids_reset_fixed, statuses_fixed, ids_pending_fixed, failed_extract_fixed, unflag_inv,
        wait_one_failed_fixed, wait_one_inv_fixed, wait_subset_frame_fixed
     Examples on a concrete state (w_xs3: two puts and a get on a 4x5x6 variable)

   Notes
   * extract_reqs / wait_one have two variants selected by fx (false = snapshot, true = with
     patches/F3_poison.diff).  W1-W3, extract_all_flags, W5-W7 hold for every fx; the subset_* results
     of W4 are about fx = false; section F is about fx = true.
   * W2-W3, W5-W7 cover every path of extract_reqs (n < 0, the three shortcuts, the subset path).
   * The subset-path theorems of W4 need `no_shortcut` and (statuses <> NULL or n <> nreqs): on a
     shortcut path req_ids is not read at all and status pointers are bound in queue order
     (Example status_own_shortcut_counterexample), hence `status_own_partial`.
   * Success of the subset path implies that every non-NULL id names a pending request and occurs
     once (subset_ids_pending). *)
(* Proofs_Abuf comes first: its example state ex_st would otherwise hide the field ex_st of extract_reqs *)
From Pnc Require Import Proofs_Abuf NbSpec Proofs_Lists Proofs_NbQueue.
Require Import Lia ZArith List Bool ZifyBool Zquot.
Import ListNotations.
Local Open Scope Z_scope.
Local Arguments Z.mul : simpl never.
Local Arguments Z.add : simpl never.
Local Arguments Z.sub : simpl never.
Local Arguments Z.of_nat : simpl never.
Local Arguments Z.to_nat : simpl never.

(* 0. list helpers *)

Lemma w_filter_nil_Forall : forall A (f : A -> bool) l, filter f l = [] -> Forall (fun x => f x = false) l.
Proof.
  intros A f l. induction l as [|x l IH]; intros H; [constructor|].
  cbn [filter] in H. destruct (f x) eqn:E; [discriminate|]. constructor; [exact E|apply IH; exact H].
Qed.

Lemma w_filter_all_false : forall A (f : A -> bool) l, Forall (fun x => f x = false) l -> filter f l = [].
Proof.
  intros A f l H. induction H as [|x l Hx H IH]; [reflexivity|]. cbn [filter]. rewrite Hx. exact IH.
Qed.

Lemma w_flat_map_filter : forall A B (p : A -> bool) (g : A -> list B) l,
  flat_map (fun x => if p x then g x else []) l = flat_map g (filter p l).
Proof.
  intros A B p g l. induction l as [|x l IH]; [reflexivity|]. cbn [flat_map filter].
  destruct (p x); cbn [flat_map app]; rewrite IH; reflexivity.
Qed.

Lemma w_NoDup_map_filter : forall A B (f : A -> B) (p : A -> bool) l,
  NoDup (map f l) -> NoDup (map f (filter p l)).
Proof.
  intros A B f p l. induction l as [|x l IH]; intros H; [constructor|].
  cbn [map] in H. apply NoDup_cons_iff in H. destruct H as [Hx H]. cbn [filter].
  destruct (p x); [|apply IH; exact H]. cbn [map]. constructor; [|apply IH; exact H].
  intros Hin. apply Hx. apply in_map_iff in Hin. destruct Hin as (y & Ey & Hy).
  apply filter_In in Hy. apply in_map_iff. exists y. split; [exact Ey|apply Hy].
Qed.

(* parity of request ids: the C code tests  id % 2 == 0  (put) and  id & 1  (get, cancel) *)
Lemma w_rem2_even : forall x, (Z.rem x 2 =? 0) = Z.even x.
Proof.
  intros x. rewrite Zrem_even. destruct (Z.even x) eqn:E; [reflexivity|].
  destruct x; [discriminate E|reflexivity|reflexivity].
Qed.

(* 1. lead_same, layouts *)
(* extract_reqs changes only l_to_free, l_status, l_nonlead_off of a lead.
   Not Proofs_NbQueue.lead_same (six fields, what a cancel keeps), which this definition shadows from here on. *)
Definition lead_same (l l' : lead) : Prop :=
  l_id l = l_id l' /\ l_geom l = l_geom l' /\ l_stride l = l_stride l' /\
  l_nonlead_num l = l_nonlead_num l' /\ l_xaddr l = l_xaddr l' /\ l_nelems l = l_nelems l' /\
  l_tag l = l_tag l' /\ l_orig l = l_orig l' /\ l_swapbuf l = l_swapbuf l' /\
  l_abuf_index l = l_abuf_index l' /\ l_max_rec l = l_max_rec l'.

Lemma lead_same_refl : forall l, lead_same l l.
Proof. intros l. unfold lead_same. repeat split; reflexivity. Qed.

Lemma lead_same_trans : forall a b c, lead_same a b -> lead_same b c -> lead_same a c.
Proof.
  intros a b c (H1 & H2 & H3 & H4 & H5 & H6 & H7 & H8 & H9 & H10 & H11)
               (G1 & G2 & G3 & G4 & G5 & G6 & G7 & G8 & G9 & G10 & G11).
  unfold lead_same. repeat split; etransitivity; eassumption.
Qed.

Lemma lead_same_set_flag : forall l tf stt, lead_same l (l_set_flag l tf stt).
Proof. intros l tf stt. unfold lead_same. cbn. repeat split; reflexivity. Qed.

Lemma lead_same_set_off : forall l k, lead_same l (l_set_off l k).
Proof. intros l k. unfold lead_same. cbn. repeat split; reflexivity. Qed.

Lemma lead_same_id : forall l l', lead_same l l' -> l_id l = l_id l'.
Proof. intros l l' H. apply H. Qed.

Lemma F2_same_ids : forall (R : lead -> lead -> Prop) a b,
  (forall x y, R x y -> l_id x = l_id y) -> Forall2 R a b -> map l_id a = map l_id b.
Proof.
  intros R a b HR H. induction H as [|x y a b Hxy H IH]; [reflexivity|].
  cbn [map]. rewrite (HR _ _ Hxy), IH. reflexivity.
Qed.

Lemma lead_pairs_same : forall l l', lead_same l l' -> lead_pairs l = lead_pairs l'.
Proof.
  intros l l' (_ & H2 & _ & _ & H5 & _ & _ & H8 & _). symmetry. apply lead_pairs_congr; symmetry; assumption.
Qed.

Lemma chunk_ok_same : forall isput l l' sl sl',
  lead_same l l' -> map req_core sl = map req_core sl' -> chunk_ok isput l sl -> chunk_ok isput l' sl'.
Proof.
  intros isput l l' sl sl' (H1 & H2 & H3 & _ & H5 & _ & _ & H8 & _) Hc.
  apply chunk_ok_congr; symmetry; assumption.
Qed.

(* `lay skip leads segs k i` : the leads that are not skipped own consecutive segments starting
   at offset k, and the entries of a segment point to the index (i + position) of their lead;
   skipped leads own nothing.  The queue is  pre ++ concat segs  with Zlen pre = k. *)
Fixpoint lay (skip : lead -> bool) (leads : list lead) (segs : list (list req)) (k i : Z) : Prop :=
  match leads, segs with
  | [], [] => True
  | l :: r, sl :: ss =>
      if skip l then sl = [] /\ lay skip r ss k (i + 1)
      else l_nonlead_off l = k /\ l_nonlead_num l = Zlen sl /\ sl <> [] /\
           Forall (fun q => r_lead_off q = i) sl /\ lay skip r ss (k + Zlen sl) (i + 1)
  | _, _ => False
  end.
Definition noskip (l : lead) : bool := false.

Lemma slices_lay : forall leads reqs pre rest i,
  reqs = pre ++ rest -> slices_ok leads reqs (Zlen pre) i ->
  exists segs, rest = concat segs /\ lay noskip leads segs (Zlen pre) i.
Proof.
  induction leads as [|l leads IH]; intros reqs pre rest i Hr H; cbn [slices_ok] in H.
  - exists []. split; [|exact I]. cbn [concat]. subst reqs. rewrite Zlen_app in H.
    apply Zlen_zero_nil. lia.
  - destruct H as (Hoff & Hpos & Hle & Hall & Hrest).
    set (n := l_nonlead_num l) in *.
    pose proof (zfirstn_zskipn n rest) as Hsplit.
    assert (Hlen : Zlen (zfirstn n rest) = n).
    { apply Zlen_zfirstn_enough. subst reqs. rewrite Zlen_app in Hle. lia. }
    assert (Hsl : slice reqs (Zlen pre) n = zfirstn n rest).
    { subst reqs. unfold slice. rewrite zskipn_app_len by reflexivity. reflexivity. }
    destruct (IH reqs (pre ++ zfirstn n rest) (zskipn n rest) (i + 1)) as (segs & Hc & Hl).
    + subst reqs. rewrite <- app_assoc, Hsplit. reflexivity.
    + rewrite Zlen_app, Hlen. exact Hrest.
    + exists (zfirstn n rest :: segs). split.
      * cbn [concat]. rewrite <- Hc. symmetry. exact Hsplit.
      * cbn [lay]. unfold noskip at 1. cbv iota.
        split; [exact Hoff|]. split; [fold n; symmetry; exact Hlen|].
        split; [intros E; rewrite E, Zlen_nil in Hlen; lia|].
        split; [rewrite <- Hsl; exact Hall|].
        rewrite Zlen_app in Hl. exact Hl.
Qed.

Lemma lay_slices_ok : forall skip leads segs pre i,
  Forall (fun l => skip l = false) leads -> lay skip leads segs (Zlen pre) i ->
  slices_ok leads (pre ++ concat segs) (Zlen pre) i.
Proof.
  intros skip. induction leads as [|l leads IH]; intros segs pre i Hsk H; destruct segs as [|sl ss]; cbn [lay] in H; try contradiction.
  - cbn [slices_ok concat]. rewrite app_nil_r. reflexivity.
  - inversion Hsk as [|l0 r0 Hl Hr]; subst. rewrite Hl in H.
    destruct H as (Hoff & Hnum & Hne & Hfa & Hrest).
    cbn [slices_ok concat]. split; [exact Hoff|].
    pose proof (proj2 (Zlen_pos_not_nil sl) Hne) as Hpos.
    split; [lia|]. split.
    { rewrite !Zlen_app. pose proof (Zlen_nonneg (concat ss)). lia. }
    split.
    { rewrite Hnum, slice_app3. exact Hfa. }
    specialize (IH ss (pre ++ sl) (i + 1) Hr). rewrite Zlen_app, <- app_assoc in IH.
    rewrite Hnum. apply IH. exact Hrest.
Qed.

(* the slice of a lead that is not skipped is its segment *)
Lemma lay_lead_reqs : forall skip leads segs pre i,
  lay skip leads segs (Zlen pre) i ->
  Forall2 (fun l sl => skip l = false -> lead_reqs (pre ++ concat segs) l = sl) leads segs.
Proof.
  intros skip. induction leads as [|l leads IH]; intros segs pre i H; destruct segs as [|sl ss]; cbn [lay] in H; try contradiction.
  - constructor.
  - destruct (skip l) eqn:Hl.
    + destruct H as (Hsl & Hrest). subst sl. constructor; [intros Hf; congruence|].
      cbn [concat app]. eapply IH. exact Hrest.
    + destruct H as (Hoff & Hnum & Hne & Hfa & Hrest). constructor.
      * intros _. unfold lead_reqs. rewrite Hoff, Hnum. cbn [concat]. apply slice_app3.
      * specialize (IH ss (pre ++ sl) (i + 1)). rewrite Zlen_app, <- app_assoc in IH.
        cbn [concat]. apply IH. exact Hrest.
Qed.

(* the entries of the segment of the i-th lead point to i *)
Lemma lay_lead_off : forall skip leads segs (pre2 leads2 : list lead) k (R : lead -> lead -> Prop) (f : lead -> list req),
  lay skip leads segs k (Zlen pre2) -> Forall2 R leads leads2 -> Forall2 (fun l sl => f l = sl) leads segs ->
  Forall2 (fun l l2 => R l l2 /\ Forall (fun q => znth (pre2 ++ leads2) (r_lead_off q) dummy_lead = l2) (f l))
          leads leads2.
Proof.
  intros skip. induction leads as [|l leads IH]; intros segs pre2 leads2 k R f H HR Hf;
    destruct segs as [|sl ss]; cbn [lay] in H; try contradiction;
    inversion HR as [|x y a b Hxy Hab]; subst; inversion Hf as [|x0 y0 a0 b0 Hsl Hfr]; subst.
  - constructor.
  - assert (Hrest : lay skip leads ss (if skip l then k else k + Zlen (f l)) (Zlen (pre2 ++ [y]))).
    { rewrite Zlen_app. change (Zlen [y]) with 1. destruct (skip l); apply H. }
    specialize (IH ss (pre2 ++ [y]) b _ R f Hrest Hab Hfr). rewrite <- app_assoc in IH. cbn [app] in IH.
    constructor; [|exact IH]. split; [exact Hxy|].
    destruct (skip l).
    + destruct H as (-> & _). constructor.
    + destruct H as (_ & _ & _ & Hfa & _). eapply Forall_impl; [|exact Hfa].
      intros q Hq. cbn beta in Hq. rewrite Hq. apply znth_app_exact.
Qed.

Lemma lay_ext : forall skip skip' leads leads' segs k i,
  Forall2 (fun l l' => skip l = skip' l' /\
                       (skip l = false -> l_nonlead_off l = l_nonlead_off l' /\ l_nonlead_num l = l_nonlead_num l'))
          leads leads' ->
  lay skip leads segs k i -> lay skip' leads' segs k i.
Proof.
  intros skip skip' leads leads' segs k i H. revert segs k i.
  induction H as [|l l' leads leads' (Hs & Ho) H IH]; intros segs k i Hl; destruct segs as [|sl ss]; cbn [lay] in *; try contradiction.
  - exact I.
  - rewrite <- Hs. destruct (skip l).
    + destruct Hl as (E & Hl). split; [exact E|apply IH; exact Hl].
    + destruct (Ho eq_refl) as (Ho1 & Ho2). destruct Hl as (Hoff & Hnum & Hne & Hfa & Hrest).
      rewrite <- Ho1, <- Ho2. repeat split; try assumption. apply IH. exact Hrest.
Qed.

Lemma lay_len : forall skip leads segs k i, lay skip leads segs k i -> Zlen leads = Zlen segs.
Proof.
  intros skip. induction leads as [|l leads IH]; intros segs k i H; destruct segs as [|sl ss]; cbn [lay] in H; try contradiction.
  - reflexivity.
  - rewrite !Zlen_cons. destruct (skip l).
    + destruct H as (_ & H). rewrite (IH _ _ _ H). reflexivity.
    + destruct H as (_ & _ & _ & _ & H). rewrite (IH _ _ _ H). reflexivity.
Qed.

Lemma lay_all_skipped : forall skip leads k i,
  Forall (fun l => skip l = true) leads -> lay skip leads (map (fun _ => []) leads) k i.
Proof.
  intros skip leads k i H. revert i. induction H as [|l leads Hl H IH]; intros i; cbn [map lay]; [exact I|].
  rewrite Hl. split; [reflexivity|apply IH].
Qed.

Lemma concat_map_nil : forall A B (l : list A), concat (map (fun _ => @nil B) l) = [].
Proof. intros A B l. induction l as [|x l IH]; [reflexivity|exact IH]. Qed.

(* queue_inv gives a layout; the whole queue is the concatenation of the slices *)
Lemma queue_lay : forall isput maxid leads reqs, queue_inv isput maxid leads reqs ->
  exists segs, reqs = concat segs /\ lay noskip leads segs 0 0 /\
               Forall2 (fun l sl => lead_reqs reqs l = sl) leads segs.
Proof.
  intros isput maxid leads reqs (_ & _ & Hs & _ & _).
  destruct (slices_lay leads reqs [] reqs 0 eq_refl Hs) as (segs & Hc & Hl).
  exists segs. split; [exact Hc|]. split; [exact Hl|].
  pose proof (lay_lead_reqs noskip leads segs [] 0 Hl) as HF. cbn [app] in HF. rewrite <- Hc in HF.
  eapply Forall2_impl; [|exact HF]. intros l sl Hx. apply Hx. reflexivity.
Qed.

(* 2. flagging: closed forms *)
Definition flagged_of (l l2 : lead) : Prop := exists stt, l2 = l_set_flag l true stt.

Lemma flag_all_F2 : forall leads, Forall2 flagged_of leads (flag_all leads).
Proof.
  intros leads. unfold flag_all. apply Forall2_map_r. intros l _. exists (l_status l). reflexivity.
Qed.

Lemma flag_all_status_F2 : forall leads i, Forall2 flagged_of leads (flag_all_status leads i).
Proof.
  induction leads as [|l leads IH]; intros i; cbn [flag_all_status]; constructor.
  - exists (Some i). reflexivity.
  - apply IH.
Qed.

Lemma flag_all_status_nth : forall leads i l' k,
  In l' (flag_all_status leads i) -> l_status l' = Some k ->
  i <= k < i + Zlen leads /\ l_id (znth leads (k - i) dummy_lead) = l_id l'.
Proof.
  induction leads as [|l leads IH]; intros i l' k Hin Hst; cbn [flag_all_status] in Hin; [destruct Hin|].
  rewrite Zlen_cons. pose proof (Zlen_nonneg leads) as Hn.
  destruct Hin as [<-|Hin].
  - cbn in Hst. inversion Hst; subst k. split; [lia|].
    replace (i - i) with 0 by lia. reflexivity.
  - destruct (IH (i + 1) l' k Hin Hst) as (Hk & Hid). split; [lia|].
    cbn [znth]. destruct (k - i =? 0) eqn:E; [lia|].
    replace (k - i - 1) with (k - (i + 1)) by lia. exact Hid.
Qed.

(* one step of the first loop, on one lead *)
Definition flag1 (x : Z) (stt : option Z) (l : lead) : lead :=
  if negb (l_to_free l) && (l_id l =? x) then l_set_flag l true stt else l.

Lemma flag1_id : forall x stt l, l_id (flag1 x stt l) = l_id l.
Proof. intros x stt l. unfold flag1. destruct (negb (l_to_free l) && (l_id l =? x)); reflexivity. Qed.

Lemma map_flag1_other : forall x stt r, (forall l0, In l0 r -> l_id l0 <> x) -> map (flag1 x stt) r = r.
Proof.
  intros x stt r H. induction r as [|l r IH]; [reflexivity|]. cbn [map].
  rewrite IH by (intros l0 Hl0; apply H; right; exact Hl0).
  unfold flag1. assert (Hl : l_id l <> x) by (apply H; left; reflexivity).
  destruct (l_id l =? x) eqn:E; [lia|]. rewrite andb_false_r. reflexivity.
Qed.

Lemma flag_first_map : forall ll x stt ll' n,
  NoDup (map l_id ll) -> flag_first ll x stt = Some (ll', n) ->
  ll' = map (flag1 x stt) ll /\
  exists l, In l ll /\ l_to_free l = false /\ l_id l = x /\ n = l_nonlead_num l.
Proof.
  induction ll as [|l r IH]; intros x stt ll' n Hnd H; cbn [flag_first] in H; [discriminate|].
  cbn [map] in Hnd. apply NoDup_cons_iff in Hnd. destruct Hnd as [Hl Hnd].
  destruct (negb (l_to_free l) && (l_id l =? x)) eqn:E.
  - inversion H; subst ll' n. clear H.
    assert (Hid : l_id l = x) by lia. assert (Hf : l_to_free l = false) by (destruct (l_to_free l); [discriminate|reflexivity]).
    split.
    + cbn [map]. unfold flag1 at 1. rewrite E. f_equal. symmetry. apply map_flag1_other.
      intros l0 Hl0 E0. apply Hl. rewrite Hid, <- E0. apply in_map. exact Hl0.
    + exists l. split; [left; reflexivity|]. repeat split; assumption.
  - destruct (flag_first r x stt) as [[r' n']|] eqn:Er; [|discriminate].
    inversion H; subst ll' n. clear H.
    destruct (IH x stt r' n' Hnd Er) as (Hm & l0 & Hin & Hrest).
    split.
    + cbn [map]. unfold flag1 at 1. rewrite E. rewrite <- Hm. reflexivity.
    + exists l0. split; [right; exact Hin|exact Hrest].
Qed.

(* the first loop of the subset path restricted to one queue: sel picks the ids of the queue *)
Fixpoint mark_list (sel : Z -> bool) (ids : list Z) (i : Z) (hs : bool) (ll : list lead)
  : option (list lead * Z * Z) :=
  match ids with
  | [] => Some (ll, 0, 0)
  | x :: r =>
      if sel x then
        match flag_first ll x (if hs then Some i else None) with
        | Some (ll', n) =>
            match mark_list sel r (i + 1) hs ll' with
            | Some (l2, c, s) => Some (l2, c + 1, s + n)
            | None => None
            end
        | None => None
        end
      else mark_list sel r (i + 1) hs ll
  end.

Fixpoint mark_lead (sel : Z -> bool) (ids : list Z) (i : Z) (hs : bool) (l : lead) : lead :=
  match ids with
  | [] => l
  | x :: r => mark_lead sel r (i + 1) hs (if sel x then flag1 x (if hs then Some i else None) l else l)
  end.

Definition selp (x : Z) : bool := negb (x =? NC_REQ_NULL) && (Z.rem x 2 =? 0).
Definition selg (x : Z) : bool := negb (x =? NC_REQ_NULL) && negb (Z.rem x 2 =? 0).

Lemma mark_list_map : forall sel ids i hs ll ll1 c s,
  NoDup (map l_id ll) -> mark_list sel ids i hs ll = Some (ll1, c, s) ->
  ll1 = map (mark_lead sel ids i hs) ll.
Proof.
  intros sel. induction ids as [|x r IH]; intros i hs ll ll1 c s Hnd H; cbn [mark_list] in H.
  - inversion H; subst. cbn [mark_lead]. symmetry. apply map_id.
  - destruct (sel x) eqn:Hsel.
    + destruct (flag_first ll x (if hs then Some i else None)) as [[ll' n]|] eqn:Ef; [|discriminate].
      destruct (mark_list sel r (i + 1) hs ll') as [[[l2 c2] s2]|] eqn:Em; [|discriminate].
      inversion H; subst ll1 c s. clear H.
      destruct (flag_first_map _ _ _ _ _ Hnd Ef) as (Hm & _).
      assert (Hnd' : NoDup (map l_id ll')).
      { rewrite Hm, map_map. erewrite map_ext; [exact Hnd|]. intros a. apply flag1_id. }
      rewrite (IH _ _ _ _ _ _ Hnd' Em), Hm, map_map.
      apply map_ext. intros a. cbn [mark_lead]. rewrite Hsel. reflexivity.
    + rewrite (IH _ _ _ _ _ _ Hnd H). apply map_ext. intros a. cbn [mark_lead]. rewrite Hsel. reflexivity.
Qed.

Lemma mark_lead_flagged : forall sel ids i hs l, l_to_free l = true -> mark_lead sel ids i hs l = l.
Proof.
  intros sel. induction ids as [|x r IH]; intros i hs l Hl; cbn [mark_lead]; [reflexivity|].
  assert (E : (if sel x then flag1 x (if hs then Some i else None) l else l) = l).
  { destruct (sel x); [|reflexivity]. unfold flag1. rewrite Hl. reflexivity. }
  rewrite E. apply IH. exact Hl.
Qed.

Lemma mark_lead_shape : forall sel ids i hs l,
  mark_lead sel ids i hs l = l \/ exists stt, mark_lead sel ids i hs l = l_set_flag l true stt.
Proof.
  intros sel. induction ids as [|x r IH]; intros i hs l; cbn [mark_lead]; [left; reflexivity|].
  destruct (sel x); [|apply IH]. unfold flag1.
  destruct (negb (l_to_free l) && (l_id l =? x)); [|apply IH].
  right. exists (if hs then Some i else None). apply mark_lead_flagged. reflexivity.
Qed.

Lemma mark_lead_same : forall sel ids i hs l, lead_same l (mark_lead sel ids i hs l).
Proof.
  intros sel ids i hs l. destruct (mark_lead_shape sel ids i hs l) as [->|(stt & ->)].
  - apply lead_same_refl.
  - apply lead_same_set_flag.
Qed.

Lemma mark_lead_off : forall sel ids i hs l, l_nonlead_off (mark_lead sel ids i hs l) = l_nonlead_off l.
Proof.
  intros sel ids i hs l. destruct (mark_lead_shape sel ids i hs l) as [->|(stt & ->)]; reflexivity.
Qed.

Lemma mark_lead_id : forall sel ids i hs l, l_id (mark_lead sel ids i hs l) = l_id l.
Proof. intros. symmetry. apply lead_same_id. apply mark_lead_same. Qed.

Lemma mark_list_ids : forall sel ids i hs ll ll1 c s,
  NoDup (map l_id ll) -> mark_list sel ids i hs ll = Some (ll1, c, s) -> NoDup (map l_id ll1).
Proof.
  intros sel ids i hs ll ll1 c s Hnd Hm. rewrite (mark_list_map _ _ _ _ _ _ _ _ Hnd Hm), map_map.
  erewrite map_ext; [exact Hnd|]. intros a. apply mark_lead_id.
Qed.

Lemma mark_lead_reqs : forall sel ids i hs reqs l, lead_reqs reqs (mark_lead sel ids i hs l) = lead_reqs reqs l.
Proof.
  intros. unfold lead_reqs. rewrite mark_lead_off.
  pose proof (mark_lead_same sel ids i hs l) as (_ & _ & _ & Hn & _). rewrite <- Hn. reflexivity.
Qed.

Lemma mark_lead_to_free : forall sel ids i hs l,
  l_to_free (mark_lead sel ids i hs l) = l_to_free l || existsb (fun x => sel x && (l_id l =? x)) ids.
Proof.
  intros sel. induction ids as [|x r IH]; intros i hs l; cbn [mark_lead existsb].
  - rewrite orb_false_r. reflexivity.
  - rewrite IH. clear IH. destruct (sel x); cbn [andb]; [|reflexivity].
    rewrite flag1_id. unfold flag1. destruct (l_to_free l) eqn:Hf; cbn [negb andb].
    + rewrite Hf. reflexivity.
    + destruct (l_id l =? x); cbn [orb]; [reflexivity|]. rewrite Hf. reflexivity.
Qed.

Lemma mark_lead_flag_iff : forall sel ids i hs l, l_to_free l = false ->
  (l_to_free (mark_lead sel ids i hs l) = true <-> In (l_id l) (filter sel ids)).
Proof.
  intros sel ids i hs l Hf. rewrite mark_lead_to_free, Hf, filter_In. cbn [orb]. rewrite existsb_exists. split.
  - intros (x & Hx & Hc). assert (l_id l = x) by lia. subst x. split; [exact Hx|lia].
  - intros (Hx & Hs). exists (l_id l). split; [exact Hx|]. rewrite Hs, Z.eqb_refl. reflexivity.
Qed.

Lemma mark_lead_nosel : forall sel ids i hs l, filter sel ids = [] -> mark_lead sel ids i hs l = l.
Proof.
  intros sel. induction ids as [|x r IH]; intros i hs l H; cbn [mark_lead]; [reflexivity|].
  cbn [filter] in H. destruct (sel x); [discriminate|]. apply IH. exact H.
Qed.

(* the status pointer of a lead flagged by this loop is the slot of the position naming it *)
Lemma mark_lead_status : forall sel ids i l k,
  l_to_free l = false -> l_to_free (mark_lead sel ids i true l) = true ->
  l_status (mark_lead sel ids i true l) = Some k ->
  i <= k < i + Zlen ids /\ znth ids (k - i) NC_REQ_NULL = l_id l.
Proof.
  intros sel. induction ids as [|x r IH]; intros i l k Hl Hf Hst; cbn [mark_lead] in *.
  - congruence.
  - rewrite Zlen_cons. pose proof (Zlen_nonneg r) as Hn.
    assert (Hcase : (sel x = true /\ l_id l = x /\
                     (if sel x then flag1 x (Some i) l else l) = l_set_flag l true (Some i)) \/
                    (if sel x then flag1 x (Some i) l else l) = l).
    { destruct (sel x); [|right; reflexivity]. unfold flag1. rewrite Hl. cbn [negb andb].
      destruct (l_id l =? x) eqn:E; [left|right; reflexivity]. repeat split. lia. }
    destruct Hcase as [(Hs & Hid & E)|E]; rewrite E in *.
    + rewrite mark_lead_flagged in Hst by reflexivity. cbn in Hst. inversion Hst; subst k.
      split; [lia|]. replace (i - i) with 0 by lia. cbn [znth]. symmetry. exact Hid.
    + destruct (IH (i + 1) l k Hl Hf Hst) as (Hk & Hz). split; [lia|].
      cbn [znth]. destruct (k - i =? 0) eqn:E0; [lia|].
      replace (k - i - 1) with (k - (i + 1)) by lia. exact Hz.
Qed.

Lemma mark_lead_status_nostat : forall sel ids i l,
  l_to_free l = false -> l_to_free (mark_lead sel ids i false l) = true ->
  l_status (mark_lead sel ids i false l) = None.
Proof.
  intros sel. induction ids as [|x r IH]; intros i l Hl Hf; cbn [mark_lead] in *.
  - congruence.
  - destruct (sel x); [|apply IH; assumption]. unfold flag1 in *. rewrite Hl in *. cbn [negb andb] in *.
    destruct (l_id l =? x); [|apply IH; assumption].
    rewrite mark_lead_flagged by reflexivity. reflexivity.
Qed.

Lemma flag1_unflagged : forall x stt l,
  l_to_free (flag1 x stt l) = false -> l_to_free l = false /\ l_id l <> x.
Proof.
  intros x stt l. unfold flag1. destruct (l_to_free l) eqn:Hf; cbn [negb andb].
  - intros H. rewrite Hf in H. discriminate H.
  - destruct (l_id l =? x) eqn:E; [discriminate|]. intros _. split; [reflexivity|lia].
Qed.

Lemma flag1_num : forall x stt l, l_nonlead_num (flag1 x stt l) = l_nonlead_num l.
Proof. intros x stt l. unfold flag1. destruct (negb (l_to_free l) && (l_id l =? x)); reflexivity. Qed.

Lemma mark_list_pending : forall sel ids i hs ll ll1 c s,
  NoDup (map l_id ll) -> mark_list sel ids i hs ll = Some (ll1, c, s) ->
  (forall x, In x ids -> sel x = true -> exists l, In l ll /\ l_id l = x /\ l_to_free l = false) /\
  NoDup (filter sel ids) /\ c = Zlen (filter sel ids) /\
  (Forall (fun l => 0 < l_nonlead_num l) ll -> c <= s).
Proof.
  intros sel. induction ids as [|x r IH]; intros i hs ll ll1 c s Hnd H; cbn [mark_list] in H.
  - inversion H; subst. cbn [filter]. split; [intros x []|]. split; [constructor|]. split; [reflexivity|]. intros _. lia.
  - cbn [filter]. destruct (sel x) eqn:Hsel.
    + destruct (flag_first ll x (if hs then Some i else None)) as [[ll' n]|] eqn:Ef; [|discriminate].
      destruct (mark_list sel r (i + 1) hs ll') as [[[l2 c2] s2]|] eqn:Em; [|discriminate].
      inversion H; subst ll1 c s. clear H.
      destruct (flag_first_map _ _ _ _ _ Hnd Ef) as (Hm & l & Hlin & Hlf & Hlid & Hln).
      assert (Hnd' : NoDup (map l_id ll')).
      { rewrite Hm, map_map. erewrite map_ext; [exact Hnd|]. intros a. apply flag1_id. }
      destruct (IH _ _ _ _ _ _ Hnd' Em) as (Hp & Hnd2 & Hc & Hs).
      (* a lead that is unflagged after this step was unflagged before it and is not the one named x *)
      assert (Hback : forall y, In y r -> sel y = true ->
                y <> x /\ exists l0, In l0 ll /\ l_id l0 = y /\ l_to_free l0 = false).
      { intros y Hy Hsy. destruct (Hp y Hy Hsy) as (l0 & Hl0 & Hid0 & Hf0).
        rewrite Hm in Hl0. apply in_map_iff in Hl0. destruct Hl0 as (l1 & <- & Hl1).
        rewrite flag1_id in Hid0. destruct (flag1_unflagged _ _ _ Hf0) as (Hf1 & Hne).
        split; [congruence|]. exists l1. repeat split; assumption. }
      split; [|split; [|split]].
      * intros y [<-|Hy] Hsy; [exists l; repeat split; assumption|apply Hback; assumption].
      * constructor; [|exact Hnd2]. intros Hin. apply filter_In in Hin. destruct Hin as (Hxr & _).
        destruct (Hback x Hxr Hsel) as (Hne & _). exact (Hne eq_refl).
      * rewrite Zlen_cons, Hc. reflexivity.
      * intros Hpos. assert (Hn : 0 < n).
        { subst n. rewrite Forall_forall in Hpos. apply Hpos. exact Hlin. }
        enough (c2 <= s2) by lia. apply Hs. rewrite Hm. apply Forall_map.
        revert Hpos. apply Forall_impl. intros a Ha. rewrite flag1_num. exact Ha.
    + destruct (IH _ _ _ _ _ _ Hnd H) as (Hp & Hnd2 & Hc & Hs).
      split; [|split; [|split]]; try assumption.
      intros y [<-|Hy] Hsy; [congruence|]. apply Hp; assumption.
Qed.

(* ---- ex_mark is the two one-queue loops ---- *)
Lemma noerr_sticky_or : forall e, (if e =? NC_NOERR then NC_EINVAL_REQUEST else e) <> NC_NOERR.
Proof.
  intros e. destruct (e =? NC_NOERR) eqn:E; [unfold NC_EINVAL_REQUEST, NC_NOERR; lia|lia].
Qed.

Lemma ex_mark_err_sticky : forall ids i hs pl gl stat nwl nwr nrl nrr err,
  err <> NC_NOERR ->
  snd (ex_mark ids i hs pl gl stat nwl nwr nrl nrr err) <> NC_NOERR.
Proof.
  induction ids as [|x r IH]; intros i hs pl gl stat nwl nwr nrl nrr err He; cbn [ex_mark].
  - exact He.
  - destruct (x =? NC_REQ_NULL); [apply IH; exact He|].
    destruct (Z.rem x 2 =? 0).
    + destruct (flag_first pl x (if hs then Some i else None)) as [[pl' n]|]; apply IH; [exact He|].
      apply noerr_sticky_or.
    + destruct (flag_first gl x (if hs then Some i else None)) as [[gl' n]|]; apply IH; [exact He|].
      apply noerr_sticky_or.
Qed.

Lemma ex_mark_fails : forall ids i hs pl gl stat nwl nwr nrl nrr err res,
  ex_mark ids i hs pl gl stat nwl nwr nrl nrr (if err =? NC_NOERR then NC_EINVAL_REQUEST else err) = (res, NC_NOERR) ->
  False.
Proof.
  intros ids i hs pl gl stat nwl nwr nrl nrr err res H.
  pose proof (ex_mark_err_sticky ids i hs pl gl stat nwl nwr nrl nrr _ (noerr_sticky_or err)) as Hs.
  rewrite H in Hs. exact (Hs eq_refl).
Qed.

Lemma ex_mark_spec : forall ids i hs pl gl stat nwl nwr nrl nrr err pl1 gl1 stat1 nwl1 nwr1 nrl1 nrr1,
  ex_mark ids i hs pl gl stat nwl nwr nrl nrr err = (pl1, gl1, stat1, nwl1, nwr1, nrl1, nrr1, NC_NOERR) ->
  err = NC_NOERR /\
  exists c1 s1 c2 s2,
    mark_list selp ids i hs pl = Some (pl1, c1, s1) /\ mark_list selg ids i hs gl = Some (gl1, c2, s2) /\
    nwl1 = nwl + c1 /\ nwr1 = nwr + s1 /\ nrl1 = nrl + c2 /\ nrr1 = nrr + s2.
Proof.
  induction ids as [|x r IH]; intros i hs pl gl stat nwl nwr nrl nrr err pl1 gl1 stat1 nwl1 nwr1 nrl1 nrr1 H;
    cbn [ex_mark mark_list] in *.
  - inversion H; subst. split; [reflexivity|]. exists 0, 0, 0, 0. repeat split; lia.
  - unfold selp at 1, selg at 1. destruct (x =? NC_REQ_NULL) eqn:Enull; cbn [negb andb].
    + apply IH in H. exact H.
    + destruct (Z.rem x 2 =? 0) eqn:Epar; cbn [negb].
      * destruct (flag_first pl x (if hs then Some i else None)) as [[pl' n]|] eqn:Ef.
        -- apply IH in H. destruct H as (He & c1 & s1 & c2 & s2 & H1 & H2 & H3 & H4 & H5 & H6).
           split; [exact He|]. rewrite H1. exists (c1 + 1), (s1 + n), c2, s2.
           repeat split; try assumption; lia.
        -- destruct (ex_mark_fails _ _ _ _ _ _ _ _ _ _ _ _ H).
      * destruct (flag_first gl x (if hs then Some i else None)) as [[gl' n]|] eqn:Ef.
        -- apply IH in H. destruct H as (He & c1 & s1 & c2 & s2 & H1 & H2 & H3 & H4 & H5 & H6).
           split; [exact He|]. rewrite H2. exists c1, s1, (c2 + 1), (s2 + n).
           repeat split; try assumption; lia.
        -- destruct (ex_mark_fails _ _ _ _ _ _ _ _ _ _ _ _ H).
Qed.

(* statuses written by a successful first loop *)
Lemma ex_mark_stat : forall ids i pl gl stat nwl nwr nrl nrr err pl1 gl1 stat1 nwl1 nwr1 nrl1 nrr1,
  ex_mark ids i true pl gl stat nwl nwr nrl nrr err = (pl1, gl1, stat1, nwl1, nwr1, nrl1, nrr1, NC_NOERR) ->
  0 <= i ->
  Zlen stat1 = Zlen stat /\
  (forall k, i <= k < i + Zlen ids -> k < Zlen stat -> znth stat1 k 0 = NC_NOERR) /\
  (forall k, k < i -> znth stat1 k 0 = znth stat k 0).
Proof.
  induction ids as [|x r IH]; intros i pl gl stat nwl nwr nrl nrr err pl1 gl1 stat1 nwl1 nwr1 nrl1 nrr1 H Hi;
    cbn [ex_mark] in H.
  - inversion H; subst. split; [reflexivity|]. split; [|reflexivity].
    intros k Hk. rewrite Zlen_nil in Hk. lia.
  - rewrite Zlen_cons. pose proof (Zlen_nonneg r) as Hn.
    assert (Hgood : forall pl' gl' a b c d e,
              ex_mark r (i + 1) true pl' gl' (zupd stat i NC_NOERR) a b c d e
                = (pl1, gl1, stat1, nwl1, nwr1, nrl1, nrr1, NC_NOERR) ->
              Zlen stat1 = Zlen stat /\
              (forall k, i <= k < i + (Zlen r + 1) -> k < Zlen stat -> znth stat1 k 0 = NC_NOERR) /\
              (forall k, k < i -> znth stat1 k 0 = znth stat k 0)).
    { intros pl' gl' a b c d e H'. apply IH in H'; [|lia]. destruct H' as (Hl & Hin & Hout).
      rewrite Zlen_zupd in Hl, Hin. split; [exact Hl|]. split.
      - intros k Hk Hks. destruct (Z.eq_dec k i) as [->|Hne].
        + rewrite Hout by lia. apply znth_zupd_same. lia.
        + apply Hin; lia.
      - intros k Hk. rewrite Hout by lia. apply znth_zupd_other. lia. }
    destruct (x =? NC_REQ_NULL); [eapply Hgood; exact H|].
    destruct (Z.rem x 2 =? 0).
    + destruct (flag_first pl x (Some i)) as [[pl' n]|]; [eapply Hgood; exact H|].
      destruct (ex_mark_fails _ _ _ _ _ _ _ _ _ _ _ _ H).
    + destruct (flag_first gl x (Some i)) as [[gl' n]|]; [eapply Hgood; exact H|].
      destruct (ex_mark_fails _ _ _ _ _ _ _ _ _ _ _ _ H).
Qed.

Definition copy_one (sel : Z -> bool) (ll : list lead) (reqs : list req) (x : Z) : list req :=
  if sel x then match find_flagged ll x with
                | Some l => slice reqs (l_nonlead_off l) (l_nonlead_num l)
                | None => []
                end
  else [].
Definition reset_one (pl gl : list lead) (x : Z) : Z :=
  if x =? NC_REQ_NULL then x
  else if Z.rem x 2 =? 0 then match find_flagged pl x with Some _ => NC_REQ_NULL | None => x end
  else match find_flagged gl x with Some _ => NC_REQ_NULL | None => x end.

Lemma ex_copy_spec : forall ids pl gl pr gr,
  ex_copy ids pl gl pr gr =
  (map (reset_one pl gl) ids, flat_map (copy_one selp pl pr) ids, flat_map (copy_one selg gl gr) ids).
Proof.
  induction ids as [|x r IH]; intros pl gl pr gr; cbn [ex_copy map flat_map]; [reflexivity|].
  rewrite IH.
  set (T1 := map (reset_one pl gl) r). set (T2 := flat_map (copy_one selp pl pr) r).
  set (T3 := flat_map (copy_one selg gl gr) r).
  unfold copy_one, reset_one, selp, selg.
  destruct (x =? NC_REQ_NULL); cbn [negb andb app]; [reflexivity|].
  destruct (Z.rem x 2 =? 0); cbn [negb app].
  - destruct (find_flagged pl x); reflexivity.
  - destruct (find_flagged gl x); reflexivity.
Qed.

Lemma find_flagged_In : forall ll l, NoDup (map l_id ll) -> In l ll -> l_to_free l = true ->
  find_flagged ll (l_id l) = Some l.
Proof.
  induction ll as [|l0 r IH]; intros l Hnd Hin Hf; [destruct Hin|].
  cbn [map] in Hnd. apply NoDup_cons_iff in Hnd. destruct Hnd as [Hl0 Hnd]. cbn [find_flagged].
  destruct Hin as [->|Hin].
  - rewrite Hf, Z.eqb_refl. reflexivity.
  - destruct (l_to_free l0 && (l_id l0 =? l_id l)) eqn:E.
    + exfalso. apply Hl0. assert (E' : l_id l0 = l_id l) by lia. rewrite E'. apply in_map. exact Hin.
    + apply IH; assumption.
Qed.

Lemma find_flagged_Some : forall ll x l, find_flagged ll x = Some l -> In l ll /\ l_to_free l = true /\ l_id l = x.
Proof.
  induction ll as [|l0 r IH]; intros x l H; cbn [find_flagged] in H; [discriminate|].
  destruct (l_to_free l0 && (l_id l0 =? x)) eqn:E.
  - inversion H; subst l0. split; [left; reflexivity|]. split; [|lia].
    destruct (l_to_free l); [reflexivity|discriminate].
  - destruct (IH x l H) as (Hin & Hrest). split; [right; exact Hin|exact Hrest].
Qed.

(* 3. coalesce_nonlead, compact_leads on layouts *)
Fixpoint kept_segs (leads : list lead) (segs : list (list req)) : list (list req) :=
  match leads, segs with
  | l :: r, sl :: ss => (if l_to_free l then [] else sl) :: kept_segs r ss
  | _, _ => []
  end.

Definition co_rel (l l' : lead) : Prop := if l_to_free l then l' = l else exists k, l' = l_set_off l k.

Lemma co_rel_same : forall l l', co_rel l l' ->
  lead_same l l' /\ l_to_free l' = l_to_free l /\ l_status l' = l_status l.
Proof.
  intros l l' H. unfold co_rel in H. destruct (l_to_free l) eqn:Hf.
  - subst l'. split; [apply lead_same_refl|]. split; [exact Hf|reflexivity].
  - destruct H as (k & ->). split; [apply lead_same_set_off|]. split; [exact Hf|reflexivity].
Qed.

(* the queue is  pre ++ rs : the kept leads own consecutive segments again, each the slice it was *)
Lemma coalesce_lay : forall leads segs reqs kold i pre ls rs,
  lay noskip leads segs kold i ->
  Forall2 (fun l sl => lead_reqs reqs l = sl) leads segs ->
  coalesce_nonlead leads reqs (Zlen pre) = (ls, rs) ->
  rs = concat (kept_segs leads segs) /\ lay l_to_free ls (kept_segs leads segs) (Zlen pre) i /\
  Forall2 co_rel leads ls /\
  Forall2 (fun l l' => l_to_free l' = false -> lead_reqs (pre ++ rs) l' = lead_reqs reqs l) leads ls.
Proof.
  induction leads as [|l leads IH]; intros segs reqs kold i pre ls rs Hl HF Hc;
    destruct segs as [|sl ss]; cbn [lay] in Hl; try contradiction; cbn [coalesce_nonlead] in Hc.
  - inversion Hc; subst. cbn [kept_segs concat lay]. repeat split; constructor.
  - unfold noskip at 1 in Hl. cbv iota in Hl. destruct Hl as (Hoff & Hnum & Hne & Hfa & Hrest).
    inversion HF as [|x y a b Hxy Hab]; subst. cbn [kept_segs].
    destruct (l_to_free l) eqn:Hf.
    + destruct (coalesce_nonlead leads reqs (Zlen pre)) as [ls' rs'] eqn:Ec. inversion Hc; subst ls rs. clear Hc.
      destruct (IH _ _ _ _ _ _ _ Hrest Hab Ec) as (H1 & H2 & H3 & H4).
      split; [cbn [concat app]; exact H1|]. split; [|split].
      * cbn [lay]. rewrite Hf. split; [reflexivity|exact H2].
      * constructor; [|exact H3]. unfold co_rel. rewrite Hf. reflexivity.
      * constructor; [intros Hd; congruence|exact H4].
    + destruct (coalesce_nonlead leads reqs (Zlen pre + l_nonlead_num l)) as [ls' rs'] eqn:Ec.
      inversion Hc; subst ls rs. clear Hc.
      change (slice reqs (l_nonlead_off l) (l_nonlead_num l)) with (lead_reqs reqs l).
      rewrite Hnum, <- Zlen_app in Ec.
      destruct (IH _ _ _ _ _ _ _ Hrest Hab Ec) as (H1 & H2 & H3 & H4).
      split; [cbn [concat]; rewrite <- H1; reflexivity|]. split; [|split].
      * cbn [lay]. change (l_to_free (l_set_off l (Zlen pre))) with (l_to_free l). rewrite Hf.
        change (l_nonlead_off (l_set_off l (Zlen pre))) with (Zlen pre).
        change (l_nonlead_num (l_set_off l (Zlen pre))) with (l_nonlead_num l).
        split; [reflexivity|]. split; [exact Hnum|]. split; [exact Hne|]. split; [exact Hfa|].
        rewrite Zlen_app in H2. exact H2.
      * constructor; [|exact H3]. unfold co_rel. rewrite Hf. exists (Zlen pre). reflexivity.
      * rewrite <- app_assoc in H4. constructor; [|exact H4].
        intros _. unfold lead_reqs at 1.
        change (l_nonlead_off (l_set_off l (Zlen pre))) with (Zlen pre).
        change (l_nonlead_num (l_set_off l (Zlen pre))) with (l_nonlead_num l).
        rewrite Hnum. apply slice_app3.
Qed.

Lemma kept_segs_len : forall leads segs, Zlen leads = Zlen segs -> Zlen (kept_segs leads segs) = Zlen leads.
Proof.
  induction leads as [|l leads IH]; intros segs H; destruct segs as [|sl ss]; cbn [kept_segs]; try reflexivity.
  - rewrite Zlen_cons, Zlen_nil in H. pose proof (Zlen_nonneg leads). lia.
  - rewrite !Zlen_cons in *. rewrite IH; lia.
Qed.

(* the segments of the kept leads are unchanged *)
Lemma kept_segs_F2 : forall (P : lead -> list req -> Prop) leads ls segs,
  Forall2 co_rel leads ls -> Forall2 P leads segs ->
  Forall2 (fun l' sl => l_to_free l' = false -> exists l, In l leads /\ co_rel l l' /\ P l sl) ls (kept_segs leads segs).
Proof.
  intros P leads ls segs H. revert segs.
  induction H as [|l l' leads ls Hll H IH]; intros segs HP; inversion HP as [|x y a b Hxy Hab]; subst; cbn [kept_segs]; constructor.
  - intros Hf. exists l. split; [left; reflexivity|]. split; [exact Hll|].
    destruct (co_rel_same _ _ Hll) as (_ & Hf' & _). rewrite Hf in Hf'. rewrite <- Hf'. exact Hxy.
  - eapply Forall2_impl; [|apply IH; exact Hab].
    intros l2 sl Hx Hf. destruct (Hx Hf) as (l0 & Hin & Hrest). exists l0. split; [right; exact Hin|exact Hrest].
Qed.

Definition kept (leads : list lead) : list lead := filter (fun l => negb (l_to_free l)) leads.

Fixpoint compact_segs (leads : list lead) (segs : list (list req)) (i j : Z) : list (list req) :=
  match leads, segs with
  | l :: r, sl :: ss =>
      if l_to_free l then compact_segs r ss (i + 1) j
      else (if j <? i then map (fun q => r_set_lead q j) sl else sl) :: compact_segs r ss (i + 1) (j + 1)
  | _, _ => []
  end.

Lemma set_lead_range_app : forall pre sl post j,
  set_lead_range (pre ++ sl ++ post) (Zlen pre) (Zlen sl) j = pre ++ map (fun q => r_set_lead q j) sl ++ post.
Proof.
  intros pre sl post j. unfold set_lead_range.
  rewrite zfirstn_app_len by reflexivity. rewrite slice_app3.
  replace (Zlen pre + Zlen sl) with (Zlen (pre ++ sl)) by apply Zlen_app.
  rewrite (app_assoc pre sl post), zskipn_app_len by reflexivity. reflexivity.
Qed.

Lemma compact_lay : forall leads segs pre i j,
  lay l_to_free leads segs (Zlen pre) i -> j <= i ->
  compact_leads leads (pre ++ concat segs) i j = (kept leads, pre ++ concat (compact_segs leads segs i j)) /\
  lay noskip (kept leads) (compact_segs leads segs i j) (Zlen pre) j.
Proof.
  induction leads as [|l leads IH]; intros segs pre i j Hl Hji;
    destruct segs as [|sl ss]; cbn [lay] in Hl; try contradiction; cbn [compact_leads compact_segs kept filter].
  - split; [reflexivity|exact I].
  - fold (kept leads). destruct (l_to_free l) eqn:Hf; cbn [negb].
    + destruct Hl as (-> & Hrest). cbn [concat app]. apply IH; [exact Hrest|lia].
    + destruct Hl as (Hoff & Hnum & Hne & Hfa & Hrest).
      set (sl' := if j <? i then map (fun q => r_set_lead q j) sl else sl).
      assert (Hlen' : Zlen sl' = Zlen sl).
      { unfold sl'. destruct (j <? i); [apply Zlen_map|reflexivity]. }
      assert (Hreqs : (if j <? i then set_lead_range (pre ++ concat (sl :: ss)) (l_nonlead_off l) (l_nonlead_num l) j
                       else pre ++ concat (sl :: ss)) = (pre ++ sl') ++ concat ss).
      { unfold sl'. cbn [concat]. destruct (j <? i).
        - rewrite Hoff, Hnum, set_lead_range_app, app_assoc. reflexivity.
        - rewrite app_assoc. reflexivity. }
      rewrite Hreqs.
      assert (Hrest' : lay l_to_free leads ss (Zlen (pre ++ sl')) (i + 1)).
      { rewrite Zlen_app, Hlen'. exact Hrest. }
      destruct (IH ss (pre ++ sl') (i + 1) (j + 1) Hrest' ltac:(lia)) as (Hc & Hlay).
      rewrite Hc. split.
      * cbn [concat]. rewrite <- app_assoc. reflexivity.
      * cbn [lay]. unfold noskip at 1. cbv iota. fold sl'.
        split; [exact Hoff|]. split; [rewrite Hlen'; exact Hnum|].
        split. { intros E. apply Hne. apply Zlen_zero_nil. rewrite <- Hlen', E. reflexivity. }
        split.
        { unfold sl'. destruct (j <? i) eqn:E.
          - apply Forall_forall. intros q Hq. apply in_map_iff in Hq. destruct Hq as (q0 & <- & _). reflexivity.
          - assert (j = i) by lia. subst j. exact Hfa. }
        rewrite Zlen_app in Hlay. exact Hlay.
Qed.

(* a property of (lead, segment) that does not look at the back pointers survives compaction *)
Lemma compact_segs_F2 : forall (P : lead -> list req -> Prop) leads segs i j,
  (forall l sl k, P l sl -> P l (map (fun q => r_set_lead q k) sl)) ->
  Forall2 (fun l sl => l_to_free l = false -> P l sl) leads segs ->
  Forall2 P (kept leads) (compact_segs leads segs i j).
Proof.
  intros P leads segs i j HP H. revert i j.
  induction H as [|l sl leads segs Hlsl H IH]; intros i j; cbn [kept filter compact_segs]; [constructor|].
  fold (kept leads). destruct (l_to_free l) eqn:Hf; cbn [negb]; [apply IH|].
  constructor; [|apply IH]. destruct (j <? i); [apply HP|]; apply Hlsl; reflexivity.
Qed.

Lemma kept_unflagged : forall leads, Forall (fun l => l_to_free l = false) (kept leads).
Proof.
  intros leads. apply Forall_forall. intros l Hl. apply filter_In in Hl. destruct Hl as (_ & Hl).
  destruct (l_to_free l); [discriminate|reflexivity].
Qed.

Lemma kept_all : forall leads, Forall (fun l => l_to_free l = false) leads -> kept leads = leads.
Proof.
  intros leads H. apply filter_all_true. eapply Forall_impl; [|exact H].
  intros l Hl. cbn beta in *. rewrite Hl. reflexivity.
Qed.

(* 4. what extract_reqs does to one queue *)
Definition xrel (reqs reqs2 : list req) (l l2 : lead) : Prop :=
  lead_same l l2 /\ (l_to_free l2 = false -> lead_reqs reqs2 l2 = lead_reqs reqs l).

(* the slices (in the queue as it was) of the leads that are flagged afterwards *)
Definition zipflag (reqs : list req) (leads leads2 : list lead) : list req :=
  flat_map (fun p => if l_to_free (snd p) then lead_reqs reqs (fst p) else []) (zip leads leads2).

Definition side_ok (leads : list lead) (reqs : list req) (leads2 : list lead) (reqs2 ext : list req) (nl : Z) : Prop :=
  Forall2 (xrel reqs reqs2) leads leads2 /\
  Permutation ext (zipflag reqs leads leads2) /\
  nl = Zlen (flagged leads2) /\
  exists segs, reqs2 = concat segs /\ lay l_to_free leads2 segs 0 0.

Lemma zipflag_char : forall reqs (b : lead -> bool) leads leads2,
  Forall2 (fun l l2 => l_to_free l2 = b l) leads leads2 ->
  zipflag reqs leads leads2 = flat_map (fun l => if b l then lead_reqs reqs l else []) leads.
Proof.
  intros reqs b leads leads2 H. unfold zipflag. induction H as [|l l2 leads leads2 Hl H IH]; [reflexivity|].
  cbn [zip flat_map fst snd]. rewrite Hl, IH. reflexivity.
Qed.

Lemma flagged_len_F2 : forall l1 l2, Forall2 (fun a b : lead => l_to_free b = l_to_free a) l1 l2 ->
  Zlen (flagged l1) = Zlen (flagged l2).
Proof.
  intros l1 l2 H. unfold flagged. induction H as [|a b l1 l2 Hab H IH]; [reflexivity|].
  cbn [filter]. rewrite Hab. destruct (l_to_free a); [rewrite !Zlen_cons, IH; reflexivity|exact IH].
Qed.

Lemma slices_ok_pos : forall leads reqs k i, slices_ok leads reqs k i -> Forall (fun l => 0 < l_nonlead_num l) leads.
Proof.
  induction leads as [|l leads IH]; intros reqs k i H; [constructor|].
  cbn [slices_ok] in H. destruct H as (_ & Hpos & _ & _ & Hrest). constructor; [exact Hpos|].
  eapply IH. exact Hrest.
Qed.

Lemma side_unchanged : forall isput maxid leads reqs,
  queue_inv isput maxid leads reqs -> side_ok leads reqs leads reqs [] 0.
Proof.
  intros isput maxid leads reqs Hq. pose proof Hq as (_ & _ & _ & _ & Hunf).
  destruct (queue_lay _ _ _ _ Hq) as (segs & Hc & Hl & _).
  split; [|split; [|split]].
  - apply Forall2_refl_In. intros l _. split; [apply lead_same_refl|reflexivity].
  - rewrite (zipflag_char reqs (fun _ => false)).
    + rewrite flat_map_nil_all. constructor.
    + apply Forall2_refl_In. intros l Hlin. rewrite Forall_forall in Hunf. apply Hunf. exact Hlin.
  - unfold flagged. rewrite w_filter_all_false by exact Hunf. reflexivity.
  - exists segs. split; [exact Hc|]. eapply lay_ext; [|exact Hl].
    apply Forall2_refl_In. intros l Hin. split.
    + unfold noskip. symmetry. rewrite Forall_forall in Hunf. apply Hunf. exact Hin.
    + intros _. split; reflexivity.
Qed.

Lemma flagged_of_to_free : forall leads leads2, Forall2 flagged_of leads leads2 ->
  Forall (fun l => l_to_free l = true) leads2.
Proof.
  intros leads leads2 H. induction H as [|l l2 leads leads2 (stt & ->) H IH]; constructor; [reflexivity|exact IH].
Qed.

Lemma side_all : forall isput maxid leads reqs leads2,
  queue_inv isput maxid leads reqs -> Forall2 flagged_of leads leads2 ->
  side_ok leads reqs leads2 [] reqs (Zlen leads).
Proof.
  intros isput maxid leads reqs leads2 Hq HF.
  destruct (queue_lay _ _ _ _ Hq) as (segs & Hc & Hl & Hsl).
  pose proof (flagged_of_to_free _ _ HF) as Hall.
  split; [|split; [|split]].
  - eapply Forall2_impl; [|exact HF]. intros l l2 (stt & ->). split; [apply lead_same_set_flag|].
    cbn. intros Hd. discriminate Hd.
  - rewrite (zipflag_char reqs (fun _ => true)).
    + change (flat_map (fun l => if (fun _ : lead => true) l then lead_reqs reqs l else []) leads)
        with (flat_map (lead_reqs reqs) leads).
      assert (E : flat_map (fun l : lead => lead_reqs reqs l) leads = concat segs)
        by (apply Forall2_concat; exact Hsl).
      rewrite E, <- Hc. apply Permutation_refl.
    + eapply Forall2_impl; [|exact HF]. intros l l2 (stt & ->). reflexivity.
  - unfold flagged. rewrite filter_all_true by exact Hall. apply (Forall2_Zlen _ _ _ _ _ HF).
  - exists (map (fun _ => []) leads2). split; [symmetry; apply concat_map_nil|].
    apply lay_all_skipped. exact Hall.
Qed.

Lemma co_rel_refl : forall l, co_rel l l.
Proof.
  intros l. unfold co_rel. destruct (l_to_free l); [reflexivity|].
  exists (l_nonlead_off l). destruct l; reflexivity.
Qed.

Lemma coalesce_co_rel : forall leads reqs k ls rs,
  coalesce_nonlead leads reqs k = (ls, rs) -> Forall2 co_rel leads ls.
Proof.
  induction leads as [|l leads IH]; intros reqs k ls rs H; cbn [coalesce_nonlead] in H.
  - inversion H; subst. constructor.
  - destruct (l_to_free l) eqn:Hf.
    + destruct (coalesce_nonlead leads reqs k) as [ls' rs'] eqn:Ec. inversion H; subst ls rs.
      constructor; [unfold co_rel; rewrite Hf; reflexivity|]. eapply IH. exact Ec.
    + destruct (coalesce_nonlead leads reqs (k + l_nonlead_num l)) as [ls' rs'] eqn:Ec. inversion H; subst ls rs.
      constructor; [unfold co_rel; rewrite Hf; exists k; reflexivity|]. eapply IH. exact Ec.
Qed.


Lemma copy_one_nosel : forall sel ll reqs ids, filter sel ids = [] -> flat_map (copy_one sel ll reqs) ids = [].
Proof.
  intros sel ll reqs. induction ids as [|x r IH]; intros H; [reflexivity|].
  cbn [filter] in H. cbn [flat_map]. unfold copy_one at 1. destruct (sel x); [discriminate|]. apply IH. exact H.
Qed.

(* the ids selected by a successful first loop are the ids of the flagged leads, once each *)
Lemma mark_perm : forall sel ids i hs leads c s leads1,
  NoDup (map l_id leads) -> Forall (fun l => l_to_free l = false) leads ->
  mark_list sel ids i hs leads = Some (leads1, c, s) ->
  Permutation (filter sel ids) (map l_id (flagged leads1)).
Proof.
  intros sel ids i hs leads c s leads1 Hnd Hunf Hm.
  pose proof (mark_list_map _ _ _ _ _ _ _ _ Hnd Hm) as H1.
  destruct (mark_list_pending _ _ _ _ _ _ _ _ Hnd Hm) as (Hp & Hnd2 & _ & _).
  pose proof (mark_list_ids _ _ _ _ _ _ _ _ Hnd Hm) as Hnd1.
  apply NoDup_Permutation; [exact Hnd2|apply w_NoDup_map_filter; exact Hnd1|].
  intros x. split.
  - intros Hx. apply filter_In in Hx. destruct Hx as (Hx & Hsx).
    destruct (Hp x Hx Hsx) as (l & Hl & Hid & Hf).
    apply in_map_iff. exists (mark_lead sel ids i hs l). split; [rewrite mark_lead_id; exact Hid|].
    apply filter_In. split; [rewrite H1; apply in_map; exact Hl|].
    apply (mark_lead_flag_iff _ _ _ _ _ Hf). rewrite Hid. apply filter_In. split; assumption.
  - intros Hx. apply in_map_iff in Hx. destruct Hx as (l1 & Hid & Hl1).
    apply filter_In in Hl1. destruct Hl1 as (Hl1 & Hf1).
    rewrite H1 in Hl1. apply in_map_iff in Hl1. destruct Hl1 as (l & <- & Hl).
    rewrite Forall_forall in Hunf. apply (mark_lead_flag_iff _ _ _ _ _ (Hunf l Hl)) in Hf1.
    rewrite mark_lead_id in Hid. rewrite <- Hid. exact Hf1.
Qed.

(* a first loop that selected no request left the leads as they were *)
Lemma mark_none : forall sel ids i hs leads c leads1 reqs,
  NoDup (map l_id leads) -> Forall (fun l => 0 < l_nonlead_num l) leads ->
  mark_list sel ids i hs leads = Some (leads1, c, 0) ->
  leads1 = leads /\ c = 0 /\ flat_map (copy_one sel leads1 reqs) ids = [].
Proof.
  intros sel ids i hs leads c leads1 reqs Hnd Hpos Hm.
  destruct (mark_list_pending _ _ _ _ _ _ _ _ Hnd Hm) as (_ & _ & Hc & Hs). specialize (Hs Hpos).
  assert (Hnil : filter sel ids = []).
  { apply Zlen_zero_nil. pose proof (Zlen_nonneg (filter sel ids)). lia. }
  split; [|split; [rewrite Hc, Hnil; reflexivity|apply copy_one_nosel; exact Hnil]].
  rewrite (mark_list_map _ _ _ _ _ _ _ _ Hnd Hm). erewrite map_ext; [apply map_id|].
  intros a. apply mark_lead_nosel. exact Hnil.
Qed.

(* the counter of the first loop is the number of leads it flagged, and the second loop copies out
   the slices of exactly those leads *)
Lemma mark_copy : forall sel ids i hs leads c s leads1 reqs,
  NoDup (map l_id leads) -> Forall (fun l => l_to_free l = false) leads ->
  mark_list sel ids i hs leads = Some (leads1, c, s) ->
  c = Zlen (flagged leads1) /\
  Permutation (flat_map (copy_one sel leads1 reqs) ids) (flat_map (lead_reqs reqs) (flagged leads1)).
Proof.
  intros sel ids i hs leads c s leads1 reqs Hnd Hunf Hm.
  pose proof (mark_perm _ _ _ _ _ _ _ _ Hnd Hunf Hm) as HP.
  split.
  - destruct (mark_list_pending _ _ _ _ _ _ _ _ Hnd Hm) as (_ & _ & -> & _).
    unfold Zlen. rewrite (Permutation_length HP), map_length. reflexivity.
  - change (flat_map (copy_one sel leads1 reqs) ids)
      with (flat_map (fun x => if sel x then match find_flagged leads1 x with
                                             | Some l => lead_reqs reqs l | None => [] end else []) ids).
    rewrite w_flat_map_filter, HP, flat_map_map_comm.
    erewrite flat_map_ext_In; [apply Permutation_refl|].
    intros l1 Hl1. apply filter_In in Hl1. destruct Hl1 as (Hin & Hf).
    rewrite (find_flagged_In _ _ (mark_list_ids _ _ _ _ _ _ _ _ Hnd Hm) Hin Hf). reflexivity.
Qed.

(* marking moves no slice: the marked leads lie on the same segments *)
Lemma mark_lay : forall sel ids i hs reqs leads segs k j,
  lay noskip leads segs k j -> Forall2 (fun l sl => lead_reqs reqs l = sl) leads segs ->
  lay noskip (map (mark_lead sel ids i hs) leads) segs k j /\
  Forall2 (fun l sl => lead_reqs reqs l = sl) (map (mark_lead sel ids i hs) leads) segs.
Proof.
  intros sel ids i hs reqs leads segs k j Hl Hsl. split.
  - eapply lay_ext; [|exact Hl]. apply Forall2_map_r. intros l _. split; [reflexivity|].
    intros _. rewrite mark_lead_off. pose proof (mark_lead_same sel ids i hs l) as (_ & _ & _ & Hn & _).
    split; [reflexivity|exact Hn].
  - apply Forall2_map_l. eapply Forall2_impl; [|exact Hsl].
    intros l sl E. rewrite mark_lead_reqs. exact E.
Qed.

Lemma side_subset : forall isput maxid leads reqs sel ids i hs leads1 c s leads2 reqs2,
  queue_inv isput maxid leads reqs ->
  mark_list sel ids i hs leads = Some (leads1, c, s) ->
  (if s =? 0 then (leads1, reqs) else coalesce_nonlead leads1 reqs 0) = (leads2, reqs2) ->
  side_ok leads reqs leads2 reqs2 (flat_map (copy_one sel leads1 reqs) ids) c /\
  leads1 = map (mark_lead sel ids i hs) leads /\ Forall2 co_rel leads1 leads2.
Proof.
  intros isput maxid leads reqs sel ids i hs leads1 c s leads2 reqs2 Hq Hm H2.
  pose proof Hq as (Hnd & _ & Hso & _ & Hunf).
  pose proof (mark_list_map _ _ _ _ _ _ _ _ Hnd Hm) as H1.
  destruct (s =? 0) eqn:Es.
  - (* nothing selected *)
    inversion H2; subst leads2 reqs2. assert (s = 0) by lia. subst s.
    destruct (mark_none _ _ _ _ _ _ _ reqs Hnd (slices_ok_pos _ _ _ _ Hso) Hm) as (E & -> & ->).
    split; [rewrite E; exact (side_unchanged _ _ _ _ Hq)|].
    split; [exact H1|apply Forall2_refl_In; intros l _; apply co_rel_refl].
  - destruct (mark_copy _ _ _ _ _ _ _ _ reqs Hnd Hunf Hm) as (Hc & Hcp).
    destruct (queue_lay _ _ _ _ Hq) as (segs & _ & Hl & Hsl).
    destruct (mark_lay sel ids i hs _ _ _ _ _ Hl Hsl) as (Hl1 & Hsl1). rewrite <- H1 in Hl1, Hsl1.
    destruct (coalesce_lay _ _ _ _ _ [] _ _ Hl1 Hsl1 H2) as (Hr2 & Hlay2 & Hco & Hx). cbn [app] in Hx.
    assert (Hfl : Forall2 (fun l1 l2 => l_to_free l2 = l_to_free l1) leads1 leads2).
    { eapply Forall2_impl; [|exact Hco]. intros a b Hab. apply co_rel_same in Hab. apply Hab. }
    split; [|split; [exact H1|exact Hco]].
    split; [|split; [|split]].
    + (* xrel *)
      pose proof (Forall2_and _ _ _ _ _ _ Hco Hx) as Hcx. rewrite H1 in Hcx. apply -> Forall2_map_l in Hcx.
      eapply Forall2_impl; [|exact Hcx].
      intros l l2 (Hab & Hxy). split.
      * eapply lead_same_trans; [apply mark_lead_same|]. apply co_rel_same in Hab. apply Hab.
      * intros Hf. rewrite (Hxy Hf). apply mark_lead_reqs.
    + (* the extracted requests: the slices of the leads flagged in leads1 *)
      rewrite Hcp. unfold flagged. rewrite <- w_flat_map_filter.
      rewrite H1 in Hfl |- *. apply -> Forall2_map_l in Hfl.
      rewrite (zipflag_char reqs _ _ _ Hfl), flat_map_map_comm.
      erewrite flat_map_ext_In; [apply Permutation_refl|].
      intros l _. cbn beta. rewrite mark_lead_reqs. reflexivity.
    + rewrite Hc. apply flagged_len_F2. exact Hfl.
    + exists (kept_segs leads1 segs). split; [exact Hr2|exact Hlay2].
Qed.

(* reduces the projections of `extracted` and `nbstate` records, nothing else (proofs of section 4 ff.) *)
Ltac ex_proj := cbn [ex_st ex_ids ex_stat ex_put ex_get ex_nwl ex_nrl ex_err
                     put_lead get_lead put_reqs get_reqs maxPutID maxGetID st_abuf st_numrecs st_mem
                     set_put set_get].

(* extract_reqs either hands over to its last branch, the subset path ... *)
Definition extract_subset (fx : bool) (st : nbstate) (ids : list Z) (hs : bool) (stat0 : list Z) : extracted :=
  let pl := put_lead st in let gl := get_lead st in
  let pr := put_reqs st in let gr := get_reqs st in
  let '(pl1, gl1, stat1, nwl, nwr, nrl, nrr, err) := ex_mark ids 0 hs pl gl stat0 0 0 0 0 NC_NOERR in
  if negb (err =? NC_NOERR) then
    if fx then mkex (set_get (set_put st (map unflag pl1) pr) (map unflag gl1) gr) ids stat1 [] [] 0 0 err
    else mkex (set_get (set_put st pl1 pr) gl1 gr) ids stat1 [] [] nwl nrl err
  else
    let '(ids', pe, ge) := ex_copy ids pl1 gl1 pr gr in
    let '(pl2, pr2) := if nwr =? 0 then (pl1, pr) else coalesce_nonlead pl1 pr 0 in
    let '(gl2, gr2) := if nrr =? 0 then (gl1, gr) else coalesce_nonlead gl1 gr 0 in
    mkex (set_get (set_put st pl2 pr2) gl2 gr2) ids' stat1 pe ge nwl nrl NC_NOERR.

(* ... or succeeds at once (n < 0, the three shortcuts) and takes each queue as a whole: untouched,
   or flagged from end to end and emptied *)
Definition whole_side (leads : list lead) (reqs : list req) (leads2 : list lead) (reqs2 ext : list req) (nl : Z) : Prop :=
  (leads2 = leads /\ reqs2 = reqs /\ ext = [] /\ nl = 0) \/
  (Forall2 flagged_of leads leads2 /\ reqs2 = [] /\ ext = reqs /\ nl = Zlen leads).

Lemma extract_paths : forall fx st n ids hs stat0,
  let ex := extract_reqs fx st n ids hs stat0 in
  ex = extract_subset fx st ids hs stat0 \/
  (ex_err ex = NC_NOERR /\
   whole_side (put_lead st) (put_reqs st) (put_lead (ex_st ex)) (put_reqs (ex_st ex)) (ex_put ex) (ex_nwl ex) /\
   whole_side (get_lead st) (get_reqs st) (get_lead (ex_st ex)) (get_reqs (ex_st ex)) (ex_get ex) (ex_nrl ex) /\
   maxPutID (ex_st ex) = maxPutID st /\ maxGetID (ex_st ex) = maxGetID st /\ st_abuf (ex_st ex) = st_abuf st).
Proof.
  intros fx st n ids hs stat0. unfold extract_reqs. cbv zeta.
  assert (HU : forall leads reqs, whole_side leads reqs leads reqs [] 0) by (left; repeat split).
  assert (HA : forall leads reqs, whole_side leads reqs (flag_all leads) [] reqs (Zlen leads))
    by (right; repeat split; apply flag_all_F2).
  assert (HS : forall leads reqs, whole_side leads reqs (flag_all_status leads 0) [] reqs (Zlen leads))
    by (right; repeat split; apply flag_all_status_F2).
  destruct (n <? 0).
  { right. destruct ((n =? NC_PUT_REQ_ALL) || (n =? NC_REQ_ALL)); destruct ((n =? NC_GET_REQ_ALL) || (n =? NC_REQ_ALL));
      ex_proj; repeat split; first [apply HU|apply HA]. }
  destruct ((Zlen (get_reqs st) =? 0) && (n =? Zlen (put_lead st)) && (negb fx || ids_in_order (put_lead st) ids n)).
  { right. destruct hs; ex_proj; repeat split; first [apply HU|apply HA|apply HS]. }
  destruct ((Zlen (put_reqs st) =? 0) && (n =? Zlen (get_lead st)) && (negb fx || ids_in_order (get_lead st) ids n)).
  { right. destruct hs; ex_proj; repeat split; first [apply HU|apply HA|apply HS]. }
  destruct ((n =? Zlen (put_lead st) + Zlen (get_lead st)) && negb hs && negb fx).
  { right. ex_proj. repeat split; apply HA. }
  left. reflexivity.
Qed.

Lemma extract_reqs_subset : forall fx st n ids hs stat0, 0 <= n ->
  (Zlen (get_reqs st) =? 0) && (n =? Zlen (put_lead st)) && (negb fx || ids_in_order (put_lead st) ids n) = false ->
  (Zlen (put_reqs st) =? 0) && (n =? Zlen (get_lead st)) && (negb fx || ids_in_order (get_lead st) ids n) = false ->
  (n =? Zlen (put_lead st) + Zlen (get_lead st)) && negb hs && negb fx = false ->
  extract_reqs fx st n ids hs stat0 = extract_subset fx st ids hs stat0.
Proof.
  intros fx st n ids hs stat0 Hn E1 E2 E3. unfold extract_reqs. cbv zeta.
  destruct (n <? 0) eqn:E0; [lia|]. rewrite E1, E2, E3. reflexivity.
Qed.

Lemma whole_side_ok : forall isput maxid leads reqs leads2 reqs2 ext nl,
  queue_inv isput maxid leads reqs -> whole_side leads reqs leads2 reqs2 ext nl ->
  side_ok leads reqs leads2 reqs2 ext nl.
Proof.
  intros isput maxid leads reqs leads2 reqs2 ext nl Hq [(-> & -> & -> & ->)|(HF & -> & -> & ->)].
  - exact (side_unchanged _ _ _ _ Hq).
  - exact (side_all _ _ _ _ _ Hq HF).
Qed.

Definition sides_ok (st : nbstate) (ex : extracted) : Prop :=
  side_ok (put_lead st) (put_reqs st) (put_lead (ex_st ex)) (put_reqs (ex_st ex)) (ex_put ex) (ex_nwl ex) /\
  side_ok (get_lead st) (get_reqs st) (get_lead (ex_st ex)) (get_reqs (ex_st ex)) (ex_get ex) (ex_nrl ex) /\
  maxPutID (ex_st ex) = maxPutID st /\ maxGetID (ex_st ex) = maxGetID st /\ st_abuf (ex_st ex) = st_abuf st.

(* the result ex of a successful subset path *)
Definition subset_res (st : nbstate) (ids : list Z) (hs : bool) (stat0 : list Z) (ex : extracted) : Prop :=
  exists pl1 gl1 stat1 c1 s1 c2 s2,
    ex_mark ids 0 hs (put_lead st) (get_lead st) stat0 0 0 0 0 NC_NOERR
      = (pl1, gl1, stat1, c1, s1, c2, s2, NC_NOERR) /\
    mark_list selp ids 0 hs (put_lead st) = Some (pl1, c1, s1) /\
    mark_list selg ids 0 hs (get_lead st) = Some (gl1, c2, s2) /\
    pl1 = map (mark_lead selp ids 0 hs) (put_lead st) /\
    gl1 = map (mark_lead selg ids 0 hs) (get_lead st) /\
    Forall2 co_rel pl1 (put_lead (ex_st ex)) /\
    Forall2 co_rel gl1 (get_lead (ex_st ex)) /\
    ex_ids ex = map (reset_one pl1 gl1) ids /\
    ex_stat ex = stat1.

Lemma extract_subset_ok : forall fx st ids hs stat0, nb_inv st ->
  ex_err (extract_subset fx st ids hs stat0) = NC_NOERR ->
  subset_res st ids hs stat0 (extract_subset fx st ids hs stat0) /\
  sides_ok st (extract_subset fx st ids hs stat0).
Proof.
  intros fx st ids hs stat0 (Hp & Hg). unfold subset_res, sides_ok, extract_subset. cbv zeta.
  destruct (ex_mark ids 0 hs (put_lead st) (get_lead st) stat0 0 0 0 0 NC_NOERR)
    as [[[[[[[pl1 gl1] stat1] nwl] nwr] nrl] nrr] err] eqn:Em.
  destruct (negb (err =? NC_NOERR)) eqn:Ee.
  { destruct fx; ex_proj; intros Herr; lia. }
  assert (err = NC_NOERR) by lia. subst err.
  destruct (ex_mark_spec _ _ _ _ _ _ _ _ _ _ _ _ _ _ _ _ _ _ Em) as (_ & c1 & s1 & c2 & s2 & Hm1 & Hm2 & -> & -> & -> & ->).
  rewrite ex_copy_spec. cbv iota beta.
  replace (0 + s1) with s1 by lia. replace (0 + s2) with s2 by lia.
  replace (0 + c1) with c1 by lia. replace (0 + c2) with c2 by lia.
  destruct (if s1 =? 0 then (pl1, put_reqs st) else coalesce_nonlead pl1 (put_reqs st) 0) as [pl2 pr2] eqn:Ep.
  destruct (if s2 =? 0 then (gl1, get_reqs st) else coalesce_nonlead gl1 (get_reqs st) 0) as [gl2 gr2] eqn:Eg.
  intros _. ex_proj.
  destruct (side_subset _ _ _ _ _ _ _ _ _ _ _ _ _ Hp Hm1 Ep) as (Hs1 & H1 & Hc1).
  destruct (side_subset _ _ _ _ _ _ _ _ _ _ _ _ _ Hg Hm2 Eg) as (Hs2 & H2 & Hc2).
  split; [exists pl1, gl1, stat1, c1, s1, c2, s2; repeat split; assumption|].
  split; [exact Hs1|]. split; [exact Hs2|]. repeat split.
Qed.

Lemma extract_sides : forall fx st n ids hs stat0, nb_inv st ->
  ex_err (extract_reqs fx st n ids hs stat0) = NC_NOERR -> sides_ok st (extract_reqs fx st n ids hs stat0).
Proof.
  intros fx st n ids hs stat0 Hinv Herr.
  destruct (extract_paths fx st n ids hs stat0) as [E|(_ & Wp & Wg & Hrest)].
  - rewrite E in *. apply extract_subset_ok; assumption.
  - destruct Hinv as (Hp & Hg).
    split; [exact (whole_side_ok _ _ _ _ _ _ _ _ Hp Wp)|]. split; [exact (whole_side_ok _ _ _ _ _ _ _ _ Hg Wg)|exact Hrest].
Qed.

(* W1. the leads keep their identity *)
Lemma F2_same_trans : forall a b c, Forall2 lead_same a b -> Forall2 lead_same b c -> Forall2 lead_same a c.
Proof.
  intros a b c H1 H2. eapply Forall2_impl; [|exact (Forall2_trans_mid _ _ _ _ _ _ _ _ H1 H2)].
  intros x z (y & _ & Hxy & Hyz). eapply lead_same_trans; eassumption.
Qed.

Lemma F2_same_refl : forall a, Forall2 lead_same a a.
Proof. intros a. apply Forall2_refl_In. intros x _. apply lead_same_refl. Qed.

(* the first loop only sets flags and status pointers, whether it succeeds or not *)
Definition flagrel (l l1 : lead) : Prop := exists tf stt, l1 = l_set_flag l tf stt.

Lemma flagrel_refl : forall l, flagrel l l.
Proof. intros l. exists (l_to_free l), (l_status l). destruct l; reflexivity. Qed.

Lemma flagrel_trans : forall a b c, flagrel a b -> flagrel b c -> flagrel a c.
Proof. intros a b c (tf1 & s1 & ->) (tf2 & s2 & ->). exists tf2, s2. reflexivity. Qed.

Lemma F2_flagrel_refl : forall a, Forall2 flagrel a a.
Proof. intros a. apply Forall2_refl_In. intros x _. apply flagrel_refl. Qed.

Lemma F2_flagrel_trans : forall a b c, Forall2 flagrel a b -> Forall2 flagrel b c -> Forall2 flagrel a c.
Proof.
  intros a b c H1 H2. eapply Forall2_impl; [|exact (Forall2_trans_mid _ _ _ _ _ _ _ _ H1 H2)].
  intros x z (y & _ & Hxy & Hyz). eapply flagrel_trans; eassumption.
Qed.

Lemma F2_flagrel_same : forall a b, Forall2 flagrel a b -> Forall2 lead_same a b.
Proof. intros a b H. eapply Forall2_impl; [|exact H]. intros x y (tf & stt & ->). apply lead_same_set_flag. Qed.

Lemma flag_first_flagrel : forall ll x stt ll' n, flag_first ll x stt = Some (ll', n) -> Forall2 flagrel ll ll'.
Proof.
  induction ll as [|l r IH]; intros x stt ll' n H; cbn [flag_first] in H; [discriminate|].
  destruct (negb (l_to_free l) && (l_id l =? x)).
  - inversion H; subst. constructor; [exists true, stt; reflexivity|apply F2_flagrel_refl].
  - destruct (flag_first r x stt) as [[r' n']|] eqn:Er; [|discriminate]. inversion H; subst.
    constructor; [apply flagrel_refl|]. eapply IH. exact Er.
Qed.

Lemma ex_mark_flagrel : forall ids i hs pl gl stat nwl nwr nrl nrr err pl1 gl1 stat1 a b c d e,
  ex_mark ids i hs pl gl stat nwl nwr nrl nrr err = (pl1, gl1, stat1, a, b, c, d, e) ->
  Forall2 flagrel pl pl1 /\ Forall2 flagrel gl gl1.
Proof.
  induction ids as [|x r IH]; intros i hs pl gl stat nwl nwr nrl nrr err pl1 gl1 stat1 a b c d e H; cbn [ex_mark] in H.
  - inversion H; subst. split; apply F2_flagrel_refl.
  - destruct (x =? NC_REQ_NULL); [eapply IH; exact H|].
    destruct (Z.rem x 2 =? 0).
    + destruct (flag_first pl x (if hs then Some i else None)) as [[pl' n]|] eqn:Ef; apply IH in H; [|exact H].
      destruct H as (H1 & H2). split; [exact (F2_flagrel_trans _ _ _ (flag_first_flagrel _ _ _ _ _ Ef) H1)|exact H2].
    + destruct (flag_first gl x (if hs then Some i else None)) as [[gl' n]|] eqn:Ef; apply IH in H; [|exact H].
      destruct H as (H1 & H2). split; [exact H1|exact (F2_flagrel_trans _ _ _ (flag_first_flagrel _ _ _ _ _ Ef) H2)].
Qed.

Lemma flagrel_unflag : forall a b, Forall2 flagrel a b -> map unflag b = map unflag a.
Proof.
  intros a b H. induction H as [|x y a b (tf & stt & ->) H IH]; [reflexivity|].
  cbn [map]. rewrite IH. reflexivity.
Qed.

(* the non-lead queue is coalesced only when some entry was extracted *)
Lemma maybe_coalesce_same : forall (b : bool) leads reqs ls rs,
  (if b then (leads, reqs) else coalesce_nonlead leads reqs 0) = (ls, rs) -> Forall2 lead_same leads ls.
Proof.
  intros b leads reqs ls rs H. destruct b.
  - inversion H; subst. apply F2_same_refl.
  - eapply Forall2_impl; [|exact (coalesce_co_rel _ _ _ _ _ H)]. intros x y Hxy. apply (co_rel_same _ _ Hxy).
Qed.

Theorem extract_leads_same : forall fx st n ids hs stat0,
  Forall2 lead_same (put_lead st) (put_lead (ex_st (extract_reqs fx st n ids hs stat0))) /\
  Forall2 lead_same (get_lead st) (get_lead (ex_st (extract_reqs fx st n ids hs stat0))).
Proof.
  intros fx st n ids hs stat0.
  destruct (extract_paths fx st n ids hs stat0) as [E|(_ & Wp & Wg & _)].
  2:{ assert (HW : forall leads reqs leads2 reqs2 ext nl,
                     whole_side leads reqs leads2 reqs2 ext nl -> Forall2 lead_same leads leads2).
      { intros leads reqs leads2 reqs2 ext nl [(-> & _)|(HF & _)]; [apply F2_same_refl|].
        eapply Forall2_impl; [|exact HF]. intros x y (stt & ->). apply lead_same_set_flag. }
      split; eapply HW; eassumption. }
  rewrite E. clear E. unfold extract_subset. cbv zeta.
  destruct (ex_mark ids 0 hs (put_lead st) (get_lead st) stat0 0 0 0 0 NC_NOERR)
    as [[[[[[[pl1 gl1] stat1] nwl] nwr] nrl] nrr] err] eqn:Em.
  destruct (ex_mark_flagrel _ _ _ _ _ _ _ _ _ _ _ _ _ _ _ _ _ _ _ Em) as (Hf1 & Hf2).
  pose proof (F2_flagrel_same _ _ Hf1) as Hm1. pose proof (F2_flagrel_same _ _ Hf2) as Hm2.
  destruct (negb (err =? NC_NOERR)).
  { destruct fx; ex_proj; [|split; assumption].
    split; (eapply F2_same_trans; [eassumption|]); apply Forall2_map_r; intros l _; apply lead_same_set_flag. }
  rewrite ex_copy_spec. cbv iota beta.
  destruct (if nwr =? 0 then (pl1, put_reqs st) else coalesce_nonlead pl1 (put_reqs st) 0) as [pl2 pr2] eqn:Ep.
  destruct (if nrr =? 0 then (gl1, get_reqs st) else coalesce_nonlead gl1 (get_reqs st) 0) as [gl2 gr2] eqn:Eg.
  ex_proj. split.
  - exact (F2_same_trans _ _ _ Hm1 (maybe_coalesce_same _ _ _ _ _ Ep)).
  - exact (F2_same_trans _ _ _ Hm2 (maybe_coalesce_same _ _ _ _ _ Eg)).
Qed.

(* W2. the extracted non-lead requests are the slices of the flagged leads *)
Theorem extract_put_slices : forall fx st n ids hs stat0, nb_inv st ->
  ex_err (extract_reqs fx st n ids hs stat0) = NC_NOERR ->
  Permutation (ex_put (extract_reqs fx st n ids hs stat0))
    (flat_map (fun p => if l_to_free (snd p) then lead_reqs (put_reqs st) (fst p) else [])
              (zip (put_lead st) (put_lead (ex_st (extract_reqs fx st n ids hs stat0))))) /\
  ex_nwl (extract_reqs fx st n ids hs stat0) = Zlen (flagged (put_lead (ex_st (extract_reqs fx st n ids hs stat0)))).
Proof.
  intros fx st n ids hs stat0 Hinv Herr.
  destruct (extract_sides fx st n ids hs stat0 Hinv Herr) as ((_ & Hperm & Hn & _) & _).
  split; [exact Hperm|exact Hn].
Qed.

Theorem extract_get_slices : forall fx st n ids hs stat0, nb_inv st ->
  ex_err (extract_reqs fx st n ids hs stat0) = NC_NOERR ->
  Permutation (ex_get (extract_reqs fx st n ids hs stat0))
    (flat_map (fun p => if l_to_free (snd p) then lead_reqs (get_reqs st) (fst p) else [])
              (zip (get_lead st) (get_lead (ex_st (extract_reqs fx st n ids hs stat0))))) /\
  ex_nrl (extract_reqs fx st n ids hs stat0) = Zlen (flagged (get_lead (ex_st (extract_reqs fx st n ids hs stat0)))).
Proof.
  intros fx st n ids hs stat0 Hinv Herr.
  destruct (extract_sides fx st n ids hs stat0 Hinv Herr) as (_ & (_ & Hperm & Hn & _) & _).
  split; [exact Hperm|exact Hn].
Qed.

(* W3. the extracted requests, annotated, address what the flagged leads were posted with *)
Lemma annotate_eq : forall X q l2, znth X (r_lead_off q) dummy_lead = l2 ->
  exists s e, annotate X q = mkareq q l2 s e.
Proof.
  intros X q l2 H. unfold annotate. rewrite H. destruct (access_range l2 q) as [s e]. exists s, e. reflexivity.
Qed.

Lemma seg_pairs_annot : forall isput X l l2 sl,
  lead_same l l2 -> chunk_ok isput l sl ->
  Forall (fun q => znth X (r_lead_off q) dummy_lead = l2) sl ->
  Forall areq_wf (map (annotate X) sl) /\ flat_map areq_pairs (map (annotate X) sl) = lead_pairs l2.
Proof.
  intros isput X l l2 sl Hs (_ & _ & Hwf & Hp) Hz.
  rewrite <- (lead_pairs_same _ _ Hs), <- Hp. clear Hp.
  pose proof Hs as (_ & Hg & Hst & _).
  induction sl as [|q sl IH]; [split; [constructor|reflexivity]|].
  pose proof (Forall_inv Hwf) as Hwq. pose proof (Forall_inv_tail Hwf) as Hwr.
  pose proof (Forall_inv Hz) as Hzq. pose proof (Forall_inv_tail Hz) as Hzr. cbn beta in Hwq, Hzq.
  destruct (IH Hwr Hzr) as (I1 & I2).
  destruct (annotate_eq _ _ _ Hzq) as (s & e & Ea).
  cbn [map flat_map]. rewrite Ea, I2. split.
  - constructor; [|exact I1]. apply (areq_wf_congr l l2 q q 0 0 s e); [symmetry; exact Hg|symmetry; exact Hst|reflexivity..|exact Hwq].
  - f_equal. apply areq_pairs_congr; [symmetry; exact Hg|symmetry; exact Hst|reflexivity..].
Qed.

Lemma zipflag_pairs : forall isput reqs X leads leads2,
  Forall2 (fun l l2 => lead_same l l2 /\ lead_wf isput reqs l /\
                       Forall (fun q => znth X (r_lead_off q) dummy_lead = l2) (lead_reqs reqs l)) leads leads2 ->
  Forall areq_wf (map (annotate X) (zipflag reqs leads leads2)) /\
  flat_map areq_pairs (map (annotate X) (zipflag reqs leads leads2)) = flat_map lead_pairs (flagged leads2).
Proof.
  intros isput reqs X leads leads2 H. unfold zipflag, flagged.
  induction H as [|l l2 leads leads2 (Hs & Hwf & Hz) H (I1 & I2)]; [split; [constructor|reflexivity]|].
  cbn [zip flat_map fst snd filter]. destruct (l_to_free l2).
  - destruct (seg_pairs_annot isput X l l2 _ Hs Hwf Hz) as (S1 & S2).
    rewrite map_app, flat_map_app. split.
    + apply Forall_app. split; assumption.
    + cbn [flat_map]. rewrite S2, I2. reflexivity.
  - cbn [app]. split; assumption.
Qed.

Lemma pairs_of_side : forall isput maxid leads reqs leads2 reqs2 ext nl,
  queue_inv isput maxid leads reqs -> side_ok leads reqs leads2 reqs2 ext nl ->
  Forall areq_wf (map (annotate leads2) ext) /\
  Permutation (flat_map areq_pairs (map (annotate leads2) ext)) (flat_map lead_pairs (flagged leads2)).
Proof.
  intros isput maxid leads reqs leads2 reqs2 ext nl Hq (HF & Hperm & _ & _).
  destruct (queue_lay _ _ _ _ Hq) as (segs & Hc & Hl & Hsl).
  pose proof Hq as (_ & _ & _ & Hwf & _).
  pose proof (lay_lead_off noskip leads segs [] leads2 0 _ _ Hl HF Hsl) as H3. cbn [app] in H3.
  assert (H4 : Forall2 (fun l l2 => lead_same l l2 /\ lead_wf isput reqs l /\
                 Forall (fun q => znth leads2 (r_lead_off q) dummy_lead = l2) (lead_reqs reqs l)) leads leads2).
  { eapply Forall2_impl; [|exact (Forall2_and_Forall_l _ _ _ _ _ _ Hwf H3)].
    intros l l2 (Hw & (Hs & _) & Hz). split; [exact Hs|]. split; [exact Hw|exact Hz]. }
  destruct (zipflag_pairs _ _ _ _ _ H4) as (Z1 & Z2).
  split.
  - eapply Permutation_Forall; [|exact Z1]. apply Permutation_map. apply Permutation_sym. exact Hperm.
  - rewrite <- Z2. apply Permutation_flat_map. apply Permutation_map. exact Hperm.
Qed.

Theorem wait_put_pairs : forall fx st n ids hs stat0, nb_inv st ->
  ex_err (extract_reqs fx st n ids hs stat0) = NC_NOERR ->
  Forall areq_wf (map (annotate (put_lead (ex_st (extract_reqs fx st n ids hs stat0))))
                      (ex_put (extract_reqs fx st n ids hs stat0))) /\
  Permutation (flat_map areq_pairs (map (annotate (put_lead (ex_st (extract_reqs fx st n ids hs stat0))))
                                        (ex_put (extract_reqs fx st n ids hs stat0))))
              (flat_map lead_pairs (flagged (put_lead (ex_st (extract_reqs fx st n ids hs stat0))))).
Proof.
  intros fx st n ids hs stat0 Hinv Herr.
  destruct (extract_sides fx st n ids hs stat0 Hinv Herr) as (Hs & _).
  destruct Hinv as (Hp & _). eapply pairs_of_side; eassumption.
Qed.

Theorem wait_get_pairs : forall fx st n ids hs stat0, nb_inv st ->
  ex_err (extract_reqs fx st n ids hs stat0) = NC_NOERR ->
  Forall areq_wf (map (annotate (get_lead (ex_st (extract_reqs fx st n ids hs stat0))))
                      (ex_get (extract_reqs fx st n ids hs stat0))) /\
  Permutation (flat_map areq_pairs (map (annotate (get_lead (ex_st (extract_reqs fx st n ids hs stat0))))
                                        (ex_get (extract_reqs fx st n ids hs stat0))))
              (flat_map lead_pairs (flagged (get_lead (ex_st (extract_reqs fx st n ids hs stat0))))).
Proof.
  intros fx st n ids hs stat0 Hinv Herr.
  destruct (extract_sides fx st n ids hs stat0 Hinv Herr) as (_ & Hs & _).
  destruct Hinv as (_ & Hg). eapply pairs_of_side; eassumption.
Qed.

(* W4. which leads get flagged *)
Theorem extract_all_flags : forall fx st n ids hs stat0, nb_inv st -> n < 0 ->
  ex_err (extract_reqs fx st n ids hs stat0) = NC_NOERR /\
  (forall l', In l' (put_lead (ex_st (extract_reqs fx st n ids hs stat0))) ->
     (l_to_free l' = true <-> (n = NC_PUT_REQ_ALL \/ n = NC_REQ_ALL))) /\
  (forall l', In l' (get_lead (ex_st (extract_reqs fx st n ids hs stat0))) ->
     (l_to_free l' = true <-> (n = NC_GET_REQ_ALL \/ n = NC_REQ_ALL))).
Proof.
  intros fx st n ids hs stat0 ((_ & _ & _ & _ & Hpu) & (_ & _ & _ & _ & Hgu)) Hn.
  unfold extract_reqs. cbv zeta. destruct (n <? 0) eqn:E0; [|lia].
  (* a queue is flagged from end to end or left alone, as a test b on n says *)
  assert (Hside : forall (b : bool) (P : Prop) leads l', (b = true <-> P) ->
             Forall (fun l => l_to_free l = false) leads ->
             In l' (if b then flag_all leads else leads) -> (l_to_free l' = true <-> P)).
  { intros b P leads l' Hb Hu Hin. rewrite <- Hb. destruct b.
    - apply in_map_iff in Hin. destruct Hin as (l & <- & _). split; reflexivity.
    - rewrite Forall_forall in Hu. rewrite (Hu _ Hin). split; intros H; exact H. }
  assert (Hwp : (n =? NC_PUT_REQ_ALL) || (n =? NC_REQ_ALL) = true <-> (n = NC_PUT_REQ_ALL \/ n = NC_REQ_ALL)) by lia.
  assert (Hwg : (n =? NC_GET_REQ_ALL) || (n =? NC_REQ_ALL) = true <-> (n = NC_GET_REQ_ALL \/ n = NC_REQ_ALL)) by lia.
  destruct ((n =? NC_PUT_REQ_ALL) || (n =? NC_REQ_ALL)); destruct ((n =? NC_GET_REQ_ALL) || (n =? NC_REQ_ALL));
    ex_proj; (split; [reflexivity|]); split; intros l' Hin.
  1,3,5,7: exact (Hside _ _ _ _ Hwp Hpu Hin).
  all: exact (Hside _ _ _ _ Hwg Hgu Hin).
Qed.

(* none of the two "same as PUT/GET_REQ_ALL" shortcuts *)
Definition no_shortcut (st : nbstate) (n : Z) : Prop :=
  ~ (Zlen (get_reqs st) = 0 /\ n = Zlen (put_lead st)) /\
  ~ (Zlen (put_reqs st) = 0 /\ n = Zlen (get_lead st)).

(* when none of the shortcut conditions holds, a successful call went through the subset path *)
Lemma subset_path_struct : forall fx st n ids hs stat0,
  nb_inv st -> 0 <= n ->
  (Zlen (get_reqs st) =? 0) && (n =? Zlen (put_lead st)) && (negb fx || ids_in_order (put_lead st) ids n) = false ->
  (Zlen (put_reqs st) =? 0) && (n =? Zlen (get_lead st)) && (negb fx || ids_in_order (get_lead st) ids n) = false ->
  (n =? Zlen (put_lead st) + Zlen (get_lead st)) && negb hs && negb fx = false ->
  ex_err (extract_reqs fx st n ids hs stat0) = NC_NOERR ->
  subset_res st ids hs stat0 (extract_reqs fx st n ids hs stat0).
Proof.
  intros fx st n ids hs stat0 Hinv Hn E1 E2 E3. rewrite (extract_reqs_subset fx st n ids hs stat0 Hn E1 E2 E3).
  intros Herr. apply extract_subset_ok; assumption.
Qed.

(* the unrepaired library (fx = false): the third shortcut needs statuses == NULL *)
Lemma subset_struct : forall st n ids hs stat0,
  nb_inv st -> no_shortcut st n -> 0 <= n ->
  (hs = true \/ n <> Zlen (put_lead st) + Zlen (get_lead st)) ->
  ex_err (extract_reqs false st n ids hs stat0) = NC_NOERR ->
  subset_res st ids hs stat0 (extract_reqs false st n ids hs stat0).
Proof.
  intros st n ids hs stat0 Hinv (Hns1 & Hns2) Hn Hhs Herr.
  apply subset_path_struct; try assumption; cbn [negb orb]; rewrite ?andb_true_r.
  - destruct ((Zlen (get_reqs st) =? 0) && (n =? Zlen (put_lead st))) eqn:E1; [exfalso; apply Hns1; lia|reflexivity].
  - destruct ((Zlen (put_reqs st) =? 0) && (n =? Zlen (get_lead st))) eqn:E2; [exfalso; apply Hns2; lia|reflexivity].
  - destruct Hhs as [->|Hne]; [cbn [negb]; apply andb_false_r|].
    destruct (n =? Zlen (put_lead st) + Zlen (get_lead st)) eqn:E; [lia|reflexivity].
Qed.

Lemma queue_ids_sel : forall isput maxid leads reqs, queue_inv isput maxid leads reqs ->
  forall l, In l leads -> (if isput then selp else selg) (l_id l) = true.
Proof.
  intros isput maxid leads reqs (_ & _ & _ & Hwf & _) l Hl. rewrite Forall_forall in Hwf.
  destruct (Hwf l Hl) as (He & Hid & _).
  destruct isput; [unfold selp|unfold selg]; rewrite w_rem2_even, He; unfold NC_REQ_NULL; lia.
Qed.

(* ---- consequences of subset_res, either variant ---- *)
Lemma subset_res_leads : forall st ids hs stat0 ex, nb_inv st -> subset_res st ids hs stat0 ex ->
  forall l', In l' (put_lead (ex_st ex) ++ get_lead (ex_st ex)) ->
  exists sel l, sel (l_id l) = true /\ l_to_free l = false /\ co_rel (mark_lead sel ids 0 hs l) l'.
Proof.
  intros st ids hs stat0 ex (Hp & Hg) (pl1 & gl1 & stat1 & c1 & s1 & c2 & s2 & _ & _ & _ & -> & -> & Hc1 & Hc2 & _) l' Hin.
  apply in_app_or in Hin. destruct Hin as [Hin|Hin].
  - destruct (Forall2_In_r _ _ _ _ _ _ Hc1 Hin) as (l1 & Hl1 & Hrel).
    apply in_map_iff in Hl1. destruct Hl1 as (l & <- & Hl).
    exists selp, l. split; [exact (queue_ids_sel true _ _ _ Hp l Hl)|]. split; [|exact Hrel].
    destruct Hp as (_ & _ & _ & _ & Hu). rewrite Forall_forall in Hu. exact (Hu l Hl).
  - destruct (Forall2_In_r _ _ _ _ _ _ Hc2 Hin) as (l1 & Hl1 & Hrel).
    apply in_map_iff in Hl1. destruct Hl1 as (l & <- & Hl).
    exists selg, l. split; [exact (queue_ids_sel false _ _ _ Hg l Hl)|]. split; [|exact Hrel].
    destruct Hg as (_ & _ & _ & _ & Hu). rewrite Forall_forall in Hu. exact (Hu l Hl).
Qed.

Lemma subset_res_flags : forall st ids hs stat0 ex, nb_inv st -> subset_res st ids hs stat0 ex ->
  forall l', In l' (put_lead (ex_st ex) ++ get_lead (ex_st ex)) -> (l_to_free l' = true <-> In (l_id l') ids).
Proof.
  intros st ids hs stat0 ex Hinv Hres l' Hin.
  destruct (subset_res_leads _ _ _ _ _ Hinv Hres l' Hin) as (sel & l & Hsel & Hf & Hrel).
  destruct (co_rel_same _ _ Hrel) as (Hs & Hf' & _).
  rewrite Hf', <- (lead_same_id _ _ Hs), mark_lead_id, (mark_lead_flag_iff _ _ _ _ _ Hf), filter_In. tauto.
Qed.

Lemma subset_res_status : forall st ids stat0 ex, nb_inv st -> subset_res st ids true stat0 ex ->
  forall l' i, In l' (put_lead (ex_st ex) ++ get_lead (ex_st ex)) ->
  l_to_free l' = true -> l_status l' = Some i -> znth ids i NC_REQ_NULL = l_id l'.
Proof.
  intros st ids stat0 ex Hinv Hres l' i Hin Hf Hst.
  destruct (subset_res_leads _ _ _ _ _ Hinv Hres l' Hin) as (sel & l & Hsel & Hf0 & Hrel).
  destruct (co_rel_same _ _ Hrel) as (Hs & Hf' & Hst'). rewrite Hf' in Hf. rewrite Hst' in Hst.
  destruct (mark_lead_status sel ids 0 l i Hf0 Hf Hst) as (Hk & Hz). replace (i - 0) with i in Hz by lia.
  rewrite <- (lead_same_id _ _ Hs), mark_lead_id. exact Hz.
Qed.

Lemma sel_found : forall sel ids i hs leads leads1 c s,
  NoDup (map l_id leads) -> Forall (fun l => l_to_free l = false) leads ->
  mark_list sel ids i hs leads = Some (leads1, c, s) ->
  forall x, In x ids -> sel x = true -> exists l1, find_flagged leads1 x = Some l1.
Proof.
  intros sel ids i hs leads leads1 c s Hnd Hunf Hm x Hx Hsx.
  assert (Hin : In x (map l_id (flagged leads1))).
  { apply (Permutation_in _ (mark_perm _ _ _ _ _ _ _ _ Hnd Hunf Hm)), filter_In. split; assumption. }
  apply in_map_iff in Hin. destruct Hin as (l1 & <- & Hl1). apply filter_In in Hl1. destruct Hl1 as (Hl1 & Hf1).
  exists l1. exact (find_flagged_In _ _ (mark_list_ids _ _ _ _ _ _ _ _ Hnd Hm) Hl1 Hf1).
Qed.

Lemma subset_res_ids : forall st ids hs stat0 ex, nb_inv st -> subset_res st ids hs stat0 ex ->
  forall i, 0 <= i < Zlen ids -> znth (ex_ids ex) i 0 = NC_REQ_NULL.
Proof.
  intros st ids hs stat0 ex Hinv Hres i Hi.
  destruct Hres as (pl1 & gl1 & stat1 & c1 & s1 & c2 & s2 & _ & Hm1 & Hm2 & _ & _ & _ & _ & -> & _).
  destruct Hinv as ((Hnd1 & _ & _ & _ & Hu1) & (Hnd2 & _ & _ & _ & Hu2)).
  rewrite (znth_map _ _ _ 0 0 Hi).
  pose proof (znth_In ids i 0 Hi) as Hin. set (x := znth ids i 0) in *.
  unfold reset_one. destruct (x =? NC_REQ_NULL) eqn:En; [lia|].
  destruct (Z.rem x 2 =? 0) eqn:Ep.
  - destruct (sel_found _ _ _ _ _ _ _ _ Hnd1 Hu1 Hm1 x Hin) as (l1 & ->); [|reflexivity].
    unfold selp. rewrite En, Ep. reflexivity.
  - destruct (sel_found _ _ _ _ _ _ _ _ Hnd2 Hu2 Hm2 x Hin) as (l1 & ->); [|reflexivity].
    unfold selg. rewrite En, Ep. reflexivity.
Qed.

Lemma subset_res_stat : forall st ids stat0 ex, subset_res st ids true stat0 ex ->
  forall i, 0 <= i < Zlen ids -> Zlen stat0 = Zlen ids -> znth (ex_stat ex) i 0 = NC_NOERR.
Proof.
  intros st ids stat0 ex Hres i Hi Hlen.
  destruct Hres as (pl1 & gl1 & stat1 & c1 & s1 & c2 & s2 & Hm & _ & _ & _ & _ & _ & _ & _ & ->).
  destruct (ex_mark_stat _ _ _ _ _ _ _ _ _ _ _ _ _ _ _ _ _ Hm ltac:(lia)) as (_ & Hin & _).
  apply Hin; lia.
Qed.

(* the ids the two first loops select between them: all but NC_REQ_NULL *)
Lemma sel_split : forall x, negb (x =? NC_REQ_NULL) = selp x || selg x.
Proof. intros x. unfold selp, selg. destruct (x =? NC_REQ_NULL), (Z.rem x 2 =? 0); reflexivity. Qed.

Lemma NoDup_filter_or : forall A (p q r : A -> bool) l, (forall x, p x = q x || r x) ->
  NoDup (filter q l) -> NoDup (filter r l) -> NoDup (filter p l).
Proof.
  intros A p q r l Hp. induction l as [|x l IH]; intros Hq Hr; [constructor|]. cbn [filter] in *. rewrite Hp.
  assert (Hq' : NoDup (filter q l)) by (destruct (q x); [apply NoDup_cons_iff in Hq; apply Hq|exact Hq]).
  assert (Hr' : NoDup (filter r l)) by (destruct (r x); [apply NoDup_cons_iff in Hr; apply Hr|exact Hr]).
  specialize (IH Hq' Hr').
  destruct (q x) eqn:Eq; [|destruct (r x) eqn:Er]; cbn [orb]; [| |exact IH]; constructor; try exact IH.
  - apply NoDup_cons_iff in Hq. intros Hin. apply Hq. apply filter_In in Hin. apply filter_In.
    split; [apply Hin|exact Eq].
  - apply NoDup_cons_iff in Hr. intros Hin. apply Hr. apply filter_In in Hin. apply filter_In.
    split; [apply Hin|exact Er].
Qed.

Lemma subset_res_pending : forall st ids hs stat0 ex, nb_inv st -> subset_res st ids hs stat0 ex ->
  NoDup (filter (fun x => negb (x =? NC_REQ_NULL)) ids) /\
  forall x, In x ids -> x <> NC_REQ_NULL -> exists l, In l (put_lead st ++ get_lead st) /\ l_id l = x.
Proof.
  intros st ids hs stat0 ex Hinv Hres.
  destruct Hres as (pl1 & gl1 & stat1 & c1 & s1 & c2 & s2 & _ & Hm1 & Hm2 & _).
  destruct Hinv as ((Hnd1 & _) & (Hnd2 & _)).
  destruct (mark_list_pending _ _ _ _ _ _ _ _ Hnd1 Hm1) as (Hp1 & Hn1 & _).
  destruct (mark_list_pending _ _ _ _ _ _ _ _ Hnd2 Hm2) as (Hp2 & Hn2 & _).
  split; [exact (NoDup_filter_or _ _ _ _ _ sel_split Hn1 Hn2)|].
  intros x Hx Hne. assert (Hs : selp x || selg x = true) by (rewrite <- sel_split; lia).
  apply orb_true_iff in Hs. destruct Hs as [Hs|Hs].
  - destruct (Hp1 x Hx Hs) as (l & Hl & Hid & _). exists l. split; [apply in_or_app; left; exact Hl|exact Hid].
  - destruct (Hp2 x Hx Hs) as (l & Hl & Hid & _). exists l. split; [apply in_or_app; right; exact Hl|exact Hid].
Qed.

(* ---- fx = false: the unrepaired library ---- *)
Theorem subset_flags_gen : forall st n ids hs stat0,
  nb_inv st -> no_shortcut st n -> 0 <= n ->
  (hs = true \/ n <> Zlen (put_lead st) + Zlen (get_lead st)) ->
  ex_err (extract_reqs false st n ids hs stat0) = NC_NOERR ->
  forall l', In l' (put_lead (ex_st (extract_reqs false st n ids hs stat0)) ++
                    get_lead (ex_st (extract_reqs false st n ids hs stat0))) ->
  (l_to_free l' = true <-> In (l_id l') ids).
Proof.
  intros st n ids hs stat0 Hinv Hns Hn Hhs Herr.
  eapply subset_res_flags; [exact Hinv|]. apply subset_struct; assumption.
Qed.

Theorem subset_flags : forall st n ids stat0,
  nb_inv st -> no_shortcut st n -> 0 <= n ->
  ex_err (extract_reqs false st n ids true stat0) = NC_NOERR ->
  forall l', In l' (put_lead (ex_st (extract_reqs false st n ids true stat0)) ++
                    get_lead (ex_st (extract_reqs false st n ids true stat0))) ->
  (l_to_free l' = true <-> In (l_id l') ids).
Proof.
  intros st n ids stat0 Hinv Hns Hn Herr. eapply subset_flags_gen; try eassumption. left. reflexivity.
Qed.

(* the status pointer of a completed request is the slot of the position that names it *)
Theorem status_own_partial : forall st n ids stat0,
  nb_inv st -> no_shortcut st n -> 0 <= n ->
  ex_err (extract_reqs false st n ids true stat0) = NC_NOERR ->
  forall l' i, In l' (put_lead (ex_st (extract_reqs false st n ids true stat0)) ++
                      get_lead (ex_st (extract_reqs false st n ids true stat0))) ->
  l_to_free l' = true -> l_status l' = Some i ->
  znth ids i NC_REQ_NULL = l_id l'.
Proof.
  intros st n ids stat0 Hinv Hns Hn Herr.
  eapply subset_res_status; [exact Hinv|]. apply subset_struct; try assumption. left. reflexivity.
Qed.

(* every named id is reset; NULL ids stay NULL *)
Theorem subset_ids_reset_gen : forall st n ids hs stat0,
  nb_inv st -> no_shortcut st n -> 0 <= n ->
  (hs = true \/ n <> Zlen (put_lead st) + Zlen (get_lead st)) ->
  ex_err (extract_reqs false st n ids hs stat0) = NC_NOERR ->
  forall i, 0 <= i < Zlen ids -> znth (ex_ids (extract_reqs false st n ids hs stat0)) i 0 = NC_REQ_NULL.
Proof.
  intros st n ids hs stat0 Hinv Hns Hn Hhs Herr.
  eapply subset_res_ids; [exact Hinv|]. apply subset_struct; assumption.
Qed.

Theorem subset_ids_reset : forall st n ids stat0,
  nb_inv st -> no_shortcut st n -> 0 <= n ->
  ex_err (extract_reqs false st n ids true stat0) = NC_NOERR ->
  forall i, 0 <= i < Zlen ids -> znth (ex_ids (extract_reqs false st n ids true stat0)) i 0 = NC_REQ_NULL.
Proof.
  intros st n ids stat0 Hinv Hns Hn Herr. eapply subset_ids_reset_gen; try eassumption. left. reflexivity.
Qed.

Theorem subset_statuses : forall st n ids stat0,
  nb_inv st -> no_shortcut st n -> 0 <= n ->
  ex_err (extract_reqs false st n ids true stat0) = NC_NOERR ->
  forall i, 0 <= i < Zlen ids -> Zlen stat0 = Zlen ids ->
  znth (ex_stat (extract_reqs false st n ids true stat0)) i 0 = NC_NOERR.
Proof.
  intros st n ids stat0 Hinv Hns Hn Herr.
  eapply subset_res_stat. apply subset_struct; try assumption. left. reflexivity.
Qed.

(* success of the subset path: every non-NULL id names a pending request and occurs once *)
Theorem subset_ids_pending : forall st n ids hs stat0,
  nb_inv st -> no_shortcut st n -> 0 <= n ->
  (hs = true \/ n <> Zlen (put_lead st) + Zlen (get_lead st)) ->
  ex_err (extract_reqs false st n ids hs stat0) = NC_NOERR ->
  NoDup (filter (fun x => negb (x =? NC_REQ_NULL)) ids) /\
  forall x, In x ids -> x <> NC_REQ_NULL -> exists l, In l (put_lead st ++ get_lead st) /\ l_id l = x.
Proof.
  intros st n ids hs stat0 Hinv Hns Hn Hhs Herr.
  eapply subset_res_pending; [exact Hinv|]. apply subset_struct; eassumption.
Qed.

(* W5. wait_one preserves the queue invariant *)
(* the state between extract_reqs and commit_post: flagged leads own nothing any more, the kept
   leads own consecutive slices of the coalesced queue, whose entries still point to the OLD
   index of their lead (position in the full lead list) *)
Definition mid_inv (isput : bool) (maxid : Z) (leads : list lead) (reqs : list req) : Prop :=
  NoDup (map l_id leads) /\ Forall (fun l => l_id l <= maxid) leads /\
  (exists segs, reqs = concat segs /\ lay l_to_free leads segs 0 0) /\
  Forall (fun l => l_to_free l = false -> lead_wf isput reqs l) leads.

Lemma xrel_ids : forall reqs reqs2 leads leads2, Forall2 (xrel reqs reqs2) leads leads2 ->
  map l_id leads = map l_id leads2.
Proof.
  intros reqs reqs2 leads leads2 H. eapply F2_same_ids; [|exact H]. intros x y (Hs & _). apply Hs.
Qed.

Lemma side_mid : forall isput maxid leads reqs leads2 reqs2 ext nl,
  queue_inv isput maxid leads reqs -> side_ok leads reqs leads2 reqs2 ext nl ->
  mid_inv isput maxid leads2 reqs2.
Proof.
  intros isput maxid leads reqs leads2 reqs2 ext nl (Hnd & Hmax & _ & Hwf & _) (HF & _ & _ & Hsegs).
  split; [rewrite <- (xrel_ids _ _ _ _ HF); exact Hnd|]. split; [|split; [exact Hsegs|]].
  - apply Forall_forall. intros l2 Hl2. destruct (Forall2_In_r _ _ _ _ _ _ HF Hl2) as (l & Hl & (Hs & _)).
    rewrite Forall_forall in Hmax. rewrite <- (lead_same_id _ _ Hs). apply Hmax. exact Hl.
  - apply Forall_forall. intros l2 Hl2 Hf. destruct (Forall2_In_r _ _ _ _ _ _ HF Hl2) as (l & Hl & (Hs & Hr)).
    rewrite Forall_forall in Hwf. specialize (Hwf l Hl). rewrite lead_wf_chunk in *.
    rewrite (Hr Hf). eapply chunk_ok_same; [exact Hs|reflexivity|exact Hwf].
Qed.

(* a middle state without flagged leads is a queue *)
Lemma mid_unflagged : forall isput maxid leads reqs,
  mid_inv isput maxid leads reqs -> Forall (fun l => l_to_free l = false) leads ->
  queue_inv isput maxid leads reqs.
Proof.
  intros isput maxid leads reqs (Hnd & Hmax & (segs & Hc & Hlay) & Hwf) Hunf.
  split; [exact Hnd|]. split; [exact Hmax|]. split; [|split; [|exact Hunf]].
  - pose proof (lay_slices_ok l_to_free leads segs [] 0 Hunf Hlay) as Hso. cbn [app] in Hso.
    rewrite <- Hc in Hso. exact Hso.
  - rewrite Forall_forall in *. intros l Hl. apply Hwf; [exact Hl|apply Hunf; exact Hl].
Qed.

(* compaction of a middle state is a queue of the kept leads, whose slices differ from the ones they
   had in the back pointers only *)
Lemma mid_compact : forall isput maxid leads reqs, mid_inv isput maxid leads reqs ->
  exists rs, compact_leads leads reqs 0 0 = (kept leads, rs) /\ queue_inv isput maxid (kept leads) rs /\
    Forall (fun l => map req_core (lead_reqs rs l) = map req_core (lead_reqs reqs l)) (kept leads).
Proof.
  intros isput maxid leads reqs (Hnd & Hmax & (segs & Hc & Hlay) & Hwf).
  pose proof (lay_lead_reqs l_to_free leads segs [] 0 Hlay) as Hsl. cbn [app] in Hsl. rewrite <- Hc in Hsl.
  destruct (compact_lay leads segs [] 0 0 Hlay ltac:(lia)) as (Hcl & Hlay3). cbn [app] in Hcl.
  rewrite <- Hc in Hcl. set (cs := compact_segs leads segs 0 0) in *. exists (concat cs). split; [exact Hcl|].
  pose proof (lay_lead_reqs noskip (kept leads) cs [] 0 Hlay3) as Hsl3. cbn [app] in Hsl3.
  (* properties of the segments that survive compaction *)
  assert (HP : Forall2 (fun l sl => chunk_ok isput l sl /\ map req_core sl = map req_core (lead_reqs reqs l))
                       (kept leads) cs).
  { apply (compact_segs_F2 (fun l sl => chunk_ok isput l sl /\ map req_core sl = map req_core (lead_reqs reqs l))).
    - intros l sl k (H1 & H2). rewrite <- (req_core_set_lead (fun _ => k) sl) in H2.
      split; [|exact H2]. revert H1. apply chunk_ok_same; [apply lead_same_refl|].
      symmetry. apply (req_core_set_lead (fun _ => k)).
    - eapply Forall2_impl; [|exact (Forall2_and_Forall_l _ _ _ _ _ _ Hwf Hsl)].
      intros l sl (Hw & He) Hf. specialize (Hw Hf). specialize (He Hf). rewrite lead_wf_chunk in Hw.
      rewrite <- He. split; [exact Hw|reflexivity]. }
  pose proof (Forall2_and _ _ _ _ _ _ Hsl3 HP) as HQ.
  split.
  - split; [apply w_NoDup_map_filter; exact Hnd|]. split; [|split; [|split]].
    + apply Forall_forall. intros l Hl. apply filter_In in Hl. rewrite Forall_forall in Hmax. apply Hmax. apply Hl.
    + pose proof (lay_slices_ok noskip (kept leads) cs [] 0) as Hso. cbn [app] in Hso. apply Hso; [|exact Hlay3].
      apply Forall_forall. intros l _. reflexivity.
    + eapply Forall2_ignore_r. eapply Forall2_impl; [|exact HQ].
      intros l sl (He & Hw & _). rewrite lead_wf_chunk. rewrite (He eq_refl). exact Hw.
    + apply kept_unflagged.
  - eapply Forall2_ignore_r. eapply Forall2_impl; [|exact HQ].
    intros l sl (He & _ & Hcore). rewrite (He eq_refl). exact Hcore.
Qed.

Lemma post_side_ok : forall isput maxid leads reqs nl ls rs,
  mid_inv isput maxid leads reqs -> nl = Zlen (flagged leads) ->
  post_side nl leads reqs = (ls, rs) ->
  queue_inv isput maxid ls rs /\ ls = kept leads /\
  Forall (fun l => map req_core (lead_reqs rs l) = map req_core (lead_reqs reqs l)) ls.
Proof.
  intros isput maxid leads reqs nl ls rs Hmid Hnl Hps. unfold post_side in Hps.
  destruct (nl >? 0) eqn:En.
  - destruct (mid_compact _ _ _ _ Hmid) as (rs' & Hcl & Hq & Hcore). rewrite Hcl in Hps.
    (* with no lead left the queue is dropped, and was empty *)
    assert (Hrs : rs = rs' /\ ls = kept leads).
    { destruct (kept leads) as [|k0 kr]; inversion Hps; subst ls rs; [|split; reflexivity].
      destruct Hq as (_ & _ & Hso & _). cbn [slices_ok] in Hso.
      split; [symmetry; apply Zlen_zero_nil; symmetry; exact Hso|reflexivity]. }
    destruct Hrs as (-> & ->). split; [exact Hq|]. split; [reflexivity|exact Hcore].
  - inversion Hps; subst ls rs. clear Hps.
    assert (Hunf : Forall (fun l => l_to_free l = false) leads).
    { apply w_filter_nil_Forall. apply Zlen_zero_nil.
      pose proof (Zlen_nonneg (flagged leads)). unfold flagged in *. lia. }
    split; [exact (mid_unflagged _ _ _ _ Hmid Hunf)|]. split; [symmetry; apply kept_all; exact Hunf|].
    apply Forall_forall. intros l _. reflexivity.
Qed.

(* commit_io does not touch the queues *)
Lemma commit_io_fields : forall sr ss st pe ge dw dr nn file,
  put_lead (fst (commit_io sr ss st pe ge dw dr nn file)) = put_lead st /\
  put_reqs (fst (commit_io sr ss st pe ge dw dr nn file)) = put_reqs st /\
  get_lead (fst (commit_io sr ss st pe ge dw dr nn file)) = get_lead st /\
  get_reqs (fst (commit_io sr ss st pe ge dw dr nn file)) = get_reqs st /\
  maxPutID (fst (commit_io sr ss st pe ge dw dr nn file)) = maxPutID st /\
  maxGetID (fst (commit_io sr ss st pe ge dw dr nn file)) = maxGetID st.
Proof.
  intros sr ss st pe ge dw dr nn file. unfold commit_io. cbv zeta. cbn [fst].
  destruct (dw && (st_numrecs st <? nn)); destruct dr; repeat split; reflexivity.
Qed.

Lemma wait_one_noerr : forall sr ss fx st a file,
  wr_rc (fst (wait_one sr ss fx st a file)) = NC_NOERR ->
  ex_err (extract_reqs fx st (wa_n a) (wa_ids a) (wa_has_stat a) (wa_stat0 a)) = NC_NOERR.
Proof.
  intros sr ss fx st a file. unfold wait_one. cbv zeta.
  destruct (negb (ex_err _ =? NC_NOERR)) eqn:Ee; [cbn [fst wr_rc]|]; lia.
Qed.

Lemma wait_one_unfold : forall sr ss fx st a file,
  ex_err (extract_reqs fx st (wa_n a) (wa_ids a) (wa_has_stat a) (wa_stat0 a)) = NC_NOERR ->
  wait_one sr ss fx st a file =
  (let ex := extract_reqs fx st (wa_n a) (wa_ids a) (wa_has_stat a) (wa_stat0 a) in
   let ci := commit_io sr ss (ex_st ex) (ex_put ex) (ex_get ex) (0 <? Zlen (ex_put ex)) (0 <? Zlen (ex_get ex))
                       (newnumrecs_loop (ex_st ex)) file in
   let cp := commit_post (fst ci) (ex_nwl ex) (ex_nrl ex) in
   (mkwr (fst cp) NC_NOERR (ex_ids ex) (ex_stat ex) (snd cp), snd ci)).
Proof.
  intros sr ss fx st a file Herr. unfold wait_one. rewrite Herr.
  replace (negb (NC_NOERR =? NC_NOERR)) with false by reflexivity.
  cbv zeta.
  destruct (commit_io sr ss _ _ _ _ _ _ file) as [st2 f'].
  cbn [fst snd]. destruct (commit_post st2 _ _) as [st3 ev]. reflexivity.
Qed.

Lemma side_post_ok : forall isput maxid leads reqs leads2 reqs2 ext nl ls rs,
  queue_inv isput maxid leads reqs -> side_ok leads reqs leads2 reqs2 ext nl ->
  post_side nl leads2 reqs2 = (ls, rs) ->
  queue_inv isput maxid ls rs /\ ls = kept leads2 /\
  Forall (fun l => map req_core (lead_reqs rs l) = map req_core (lead_reqs reqs2 l)) ls.
Proof.
  intros isput maxid leads reqs leads2 reqs2 ext nl ls rs Hq Hs.
  apply post_side_ok; [exact (side_mid _ _ _ _ _ _ _ _ Hq Hs)|apply Hs].
Qed.

Lemma wait_one_ok : forall sr ss fx st a file, nb_inv st ->
  wr_rc (fst (wait_one sr ss fx st a file)) = NC_NOERR ->
  let ex := extract_reqs fx st (wa_n a) (wa_ids a) (wa_has_stat a) (wa_stat0 a) in
  let st' := wr_st (fst (wait_one sr ss fx st a file)) in
  sides_ok st ex /\
  post_side (ex_nwl ex) (put_lead (ex_st ex)) (put_reqs (ex_st ex)) = (put_lead st', put_reqs st') /\
  post_side (ex_nrl ex) (get_lead (ex_st ex)) (get_reqs (ex_st ex)) = (get_lead st', get_reqs st') /\
  maxPutID st' = maxPutID st /\ maxGetID st' = maxGetID st /\
  wr_ev (fst (wait_one sr ss fx st a file)) =
    flat_map (fun l => (if l_swapbuf l then [EvSwapBack (l_tag l)] else []) ++ [EvPutDone (l_tag l)])
             (flagged (put_lead (ex_st ex))) ++
    map (fun l => EvGetDone (l_tag l) (l_xaddr l) (l_nelems l * g_xsz (l_geom l)) (l_status l))
        (flagged (get_lead (ex_st ex))).
Proof.
  intros sr ss fx st a file Hinv Hrc ex st'.
  pose proof (wait_one_noerr sr ss fx st a file Hrc) as Herr.
  pose proof (extract_sides _ _ _ _ _ _ Hinv Herr) as Hs.
  unfold st'. rewrite (wait_one_unfold sr ss fx st a file Herr). cbv zeta. fold ex in Hs |- *. cbn [fst wr_st wr_ev].
  destruct (commit_io_fields sr ss (ex_st ex) (ex_put ex) (ex_get ex) (0 <? Zlen (ex_put ex))
              (0 <? Zlen (ex_get ex)) (newnumrecs_loop (ex_st ex)) file) as (H1 & H2 & H3 & H4 & H5 & H6).
  set (st2 := fst (commit_io _ _ _ _ _ _ _ _ _)) in *.
  destruct (commit_post_fields st2 (ex_nwl ex) (ex_nrl ex)) as (_ & _ & Fp & Fg & Fmp & Fmg & Fev).
  pose proof Hs as ((_ & _ & Hnwl & _) & (_ & _ & Hnrl & _) & Hmp & Hmg & _).
  rewrite H1, H2 in Fp. rewrite H3, H4 in Fg. rewrite Fmp, Fmg, H5, H6.
  split; [exact Hs|]. split; [symmetry; exact Fp|]. split; [symmetry; exact Fg|]. split; [exact Hmp|]. split; [exact Hmg|].
  (* commit_post looks at the counters; they are zero exactly when nothing is flagged *)
  assert (Hnil : forall A (l : list lead) (F : list lead -> list A), F [] = [] ->
                   (if Zlen l >? 0 then F l else []) = F l).
  { intros A l F HF. destruct (Zlen l >? 0) eqn:E; [reflexivity|].
    rewrite (Zlen_zero_nil l), HF; [reflexivity|]. pose proof (Zlen_nonneg l). lia. }
  rewrite Fev, H1, H3, Hnwl, Hnrl. unfold flagged.
  rewrite (Hnil _ _ (flat_map _) eq_refl), (Hnil _ _ (map _) eq_refl). reflexivity.
Qed.

Theorem wait_one_inv : forall sr ss fx st a file, nb_inv st ->
  wr_rc (fst (wait_one sr ss fx st a file)) = NC_NOERR ->
  nb_inv (wr_st (fst (wait_one sr ss fx st a file))).
Proof.
  intros sr ss fx st a file Hinv Hrc.
  destruct (wait_one_ok sr ss fx st a file Hinv Hrc) as ((Hsp & Hsg & _) & Fp & Fg & Mp & Mg & _).
  destruct Hinv as (Hp & Hg). split.
  - rewrite Mp. exact (proj1 (side_post_ok _ _ _ _ _ _ _ _ _ _ Hp Hsp Fp)).
  - rewrite Mg. exact (proj1 (side_post_ok _ _ _ _ _ _ _ _ _ _ Hg Hsg Fg)).
Qed.

(* the intermediate invariant, as a theorem about extract_reqs *)
Theorem extract_mid_inv : forall fx st n ids hs stat0, nb_inv st ->
  ex_err (extract_reqs fx st n ids hs stat0) = NC_NOERR ->
  mid_inv true (maxPutID st) (put_lead (ex_st (extract_reqs fx st n ids hs stat0)))
          (put_reqs (ex_st (extract_reqs fx st n ids hs stat0))) /\
  mid_inv false (maxGetID st) (get_lead (ex_st (extract_reqs fx st n ids hs stat0)))
          (get_reqs (ex_st (extract_reqs fx st n ids hs stat0))).
Proof.
  intros fx st n ids hs stat0 Hinv Herr.
  destruct (extract_sides _ _ _ _ _ _ Hinv Herr) as (Hsp & Hsg & _). destruct Hinv as (Hp & Hg).
  split; eapply side_mid; eassumption.
Qed.

(* W6. frame *)
Lemma NoDup_filter_split : forall A B (f : A -> B) (p : A -> bool) l x y,
  NoDup (map f l) -> In x (filter p l) -> In y (filter (fun z => negb (p z)) l) -> f x <> f y.
Proof.
  intros A B f p l x y Hnd Hx Hy E. apply filter_In in Hx. apply filter_In in Hy.
  destruct Hx as (Hx & Px). destruct Hy as (Hy & Py). revert Hx Hy. induction l as [|a l IH]; intros Hx Hy; [destruct Hx|].
  cbn [map] in Hnd. apply NoDup_cons_iff in Hnd. destruct Hnd as (Ha & Hnd).
  destruct Hx as [->|Hx]; destruct Hy as [->|Hy].
  - rewrite Px in Py. discriminate Py.
  - apply Ha. rewrite E. apply in_map. exact Hy.
  - apply Ha. rewrite <- E. apply in_map. exact Hx.
  - apply IH; assumption.
Qed.

(* one queue: a lead whose partner is not flagged survives with its requests *)
Lemma frame_side : forall isput maxid leads reqs leads2 reqs2 ext nl ls rs l,
  queue_inv isput maxid leads reqs -> side_ok leads reqs leads2 reqs2 ext nl ->
  post_side nl leads2 reqs2 = (ls, rs) ->
  In l leads -> (forall l1, In l1 leads2 -> l_id l1 = l_id l -> l_to_free l1 = false) ->
  exists l', In l' ls /\ lead_same l l' /\ l_to_free l' = false /\
             map req_core (lead_reqs rs l') = map req_core (lead_reqs reqs l).
Proof.
  intros isput maxid leads reqs leads2 reqs2 ext nl ls rs l Hq Hs Hps Hl Hnf.
  destruct (side_post_ok _ _ _ _ _ _ _ _ _ _ Hq Hs Hps) as (_ & Hls & Hcore).
  destruct Hs as (HF & _).
  destruct (Forall2_In_l _ _ _ _ _ _ HF Hl) as (l2 & Hl2 & (Hsame & Hr)).
  assert (Hf2 : l_to_free l2 = false).
  { apply Hnf; [exact Hl2|]. symmetry. apply lead_same_id. exact Hsame. }
  exists l2. assert (Hin : In l2 ls).
  { rewrite Hls. apply filter_In. split; [exact Hl2|]. rewrite Hf2. reflexivity. }
  split; [exact Hin|]. split; [exact Hsame|]. split; [exact Hf2|].
  rewrite Forall_forall in Hcore. rewrite (Hcore l2 Hin), (Hr Hf2). reflexivity.
Qed.

Theorem wait_subset_frame_partial : forall sr ss fx st a file, nb_inv st ->
  wr_rc (fst (wait_one sr ss fx st a file)) = NC_NOERR ->
  forall l, In l (put_lead st ++ get_lead st) ->
  (forall l1, In l1 (put_lead (ex_st (extract_reqs fx st (wa_n a) (wa_ids a) (wa_has_stat a) (wa_stat0 a))) ++
                     get_lead (ex_st (extract_reqs fx st (wa_n a) (wa_ids a) (wa_has_stat a) (wa_stat0 a)))) ->
              l_id l1 = l_id l -> l_to_free l1 = false) ->
  exists l', In l' (put_lead (wr_st (fst (wait_one sr ss fx st a file))) ++
                    get_lead (wr_st (fst (wait_one sr ss fx st a file)))) /\
    lead_same l l' /\ l_to_free l' = false /\
    map (fun q => (r_start q, r_count q, r_nelems q, r_xaddr q))
        (lead_reqs (if Z.even (l_id l) then put_reqs (wr_st (fst (wait_one sr ss fx st a file)))
                    else get_reqs (wr_st (fst (wait_one sr ss fx st a file)))) l') =
    map (fun q => (r_start q, r_count q, r_nelems q, r_xaddr q))
        (lead_reqs (if Z.even (l_id l) then put_reqs st else get_reqs st) l).
Proof.
  intros sr ss fx st a file Hinv Hrc l Hl Hnf.
  destruct (wait_one_ok sr ss fx st a file Hinv Hrc) as ((Hsp & Hsg & _) & Fp & Fg & _).
  destruct Hinv as (Hp & Hg).
  apply in_app_or in Hl. destruct Hl as [Hl|Hl].
  - rewrite (queue_ids_parity _ _ _ _ _ Hp (in_map l_id _ _ Hl)).
    destruct (frame_side _ _ _ _ _ _ _ _ _ _ l Hp Hsp Fp Hl) as (l' & Hin & Hsame & Hf & Hcore).
    { intros l1 Hl1. apply Hnf. apply in_or_app. left. exact Hl1. }
    exists l'. split; [apply in_or_app; left; exact Hin|]. split; [exact Hsame|]. split; [exact Hf|exact Hcore].
  - rewrite (queue_ids_parity _ _ _ _ _ Hg (in_map l_id _ _ Hl)).
    destruct (frame_side _ _ _ _ _ _ _ _ _ _ l Hg Hsg Fg Hl) as (l' & Hin & Hsame & Hf & Hcore).
    { intros l1 Hl1. apply Hnf. apply in_or_app. right. exact Hl1. }
    exists l'. split; [apply in_or_app; right; exact Hin|]. split; [exact Hsame|]. split; [exact Hf|exact Hcore].
Qed.

(* the leads of the state after a successful wait are the unflagged leads of the extraction *)
Lemma wait_one_leads : forall sr ss fx st a file, nb_inv st ->
  wr_rc (fst (wait_one sr ss fx st a file)) = NC_NOERR ->
  put_lead (wr_st (fst (wait_one sr ss fx st a file))) =
    kept (put_lead (ex_st (extract_reqs fx st (wa_n a) (wa_ids a) (wa_has_stat a) (wa_stat0 a)))) /\
  get_lead (wr_st (fst (wait_one sr ss fx st a file))) =
    kept (get_lead (ex_st (extract_reqs fx st (wa_n a) (wa_ids a) (wa_has_stat a) (wa_stat0 a)))).
Proof.
  intros sr ss fx st a file Hinv Hrc.
  destruct (wait_one_ok sr ss fx st a file Hinv Hrc) as ((Hsp & Hsg & _) & Fp & Fg & _).
  destruct Hinv as (Hp & Hg). split.
  - exact (proj1 (proj2 (side_post_ok _ _ _ _ _ _ _ _ _ _ Hp Hsp Fp))).
  - exact (proj1 (proj2 (side_post_ok _ _ _ _ _ _ _ _ _ _ Hg Hsg Fg))).
Qed.

Theorem wait_nreqs : forall sr ss fx st a file, nb_inv st ->
  wr_rc (fst (wait_one sr ss fx st a file)) = NC_NOERR ->
  nreqs (wr_st (fst (wait_one sr ss fx st a file))) =
    nreqs st
    - Zlen (flagged (put_lead (ex_st (extract_reqs fx st (wa_n a) (wa_ids a) (wa_has_stat a) (wa_stat0 a)))))
    - Zlen (flagged (get_lead (ex_st (extract_reqs fx st (wa_n a) (wa_ids a) (wa_has_stat a) (wa_stat0 a))))).
Proof.
  intros sr ss fx st a file Hinv Hrc.
  destruct (wait_one_leads sr ss fx st a file Hinv Hrc) as (Ep & Eg).
  destruct (extract_leads_same fx st (wa_n a) (wa_ids a) (wa_has_stat a) (wa_stat0 a)) as (Sp & Sg).
  unfold nreqs. rewrite Ep, Eg, (Forall2_Zlen _ _ _ _ _ Sp), (Forall2_Zlen _ _ _ _ _ Sg).
  unfold kept, flagged.
  pose proof (Zlen_filter_split l_to_free (put_lead (ex_st (extract_reqs fx st (wa_n a) (wa_ids a) (wa_has_stat a) (wa_stat0 a))))).
  pose proof (Zlen_filter_split l_to_free (get_lead (ex_st (extract_reqs fx st (wa_n a) (wa_ids a) (wa_has_stat a) (wa_stat0 a))))).
  lia.
Qed.

(* the ids of the completed requests do not occur in the queues any more *)
Theorem wait_completed_gone : forall sr ss fx st a file, nb_inv st ->
  wr_rc (fst (wait_one sr ss fx st a file)) = NC_NOERR ->
  forall l2, In l2 (flagged (put_lead (ex_st (extract_reqs fx st (wa_n a) (wa_ids a) (wa_has_stat a) (wa_stat0 a)))) ++
                    flagged (get_lead (ex_st (extract_reqs fx st (wa_n a) (wa_ids a) (wa_has_stat a) (wa_stat0 a))))) ->
  ~ In (l_id l2) (map l_id (put_lead (wr_st (fst (wait_one sr ss fx st a file))) ++
                            get_lead (wr_st (fst (wait_one sr ss fx st a file))))).
Proof.
  intros sr ss fx st a file Hinv Hrc l2 Hl2 Hin.
  destruct (wait_one_leads sr ss fx st a file Hinv Hrc) as (Ep & Eg). rewrite Ep, Eg in Hin. clear Ep Eg.
  destruct (extract_leads_same fx st (wa_n a) (wa_ids a) (wa_has_stat a) (wa_stat0 a)) as (Sp & Sg).
  apply in_map_iff in Hin. destruct Hin as (l3 & Hid & Hl3).
  unfold flagged, kept in *. rewrite <- filter_app in Hl2, Hl3.
  refine (NoDup_filter_split _ _ l_id _ _ _ _ _ Hl2 Hl3 (eq_sym Hid)).
  (* the extraction keeps the ids, and those of a state are distinct *)
  rewrite map_app, <- (F2_same_ids lead_same _ _ lead_same_id Sp), <- (F2_same_ids lead_same _ _ lead_same_id Sg), <- map_app.
  exact (nb_inv_ids_NoDup st Hinv).
Qed.

(* W7. events *)
Theorem wait_events_put : forall sr ss fx st a file, nb_inv st ->
  wr_rc (fst (wait_one sr ss fx st a file)) = NC_NOERR ->
  forall l', In l' (flagged (put_lead (ex_st (extract_reqs fx st (wa_n a) (wa_ids a) (wa_has_stat a) (wa_stat0 a))))) ->
  In (EvPutDone (l_tag l')) (wr_ev (fst (wait_one sr ss fx st a file))).
Proof.
  intros sr ss fx st a file Hinv Hrc l' Hl'.
  destruct (wait_one_ok sr ss fx st a file Hinv Hrc) as (_ & _ & _ & _ & _ & Hev).
  rewrite Hev. apply in_or_app. left.
  apply in_flat_map. exists l'. split; [exact Hl'|]. apply in_or_app. right. left. reflexivity.
Qed.

Theorem wait_events_get : forall sr ss fx st a file, nb_inv st ->
  wr_rc (fst (wait_one sr ss fx st a file)) = NC_NOERR ->
  forall l', In l' (flagged (get_lead (ex_st (extract_reqs fx st (wa_n a) (wa_ids a) (wa_has_stat a) (wa_stat0 a))))) ->
  In (EvGetDone (l_tag l') (l_xaddr l') (l_nelems l' * g_xsz (l_geom l')) (l_status l'))
     (wr_ev (fst (wait_one sr ss fx st a file))).
Proof.
  intros sr ss fx st a file Hinv Hrc l' Hl'.
  destruct (wait_one_ok sr ss fx st a file Hinv Hrc) as (_ & _ & _ & _ & _ & Hev).
  rewrite Hev. apply in_or_app. right. apply in_map_iff. exists l'. split; [reflexivity|exact Hl'].
Qed.

(* F. fx = true: the repaired library (patches/F3_poison.diff) *)

Lemma queue_reqs_nil : forall isput maxid leads reqs,
  queue_inv isput maxid leads reqs -> Zlen reqs = 0 -> leads = [] /\ reqs = [].
Proof.
  intros isput maxid leads reqs (_ & _ & Hs & _) Hz. split; [|apply Zlen_zero_nil; exact Hz].
  destruct leads as [|l r]; [reflexivity|]. cbn [slices_ok] in Hs. destruct Hs as (_ & Hpos & Hle & _). lia.
Qed.

Lemma ids_in_order_eq : forall leads ids, ids_in_order leads ids (Zlen ids) = true -> ids = map l_id leads.
Proof.
  intros leads ids H. unfold ids_in_order in H. rewrite zfirstn_all in H by lia. apply (list_eqb_iff Z.eqb Z.eqb_eq). exact H.
Qed.

(* a successful call either went through the subset path or took shortcut 1 / 2: then the other
   queue is empty and req_ids names the whole queue in queue order *)
Definition short_res (st : nbstate) (ids : list Z) (hs : bool) (stat0 : list Z) (ex : extracted) : Prop :=
  let leads := put_lead st ++ get_lead st in
  ids = map l_id leads /\
  put_lead (ex_st ex) ++ get_lead (ex_st ex) = (if hs then flag_all_status leads 0 else flag_all leads) /\
  ex_ids ex = all_null ids /\
  ex_stat ex = (if hs then noerr_prefix stat0 (Zlen leads) else stat0).

Lemma fixed_struct : forall st n ids hs stat0,
  nb_inv st -> 0 <= n -> n = Zlen ids ->
  ex_err (extract_reqs true st n ids hs stat0) = NC_NOERR ->
  subset_res st ids hs stat0 (extract_reqs true st n ids hs stat0) \/
  short_res st ids hs stat0 (extract_reqs true st n ids hs stat0).
Proof.
  intros st n ids hs stat0 Hinv Hn Hlen Herr.
  destruct ((Zlen (get_reqs st) =? 0) && (n =? Zlen (put_lead st)) &&
            (negb true || ids_in_order (put_lead st) ids n)) eqn:E1.
  { right. clear Herr. pose proof E1 as E1'. cbn [negb orb] in E1'.
    apply andb_true_iff in E1'. destruct E1' as (E1a & Hord). apply andb_true_iff in E1a. destruct E1a as (Hz & Hnp).
    destruct Hinv as (_ & Hg). destruct (queue_reqs_nil _ _ _ _ Hg ltac:(lia)) as (Hgl & Hgr).
    rewrite Hlen in Hord. apply ids_in_order_eq in Hord.
    unfold short_res, extract_reqs. cbv zeta. destruct (n <? 0) eqn:E0; [lia|]. rewrite E1.
    destruct hs; ex_proj; rewrite Hgl, !app_nil_r; repeat split; assumption || reflexivity. }
  destruct ((Zlen (put_reqs st) =? 0) && (n =? Zlen (get_lead st)) &&
            (negb true || ids_in_order (get_lead st) ids n)) eqn:E2.
  { right. clear Herr. pose proof E2 as E2'. cbn [negb orb] in E2'.
    apply andb_true_iff in E2'. destruct E2' as (E2a & Hord). apply andb_true_iff in E2a. destruct E2a as (Hz & Hnp).
    destruct Hinv as (Hp & _). destruct (queue_reqs_nil _ _ _ _ Hp ltac:(lia)) as (Hpl & Hpr).
    rewrite Hlen in Hord. apply ids_in_order_eq in Hord.
    unfold short_res, extract_reqs. cbv zeta. destruct (n <? 0) eqn:E0; [lia|]. rewrite E1, E2.
    destruct hs; ex_proj; rewrite Hpl; repeat split; assumption || reflexivity. }
  left. apply subset_path_struct; try assumption. cbn [negb]. apply andb_false_r.
Qed.

Lemma flagged_of_facts : forall leads leads2 l', Forall2 flagged_of leads leads2 -> In l' leads2 ->
  l_to_free l' = true /\ In (l_id l') (map l_id leads).
Proof.
  intros leads leads2 l' HF Hin. destruct (Forall2_In_r _ _ _ _ _ _ HF Hin) as (l & Hl & (stt & ->)).
  split; [reflexivity|]. change (l_id (l_set_flag l true stt)) with (l_id l). apply in_map. exact Hl.
Qed.

Lemma short_flagged_of : forall leads (hs : bool),
  Forall2 flagged_of leads (if hs then flag_all_status leads 0 else flag_all leads).
Proof. intros leads hs. destruct hs; [apply flag_all_status_F2|apply flag_all_F2]. Qed.

Theorem subset_flags_fixed : forall st n ids hs stat0,
  nb_inv st -> 0 <= n -> n = Zlen ids ->
  ex_err (extract_reqs true st n ids hs stat0) = NC_NOERR ->
  forall l', In l' (put_lead (ex_st (extract_reqs true st n ids hs stat0)) ++
                    get_lead (ex_st (extract_reqs true st n ids hs stat0))) ->
  (l_to_free l' = true <-> In (l_id l') ids).
Proof.
  intros st n ids hs stat0 Hinv Hn Hlen Herr l' Hin.
  destruct (fixed_struct _ _ _ _ _ Hinv Hn Hlen Herr) as [Hres|(Hids & Hl2 & _)].
  - eapply subset_res_flags; eassumption.
  - rewrite Hl2 in Hin. destruct (flagged_of_facts _ _ _ (short_flagged_of _ hs) Hin) as (Hf & Hid).
    rewrite Hids. split; intros _; assumption.
Qed.

Lemma short_status : forall leads l' i, In l' (flag_all_status leads 0) -> l_status l' = Some i ->
  znth (map l_id leads) i NC_REQ_NULL = l_id l'.
Proof.
  intros leads l' i Hin Hst. destruct (flag_all_status_nth _ _ _ _ Hin Hst) as (Hi & Hid).
  replace (i - 0) with i in Hid by lia.
  rewrite (znth_map l_id leads i dummy_lead NC_REQ_NULL) by lia. exact Hid.
Qed.

Theorem status_own_fixed : forall st n ids stat0,
  nb_inv st -> 0 <= n -> n = Zlen ids ->
  ex_err (extract_reqs true st n ids true stat0) = NC_NOERR ->
  forall l' i, In l' (put_lead (ex_st (extract_reqs true st n ids true stat0)) ++
                      get_lead (ex_st (extract_reqs true st n ids true stat0))) ->
  l_to_free l' = true -> l_status l' = Some i ->
  znth ids i NC_REQ_NULL = l_id l'.
Proof.
  intros st n ids stat0 Hinv Hn Hlen Herr l' i Hin Hf Hst.
  destruct (fixed_struct _ _ _ _ _ Hinv Hn Hlen Herr) as [Hres|(Hids & Hl2 & _)].
  - eapply subset_res_status; eassumption.
  - rewrite Hl2 in Hin. rewrite Hids. apply short_status; assumption.
Qed.

Theorem ids_reset_fixed : forall st n ids hs stat0,
  nb_inv st -> 0 <= n -> n = Zlen ids ->
  ex_err (extract_reqs true st n ids hs stat0) = NC_NOERR ->
  forall i, 0 <= i < Zlen ids -> znth (ex_ids (extract_reqs true st n ids hs stat0)) i 0 = NC_REQ_NULL.
Proof.
  intros st n ids hs stat0 Hinv Hn Hlen Herr i Hi.
  destruct (fixed_struct _ _ _ _ _ Hinv Hn Hlen Herr) as [Hres|(_ & _ & He & _)].
  - eapply subset_res_ids; eassumption.
  - rewrite He. unfold all_null. rewrite (znth_map _ _ _ 0 0 Hi). reflexivity.
Qed.

Lemma noerr_prefix_nth : forall stat k i, 0 <= i < k -> i < Zlen stat -> znth (noerr_prefix stat k) i 0 = NC_NOERR.
Proof.
  induction stat as [|x r IH]; intros k i Hi Hl.
  - rewrite Zlen_nil in Hl. lia.
  - rewrite Zlen_cons in Hl. cbn [noerr_prefix]. destruct (k >? 0) eqn:E; [|lia].
    cbn [znth]. destruct (i =? 0) eqn:E0; [reflexivity|]. apply IH; lia.
Qed.

Theorem statuses_fixed : forall st n ids stat0,
  nb_inv st -> 0 <= n -> n = Zlen ids ->
  ex_err (extract_reqs true st n ids true stat0) = NC_NOERR ->
  Zlen stat0 = Zlen ids ->
  forall i, 0 <= i < Zlen ids -> znth (ex_stat (extract_reqs true st n ids true stat0)) i 0 = NC_NOERR.
Proof.
  intros st n ids stat0 Hinv Hn Hlen Herr Hsl i Hi.
  destruct (fixed_struct _ _ _ _ _ Hinv Hn Hlen Herr) as [Hres|(Hids & _ & _ & He)].
  - eapply subset_res_stat; eassumption.
  - rewrite He.
    assert (Zlen ids = Zlen (put_lead st ++ get_lead st)) by (rewrite Hids at 1; apply Zlen_map).
    apply noerr_prefix_nth; lia.
Qed.

Theorem ids_pending_fixed : forall st n ids hs stat0,
  nb_inv st -> 0 <= n -> n = Zlen ids ->
  ex_err (extract_reqs true st n ids hs stat0) = NC_NOERR ->
  forall x, In x ids -> x <> NC_REQ_NULL -> exists l, In l (put_lead st ++ get_lead st) /\ l_id l = x.
Proof.
  intros st n ids hs stat0 Hinv Hn Hlen Herr x Hx Hne.
  destruct (fixed_struct _ _ _ _ _ Hinv Hn Hlen Herr) as [Hres|(Hids & _)].
  - eapply (subset_res_pending _ _ _ _ _ Hinv Hres); eassumption.
  - rewrite Hids in Hx. apply in_map_iff in Hx. destruct Hx as (l & Hid & Hl). exists l. split; assumption.
Qed.

(* ---- failed calls leave the queues as they were (flags and status pointers cleared) ---- *)
Theorem failed_extract_fixed : forall st n ids hs stat0,
  ex_err (extract_reqs true st n ids hs stat0) <> NC_NOERR ->
  put_lead (ex_st (extract_reqs true st n ids hs stat0)) = map unflag (put_lead st) /\
  get_lead (ex_st (extract_reqs true st n ids hs stat0)) = map unflag (get_lead st) /\
  put_reqs (ex_st (extract_reqs true st n ids hs stat0)) = put_reqs st /\
  get_reqs (ex_st (extract_reqs true st n ids hs stat0)) = get_reqs st /\
  maxPutID (ex_st (extract_reqs true st n ids hs stat0)) = maxPutID st /\
  maxGetID (ex_st (extract_reqs true st n ids hs stat0)) = maxGetID st /\
  ex_ids (extract_reqs true st n ids hs stat0) = ids.
Proof.
  intros st n ids hs stat0.
  destruct (extract_paths true st n ids hs stat0) as [E|(Herr & _)]; [|intros H; contradiction].
  rewrite E. clear E. unfold extract_subset. cbv zeta.
  destruct (ex_mark ids 0 hs (put_lead st) (get_lead st) stat0 0 0 0 0 NC_NOERR)
    as [[[[[[[pl1 gl1] stat1] nwl] nwr] nrl] nrr] err] eqn:Em.
  destruct (ex_mark_flagrel _ _ _ _ _ _ _ _ _ _ _ _ _ _ _ _ _ _ _ Em) as (Hm1 & Hm2).
  destruct (negb (err =? NC_NOERR)).
  - ex_proj. intros _. rewrite (flagrel_unflag _ _ Hm1), (flagrel_unflag _ _ Hm2). repeat split; reflexivity.
  - rewrite ex_copy_spec. cbv iota beta.
    destruct (if nwr =? 0 then (pl1, put_reqs st) else coalesce_nonlead pl1 (put_reqs st) 0) as [pl2 pr2].
    destruct (if nrr =? 0 then (gl1, get_reqs st) else coalesce_nonlead gl1 (get_reqs st) 0) as [gl2 gr2].
    ex_proj. intros H. exfalso. apply H. reflexivity.
Qed.

Lemma slices_ok_map : forall (f : lead -> lead) leads reqs k i,
  (forall l, l_nonlead_off (f l) = l_nonlead_off l /\ l_nonlead_num (f l) = l_nonlead_num l) ->
  slices_ok leads reqs k i -> slices_ok (map f leads) reqs k i.
Proof.
  intros f leads reqs k i Hf. revert k i. induction leads as [|l r IH]; intros k i H; cbn [map slices_ok] in *; [exact H|].
  destruct (Hf l) as (Ho & Hn). rewrite Ho, Hn. destruct H as (H1 & H2 & H3 & H4 & H5).
  repeat split; try assumption. apply IH. exact H5.
Qed.

Lemma queue_inv_unflag : forall isput maxid leads reqs,
  queue_inv isput maxid leads reqs -> queue_inv isput maxid (map unflag leads) reqs.
Proof.
  intros isput maxid leads reqs (Hnd & Hmax & Hs & Hwf & Hunf).
  split; [rewrite map_map; exact Hnd|]. split; [|split; [|split]].
  - apply Forall_forall. intros l' Hl'. apply in_map_iff in Hl'. destruct Hl' as (l & <- & Hl).
    rewrite Forall_forall in Hmax. apply (Hmax l Hl).
  - apply slices_ok_map; [|exact Hs]. intros l. split; reflexivity.
  - apply Forall_forall. intros l' Hl'. apply in_map_iff in Hl'. destruct Hl' as (l & <- & Hl).
    rewrite Forall_forall in Hwf. specialize (Hwf l Hl). rewrite lead_wf_chunk in *.
    eapply chunk_ok_same; [apply (lead_same_set_flag l false None)|reflexivity|exact Hwf].
  - apply Forall_forall. intros l' Hl'. apply in_map_iff in Hl'. destruct Hl' as (l & <- & Hl). reflexivity.
Qed.

Theorem unflag_inv : forall st, nb_inv st ->
  nb_inv (set_get (set_put st (map unflag (put_lead st)) (put_reqs st)) (map unflag (get_lead st)) (get_reqs st)).
Proof.
  intros st (Hp & Hg). unfold nb_inv. ex_proj. split; apply queue_inv_unflag; assumption.
Qed.

Lemma wait_one_failed_struct : forall sr ss fx st a file,
  wr_rc (fst (wait_one sr ss fx st a file)) <> NC_NOERR ->
  ex_err (extract_reqs fx st (wa_n a) (wa_ids a) (wa_has_stat a) (wa_stat0 a)) <> NC_NOERR /\
  wr_st (fst (wait_one sr ss fx st a file)) = ex_st (extract_reqs fx st (wa_n a) (wa_ids a) (wa_has_stat a) (wa_stat0 a)) /\
  wr_ev (fst (wait_one sr ss fx st a file)) = [] /\
  snd (wait_one sr ss fx st a file) = file.
Proof.
  intros sr ss fx st a file. unfold wait_one. cbv zeta.
  set (ex := extract_reqs fx st (wa_n a) (wa_ids a) (wa_has_stat a) (wa_stat0 a)).
  destruct (negb (ex_err ex =? NC_NOERR)) eqn:Ee.
  - cbn [fst snd wr_rc wr_st wr_ev]. intros _. repeat split. lia.
  - destruct (commit_io sr ss (ex_st ex) (ex_put ex) (ex_get ex) (0 <? Zlen (ex_put ex))
                (0 <? Zlen (ex_get ex)) (newnumrecs_loop (ex_st ex)) file) as [st2 file'].
    destruct (commit_post st2 (ex_nwl ex) (ex_nrl ex)) as [st3 ev].
    cbn [fst wr_rc]. intros H. exfalso. apply H. reflexivity.
Qed.

Theorem wait_one_failed_any_state : forall sr ss st a file,
  wr_rc (fst (wait_one sr ss true st a file)) <> NC_NOERR ->
  snd (wait_one sr ss true st a file) = file /\
  wr_ev (fst (wait_one sr ss true st a file)) = [] /\
  put_lead (wr_st (fst (wait_one sr ss true st a file))) = map unflag (put_lead st) /\
  get_lead (wr_st (fst (wait_one sr ss true st a file))) = map unflag (get_lead st) /\
  put_reqs (wr_st (fst (wait_one sr ss true st a file))) = put_reqs st /\
  get_reqs (wr_st (fst (wait_one sr ss true st a file))) = get_reqs st.
Proof.
  intros sr ss st a file Hrc.
  destruct (wait_one_failed_struct _ _ _ _ _ _ Hrc) as (Herr & Hst & Hev & Hf).
  destruct (failed_extract_fixed _ _ _ _ _ Herr) as (H1 & H2 & H3 & H4 & _).
  rewrite Hst. repeat split; assumption.
Qed.

Theorem wait_one_failed_fixed : forall sr ss st a file, nb_inv st ->
  wr_rc (fst (wait_one sr ss true st a file)) <> NC_NOERR ->
  snd (wait_one sr ss true st a file) = file /\
  wr_ev (fst (wait_one sr ss true st a file)) = [] /\
  put_lead (wr_st (fst (wait_one sr ss true st a file))) = map unflag (put_lead st) /\
  get_lead (wr_st (fst (wait_one sr ss true st a file))) = map unflag (get_lead st) /\
  put_reqs (wr_st (fst (wait_one sr ss true st a file))) = put_reqs st /\
  get_reqs (wr_st (fst (wait_one sr ss true st a file))) = get_reqs st.
Proof. intros sr ss st a file _. apply wait_one_failed_any_state. Qed.

(* a wait of the repaired library ALWAYS leaves a state satisfying the invariant *)
Theorem wait_one_inv_fixed : forall sr ss st a file, nb_inv st ->
  nb_inv (wr_st (fst (wait_one sr ss true st a file))).
Proof.
  intros sr ss st a file Hinv.
  destruct (Z.eq_dec (wr_rc (fst (wait_one sr ss true st a file))) NC_NOERR) as [Hrc|Hrc].
  - apply wait_one_inv; assumption.
  - destruct (wait_one_failed_struct _ _ _ _ _ _ Hrc) as (Herr & Hst & _).
    destruct (failed_extract_fixed _ _ _ _ _ Herr) as (H1 & H2 & H3 & H4 & H5 & H6 & _).
    rewrite Hst. eapply nb_inv_same; [|exact (unflag_inv st Hinv)]. repeat split; assumption.
Qed.

Theorem wait_subset_frame_fixed : forall sr ss st a file, nb_inv st ->
  0 <= wa_n a -> wa_n a = Zlen (wa_ids a) ->
  wr_rc (fst (wait_one sr ss true st a file)) = NC_NOERR ->
  forall l, In l (put_lead st ++ get_lead st) -> ~ In (l_id l) (wa_ids a) ->
  exists l', In l' (put_lead (wr_st (fst (wait_one sr ss true st a file))) ++
                    get_lead (wr_st (fst (wait_one sr ss true st a file)))) /\
             lead_same l l' /\ l_to_free l' = false.
Proof.
  intros sr ss st a file Hinv Hn Hlen Hrc l Hl Hnot.
  pose proof (wait_one_noerr sr ss true st a file Hrc) as Herr.
  destruct (wait_subset_frame_partial sr ss true st a file Hinv Hrc l Hl) as (l' & Hin & Hs & Hf & _).
  - intros l1 Hl1 Hid.
    pose proof (subset_flags_fixed _ _ _ _ _ Hinv Hn Hlen Herr l1 Hl1) as Hiff.
    destruct (l_to_free l1) eqn:E; [|reflexivity].
    exfalso. apply Hnot. rewrite <- Hid. apply Hiff. reflexivity.
  - exists l'. split; [exact Hin|]. split; [exact Hs|exact Hf].
Qed.

(* Examples: the hypotheses are satisfiable *)
(* two puts (the second strided) and a get on a 4x5x6 int variable *)
Definition w_xg : geom := mkgeom 1024 4 [4;5;6] 0 0.
Definition w_xs1 : nbstate := fst (fst (post_varm init_state KIput w_xg [0;0;0] [1;2;2] None 5000 [] false 1)).
Definition w_xs2 : nbstate := fst (fst (post_varm w_xs1 KIget w_xg [1;1;1] [1;1;3] None 6000 [] false 2)).
Definition w_xs3 : nbstate := fst (fst (post_varm w_xs2 KIput w_xg [2;0;0] [1;1;2] (Some [1;1;2]) 7000 [] false 3)).

(* replaces the closed term t by its value (the Examples below) *)
Ltac w_lit t := let x := eval vm_compute in t in change t with x.

Example w_xs3_ids : map l_id (put_lead w_xs3) = [0; 2] /\ map l_id (get_lead w_xs3) = [1].
Proof. vm_compute. split; reflexivity. Qed.

Example w_xs3_inv : nb_inv w_xs3.
Proof. conc_top. Qed.

(* W2, W3, W5 (all paths): wait for the second put and the get, with statuses *)
Example w_xs3_subset_hyps :
  nb_inv w_xs3 /\ no_shortcut w_xs3 2 /\ 0 <= 2 /\
  ex_err (extract_reqs false w_xs3 2 [2; 1] true [7; 7]) = NC_NOERR.
Proof.
  split; [exact w_xs3_inv|]. split; [|split; [lia|vm_compute; reflexivity]].
  unfold no_shortcut. vm_compute. split; intros (H & _); discriminate H.
Qed.

(* ... what W4 says about it: ids reset, statuses NC_NOERR, status pointers own their slot *)
Example w_xs3_subset_result :
  ex_ids (extract_reqs false w_xs3 2 [2; 1] true [7; 7]) = [NC_REQ_NULL; NC_REQ_NULL] /\
  ex_stat (extract_reqs false w_xs3 2 [2; 1] true [7; 7]) = [NC_NOERR; NC_NOERR] /\
  map (fun l => (l_id l, l_to_free l, l_status l)) (put_lead (ex_st (extract_reqs false w_xs3 2 [2; 1] true [7; 7])))
    = [(0, false, None); (2, true, Some 0)] /\
  map (fun l => (l_id l, l_to_free l, l_status l)) (get_lead (ex_st (extract_reqs false w_xs3 2 [2; 1] true [7; 7])))
    = [(1, true, Some 1)].
Proof. vm_compute. repeat split; reflexivity. Qed.

(* an id that occurs twice, or names no pending request, makes the subset path fail *)
Example w_xs3_subset_dup : ex_err (extract_reqs false w_xs3 2 [2; 2] true [7; 7]) = NC_EINVAL_REQUEST /\
                         ex_err (extract_reqs false w_xs3 1 [4] true [7]) = NC_EINVAL_REQUEST.
Proof. vm_compute. split; reflexivity. Qed.

(* W4, ALL path *)
Example w_xs3_all_hyps : nb_inv w_xs3 /\ NC_PUT_REQ_ALL < 0.
Proof. split; [exact w_xs3_inv|unfold NC_PUT_REQ_ALL; lia]. Qed.

(* W5, W6, W7: a wait that completes the second put only; the first put and the get stay *)
Definition w_xwa : waitargs := mkwa 1 [2] true [7].
Example w_xs3_wait_hyps :
  nb_inv w_xs3 /\ wr_rc (fst (wait_one isort_reqs isort_segs false w_xs3 w_xwa empty_disk)) = NC_NOERR /\
  (forall l1, In l1 (put_lead (ex_st (extract_reqs false w_xs3 (wa_n w_xwa) (wa_ids w_xwa) (wa_has_stat w_xwa) (wa_stat0 w_xwa))) ++
                     get_lead (ex_st (extract_reqs false w_xs3 (wa_n w_xwa) (wa_ids w_xwa) (wa_has_stat w_xwa) (wa_stat0 w_xwa)))) ->
     l_id l1 = 0 -> l_to_free l1 = false) /\
  map l_id (flagged (put_lead (ex_st (extract_reqs false w_xs3 (wa_n w_xwa) (wa_ids w_xwa) (wa_has_stat w_xwa) (wa_stat0 w_xwa))))) = [2].
Proof.
  split; [exact w_xs3_inv|]. split; [vm_compute; reflexivity|]. split; [|vm_compute; reflexivity].
  intros l1 Hin Hid.
  w_lit (put_lead (ex_st (extract_reqs false w_xs3 (wa_n w_xwa) (wa_ids w_xwa) (wa_has_stat w_xwa) (wa_stat0 w_xwa)))).
  w_lit (get_lead (ex_st (extract_reqs false w_xs3 (wa_n w_xwa) (wa_ids w_xwa) (wa_has_stat w_xwa) (wa_stat0 w_xwa)))).
  cbn [app In] in Hin.
  destruct Hin as [<-|[<-|[<-|[]]]]; cbn in Hid |- *; try reflexivity; discriminate Hid.
Qed.

Example w_xs3_wait_result :
  map l_id (put_lead (wr_st (fst (wait_one isort_reqs isort_segs false w_xs3 w_xwa empty_disk)))) = [0] /\
  map l_id (get_lead (wr_st (fst (wait_one isort_reqs isort_segs false w_xs3 w_xwa empty_disk)))) = [1] /\
  wr_ev (fst (wait_one isort_reqs isort_segs false w_xs3 w_xwa empty_disk)) = [EvPutDone 3] /\
  nreqs (wr_st (fst (wait_one isort_reqs isort_segs false w_xs3 w_xwa empty_disk))) = 2.
Proof. vm_compute. repeat split; reflexivity. Qed.

(* the theorems applied to the examples *)
Example w_xs3_wait_inv : nb_inv (wr_st (fst (wait_one isort_reqs isort_segs false w_xs3 w_xwa empty_disk))).
Proof. apply wait_one_inv; apply w_xs3_wait_hyps. Qed.

Example w_xs3_put_pairs :
  Permutation
    (flat_map areq_pairs (map (annotate (put_lead (ex_st (extract_reqs false w_xs3 2 [2; 1] true [7; 7]))))
                              (ex_put (extract_reqs false w_xs3 2 [2; 1] true [7; 7]))))
    (flat_map lead_pairs (flagged (put_lead (ex_st (extract_reqs false w_xs3 2 [2; 1] true [7; 7]))))).
Proof. apply wait_put_pairs; apply w_xs3_subset_hyps. Qed.

(* why status_own is `_partial`: on the "same as NC_PUT_REQ_ALL" shortcut (no pending get, n = number
   of pending puts) the status pointers are bound in QUEUE order and req_ids is not even read:
   waiting for [2; 0] binds statuses[0] to request 0, and ids naming no request are accepted *)
Definition w_xp2 : nbstate :=
  fst (fst (post_varm w_xs1 KIput w_xg [2;0;0] [1;1;2] (Some [1;1;2]) 7000 [] false 3)).
Example status_own_shortcut_counterexample :
  nb_inv w_xp2 /\ ~ no_shortcut w_xp2 2 /\
  ex_err (extract_reqs false w_xp2 2 [2; 0] true [7; 7]) = NC_NOERR /\
  map (fun l => (l_id l, l_to_free l, l_status l)) (put_lead (ex_st (extract_reqs false w_xp2 2 [2; 0] true [7; 7])))
    = [(0, true, Some 0); (2, true, Some 1)] /\
  ex_err (extract_reqs false w_xp2 2 [8; 8] true [7; 7]) = NC_NOERR /\
  ex_ids (extract_reqs false w_xp2 2 [8; 8] true [7; 7]) = [NC_REQ_NULL; NC_REQ_NULL].
Proof.
  split; [conc_top|]. split.
  { unfold no_shortcut. intros (H & _). apply H. vm_compute. split; reflexivity. }
  vm_compute. repeat split; reflexivity.
Qed.


(* ---- the repaired library (fx = true) on the same states ---- *)
(* status_own_fixed: req_ids [2; 0] does not name the queue in order, so the shortcut is not taken any more and the
   status pointers are bound by position: request 2 <- statuses[0], request 0 <- statuses[1] *)
Example w_status_own_fixed_example :
  nb_inv w_xp2 /\ 0 <= 2 /\ 2 = Zlen [2; 0] /\
  ex_err (extract_reqs true w_xp2 2 [2; 0] true [7; 7]) = NC_NOERR /\
  map (fun l => (l_id l, l_to_free l, l_status l)) (put_lead (ex_st (extract_reqs true w_xp2 2 [2; 0] true [7; 7])))
    = [(0, true, Some 1); (2, true, Some 0)] /\
  (* in queue order the shortcut is still taken, with the same binding *)
  map (fun l => (l_id l, l_to_free l, l_status l)) (put_lead (ex_st (extract_reqs true w_xp2 2 [0; 2] true [7; 7])))
    = [(0, true, Some 0); (2, true, Some 1)].
Proof.
  split; [apply status_own_shortcut_counterexample|]. split; [lia|]. split; [reflexivity|].
  vm_compute. repeat split; reflexivity.
Qed.

(* failed_extract_fixed: ids naming no request, or a duplicated id, now FAIL and leave the queues unmarked; the
   unrepaired library leaves request 2 flagged NC_REQ_TO_FREE after the failed call *)
Example w_failed_extract_fixed_example :
  ex_err (extract_reqs true w_xp2 2 [8; 8] true [7; 7]) = NC_EINVAL_REQUEST /\
  put_lead (ex_st (extract_reqs true w_xp2 2 [8; 8] true [7; 7])) = map unflag (put_lead w_xp2) /\
  ex_err (extract_reqs true w_xs3 2 [2; 2] true [7; 7]) = NC_EINVAL_REQUEST /\
  put_lead (ex_st (extract_reqs true w_xs3 2 [2; 2] true [7; 7])) = map unflag (put_lead w_xs3) /\
  map l_to_free (put_lead (ex_st (extract_reqs true w_xs3 2 [2; 2] true [7; 7]))) = [false; false] /\
  map l_to_free (put_lead (ex_st (extract_reqs false w_xs3 2 [2; 2] true [7; 7]))) = [false; true].
Proof. vm_compute. repeat split; reflexivity. Qed.

Definition w_xwbad : waitargs := mkwa 2 [2; 2] true [7; 7].
Example w_wait_failed_fixed_example :
  wr_rc (fst (wait_one isort_reqs isort_segs true w_xs3 w_xwbad empty_disk)) = NC_EINVAL_REQUEST /\
  nb_inv (wr_st (fst (wait_one isort_reqs isort_segs true w_xs3 w_xwbad empty_disk))) /\
  (* ... while the state left by the unrepaired library violates the invariant *)
  ~ nb_inv (wr_st (fst (wait_one isort_reqs isort_segs false w_xs3 w_xwbad empty_disk))).
Proof.
  split; [vm_compute; reflexivity|]. split; [apply wait_one_inv_fixed; exact w_xs3_inv|].
  intros ((_ & _ & _ & _ & Hunf) & _). rewrite Forall_forall in Hunf.
  assert (Hin : exists l, In l (put_lead (wr_st (fst (wait_one isort_reqs isort_segs false w_xs3 w_xwbad empty_disk))))
                          /\ l_to_free l = true).
  { w_lit (put_lead (wr_st (fst (wait_one isort_reqs isort_segs false w_xs3 w_xwbad empty_disk)))).
    eexists. split; [right; left; reflexivity|reflexivity]. }
  destruct Hin as (l & Hl & Hf). rewrite (Hunf l Hl) in Hf. discriminate Hf.
Qed.

(* wait_subset_frame_fixed: a wait for request 2 only keeps request 0 and 1 *)
Example w_frame_fixed_hyps :
  nb_inv w_xs3 /\ 0 <= wa_n w_xwa /\ wa_n w_xwa = Zlen (wa_ids w_xwa) /\
  wr_rc (fst (wait_one isort_reqs isort_segs true w_xs3 w_xwa empty_disk)) = NC_NOERR /\
  ~ In 0 (wa_ids w_xwa).
Proof.
  split; [exact w_xs3_inv|]. split; [vm_compute; discriminate|]. split; [reflexivity|].
  split; [vm_compute; reflexivity|]. cbn. intros [H|[]]. discriminate H.
Qed.

Print Assumptions extract_leads_same.
Print Assumptions extract_put_slices.
Print Assumptions extract_get_slices.
Print Assumptions wait_put_pairs.
Print Assumptions wait_get_pairs.
Print Assumptions extract_all_flags.
Print Assumptions subset_flags_gen.
Print Assumptions status_own_partial.
Print Assumptions subset_ids_reset_gen.
Print Assumptions subset_statuses.
Print Assumptions subset_ids_pending.
Print Assumptions wait_one_inv.
Print Assumptions extract_mid_inv.
Print Assumptions wait_subset_frame_partial.
Print Assumptions wait_nreqs.
Print Assumptions wait_completed_gone.
Print Assumptions wait_events_put.
Print Assumptions wait_events_get.
Print Assumptions w_xs3_inv.
Print Assumptions fixed_struct.
Print Assumptions subset_flags_fixed.
Print Assumptions status_own_fixed.
Print Assumptions ids_reset_fixed.
Print Assumptions statuses_fixed.
Print Assumptions ids_pending_fixed.
Print Assumptions failed_extract_fixed.
Print Assumptions unflag_inv.
Print Assumptions wait_one_failed_fixed.
Print Assumptions wait_one_inv_fixed.
Print Assumptions wait_subset_frame_fixed.
