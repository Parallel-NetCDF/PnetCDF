(* Proofs_Disk.v — generic lemmas about the byte-map disk (Disk.v): dk_read / dk_write and
   folds of writes.
   All reasoning about a disk is extensional, through dk_get / dk_size / dk_exists. *)
From Pnc Require Import Disk Proofs_Lists.
Require Import Lia ZArith List Bool ZifyBool Permutation.
Import ListNotations.
Local Open Scope Z_scope.

(* ---------- dk_read ---------- *)
Lemma Zlen_dk_read d o n : Zlen (dk_read d o n) = Z.max 0 n.
Proof. unfold dk_read. rewrite Zlen_map. apply Zlen_zrange. Qed.

Lemma znth_dk_read d o n i : 0 <= i < n -> znth (dk_read d o n) i 0 = dk_get d (o + i).
Proof.
  intros Hi. unfold dk_read.
  rewrite (znth_map (dk_get d) (zrange o n) i 0 0) by (rewrite Zlen_zrange; lia).
  now rewrite znth_zrange by lia.
Qed.

Lemma dk_read_nil d o n : n <= 0 -> dk_read d o n = [].
Proof. intros H. apply Zlen_zero_nil. rewrite Zlen_dk_read. lia. Qed.

(* ---------- dk_write ---------- *)
Lemma dk_get_write d off bs x :
  dk_get (dk_write d off bs) x =
  if (off <=? x) && (x <? off + Zlen bs) then znth bs (x - off) 0 else dk_get d x.
Proof.
  destruct bs as [|b bs].
  - cbn [dk_write]. rewrite Zlen_nil.
    replace ((off <=? x) && (x <? off + 0)) with false by lia. reflexivity.
  - reflexivity.
Qed.

Lemma dk_size_write d off bs :
  dk_size (dk_write d off bs) =
  if 0 <? Zlen bs then Z.max (dk_size d) (off + Zlen bs) else dk_size d.
Proof.
  destruct bs as [|b bs].
  - reflexivity.
  - pose proof (Zlen_nonneg bs) as Hn.
    replace (0 <? Zlen (b :: bs)) with true by (rewrite Zlen_cons; lia). reflexivity.
Qed.

Lemma dk_exists_write d off bs :
  dk_exists (dk_write d off bs) = (0 <? Zlen bs) || dk_exists d.
Proof.
  destruct bs as [|b bs].
  - reflexivity.
  - pose proof (Zlen_nonneg bs) as Hn.
    replace (0 <? Zlen (b :: bs)) with true by (rewrite Zlen_cons; lia). reflexivity.
Qed.

(* ---------- folds of writes over a list of tiles (offset, bytes) ---------- *)
Definition covers (p : Z * list byte) (x : Z) : Prop := fst p <= x < fst p + Zlen (snd p).

Definition write_tiles (data : list (Z * list byte)) (d : disk) : disk :=
  fold_left (fun acc p => dk_write acc (fst p) (snd p)) data d.

Lemma write_tiles_app l1 l2 d : write_tiles (l1 ++ l2) d = write_tiles l2 (write_tiles l1 d).
Proof. unfold write_tiles. apply fold_left_app. Qed.

Lemma write_tiles_cons p data d :
  write_tiles (p :: data) d = write_tiles data (dk_write d (fst p) (snd p)).
Proof. reflexivity. Qed.

Lemma write_tiles_get_out data d x :
  (forall p, In p data -> ~ covers p x) ->
  dk_get (write_tiles data d) x = dk_get d x.
Proof.
  revert d. induction data as [|q data IH]; intros d H; [reflexivity|].
  rewrite write_tiles_cons, IH by (intros p Hp; apply H; now right).
  rewrite dk_get_write.
  assert (Hq : ~ covers q x) by (apply H; now left). unfold covers in Hq.
  replace ((fst q <=? x) && (x <? fst q + Zlen (snd q))) with false by lia. reflexivity.
Qed.

(* if at least one tile covers x and every covering tile carries the value v at x, the result
   holds v at x (in particular when the covering tile is unique) *)
Lemma write_tiles_get_in data d x v :
  (exists p, In p data /\ covers p x) ->
  (forall q, In q data -> covers q x -> znth (snd q) (x - fst q) 0 = v) ->
  dk_get (write_tiles data d) x = v.
Proof.
  induction data as [|q data IH] using rev_ind; intros [p [Hp Hc]] Hv.
  - destruct Hp.
  - rewrite write_tiles_app.
    change (write_tiles [q] (write_tiles data d))
      with (dk_write (write_tiles data d) (fst q) (snd q)).
    rewrite dk_get_write.
    destruct ((fst q <=? x) && (x <? fst q + Zlen (snd q))) eqn:E.
    + apply Hv; [apply in_or_app; right; now left | unfold covers; lia].
    + apply IH.
      * exists p. split; [|exact Hc]. apply in_app_or in Hp. destruct Hp as [Hp|[Hp|[]]]; [exact Hp|].
        subst p. unfold covers in Hc. lia.
      * intros r Hr. apply Hv. apply in_or_app. now left.
Qed.

(* all that the order of the writes can matter for: two tiles that cover x with different
   bytes there.  Pairwise disjoint tiles, or tiles that may overlap but agree where they do,
   have none. *)
Definition tiles_agree (data : list (Z * list byte)) (x : Z) : Prop :=
  forall p q, In p data -> In q data -> covers p x -> covers q x ->
    znth (snd p) (x - fst p) 0 = znth (snd q) (x - fst q) 0.

Definition coversb (x : Z) (p : Z * list byte) : bool :=
  (fst p <=? x) && (x <? fst p + Zlen (snd p)).

Lemma coversb_spec x p : coversb x p = true <-> covers p x.
Proof. unfold coversb, covers. lia. Qed.

Lemma write_tiles_perm_get data data' d x :
  tiles_agree data x -> Permutation data data' ->
  dk_get (write_tiles data d) x = dk_get (write_tiles data' d) x.
Proof.
  intros Ha Hp.
  assert (Hsub : incl data' data) by (intros q; apply Permutation_in; now apply Permutation_sym).
  destruct (existsb (coversb x) data) eqn:E.
  - apply existsb_exists in E. destruct E as [p [Hin Hc]]. apply coversb_spec in Hc.
    transitivity (znth (snd p) (x - fst p) 0); [|symmetry];
      (apply write_tiles_get_in; [exists p; split; [|exact Hc] | intros q Hq Hcq; apply Ha; auto]).
    + exact Hin.
    + eapply Permutation_in; eassumption.
  - assert (Hout : forall p, In p data -> ~ covers p x).
    { intros p Hin Hc. apply coversb_spec in Hc.
      assert (existsb (coversb x) data = true) by (apply existsb_exists; eauto). congruence. }
    rewrite !write_tiles_get_out; auto.
Qed.

(* the extent after the writes, through its upper bounds: it depends only on the set of
   non-empty tiles *)
Lemma write_tiles_size_le_iff data d B :
  dk_size (write_tiles data d) <= B <->
  dk_size d <= B /\ forall p, In p data -> 0 < Zlen (snd p) -> fst p + Zlen (snd p) <= B.
Proof.
  revert d. induction data as [|q data IH]; intros d.
  - split; [intros H; split; [exact H | intros p []] | intros [H _]; exact H].
  - rewrite write_tiles_cons, IH, dk_size_write. cbn [In].
    destruct (Z.ltb_spec 0 (Zlen (snd q))) as [Hq|Hq]; split.
    + intros [H1 H2]. split; [lia|]. intros p [<-|Hp] Hl; [lia | now apply H2].
    + intros [H1 H2]. specialize (H2 q (or_introl eq_refl) Hq) as Hq2.
      split; [lia|]. intros p Hp. apply H2. now right.
    + intros [H1 H2]. split; [lia|]. intros p [<-|Hp] Hl; [lia | now apply H2].
    + intros [H1 H2]. split; [lia|]. intros p Hp. apply H2. now right.
Qed.

Lemma write_tiles_size_mono data d : dk_size d <= dk_size (write_tiles data d).
Proof. exact (proj1 (proj1 (write_tiles_size_le_iff data d _) (Z.le_refl _))). Qed.

Lemma write_tiles_size_ge data d p :
  In p data -> 0 < Zlen (snd p) -> fst p + Zlen (snd p) <= dk_size (write_tiles data d).
Proof. exact (proj2 (proj1 (write_tiles_size_le_iff data d _) (Z.le_refl _)) p). Qed.

Lemma write_tiles_size_le data d B :
  (forall p, In p data -> 0 < Zlen (snd p) -> fst p + Zlen (snd p) <= B) ->
  dk_size (write_tiles data d) <= Z.max (dk_size d) B.
Proof.
  intros H. apply write_tiles_size_le_iff. split; [lia|].
  intros p Hp Hl. specialize (H p Hp Hl). lia.
Qed.

Lemma write_tiles_size data d B :
  (forall p, In p data -> 0 < Zlen (snd p) -> fst p + Zlen (snd p) <= B) ->
  (exists p, In p data /\ 0 < Zlen (snd p) /\ fst p + Zlen (snd p) = B) ->
  dk_size (write_tiles data d) = Z.max (dk_size d) B.
Proof.
  intros Hle [p [Hp [Hl He]]].
  pose proof (write_tiles_size_le data d B Hle).
  pose proof (write_tiles_size_ge data d p Hp Hl).
  pose proof (write_tiles_size_mono data d). lia.
Qed.

Lemma write_tiles_exists data d :
  dk_exists (write_tiles data d) = existsb (fun p => 0 <? Zlen (snd p)) data || dk_exists d.
Proof.
  revert d. induction data as [|q data IH]; intros d; [reflexivity|].
  rewrite write_tiles_cons, IH, dk_exists_write. cbn [existsb].
  destruct (0 <? Zlen (snd q)), (existsb (fun p => 0 <? Zlen (snd p)) data), (dk_exists d); reflexivity.
Qed.
