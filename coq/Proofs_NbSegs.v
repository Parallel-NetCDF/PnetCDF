(* Proofs_NbSegs.v — the request aggregation of the nonblocking wait (Nonblocking.v sections 5, 6)
   moves exactly the bytes of the specification (section 8 / NbSpec.v).
   No axioms.  Three geometric facts (proved in Proofs_NbGeom.v) are hypotheses of Section WithGeometry.
   One MPI_File_write/read is the byte pairs of its two type maps (mpi_write_pairs, mpi_read_pairs);
   coalescing, construct_filetypes, merge_segs on segments that address no file byte twice and the cutting
   into groups keep the byte pairs; hence groups_stream_correct, mgetput_stream_correct and
   commit_stream_correct (+ _read).  The file view of a wait addresses no file byte twice
   (merge_requests_view_monotone, commit_view_no_overlap). *)
From Pnc Require Import NbSpec Proofs_Disk Proofs_Lists Proofs_NbGeom.
Require Import Lia ZArith List Bool ZifyBool.
Import ListNotations.
Local Open Scope Z_scope.
Local Arguments Z.mul : simpl never.
Local Arguments Z.add : simpl never.
Local Arguments Z.sub : simpl never.
Local Arguments Z.of_nat : simpl never.
Local Arguments Z.to_nat : simpl never.

Lemma disk_eq_refl : forall d, disk_eq d d.
Proof. intros d x. reflexivity. Qed.

Lemma disk_eq_sym : forall a b, disk_eq a b -> disk_eq b a.
Proof. intros a b H x. symmetry. apply H. Qed.

Lemma disk_eq_trans : forall a b c, disk_eq a b -> disk_eq b c -> disk_eq a c.
Proof. intros a b c H1 H2 x. rewrite H1. apply H2. Qed.

Lemma dk_write_cong : forall a b o bs, disk_eq a b -> disk_eq (dk_write a o bs) (dk_write b o bs).
Proof.
  intros a b o bs H x. rewrite !dk_get_write.
  destruct ((o <=? x) && (x <? o + Zlen bs)); [reflexivity | apply H].
Qed.

Lemma dk_get_write1 : forall d o v x, dk_get (dk_write d o [v]) x = if o =? x then v else dk_get d x.
Proof.
  intros d o v x. rewrite dk_get_write. change (Zlen [v]) with 1.
  destruct (Z.eqb_spec o x) as [E|E].
  - subst x. replace ((o <=? o) && (o <? o + 1)) with true by lia.
    replace (o - o) with 0 by lia. reflexivity.
  - replace ((o <=? x) && (x <? o + 1)) with false by lia. reflexivity.
Qed.

Lemma zip_flat_map : forall A B C (f : A -> list B) (g : A -> list C) l,
  (forall a, In a l -> length (f a) = length (g a)) ->
  zip (flat_map f l) (flat_map g l) = flat_map (fun a => zip (f a) (g a)) l.
Proof.
  intros A B C f g l. induction l as [|a l IH]; intros H; cbn [flat_map]; [reflexivity|].
  rewrite zip_app by (apply H; now left). rewrite IH; [reflexivity|].
  intros b Hb. apply H. now right.
Qed.

Lemma length_flat_map_eq : forall A B C (f : A -> list B) (g : A -> list C) l,
  (forall a, In a l -> length (f a) = length (g a)) ->
  length (flat_map f l) = length (flat_map g l).
Proof.
  intros A B C f g l. induction l as [|a l IH]; intros H; cbn [flat_map]; [reflexivity|].
  rewrite !app_length. rewrite (H a) by (now left). rewrite IH; [reflexivity|].
  intros b Hb. apply H. now right.
Qed.

Lemma zrange_Zlen_cons : forall A o (b : A) bs,
  zrange o (Zlen (b :: bs)) = o :: zrange (o + 1) (Zlen bs).
Proof.
  intros A o b bs. unfold zrange, Zlen. cbn [length]. rewrite !Nat2Z.id. reflexivity.
Qed.

(* two writes to disjoint ranges commute *)
Theorem dk_write_commute : forall d o1 b1 o2 b2,
  (o1 + Zlen b1 <= o2 \/ o2 + Zlen b2 <= o1) ->
  disk_eq (dk_write (dk_write d o1 b1) o2 b2) (dk_write (dk_write d o2 b2) o1 b1).
Proof.
  intros d o1 b1 o2 b2 H x. rewrite !dk_get_write.
  destruct ((o2 <=? x) && (x <? o2 + Zlen b2)) eqn:E2;
    destruct ((o1 <=? x) && (x <? o1 + Zlen b1)) eqn:E1; try reflexivity.
  exfalso. lia.
Qed.

(* any permutation of pairwise disjoint writes gives the same disk *)
Definition tiles_disjoint (l : list (Z * list byte)) : Prop :=
  ForallOrdPairs (fun p q => fst p + Zlen (snd p) <= fst q \/ fst q + Zlen (snd q) <= fst p) l.

Theorem disjoint_writes_commute : forall tiles tiles' d,
  Permutation tiles tiles' -> tiles_disjoint tiles ->
  disk_eq (write_tiles tiles d) (write_tiles tiles' d).
Proof.
  intros tiles tiles' d HP HD x. apply write_tiles_perm_get; [|exact HP].
  intros p q Hp Hq Hcp Hcq.
  destruct (ForallOrdPairs_In HD _ _ Hp Hq) as [E|[E|E]]; [subst; reflexivity| |]; unfold covers in *; lia.
Qed.

Example disjoint_writes_commute_ex :
  let t := [(10, [1; 2; 3]); (0, [4; 5]); (13, [6]); (5, [7; 8; 9])] in
  tiles_disjoint t /\ Permutation t (rev t) /\
  map (dk_get (write_tiles (rev t) empty_disk)) (zrange 0 15) = [4; 5; -1; -1; -1; 7; 8; 9; -1; -1; 1; 2; 3; 6; -1].
Proof.
  cbv zeta. split; [|split].
  - unfold tiles_disjoint.
    repeat (apply FOP_cons;
            [repeat (apply Forall_cons; [cbn [fst snd]; unfold Zlen; cbn [length]; lia|]); apply Forall_nil|]).
    apply FOP_nil.
  - apply Permutation_rev.
  - vm_compute. reflexivity.
Qed.

(* write_pairs / read_pairs: lookup, permutation, append *)
(* common shape of write_pairs and read_pairs: single-byte writes at key kf p of value vf p *)
Definition upd_pairs (kf : Z * Z -> Z) (vf : Z * Z -> byte) (d : disk) (ps : list (Z * Z)) : disk :=
  fold_left (fun f p => dk_write f (kf p) [vf p]) ps d.

Lemma write_pairs_upd : forall file mem ps,
  write_pairs file mem ps = upd_pairs fst (fun p => dk_get mem (snd p)) file ps.
Proof. reflexivity. Qed.

Lemma read_pairs_upd : forall file mem ps,
  read_pairs file mem ps = upd_pairs snd (fun p => dk_get file (fst p)) mem ps.
Proof. reflexivity. Qed.

Lemma upd_pairs_cons : forall kf vf d p ps,
  upd_pairs kf vf d (p :: ps) = upd_pairs kf vf (dk_write d (kf p) [vf p]) ps.
Proof. reflexivity. Qed.

Lemma upd_pairs_app : forall kf vf d a b,
  upd_pairs kf vf d (a ++ b) = upd_pairs kf vf (upd_pairs kf vf d a) b.
Proof. intros. unfold upd_pairs. apply fold_left_app. Qed.

Lemma upd_pairs_cong : forall kf vf ps d d',
  disk_eq d d' -> disk_eq (upd_pairs kf vf d ps) (upd_pairs kf vf d' ps).
Proof.
  intros kf vf ps. induction ps as [|p ps IH]; intros d d' H.
  - exact H.
  - rewrite !upd_pairs_cons. apply IH. apply dk_write_cong. exact H.
Qed.

Lemma find_key_none : forall (kf : Z * Z -> Z) ps x,
  ~ In x (map kf ps) -> find (fun p => kf p =? x) ps = None.
Proof.
  intros kf ps x. induction ps as [|a ps IH]; cbn [map In find]; intros H; [reflexivity|].
  destruct (Z.eqb_spec (kf a) x) as [E|E]; [exfalso; apply H; now left|].
  apply IH. intros H'. apply H. now right.
Qed.

Lemma upd_pairs_get : forall kf vf ps d x, NoDup (map kf ps) ->
  dk_get (upd_pairs kf vf d ps) x =
  match find (fun p => kf p =? x) ps with Some p => vf p | None => dk_get d x end.
Proof.
  intros kf vf ps. induction ps as [|p ps IH]; intros d x Hnd.
  - reflexivity.
  - cbn [map] in Hnd. apply NoDup_cons_iff in Hnd. destruct Hnd as [Hnotin Hnd].
    rewrite upd_pairs_cons, IH by exact Hnd. cbn [find].
    destruct (Z.eqb_spec (kf p) x) as [E|E].
    + subst x. rewrite find_key_none by exact Hnotin.
      rewrite dk_get_write1, Z.eqb_refl. reflexivity.
    + destruct (find (fun p0 => kf p0 =? x) ps) as [q|]; [reflexivity|].
      rewrite dk_get_write1. destruct (Z.eqb_spec (kf p) x) as [E'|E']; [contradiction | reflexivity].
Qed.

Lemma find_key_perm : forall (kf : Z * Z -> Z) x ps ps',
  Permutation ps ps' -> NoDup (map kf ps) ->
  find (fun p => kf p =? x) ps = find (fun p => kf p =? x) ps'.
Proof.
  intros kf x ps ps' HP.
  induction HP as [|a l l' HP IH|a b l|l l' l'' HP1 IH1 HP2 IH2]; intros Hnd.
  - reflexivity.
  - cbn [find]. destruct (kf a =? x); [reflexivity|]. apply IH.
    cbn [map] in Hnd. apply NoDup_cons_iff in Hnd. apply Hnd.
  - cbn [find].
    destruct (Z.eqb_spec (kf b) x) as [E1|E1]; destruct (Z.eqb_spec (kf a) x) as [E2|E2];
      try reflexivity.
    exfalso. cbn [map] in Hnd. apply NoDup_cons_iff in Hnd. destruct Hnd as [Hn _].
    apply Hn. left. congruence.
  - rewrite IH1 by exact Hnd. apply IH2.
    eapply Permutation_NoDup; [|exact Hnd]. apply Permutation_map. exact HP1.
Qed.

Lemma upd_pairs_perm : forall kf vf ps ps' d,
  Permutation ps ps' -> NoDup (map kf ps) ->
  disk_eq (upd_pairs kf vf d ps) (upd_pairs kf vf d ps').
Proof.
  intros kf vf ps ps' d HP Hnd x.
  assert (Hnd' : NoDup (map kf ps'))
    by (eapply Permutation_NoDup; [apply Permutation_map; exact HP | exact Hnd]).
  rewrite (upd_pairs_get kf vf ps d x Hnd), (upd_pairs_get kf vf ps' d x Hnd').
  rewrite (find_key_perm kf x ps ps' HP Hnd). reflexivity.
Qed.

Theorem write_pairs_get : forall ps file mem x, NoDup (map fst ps) ->
  dk_get (write_pairs file mem ps) x =
  match find (fun p => fst p =? x) ps with Some p => dk_get mem (snd p) | None => dk_get file x end.
Proof.
  intros ps file mem x H.
  exact (upd_pairs_get fst (fun p => dk_get mem (snd p)) ps file x H).
Qed.

Theorem write_pairs_perm : forall ps ps' file mem, Permutation ps ps' -> NoDup (map fst ps) ->
  disk_eq (write_pairs file mem ps) (write_pairs file mem ps').
Proof.
  intros ps ps' file mem HP H.
  exact (upd_pairs_perm fst (fun p => dk_get mem (snd p)) ps ps' file HP H).
Qed.

Theorem write_pairs_app : forall a b file mem,
  write_pairs file mem (a ++ b) = write_pairs (write_pairs file mem a) mem b.
Proof. intros. unfold write_pairs. apply fold_left_app. Qed.

Theorem read_pairs_get : forall ps file mem x, NoDup (map snd ps) ->
  dk_get (read_pairs file mem ps) x =
  match find (fun p => snd p =? x) ps with Some p => dk_get file (fst p) | None => dk_get mem x end.
Proof.
  intros ps file mem x H.
  exact (upd_pairs_get snd (fun p => dk_get file (fst p)) ps mem x H).
Qed.

Theorem read_pairs_perm : forall ps ps' file mem, Permutation ps ps' -> NoDup (map snd ps) ->
  disk_eq (read_pairs file mem ps) (read_pairs file mem ps').
Proof.
  intros ps ps' file mem HP H.
  exact (upd_pairs_perm snd (fun p => dk_get file (fst p)) ps ps' mem HP H).
Qed.

Theorem read_pairs_app : forall a b file mem,
  read_pairs file mem (a ++ b) = read_pairs file (read_pairs file mem a) b.
Proof. intros. unfold read_pairs. apply fold_left_app. Qed.

Lemma write_pairs_cong : forall ps file file' mem,
  disk_eq file file' -> disk_eq (write_pairs file mem ps) (write_pairs file' mem ps).
Proof. intros ps file file' mem H. exact (upd_pairs_cong _ _ ps file file' H). Qed.

(* the MPI-IO call = the byte pairs of the two type maps *)
(* single-byte writes of the values vs at the positions ks *)
Definition upd2 (d : disk) (ks : list Z) (vs : list byte) : disk := upd_pairs fst snd d (zip ks vs).

Lemma upd2_cong : forall ks vs d d', disk_eq d d' -> disk_eq (upd2 d ks vs) (upd2 d' ks vs).
Proof. intros. unfold upd2. apply upd_pairs_cong. assumption. Qed.

Lemma upd2_app : forall ks1 ks2 (vs1 vs2 : list byte) d, length ks1 = length vs1 ->
  upd2 d (ks1 ++ ks2) (vs1 ++ vs2) = upd2 (upd2 d ks1 vs1) ks2 vs2.
Proof. intros. unfold upd2. rewrite zip_app by assumption. apply upd_pairs_app. Qed.

Lemma upd2_cons : forall d k ks v vs, upd2 d (k :: ks) (v :: vs) = upd2 (dk_write d k [v]) ks vs.
Proof. reflexivity. Qed.

Lemma dk_write_cons : forall d o b bs,
  disk_eq (dk_write d o (b :: bs)) (dk_write (dk_write d o [b]) (o + 1) bs).
Proof.
  intros d o b bs x. rewrite (dk_get_write d), (dk_get_write (dk_write d o [b])), dk_get_write1.
  rewrite Zlen_cons. pose proof (Zlen_nonneg bs) as Hn.
  destruct (Z.eqb_spec o x) as [E3|E3].
  - subst x. replace ((o <=? o) && (o <? o + (Zlen bs + 1))) with true by lia.
    replace ((o + 1 <=? o) && (o <? o + 1 + Zlen bs)) with false by lia.
    replace (o - o) with 0 by lia. reflexivity.
  - destruct ((o + 1 <=? x) && (x <? o + 1 + Zlen bs)) eqn:E2.
    + replace ((o <=? x) && (x <? o + (Zlen bs + 1))) with true by lia.
      cbn [znth]. destruct (Z.eqb_spec (x - o) 0) as [E4|E4]; [lia|]. f_equal. lia.
    + replace ((o <=? x) && (x <? o + (Zlen bs + 1))) with false by lia. reflexivity.
Qed.

(* one block write = its single-byte writes, in order *)
Lemma dk_write_upd2 : forall bs d o, disk_eq (dk_write d o bs) (upd2 d (zrange o (Zlen bs)) bs).
Proof.
  induction bs as [|b bs IH]; intros d o.
  - intros x. reflexivity.
  - rewrite zrange_Zlen_cons, upd2_cons.
    eapply disk_eq_trans; [apply dk_write_cons | apply IH].
Qed.

Lemma blocks_bytes_cons : forall b r, blocks_bytes (b :: r) = zrange (fst b) (snd b) ++ blocks_bytes r.
Proof. reflexivity. Qed.

Lemma blocks_bytes_single : forall b, blocks_bytes [b] = zrange (fst b) (snd b).
Proof. intros b. rewrite blocks_bytes_cons. apply app_nil_r. Qed.

Lemma blocks_bytes_app : forall a b, blocks_bytes (a ++ b) = blocks_bytes a ++ blocks_bytes b.
Proof. intros. unfold blocks_bytes. apply flat_map_app. Qed.

Lemma Zlen_blocks_bytes : forall b, Forall (fun p => 0 <= snd p) b ->
  Zlen (blocks_bytes b) = zsum (map snd b).
Proof.
  induction b as [|p b IH]; intros H.
  - reflexivity.
  - apply Forall_cons_iff in H. destruct H as [Hp Hb].
    rewrite blocks_bytes_cons, Zlen_app, Zlen_zrange, IH by exact Hb.
    cbn [map zsum]. lia.
Qed.

Lemma write_chunks_upd2 : forall fb d stream,
  Forall (fun b => 0 <= snd b) fb -> zsum (map snd fb) <= Zlen stream ->
  disk_eq (write_chunks d fb stream) (upd2 d (blocks_bytes fb) stream).
Proof.
  induction fb as [|[o l] r IH]; intros d stream Hnn Hlen.
  - intros x. reflexivity.
  - apply Forall_cons_iff in Hnn. destruct Hnn as [Hl Hr]. cbn [snd] in Hl.
    cbn [map zsum snd] in Hlen.
    assert (Hr0 : 0 <= zsum (map snd r)).
    { rewrite <- Zlen_blocks_bytes by exact Hr. apply Zlen_nonneg. }
    cbn [write_chunks]. rewrite blocks_bytes_cons. cbn [fst snd].
    pose proof (zfirstn_zskipn l stream) as Hsplit.
    assert (Hl1 : Zlen (zfirstn l stream) = l) by (apply Zlen_zfirstn_enough; lia).
    remember (zfirstn l stream) as s1 eqn:Es1. remember (zskipn l stream) as s2 eqn:Es2.
    rewrite <- Hsplit.
    assert (Hl2 : Zlen s2 = Zlen stream - l).
    { rewrite <- Hsplit, Zlen_app. lia. }
    rewrite upd2_app by (rewrite zrange_length; unfold Zlen in Hl1; lia).
    eapply disk_eq_trans; [apply IH; [exact Hr | lia]|].
    apply upd2_cong. rewrite <- Hl1. apply dk_write_upd2.
Qed.

Lemma gather_blocks_bytes : forall d b, gather_blocks d b = map (dk_get d) (blocks_bytes b).
Proof.
  intros d b. unfold gather_blocks, blocks_bytes. rewrite map_flat_map_comm. reflexivity.
Qed.

Lemma write_pairs_zip : forall A B file mem,
  write_pairs file mem (zip A B) = upd2 file A (map (dk_get mem) B).
Proof.
  unfold write_pairs, upd2, upd_pairs. induction A as [|a A IH]; intros B file mem; destruct B as [|b B];
    cbn [zip map fold_left fst snd]; try reflexivity. apply IH.
Qed.

Lemma read_pairs_zip : forall A B file mem,
  read_pairs file mem (zip A B) = upd2 mem B (map (dk_get file) A).
Proof.
  unfold read_pairs, upd2, upd_pairs. induction A as [|a A IH]; intros B file mem; destruct B as [|b B];
    cbn [zip map fold_left fst snd]; try reflexivity. apply IH.
Qed.

Theorem mpi_write_pairs : forall file mem t,
  Forall (fun b => 0 <= snd b) (io_f t) -> Forall (fun b => 0 <= snd b) (io_b t) ->
  zsum (map snd (io_f t)) = zsum (map snd (io_b t)) ->
  disk_eq (mpi_write file mem t) (write_pairs file mem (io_pairs t)).
Proof.
  intros file mem t Hf Hb Hs. unfold mpi_write, io_pairs.
  rewrite write_pairs_zip, gather_blocks_bytes.
  apply write_chunks_upd2; [exact Hf|].
  rewrite Zlen_map, Zlen_blocks_bytes by exact Hb. lia.
Qed.

Theorem mpi_read_pairs : forall file mem t,
  Forall (fun b => 0 <= snd b) (io_f t) -> Forall (fun b => 0 <= snd b) (io_b t) ->
  zsum (map snd (io_f t)) = zsum (map snd (io_b t)) ->
  disk_eq (mpi_read file mem t) (read_pairs file mem (io_pairs t)).
Proof.
  intros file mem t Hf Hb Hs. unfold mpi_read, io_pairs.
  rewrite read_pairs_zip, gather_blocks_bytes.
  apply write_chunks_upd2; [exact Hb|].
  rewrite Zlen_map, Zlen_blocks_bytes by exact Hf. lia.
Qed.

(* type-map surgery preserves the bytes *)
Definition nonneg_blocks (b : blocks) : Prop := Forall (fun p => 0 <= snd p) b.

(* a surgery that keeps the bytes keeps their number *)
Lemma bytes_eq_zsum : forall b b', nonneg_blocks b -> nonneg_blocks b' ->
  blocks_bytes b = blocks_bytes b' -> zsum (map snd b) = zsum (map snd b').
Proof. intros b b' H H' E. rewrite <- !Zlen_blocks_bytes by assumption. rewrite E. reflexivity. Qed.

Lemma coalesce_facts : forall rest cur, nonneg_blocks (cur :: rest) ->
  blocks_bytes (coalesce cur rest) = blocks_bytes (cur :: rest) /\
  nonneg_blocks (coalesce cur rest).
Proof.
  unfold nonneg_blocks.
  induction rest as [|[o l] r IH]; intros cur H.
  - cbn [coalesce]. split; [reflexivity | exact H].
  - apply Forall_cons_iff in H. destruct H as [Hc H].
    apply Forall_cons_iff in H. destruct H as [Hl Hr]. cbn [snd] in Hl.
    cbn [coalesce]. destruct (Z.eqb_spec (fst cur + snd cur) o) as [E|E].
    + destruct (IH (fst cur, snd cur + l)) as (B & N).
      { apply Forall_cons; [cbn [snd]; lia | exact Hr]. }
      split; [|exact N].
      rewrite B. rewrite !blocks_bytes_cons. cbn [fst snd].
      rewrite zrange_app by assumption. rewrite E, app_assoc. reflexivity.
    + destruct (IH (o, l)) as (B & N).
      { apply Forall_cons; [exact Hl | exact Hr]. }
      split.
      * rewrite blocks_bytes_cons, B. reflexivity.
      * apply Forall_cons; [exact Hc | exact N].
Qed.

Theorem coalesce_bytes : forall cur rest, Forall (fun b => 0 <= snd b) (cur :: rest) ->
  blocks_bytes (coalesce cur rest) = blocks_bytes (cur :: rest).
Proof. intros cur rest H. apply (coalesce_facts rest cur H). Qed.

Theorem coalesce_list_bytes : forall b, Forall (fun p => 0 <= snd p) b ->
  blocks_bytes (coalesce_list b) = blocks_bytes b.
Proof. intros [|x r] H; [reflexivity|]. apply coalesce_bytes. exact H. Qed.

Theorem coalesce_list_nonneg : forall b, Forall (fun p => 0 <= snd p) b ->
  Forall (fun p => 0 <= snd p) (coalesce_list b).
Proof. intros [|x r] H; [constructor|]. apply (coalesce_facts r x H). Qed.

Theorem coalesce_list_zsum : forall b, Forall (fun p => 0 <= snd p) b ->
  zsum (map snd (coalesce_list b)) = zsum (map snd b).
Proof.
  intros b H. apply bytes_eq_zsum; [apply coalesce_list_nonneg | | apply coalesce_list_bytes]; exact H.
Qed.

(* construct_filetypes *)
Definition opt_block (last : option (Z * Z)) : blocks := match last with Some b => [b] | None => [] end.

Definition cf_spec (fts : list (bool * blocks)) (last : option (Z * Z)) : Prop :=
  blocks_bytes (construct_filetypes fts last) =
    blocks_bytes (opt_block last) ++ flat_map (fun ft => blocks_bytes (snd ft)) fts /\
  nonneg_blocks (construct_filetypes fts last).

(* the generic branch of construct_filetypes *)
Lemma cf_generic : forall b bl r last,
  construct_filetypes ((b, bl) :: r) last = opt_block last ++ bl ++ construct_filetypes r None ->
  nonneg_blocks (opt_block last) -> nonneg_blocks bl -> cf_spec r None ->
  cf_spec ((b, bl) :: r) last.
Proof.
  intros b bl r last E Hl Hbl (B & N). unfold cf_spec. rewrite E.
  cbn [opt_block app] in B. cbn [flat_map snd]. split.
  - rewrite !blocks_bytes_app, B. reflexivity.
  - unfold nonneg_blocks. apply Forall_app. split; [exact Hl|].
    apply Forall_app. split; [exact Hbl | exact N].
Qed.

Lemma construct_filetypes_facts : forall fts last,
  Forall (fun ft => nonneg_blocks (snd ft)) fts -> nonneg_blocks (opt_block last) ->
  cf_spec fts last.
Proof.
  induction fts as [|[b bl] r IH]; intros last Hf Hl.
  - unfold cf_spec. cbn [construct_filetypes flat_map]. fold (opt_block last).
    rewrite app_nil_r. split; [reflexivity | exact Hl].
  - apply Forall_cons_iff in Hf. destruct Hf as [Hbl Hr]. cbn [snd] in Hbl.
    assert (HN : cf_spec r None) by (apply IH; [exact Hr | constructor]).
    destruct b; [destruct bl as [|[o l] [|x tl]]|]; try (apply cf_generic; [reflexivity | assumption ..]).
    (* (true, [(o,l)]): the block is appended to, or replaces, the pending one *)
    assert (Hl0 : 0 <= l).
    { unfold nonneg_blocks in Hbl. apply Forall_cons_iff in Hbl. apply Hbl. }
    assert (Hone : forall q, 0 <= snd q -> nonneg_blocks (opt_block (Some q))).
    { intros q Hq. apply Forall_cons; [exact Hq | constructor]. }
    unfold cf_spec. cbn [construct_filetypes flat_map snd]. rewrite blocks_bytes_single. cbn [fst snd].
    destruct last as [[lo ll]|].
    + assert (Hll : 0 <= ll).
      { unfold nonneg_blocks in Hl. cbn [opt_block] in Hl. apply Forall_cons_iff in Hl. apply Hl. }
      cbn [opt_block]. rewrite blocks_bytes_single. cbn [fst snd].
      destruct (Z.eqb_spec (o - lo) ll) as [E|E].
      * destruct (IH (Some (lo, ll + l)) Hr) as (B & N); [apply Hone; cbn [snd]; lia|].
        split; [|exact N].
        rewrite B. cbn [opt_block]. rewrite blocks_bytes_single. cbn [fst snd].
        rewrite zrange_app by assumption. replace (lo + ll) with o by lia.
        rewrite <- app_assoc. reflexivity.
      * destruct (IH (Some (o, l)) Hr) as (B & N); [apply Hone; exact Hl0|].
        split.
        -- rewrite blocks_bytes_cons, B. cbn [opt_block fst snd].
           rewrite blocks_bytes_single. reflexivity.
        -- apply Forall_cons; [exact Hll | exact N].
    + destruct (IH (Some (o, l)) Hr) as (B & N); [apply Hone; exact Hl0|].
      split; [|exact N].
      rewrite B. cbn [opt_block]. rewrite blocks_bytes_single. reflexivity.
Qed.

Theorem construct_filetypes_bytes : forall fts last,
  Forall (fun ft => Forall (fun b => 0 <= snd b) (snd ft)) fts ->
  Forall (fun b => 0 <= snd b) (match last with Some b => [b] | None => [] end) ->
  blocks_bytes (construct_filetypes fts last) =
  blocks_bytes (match last with Some b => [b] | None => [] end) ++
  flat_map (fun ft => blocks_bytes (snd ft)) fts.
Proof. intros fts last Hf Hl. apply (construct_filetypes_facts fts last Hf Hl). Qed.

Theorem construct_filetypes_nonneg : forall fts last,
  Forall (fun ft => Forall (fun b => 0 <= snd b) (snd ft)) fts ->
  Forall (fun b => 0 <= snd b) (match last with Some b => [b] | None => [] end) ->
  Forall (fun b => 0 <= snd b) (construct_filetypes fts last).
Proof. intros fts last Hf Hl. apply (construct_filetypes_facts fts last Hf Hl). Qed.

Theorem construct_filetypes_zsum : forall fts last,
  Forall (fun ft => Forall (fun b => 0 <= snd b) (snd ft)) fts ->
  Forall (fun b => 0 <= snd b) (match last with Some b => [b] | None => [] end) ->
  zsum (map snd (construct_filetypes fts last)) =
  zsum (map snd (match last with Some b => [b] | None => [] end)) +
  zsum (map (fun ft => zsum (map snd (snd ft))) fts).
Proof.
  intros fts last Hf Hl.
  rewrite <- !Zlen_blocks_bytes by (assumption || (apply construct_filetypes_nonneg; assumption)).
  rewrite construct_filetypes_bytes, Zlen_app by assumption. f_equal.
  induction Hf as [|ft fts H _ IH]; [reflexivity|].
  cbn [flat_map map zsum]. rewrite Zlen_app, IH, Zlen_blocks_bytes by exact H. reflexivity.
Qed.

(* merge_segs on segments that address no file byte twice *)
Lemma segs_pairs_cons : forall s r, segs_pairs (s :: r) = seg_pairs s ++ segs_pairs r.
Proof. reflexivity. Qed.

Lemma segs_pairs_app : forall a b, segs_pairs (a ++ b) = segs_pairs a ++ segs_pairs b.
Proof. intros. unfold segs_pairs. apply flat_map_app. Qed.

Lemma map_fst_seg_pairs : forall s, map fst (seg_pairs s) = zrange (s_off s) (s_len s).
Proof. intros s. unfold seg_pairs. apply map_fst_zip. rewrite !zrange_length. reflexivity. Qed.

Lemma map_fst_segs_pairs : forall l,
  map fst (segs_pairs l) = flat_map (fun s => zrange (s_off s) (s_len s)) l.
Proof.
  intros l. unfold segs_pairs. rewrite map_flat_map_comm. apply flat_map_ext_In.
  intros a _. apply map_fst_seg_pairs.
Qed.

(* every segment ends before every later one begins *)
Definition segs_sep (l : list seg) : Prop := StronglySorted (fun a b => s_off a + s_len a <= s_off b) l.

Lemma sorted_nodup_sep : forall l,
  StronglySorted (fun a b => s_off a <= s_off b) l -> Forall (fun x => 0 < s_len x) l ->
  NoDup (map fst (segs_pairs l)) -> segs_sep l.
Proof.
  intros l HS HP HN. rewrite map_fst_segs_pairs in HN.
  induction l as [|s r IH]; [constructor|].
  apply StronglySorted_inv in HS. destruct HS as [HSr HSs].
  apply Forall_cons_iff in HP. destruct HP as [Hs Hr].
  cbn [flat_map] in HN. apply NoDup_app_inv in HN. destruct HN as (_ & HNr & HD).
  constructor; [apply IH; assumption|]. clear IH.
  apply Forall_forall. intros b Hb.
  pose proof (proj1 (Forall_forall _ _) HSs b Hb) as Hsb. cbv beta in Hsb.
  pose proof (proj1 (Forall_forall _ _) Hr b Hb) as Hlb. cbv beta in Hlb.
  destruct (Z_le_dec (s_off s + s_len s) (s_off b)) as [L|L]; [exact L|]. exfalso.
  apply (HD (s_off b)).
  - apply In_zrange. lia.
  - apply in_flat_map. exists b. split; [exact Hb|]. apply In_zrange. lia.
Qed.

Lemma seg_pairs_split : forall o l1 l2 a, 0 <= l1 -> 0 <= l2 ->
  seg_pairs (o, l1 + l2, a) = seg_pairs (o, l1, a) ++ seg_pairs (o + l1, l2, a + l1).
Proof.
  intros o l1 l2 a H1 H2. unfold seg_pairs, s_off, s_len, s_addr. cbn [fst snd].
  rewrite !zrange_app by assumption. apply zip_app. rewrite !zrange_length. reflexivity.
Qed.

(* M stands for cur :: rest: the same byte pairs, positive separated segments, none before cur *)
Definition merged (cur : seg) (rest M : list seg) : Prop :=
  segs_pairs M = segs_pairs (cur :: rest) /\ Forall (fun x => 0 < s_len x) M /\
  segs_sep M /\ Forall (fun x => s_off cur <= s_off x) M.

Lemma merged_keep : forall cur j r M, merged j r M ->
  0 < s_len cur -> s_off cur + s_len cur <= s_off j -> merged cur (j :: r) (cur :: M).
Proof.
  intros cur j r M (P & Q & S & F) Hp Hs. split; [|split; [|split]].
  - rewrite !segs_pairs_cons, P. reflexivity.
  - apply Forall_cons; assumption.
  - constructor; [exact S|]. eapply Forall_impl; [|exact F]. intros x Hx. cbv beta in Hx. lia.
  - apply Forall_cons; [lia|]. eapply Forall_impl; [|exact F]. intros x Hx. cbv beta in Hx. lia.
Qed.

Lemma merge_segs_sep_facts : forall rest cur,
  segs_sep (cur :: rest) -> Forall (fun x => 0 < s_len x) (cur :: rest) ->
  merged cur rest (merge_segs cur rest).
Proof.
  induction rest as [|j r IH]; intros cur HS HP.
  - cbn [merge_segs]. split; [reflexivity|]. split; [exact HP|]. split; [exact HS|].
    constructor; [lia | constructor].
  - apply StronglySorted_inv in HS. destruct HS as [HSr HSc].
    apply Forall_cons_iff in HSc. destruct HSc as [Hcj Hcr].
    apply Forall_cons_iff in HP. destruct HP as [Hpi HPr].
    pose proof (merged_keep cur j r _ (IH j HSr HPr) Hpi Hcj) as K.
    pose proof HPr as HPr'. apply Forall_cons_iff in HPr'. destruct HPr' as [Hpj HPr2].
    destruct cur as [[oi li] ai]. destruct j as [[oj lj] aj].
    unfold s_off, s_len in Hcj, Hpi, Hpj. cbn [fst snd] in Hcj, Hpi, Hpj.
    (* separated segments: j is not covered by cur, and they overlap by 0 bytes if at all *)
    cbn [merge_segs].
    replace (oi + li >=? oj + lj) with false by lia.
    destruct (oi + li - oj >=? 0) eqn:Eg; [|exact K].
    assert (Eo : oi + li - oj = 0) by lia. rewrite Eo.
    destruct (Z.eqb_spec (ai + li) (aj + 0)) as [Ea|Ea].
    + apply StronglySorted_inv in HSr. destruct HSr as [HSr2 Hjr].
      destruct (IH (oi, li + (lj - 0), ai)) as (P & Q & S & F).
      { constructor; [exact HSr2|]. eapply Forall_impl; [|exact Hjr].
        intros x Hx. unfold s_off, s_len in *. cbn [fst snd] in *. lia. }
      { apply Forall_cons; [unfold s_len; cbn [fst snd]; lia | exact HPr2]. }
      split; [|split; [|split]]; [|exact Q|exact S|exact F].
      rewrite P. rewrite !segs_pairs_cons. rewrite app_assoc. f_equal.
      replace (lj - 0) with lj by lia. rewrite seg_pairs_split by lia.
      f_equal. f_equal. f_equal; [f_equal|]; lia.
    + replace (oj + 0, lj - 0, aj + 0) with (oj, lj, aj) by (f_equal; [f_equal|]; lia).
      exact K.
Qed.

Theorem merge_segs_disjoint : forall s r,
  StronglySorted (fun a b => s_off a <= s_off b) (s :: r) ->
  Forall (fun x => 0 < s_len x) (s :: r) ->
  NoDup (map fst (segs_pairs (s :: r))) ->
  segs_pairs (merge_segs s r) = segs_pairs (s :: r).
Proof.
  intros s r HS HP HN.
  destruct (merge_segs_sep_facts r s (sorted_nodup_sep _ HS HP HN) HP) as (P & _). exact P.
Qed.

(* three segments: the second continues the first in the file AND in the buffer (merged),
   the third is file-contiguous with the second but not buffer-contiguous (kept) *)
Example merge_segs_disjoint_ex :
  let s := (100, 4, 1000) in let r := [(104, 4, 1004); (108, 2, 2000); (120, 3, 1008)] in
  StronglySorted (fun a b => s_off a <= s_off b) (s :: r) /\
  Forall (fun x => 0 < s_len x) (s :: r) /\
  NoDup (map fst (segs_pairs (s :: r))) /\
  merge_segs s r = [(100, 8, 1000); (108, 2, 2000); (120, 3, 1008)].
Proof.
  cbv zeta. split; [|split; [|split]].
  - repeat (apply SSorted_cons;
            [|repeat (apply Forall_cons; [unfold s_off; cbn [fst snd]; lia|]); apply Forall_nil]).
    apply SSorted_nil.
  - repeat (apply Forall_cons; [unfold s_len; cbn [fst snd]; lia|]). apply Forall_nil.
  - rewrite map_fst_segs_pairs. unfold s_off, s_len. cbn [flat_map fst snd app].
    change (NoDup (zrange 100 4 ++ zrange 104 4 ++ zrange 108 2 ++ zrange 120 3 ++ [])).
    rewrite app_nil_r.
    replace (zrange 100 4 ++ zrange 104 4 ++ zrange 108 2 ++ zrange 120 3)
      with (zrange 100 10 ++ zrange 120 3) by reflexivity.
    apply NoDup_app_intro; [apply zrange_NoDup | apply zrange_NoDup |].
    intros x H1 H2. apply In_zrange in H1. apply In_zrange in H2. lia.
  - reflexivity.
Qed.

(* the group cutting is a partition *)
Lemma cut_groups_concat : forall bounds l pos cur, flat_map snd (cut_groups l pos bounds cur) = l.
Proof.
  induction bounds as [|[b t] r IH]; intros l pos cur; cbn [cut_groups flat_map snd].
  - apply app_nil_r.
  - rewrite IH. apply zfirstn_zskipn.
Qed.

Theorem partition_groups_concat : forall l, flat_map snd (partition_groups l) = l.
Proof. intros l. unfold partition_groups, group_bounds. cbv zeta. apply cut_groups_concat. Qed.

(* type maps MPI accepts; one request; file views *)
(* a pair of type maps MPI accepts: lengths >= 0, same number of bytes on both sides *)
Definition io_ok (t : iotypes) : Prop :=
  Forall (fun b => 0 <= snd b) (io_f t) /\ Forall (fun b => 0 <= snd b) (io_b t) /\
  length (blocks_bytes (io_f t)) = length (blocks_bytes (io_b t)).

Lemma io_ok_zsum : forall t, io_ok t -> zsum (map snd (io_f t)) = zsum (map snd (io_b t)).
Proof.
  intros t (Hf & Hb & Hl). rewrite <- !Zlen_blocks_bytes by assumption. unfold Zlen. lia.
Qed.

Lemma mpi_write_pairs_ok : forall file mem t, io_ok t ->
  disk_eq (mpi_write file mem t) (write_pairs file mem (io_pairs t)).
Proof.
  intros file mem t H. pose proof (io_ok_zsum t H) as Hz. destruct H as (Hf & Hb & _).
  apply mpi_write_pairs; assumption.
Qed.

Lemma mpi_read_pairs_ok : forall file mem t, io_ok t ->
  disk_eq (mpi_read file mem t) (read_pairs file mem (io_pairs t)).
Proof.
  intros file mem t H. pose proof (io_ok_zsum t H) as Hz. destruct H as (Hf & Hb & _).
  apply mpi_read_pairs; assumption.
Qed.

Lemma mpi_write_perm : forall file mem t ps, io_ok t -> Permutation (io_pairs t) ps ->
  NoDup (map fst ps) -> disk_eq (mpi_write file mem t) (write_pairs file mem ps).
Proof.
  intros file mem t ps Hok Hperm Hnd.
  eapply disk_eq_trans; [apply mpi_write_pairs_ok; exact Hok|].
  apply disk_eq_sym. apply write_pairs_perm; [symmetry; exact Hperm | exact Hnd].
Qed.

Lemma mpi_read_perm : forall file mem t ps, io_ok t -> Permutation (io_pairs t) ps ->
  NoDup (map snd ps) -> disk_eq (mpi_read file mem t) (read_pairs file mem ps).
Proof.
  intros file mem t ps Hok Hperm Hnd.
  eapply disk_eq_trans; [apply mpi_read_pairs_ok; exact Hok|].
  apply disk_eq_sym. apply read_pairs_perm; [symmetry; exact Hperm | exact Hnd].
Qed.

Lemma blocks_bytes_flat_map : forall A (f : A -> blocks) l,
  blocks_bytes (flat_map f l) = flat_map (fun x => blocks_bytes (f x)) l.
Proof. intros. unfold blocks_bytes. apply flat_map_flat_map. Qed.

(* MPI_Type_create_struct of a list of type-map pairs *)
Lemma io_concat : forall ts, Forall io_ok ts ->
  io_ok (mkio (flat_map io_f ts) (flat_map io_b ts)) /\
  io_pairs (mkio (flat_map io_f ts) (flat_map io_b ts)) = flat_map io_pairs ts.
Proof.
  intros ts H.
  assert (Hlen : forall t, In t ts -> length (blocks_bytes (io_f t)) = length (blocks_bytes (io_b t))).
  { intros t Ht. apply (proj1 (Forall_forall _ _) H t Ht). }
  split; [split; [|split]|]; cbn [io_f io_b].
  - apply Forall_flat_map. eapply Forall_impl; [|exact H]. intros t Ht. apply Ht.
  - apply Forall_flat_map. eapply Forall_impl; [|exact H]. intros t Ht. apply Ht.
  - rewrite !blocks_bytes_flat_map. apply length_flat_map_eq. exact Hlen.
  - unfold io_pairs at 1. cbn [io_f io_b]. rewrite !blocks_bytes_flat_map.
    rewrite zip_flat_map by exact Hlen. reflexivity.
Qed.

Lemma perm_flat_map_pointwise : forall A B (f h : A -> list B) l,
  Forall (fun x => Permutation (f x) (h x)) l -> Permutation (flat_map f l) (flat_map h l).
Proof.
  intros A B f h l H. induction H as [|x l Hx Hl IH]; cbn [flat_map].
  - apply perm_nil.
  - apply Permutation_app; assumption.
Qed.

Lemma pos_segs_nonneg : forall (k : seg -> Z) segs, Forall (fun s => 0 < s_len s) segs ->
  Forall (fun b : Z * Z => 0 <= snd b) (map (fun s => (k s, s_len s)) segs).
Proof.
  intros k segs Hpos. apply Forall_map. eapply Forall_impl; [|exact Hpos].
  intros s Hs. cbv beta in Hs. cbn [snd]. lia.
Qed.

(* one side of type_create_off_len *)
Lemma view_bytes : forall (k : seg -> Z) segs, Forall (fun s => 0 < s_len s) segs ->
  Forall (fun b => 0 <= snd b) (coalesce_list (map (fun s => (k s, s_len s)) segs)) /\
  blocks_bytes (coalesce_list (map (fun s => (k s, s_len s)) segs)) =
    flat_map (fun s => zrange (k s) (s_len s)) segs.
Proof.
  intros k segs Hpos. pose proof (pos_segs_nonneg k segs Hpos) as H.
  split; [apply coalesce_list_nonneg; exact H|].
  rewrite coalesce_list_bytes by exact H. unfold blocks_bytes. rewrite flat_map_map_comm. reflexivity.
Qed.

(* type_create_off_len of a list of segments with positive lengths *)
Lemma segs_views_pairs : forall segs, Forall (fun s => 0 < s_len s) segs ->
  io_ok (mkio (segs_fview segs) (segs_bview segs)) /\
  io_pairs (mkio (segs_fview segs) (segs_bview segs)) = segs_pairs segs.
Proof.
  intros segs Hpos. unfold segs_fview, segs_bview, io_ok, io_pairs. cbn [io_f io_b].
  destruct (view_bytes s_off segs Hpos) as [Nf Ef]. destruct (view_bytes s_addr segs Hpos) as [Nb Eb].
  assert (Hlen : forall s, In s segs ->
            length (zrange (s_off s) (s_len s)) = length (zrange (s_addr s) (s_len s))).
  { intros s _. rewrite !zrange_length. reflexivity. }
  rewrite Ef, Eb. split; [split; [exact Nf | split; [exact Nb|]]|].
  - apply length_flat_map_eq. exact Hlen.
  - rewrite zip_flat_map by exact Hlen. reflexivity.
Qed.

Lemma offs_increasing_sorted : forall l, offs_increasing l = true ->
  StronglySorted (fun a b => s_off a <= s_off b) l.
Proof.
  intros l H. apply Sorted_StronglySorted.
  { intros x y z Hxy Hyz. lia. }
  induction l as [|a l IH]; [constructor|].
  destruct l as [|b r].
  - constructor; constructor.
  - cbn [offs_increasing] in H. apply andb_true_iff in H. destruct H as [H1 H2].
    constructor; [apply IH; exact H2|]. constructor. lia.
Qed.

Lemma annotate_req : forall leads r, a_req (annotate leads r) = r.
Proof. intros. unfold annotate. destruct (access_range _ r). reflexivity. Qed.

Lemma annotate_lead : forall leads r, a_lead (annotate leads r) = znth leads (r_lead_off r) dummy_lead.
Proof. intros. unfold annotate. destruct (access_range _ r). reflexivity. Qed.

Lemma req_ftype_facts : forall a, areq_wf a ->
  length (blocks_bytes (snd (req_ftype a))) = length (expand (req_bblock a)) /\
  Forall (fun b => 0 <= snd b) (snd (req_ftype a)) /\ 0 <= snd (req_bblock a).
Proof.
  intros a H. pose proof (req_ftype_nonneg a H) as Hn.
  pose proof H as ((Hx & _) & _ & _ & _ & Hpos & _).
  assert (Hb : 0 <= snd (req_bblock a)) by (unfold req_bblock; cbn [snd]; nia).
  split; [|split; assumption].
  apply Nat2Z.inj. change (Zlen (blocks_bytes (snd (req_ftype a))) = Zlen (expand (req_bblock a))).
  rewrite Zlen_blocks_bytes, req_ftype_total by assumption.
  unfold expand. rewrite Zlen_zrange. unfold req_bblock in *. cbn [snd] in *. lia.
Qed.

(* file-view facts (what MPI-IO requires of a file type map) *)
(* every block ends before every later one begins *)
Definition blocks_sep (b : blocks) : Prop := StronglySorted (fun p q => fst p + snd p <= fst q) b.

Lemma segs_sep_blocks : forall segs, segs_sep segs ->
  blocks_sep (map (fun s => (s_off s, s_len s)) segs).
Proof.
  intros segs H. induction H as [|s r HS IH HF]; cbn [map]; constructor; [exact IH|].
  apply Forall_map. eapply Forall_impl; [|exact HF]. intros x Hx. cbn [fst snd]. exact Hx.
Qed.

Lemma coalesce_sep_facts : forall rest cur,
  blocks_sep (cur :: rest) -> Forall (fun b => 0 <= snd b) (cur :: rest) ->
  blocks_sep (coalesce cur rest) /\ Forall (fun x => fst cur <= fst x) (coalesce cur rest).
Proof.
  induction rest as [|[o l] r IH]; intros cur HS HN.
  - cbn [coalesce]. split; [exact HS|]. apply Forall_cons; [lia | constructor].
  - apply StronglySorted_inv in HS. destruct HS as [HSr HSc].
    apply Forall_cons_iff in HSc. destruct HSc as [Hco _]. cbn [fst] in Hco.
    apply Forall_cons_iff in HN. destruct HN as [Hc0 HNr].
    pose proof HNr as HNr'. apply Forall_cons_iff in HNr'. destruct HNr' as [Hl0 HNr2]. cbn [snd] in Hl0.
    cbn [coalesce]. destruct (Z.eqb_spec (fst cur + snd cur) o) as [E|E].
    + apply StronglySorted_inv in HSr. destruct HSr as [HSr2 Hjr].
      destruct (IH (fst cur, snd cur + l)) as (S & F).
      { constructor; [exact HSr2|]. eapply Forall_impl; [|exact Hjr].
        intros x Hx. cbn [fst snd] in *. lia. }
      { apply Forall_cons; [cbn [snd]; lia | exact HNr2]. }
      split; [exact S | exact F].
    + destruct (IH (o, l) HSr HNr) as (S & F). split.
      * constructor; [exact S|]. eapply Forall_impl; [|exact F].
        intros x Hx. cbn [fst snd] in *. lia.
      * apply Forall_cons; [lia|]. eapply Forall_impl; [|exact F].
        intros x Hx. cbn [fst snd] in *. lia.
Qed.

Lemma coalesce_list_sep : forall b, blocks_sep b -> Forall (fun p => 0 <= snd p) b ->
  blocks_sep (coalesce_list b).
Proof.
  intros [|x r] HS HN; [constructor|]. apply (coalesce_sep_facts r x HS HN).
Qed.

Lemma io_ok_fst_pairs : forall t, io_ok t -> map fst (io_pairs t) = blocks_bytes (io_f t).
Proof. intros t (_ & _ & Hl). unfold io_pairs. apply map_fst_zip. exact Hl. Qed.

(* the aggregated type maps address the bytes of the requests *)
Section WithGeometry.
Hypothesis req_ftype_pairs : forall a, areq_wf a ->
  zip (blocks_bytes (snd (req_ftype a))) (expand (req_bblock a)) = areq_pairs a.
Hypothesis vars_flatten_pairs : forall a, areq_wf a -> segs_pairs (vars_flatten a) = areq_pairs a.
Hypothesis vars_flatten_pos : forall a, areq_wf a -> Forall (fun s => 0 < s_len s) (vars_flatten a).

(* construct_filetypes / construct_buffertypes of a list of requests *)
Lemma plain_types_pairs : forall l, Forall areq_wf l ->
  io_ok (mkio (construct_filetypes (map req_ftype l) None) (map req_bblock l)) /\
  io_pairs (mkio (construct_filetypes (map req_ftype l) None) (map req_bblock l)) = flat_map areq_pairs l.
Proof.
  intros l Hwf.
  assert (Hft : Forall (fun ft : bool * blocks => Forall (fun b => 0 <= snd b) (snd ft)) (map req_ftype l)).
  { apply Forall_map. eapply Forall_impl; [|exact Hwf]. intros a Ha. apply (req_ftype_facts a Ha). }
  assert (Hlen : forall a, In a l ->
            length (blocks_bytes (snd (req_ftype a))) = length (expand (req_bblock a))).
  { intros a Ha. apply (req_ftype_facts a). apply (proj1 (Forall_forall _ _) Hwf a Ha). }
  unfold io_ok, io_pairs. cbn [io_f io_b].
  rewrite construct_filetypes_bytes by (try exact Hft; constructor).
  cbn [blocks_bytes flat_map app]. rewrite flat_map_map_comm.
  replace (blocks_bytes (map req_bblock l)) with (flat_map (fun a => expand (req_bblock a)) l)
    by (symmetry; apply flat_map_map_comm).
  split; [split; [|split]|].
  - apply construct_filetypes_nonneg; [exact Hft | constructor].
  - apply Forall_map. eapply Forall_impl; [|exact Hwf]. intros a Ha. apply (req_ftype_facts a Ha).
  - apply length_flat_map_eq. exact Hlen.
  - rewrite zip_flat_map by exact Hlen. apply flat_map_ext_In.
    intros a Ha. apply req_ftype_pairs. apply (proj1 (Forall_forall _ _) Hwf a Ha).
Qed.

(* mgetput coalesces the buffer side *)
Lemma io_coalesce_b : forall f b, io_ok (mkio f b) ->
  io_ok (mkio f (coalesce_list b)) /\ io_pairs (mkio f (coalesce_list b)) = io_pairs (mkio f b).
Proof.
  intros f b (Hf & Hb & Hl). unfold io_ok, io_pairs. cbn [io_f io_b] in *.
  rewrite coalesce_list_bytes by exact Hb.
  split; [|reflexivity]. split; [exact Hf|]. split; [apply coalesce_list_nonneg; exact Hb | exact Hl].
Qed.

Lemma mgetput_pairs : forall l, Forall areq_wf l ->
  io_ok (mgetput_types l) /\ io_pairs (mgetput_types l) = flat_map areq_pairs l.
Proof.
  intros l Hwf. destruct (plain_types_pairs l Hwf) as (Hok & Hpairs).
  destruct (io_coalesce_b _ _ Hok) as (Hok' & Hpairs'). unfold mgetput_types.
  split; [exact Hok' | rewrite Hpairs'; exact Hpairs].
Qed.

Lemma merge_requests_facts : forall sort_segs l, sorter_ok s_off sort_segs ->
  Forall areq_wf l -> NoDup (map fst (flat_map areq_pairs l)) ->
  Forall (fun s => 0 < s_len s) (merge_requests sort_segs l) /\
  segs_sep (merge_requests sort_segs l) /\
  Permutation (segs_pairs (merge_requests sort_segs l)) (flat_map areq_pairs l).
Proof.
  intros sort_segs l Hsort Hwf Hnd. unfold merge_requests.
  set (segs0 := flat_map vars_flatten l).
  assert (Hp0 : segs_pairs segs0 = flat_map areq_pairs l).
  { unfold segs0, segs_pairs. rewrite flat_map_flat_map. apply flat_map_ext_In.
    intros a Ha. apply vars_flatten_pairs. apply (proj1 (Forall_forall _ _) Hwf a Ha). }
  assert (Hpos0 : Forall (fun s => 0 < s_len s) segs0).
  { unfold segs0. apply Forall_flat_map. eapply Forall_impl; [|exact Hwf].
    intros a Ha. apply vars_flatten_pos. exact Ha. }
  set (segs' := if offs_increasing segs0 then segs0 else sort_segs segs0).
  assert (Hperm : Permutation segs' segs0).
  { unfold segs'. destruct (offs_increasing segs0); [apply Permutation_refl | apply Hsort]. }
  assert (Hsorted : StronglySorted (fun a b => s_off a <= s_off b) segs').
  { unfold segs'. destruct (offs_increasing segs0) eqn:E;
      [apply offs_increasing_sorted; exact E | apply Hsort]. }
  assert (Hpos' : Forall (fun s => 0 < s_len s) segs').
  { rewrite Hperm. exact Hpos0. }
  assert (Hpp : Permutation (segs_pairs segs') (flat_map areq_pairs l)).
  { rewrite <- Hp0. unfold segs_pairs. rewrite Hperm. reflexivity. }
  assert (Hnd' : NoDup (map fst (segs_pairs segs'))).
  { rewrite Hpp. exact Hnd. }
  destruct segs' as [|s r].
  - split; [constructor|]. split; [constructor | exact Hpp].
  - destruct (merge_segs_sep_facts r s (sorted_nodup_sep _ Hsorted Hpos' Hnd') Hpos') as (P & Q & S & _).
    rewrite P. split; [exact Q|]. split; [exact S | exact Hpp].
Qed.

Lemma group_types_pairs : forall sort_segs g, sorter_ok s_off sort_segs ->
  Forall areq_wf (snd g) -> NoDup (map fst (flat_map areq_pairs (snd g))) ->
  io_ok (group_types sort_segs g) /\
  Permutation (io_pairs (group_types sort_segs g)) (flat_map areq_pairs (snd g)).
Proof.
  intros sort_segs g Hsort Hwf Hnd. unfold group_types. destruct (fst g).
  - destruct (merge_requests_facts sort_segs (snd g) Hsort Hwf Hnd) as (Hpos & _ & Hperm).
    destruct (segs_views_pairs _ Hpos) as (Hok & Hpairs).
    split; [exact Hok|]. rewrite Hpairs. exact Hperm.
  - destruct (plain_types_pairs (snd g) Hwf) as (Hok & Hpairs).
    split; [exact Hok | rewrite Hpairs; apply Permutation_refl].
Qed.

Lemma groups_pairs : forall sort_segs gs, sorter_ok s_off sort_segs ->
  Forall areq_wf (flat_map snd gs) ->
  NoDup (map fst (flat_map areq_pairs (flat_map snd gs))) ->
  io_ok (types_of_groups sort_segs gs) /\
  Permutation (io_pairs (types_of_groups sort_segs gs)) (flat_map areq_pairs (flat_map snd gs)).
Proof.
  intros sort_segs gs Hsort Hwf Hnd.
  assert (Hall : Forall (fun g => io_ok (group_types sort_segs g) /\
                   Permutation (io_pairs (group_types sort_segs g)) (flat_map areq_pairs (snd g))) gs).
  { induction gs as [|g gs IH]; [constructor|].
    cbn [flat_map] in Hwf, Hnd. apply Forall_app in Hwf. destruct Hwf as [Hwg Hwr].
    rewrite flat_map_app, map_app in Hnd. apply NoDup_app_inv in Hnd. destruct Hnd as (Hng & Hnr & _).
    constructor; [apply group_types_pairs; assumption | apply IH; assumption]. }
  unfold types_of_groups. cbv zeta.
  destruct (io_concat (map (group_types sort_segs) gs)) as (Hok & Hpairs).
  { apply Forall_map. eapply Forall_impl; [|exact Hall]. intros g Hg. apply Hg. }
  split; [exact Hok|]. rewrite Hpairs. rewrite flat_map_map_comm, flat_map_flat_map.
  apply perm_flat_map_pointwise. eapply Forall_impl; [|exact Hall]. intros g Hg. apply Hg.
Qed.

Theorem groups_stream_correct : forall sort_segs gs file mem, sorter_ok s_off sort_segs ->
  Forall areq_wf (flat_map snd gs) ->
  NoDup (map fst (flat_map areq_pairs (flat_map snd gs))) ->
  disk_eq (mpi_write file mem (types_of_groups sort_segs gs))
          (write_pairs file mem (flat_map areq_pairs (flat_map snd gs))).
Proof.
  intros sort_segs gs file mem Hsort Hwf Hnd.
  destruct (groups_pairs sort_segs gs Hsort Hwf Hnd) as (Hok & Hperm).
  apply mpi_write_perm; assumption.
Qed.

Theorem groups_stream_correct_read : forall sort_segs gs file mem, sorter_ok s_off sort_segs ->
  Forall areq_wf (flat_map snd gs) ->
  NoDup (map fst (flat_map areq_pairs (flat_map snd gs))) ->
  NoDup (map snd (flat_map areq_pairs (flat_map snd gs))) ->
  disk_eq (mpi_read file mem (types_of_groups sort_segs gs))
          (read_pairs file mem (flat_map areq_pairs (flat_map snd gs))).
Proof.
  intros sort_segs gs file mem Hsort Hwf Hnd Hnd2.
  destruct (groups_pairs sort_segs gs Hsort Hwf Hnd) as (Hok & Hperm).
  apply mpi_read_perm; assumption.
Qed.

Theorem mgetput_stream_correct : forall l file mem, Forall areq_wf l ->
  disk_eq (mpi_write file mem (mgetput_types l)) (write_pairs file mem (flat_map areq_pairs l)).
Proof.
  intros l file mem Hwf. destruct (mgetput_pairs l Hwf) as (Hok & Hpairs).
  rewrite <- Hpairs. apply mpi_write_pairs_ok. exact Hok.
Qed.

Theorem mgetput_stream_correct_read : forall l file mem, Forall areq_wf l ->
  disk_eq (mpi_read file mem (mgetput_types l)) (read_pairs file mem (flat_map areq_pairs l)).
Proof.
  intros l file mem Hwf. destruct (mgetput_pairs l Hwf) as (Hok & Hpairs).
  rewrite <- Hpairs. apply mpi_read_pairs_ok. exact Hok.
Qed.

(* wait_getput up to the MPI call *)
Lemma aggregate_pairs : forall sort_reqs sort_segs leads reqs,
  sorter_ok a_start sort_reqs -> sorter_ok s_off sort_segs ->
  Forall areq_wf (map (annotate leads) reqs) ->
  NoDup (map fst (flat_map areq_pairs (map (annotate leads) reqs))) ->
  io_ok (aggregate sort_reqs sort_segs leads reqs) /\
  Permutation (io_pairs (aggregate sort_reqs sort_segs leads reqs))
              (flat_map areq_pairs (map (annotate leads) reqs)).
Proof.
  intros sort_reqs sort_segs leads reqs Hsr Hss Hwf Hnd.
  destruct reqs as [|r0 rs].
  { cbn [aggregate map flat_map]. split; [|apply perm_nil].
    split; [constructor|]. split; [constructor | reflexivity]. }
  unfold aggregate. set (ar := map (annotate leads) (r0 :: rs)) in *. cbv zeta.
  set (ar' := if has_decreasing ar then sort_reqs ar else ar).
  assert (Hperm : Permutation ar' ar).
  { unfold ar'. destruct (has_decreasing ar); [apply Hsr | apply Permutation_refl]. }
  assert (Hwf' : Forall areq_wf ar') by (rewrite Hperm; exact Hwf).
  assert (Hnd' : NoDup (map fst (flat_map areq_pairs ar'))) by (rewrite Hperm; exact Hnd).
  assert (Hpp : Permutation (flat_map areq_pairs ar') (flat_map areq_pairs ar))
    by (rewrite Hperm; reflexivity).
  destruct (negb (if has_decreasing ar || has_overlap_adjacent ar then has_overlap_adjacent ar' else false)).
  - destruct (mgetput_pairs ar' Hwf') as (Hok & Hpairs).
    split; [exact Hok | rewrite Hpairs; exact Hpp].
  - pose proof (groups_pairs sort_segs (partition_groups ar') Hss) as G.
    rewrite (partition_groups_concat ar') in G. destruct (G Hwf' Hnd') as (Hok & Hp).
    split; [exact Hok | rewrite Hp; exact Hpp].
Qed.

Theorem commit_stream_correct : forall sort_reqs sort_segs leads reqs file mem,
  sorter_ok a_start sort_reqs -> sorter_ok s_off sort_segs ->
  Forall areq_wf (map (annotate leads) reqs) ->
  NoDup (map fst (flat_map areq_pairs (map (annotate leads) reqs))) ->
  disk_eq (mpi_write file mem (aggregate sort_reqs sort_segs leads reqs))
          (write_pairs file mem (flat_map areq_pairs (map (annotate leads) reqs))).
Proof.
  intros sort_reqs sort_segs leads reqs file mem Hsr Hss Hwf Hnd.
  destruct (aggregate_pairs sort_reqs sort_segs leads reqs Hsr Hss Hwf Hnd) as (Hok & Hperm).
  apply mpi_write_perm; assumption.
Qed.

Theorem commit_stream_correct_read : forall sort_reqs sort_segs leads reqs file mem,
  sorter_ok a_start sort_reqs -> sorter_ok s_off sort_segs ->
  Forall areq_wf (map (annotate leads) reqs) ->
  NoDup (map fst (flat_map areq_pairs (map (annotate leads) reqs))) ->
  NoDup (map snd (flat_map areq_pairs (map (annotate leads) reqs))) ->
  disk_eq (mpi_read file mem (aggregate sort_reqs sort_segs leads reqs))
          (read_pairs file mem (flat_map areq_pairs (map (annotate leads) reqs))).
Proof.
  intros sort_reqs sort_segs leads reqs file mem Hsr Hss Hwf Hnd Hnd2.
  destruct (aggregate_pairs sort_reqs sort_segs leads reqs Hsr Hss Hwf Hnd) as (Hok & Hperm).
  apply mpi_read_perm; assumption.
Qed.

(* the file view of an interleaved group is monotone: increasing, non-overlapping blocks *)
Theorem merge_requests_view_monotone : forall sort_segs l, sorter_ok s_off sort_segs ->
  Forall areq_wf l -> NoDup (map fst (flat_map areq_pairs l)) ->
  blocks_sep (segs_fview (merge_requests sort_segs l)).
Proof.
  intros sort_segs l Hsort Hwf Hnd.
  destruct (merge_requests_facts sort_segs l Hsort Hwf Hnd) as (Hpos & Hsep & _).
  unfold segs_fview. apply coalesce_list_sep; [apply segs_sep_blocks; exact Hsep|].
  apply pos_segs_nonneg. exact Hpos.
Qed.

(* the file view of the whole wait never addresses a file byte twice *)
Theorem commit_view_no_overlap : forall sort_reqs sort_segs leads reqs,
  sorter_ok a_start sort_reqs -> sorter_ok s_off sort_segs ->
  Forall areq_wf (map (annotate leads) reqs) ->
  NoDup (map fst (flat_map areq_pairs (map (annotate leads) reqs))) ->
  NoDup (blocks_bytes (io_f (aggregate sort_reqs sort_segs leads reqs))) /\
  Forall (fun b => 0 <= snd b) (io_f (aggregate sort_reqs sort_segs leads reqs)) /\
  Permutation (blocks_bytes (io_f (aggregate sort_reqs sort_segs leads reqs)))
              (map fst (flat_map areq_pairs (map (annotate leads) reqs))).
Proof.
  intros sort_reqs sort_segs leads reqs Hsr Hss Hwf Hnd.
  destruct (aggregate_pairs sort_reqs sort_segs leads reqs Hsr Hss Hwf Hnd) as (Hok & Hperm).
  rewrite <- (io_ok_fst_pairs _ Hok).
  assert (HP : Permutation (map fst (io_pairs (aggregate sort_reqs sort_segs leads reqs)))
                           (map fst (flat_map areq_pairs (map (annotate leads) reqs))))
    by (apply Permutation_map; exact Hperm).
  split; [|split].
  - eapply Permutation_NoDup; [apply Permutation_sym; exact HP | exact Hnd].
  - apply Hok.
  - exact HP.
Qed.

End WithGeometry.

(* the concrete insertion sort is a sorter; examples *)
Lemma insert_by_perm : forall A (key : A -> Z) x l, Permutation (insert_by key x l) (x :: l).
Proof.
  intros A key x l. induction l as [|a l IH]; cbn [insert_by].
  - apply Permutation_refl.
  - destruct (key x <=? key a); [apply Permutation_refl|].
    eapply perm_trans; [apply perm_skip; exact IH | apply perm_swap].
Qed.

Lemma insert_by_sorted : forall A (key : A -> Z) x l,
  StronglySorted (fun a b => key a <= key b) l ->
  StronglySorted (fun a b => key a <= key b) (insert_by key x l).
Proof.
  intros A key x l. induction l as [|a l IH]; intros HS; cbn [insert_by].
  - constructor; constructor.
  - apply StronglySorted_inv in HS. destruct HS as [HS1 HS2].
    destruct (Z.leb_spec (key x) (key a)) as [L|L].
    + constructor; [constructor; assumption|].
      apply Forall_cons; [exact L|]. eapply Forall_impl; [|exact HS2].
      intros b Hb. cbv beta in Hb. lia.
    + constructor; [apply IH; exact HS1|].
      rewrite insert_by_perm.
      apply Forall_cons; [lia | exact HS2].
Qed.

Theorem isort_sorter_ok : forall A (key : A -> Z), sorter_ok key (isort key).
Proof.
  intros A key l. unfold isort. induction l as [|x l [IHp IHs]]; cbn [fold_right].
  - split; [apply perm_nil | constructor].
  - split.
    + eapply perm_trans; [apply insert_by_perm | apply perm_skip; exact IHp].
    + apply insert_by_sorted. exact IHs.
Qed.

Lemma areq_wf_annotate : forall leads r,
  areq_wf (mkareq r (znth leads (r_lead_off r) dummy_lead) 0 0) -> areq_wf (annotate leads r).
Proof.
  intros leads r H. unfold areq_wf in *. cbv zeta in *.
  rewrite annotate_req, annotate_lead. cbn [a_req a_lead] in H. exact H.
Qed.

Lemma NoDup_by_nodup : forall l : list Z, nodup Z.eq_dec l = l -> NoDup l.
Proof. intros l H. rewrite <- H. apply NoDup_nodup. Qed.

(* Example for commit_stream_correct / commit_stream_correct_read: a 4x5 fixed-size variable of
   4-byte elements at offset 1024; three pending requests posted out of order (the sort runs), two
   of them interleaved in the file (one interleaved group, where two segments coalesce on the file
   side only, followed by a non-interleaved group). *)
Example commit_stream_correct_ex :
  let g := mkgeom 1024 4 [4; 5] 0 0 in
  let ld := mklead 0 g None 0 3 (-1) false false (-1) 5000 10 None 0 [] in
  let reqs := [mkreq 0 [3; 0] [1; 5] 5 5020; mkreq 0 [0; 1] [2; 2] 4 5000; mkreq 0 [1; 0] [1; 1] 1 5016] in
  sorter_ok a_start isort_reqs /\ sorter_ok s_off isort_segs /\
  Forall areq_wf (map (annotate [ld]) reqs) /\
  NoDup (map fst (flat_map areq_pairs (map (annotate [ld]) reqs))) /\
  NoDup (map snd (flat_map areq_pairs (map (annotate [ld]) reqs))) /\
  aggregate isort_reqs isort_segs [ld] reqs =
    mkio [(1028, 8); (1044, 12); (1084, 20)] [(5000, 8); (5016, 4); (5008, 8); (5020, 20)].
Proof.
  cbv zeta. split; [apply isort_sorter_ok|]. split; [apply isort_sorter_ok|].
  split; [|split; [|split]].
  - cbn [map].
    repeat (apply Forall_cons;
            [apply areq_wf_annotate;
             unfold areq_wf, wf_geom, rec_fits, rec_packed, dims_wf, req_stride, req_ok, dims_ok, g_isrec;
             cbn [a_req a_lead l_geom l_stride r_lead_off r_start r_count r_nelems znth Z.eqb
                  g_xsz g_recsize g_shape g_nrecvars ones_like map hd tl zprod length];
             repeat split; try lia; try discriminate; try (repeat constructor; lia)|]).
    apply Forall_nil.
  - apply NoDup_by_nodup. vm_compute. reflexivity.
  - apply NoDup_by_nodup. vm_compute. reflexivity.
  - vm_compute. reflexivity.
Qed.
