(* Proofs_GenBeginsRedef2.v — the whole generated NC_begins after a redef (ncp->old != NULL) against
   Header.begins h hm vm ha ra (Some (ol, recs)) pbr: the instance of Proofs_GenBegins.gen_begins_eq_old whose old
   variables are those of Proofs_GenBeginsRedef.c_old. *)
From Pnc Require Import Base Gen_consts Header CSub Gen_begins Proofs_GenBegins Proofs_GenBeginsRedef.
Require Import String.
Require Import Lia ZArith ZifyBool List Bool.
Import ListNotations.
Local Open Scope Z_scope.

Definition c_view_nc_redef2 (h : hdr) (hm vm ha ra pbr flags sm np : Z) (ol : layout) (recs : list bool) : c_NC :=
  {| NC__begin_rec := pbr; NC__begin_var := 0; NC__flags := flags; NC__format := h_format h;
     NC__h_align := ha; NC__h_minfree := hm; NC__nprocs := np; NC__numrecs := h_numrecs h;
     NC__old := Some (c_old (zip recs (l_begins ol)) (l_begin_var ol) (l_begin_rec ol));
     NC__r_align := ra; NC__recsize := 0; NC__safe_mode := sm; NC__v_minfree := vm;
     NC__vars := {| NC_vararray__ndefined := Zlen (h_vars h);
                    NC_vararray__value := match h_vars h with [] => None
                                          | _ => Some (map (cv_of (h_dims h)) (h_vars h), 0) end |};
     NC__xsz := 0 |}.

(* the old offsets are bounded by OB, and the potential of the new-file case plus 2 OB stays below 2^63 *)
Definition begins_guards_redef (h : hdr) (hm vm ha ra pbr OB : Z) (ol : layout) (recs : list bool) : Prop :=
  0 <= hdr_len h /\ 0 <= hm /\ 1 <= ha /\ 0 <= vm /\ 0 <= ra /\ 0 <= pbr /\
  Zlen (h_vars h) <= 2147483647 /\
  Forall (fun v => 0 <= var_len (h_dims h) v /\
                   in_i64 (var_nelems_per_rec (var_shape (h_dims h) v) * xlen_type (v_type v)) = true) (h_vars h) /\
  0 <= OB /\ l_begin_var ol <= OB /\ l_begin_rec ol <= OB /\
  Forall (fun p => snd p <= OB) (zip recs (l_begins ol)) /\ Zlen (zip recs (l_begins ol)) <= 2147483647 /\
  hdr_len h + hm + ha + pbr + vm + 4 + ra + 2 * OB +
    2 * zsum (map (fun v => var_len (h_dims h) v + 4) (h_vars h)) <= MAXOFF.

Theorem gen_begins_eq_redef : forall h hm vm ha ra pbr flags sm np OB ol recs,
  h_vars h <> [] ->
  (z2b sm && (np >? 1)) = false -> begins_guards_redef h hm vm ha ra pbr OB ol recs ->
  exists rc s', NC_begins_c (c_view_nc_redef2 h hm vm ha ra pbr flags sm np ol recs) (hdr_len h) = FValS rc s' /\
    match begins h hm vm ha ra (Some (ol, recs)) pbr with
    | None => rc = NC_EVARSIZE
    | Some lay => rc = NC_NOERR /\ layout_of_state s' = lay /\
                  NC__numrecs (NC_begins__P_ncp s') = (if z2b (Z.land flags 32768) then 0 else h_numrecs h)
    end.
Proof.
  intros h hm vm ha ra pbr flags sm np OB ol recs _ Hsm
    (Hx & Hhm & Hha & Hvm & Hra & Hpbr & Hn & Hvars & HOB0 & Hobv & Hobr & HOBs & Hno & Hbound).
  apply (gen_begins_eq_old h hm vm ha ra pbr flags sm np OB (Some (ol, recs)) _ (map cv_old (zip recs (l_begins ol))) Hsm).
  - repeat (split; [assumption|]). split; [repeat split; assumption | exact Hbound].
  - split; [apply old_vars_c_old|]. split; [apply cv_old_wf|]. repeat split. apply cv_old_pairs.
Qed.

Print Assumptions gen_begins_eq_redef.

(* the guards are satisfiable: the first redefinition of gen_begins_redef_runs *)
Example begins_guards_redef_ex :
  begins_guards_redef (mkhdr 2 3 exb_dims [] [exb_var 97 [1; 2] 3; exb_var 98 [0; 1] 5; exb_var 99 [2] 1; exb_var 100 [0; 2] 6])
                      0 0 4 4 (l_begin_rec (exr_lay 0 0 512 4)) 100000 (exr_lay 0 0 512 4) [false; true].
Proof.
  unfold begins_guards_redef.
  (* the old layout is computed once *)
  set (lay := exr_lay 0 0 512 4). vm_compute in lay. subst lay. cbn [l_begin_rec l_begin_var l_begins zip].
  split; [vm_compute; discriminate|]. split; [vm_compute; discriminate|]. split; [vm_compute; discriminate|].
  split; [vm_compute; discriminate|]. split; [vm_compute; discriminate|]. split; [vm_compute; discriminate|].
  split; [vm_compute; discriminate|].
  split; [repeat (constructor; [split; [vm_compute; discriminate | vm_compute; reflexivity]|]); constructor|].
  split; [vm_compute; discriminate|]. split; [vm_compute; discriminate|]. split; [vm_compute; discriminate|].
  split; [repeat (constructor; [cbn [snd]; lia|]); constructor|].
  split; vm_compute; discriminate.
Qed.
