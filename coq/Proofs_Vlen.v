(* Proofs_Vlen.v — "format size limits are enforced":
   ncmpio_NC_check_vlen (overflow-free product test) and ncmpio_NC_check_vlens (the
   CDF-1/2 "only the last variable may be large" rule), proved for all inputs. *)
From Pnc Require Import Base Header Proofs_Lists.
Require Import ZifyBool.
Local Open Scope Z_scope.

(** * The division loop decides  prod * zprod shape <= vlen_max *)

(* one step: for prod >= 1, the quotient test is exactly the product test *)
Lemma quot_test_exact : forall s prod vmax, 1 <= prod ->
  (s >? vmax / prod) = false <-> prod * s <= vmax.
Proof.
  intros s prod vmax Hp. rewrite Z.gtb_ltb, Z.ltb_ge. split.
  - intros H. transitivity (prod * (vmax / prod)).
    + apply Z.mul_le_mono_nonneg_l; [lia|exact H].
    + apply Z.mul_div_le. lia.
  - apply Z.div_le_lower_bound. lia.
Qed.

(* The hypothesis [shape <> [] \/ prod <= vmax] is needed: on the empty shape the loop
   answers true without looking at prod (see [check_vlen_loop_empty_shape_cex]). *)
Theorem check_vlen_loop_exact : forall shape prod vmax,
  1 <= prod -> 0 <= vmax -> Forall (fun s => 1 <= s) shape ->
  (shape <> [] \/ prod <= vmax) ->
  (check_vlen_loop shape prod vmax = true <-> prod * zprod shape <= vmax).
Proof.
  induction shape as [|s r IH]; intros prod vmax Hp Hv Hall Hne.
  - cbn [check_vlen_loop zprod]. destruct Hne as [Hne|Hle]; [congruence|].
    split; intros _; [lia | reflexivity].
  - inversion Hall as [|? ? Hs Hr]; subst.
    cbn [check_vlen_loop zprod].
    pose proof (zprod_pos r Hr) as Hzr.
    destruct (s >? vmax / prod) eqn:E.
    + (* rejected: prod * s > vmax already *)
      split; [discriminate|]. intros Hle. exfalso.
      assert (Hf : (s >? vmax / prod) = false).
      { apply quot_test_exact; [lia|]. nia. }
      congruence.
    + apply quot_test_exact in E; [|lia].
      rewrite Z.mul_assoc.
      apply IH; try assumption; nia.
Qed.

(* accepted  ==>  bound holds, no side condition on the shape being non-empty as long as
   the starting prod is itself within the bound *)
Corollary check_vlen_loop_sound : forall shape prod vmax,
  1 <= prod <= vmax -> Forall (fun s => 1 <= s) shape ->
  check_vlen_loop shape prod vmax = true -> prod * zprod shape <= vmax.
Proof.
  intros shape prod vmax Hp Hall H.
  apply check_vlen_loop_exact; try assumption; lia.
Qed.

(* The guard "all dims >= 1" IS needed.  With a 0 that is not the last dimension the loop
   multiplies prod down to 0, the next quotient is vmax / 0 (= 0 in Coq; a SIGFPE in C) and the
   loop rejects although the true product 0 is within the bound. *)
Example check_vlen_loop_zero_dim_cex :
  check_vlen_loop [0; 1] 1 10 = false /\ 1 * zprod [0; 1] <= 10.
Proof. split; vm_compute; [reflexivity | discriminate]. Qed.

(* ... but only completeness is lost: with dims >= 0 an accepted shape is still within the
   bound (the model's x / 0 = 0 makes the loop reject everything after prod hits 0 except
   further zeros; the C code would divide by zero there). *)
Theorem check_vlen_loop_sound_nonneg : forall shape prod vmax,
  0 <= prod <= vmax -> Forall (fun s => 0 <= s) shape ->
  check_vlen_loop shape prod vmax = true -> 0 <= prod * zprod shape <= vmax.
Proof.
  induction shape as [|s r IH]; intros prod vmax Hp Hall H; cbn [check_vlen_loop zprod] in *.
  - lia.
  - inversion Hall as [|? ? Hs Hr]; subst.
    destruct (s >? vmax / prod) eqn:E; [discriminate|].
    rewrite Z.mul_assoc. apply IH; try assumption.
    destruct (Z.eq_dec prod 0) as [H0|H0].
    + subst prod. lia.
    + apply quot_test_exact in E; [|lia]. nia.
Qed.

(* a 0 in LAST position is harmless *)
Example check_vlen_loop_zero_last_ok :
  check_vlen_loop [3; 0] 1 10 = true /\ 1 * zprod [3; 0] <= 10.
Proof. split; vm_compute; [reflexivity | discriminate]. Qed.

(* on the empty shape the loop does not test prod at all *)
Example check_vlen_loop_empty_shape_cex :
  check_vlen_loop [] 5 3 = true /\ ~ (5 * zprod [] <= 3).
Proof. split; [reflexivity | vm_compute; intros H; apply H; reflexivity]. Qed.

Example check_vlen_loop_exact_ex :
  check_vlen_loop [1000; 1000; 500] 4 (2^31 - 4) = true /\
  4 * zprod [1000; 1000; 500] <= 2^31 - 4 /\
  check_vlen_loop [1000; 1000; 600] 4 (2^31 - 4) = false /\
  ~ (4 * zprod [1000; 1000; 600] <= 2^31 - 4).
Proof.
  repeat split; try (vm_compute; reflexivity); try (vm_compute; discriminate).
  vm_compute. intros H; apply H; reflexivity.
Qed.

(** * No intermediate product exceeds vlen_max (no int64 overflow) *)

(* the products [prod *= shape[ii]] the C loop actually computes before it returns *)
Fixpoint check_vlen_loop_trace (shape : list Z) (prod vlen_max : Z) : list Z :=
  match shape with
  | [] => []
  | s :: r => if s >? vlen_max / prod then []
              else prod * s :: check_vlen_loop_trace r (prod * s) vlen_max
  end.

Fixpoint running_prods (shape : list Z) (prod : Z) : list Z :=
  match shape with
  | [] => []
  | s :: r => prod * s :: running_prods r (prod * s)
  end.

(* Invariant: whatever the loop answers, every product it computes is in [1, vmax];
   the divisor it uses is therefore never 0 either. *)
Theorem no_overflow_trace : forall shape prod vmax,
  1 <= prod -> Forall (fun s => 1 <= s) shape ->
  Forall (fun p => 1 <= p <= vmax) (check_vlen_loop_trace shape prod vmax).
Proof.
  induction shape as [|s r IH]; intros prod vmax Hp Hall; cbn [check_vlen_loop_trace].
  - constructor.
  - inversion Hall as [|? ? Hs Hr]; subst.
    destruct (s >? vmax / prod) eqn:E; [constructor|].
    apply quot_test_exact in E; [|lia].
    constructor; [nia|]. apply IH; [nia | assumption].
Qed.

(* when the loop accepts it has run to the end: the trace is the full list of products *)
Lemma accept_trace_full : forall shape prod vmax,
  check_vlen_loop shape prod vmax = true ->
  check_vlen_loop_trace shape prod vmax = running_prods shape prod.
Proof.
  induction shape as [|s r IH]; intros prod vmax H;
    cbn [check_vlen_loop check_vlen_loop_trace running_prods] in *.
  - reflexivity.
  - destruct (s >? vmax / prod) eqn:E; [discriminate|].
    f_equal. apply IH; assumption.
Qed.

Theorem no_overflow : forall shape prod vmax,
  1 <= prod -> Forall (fun s => 1 <= s) shape ->
  check_vlen_loop shape prod vmax = true ->
  Forall (fun p => 1 <= p <= vmax) (running_prods shape prod).
Proof.
  intros shape prod vmax Hp Hall H.
  rewrite <- (accept_trace_full _ _ _ H). apply no_overflow_trace; assumption.
Qed.

(* with vlen_max below 2^63 all computed products fit a signed 64-bit integer *)
Corollary no_overflow_int64 : forall shape prod vmax,
  1 <= prod -> vmax < 2^63 -> Forall (fun s => 1 <= s) shape ->
  Forall (fun p => 0 < p < 2^63) (check_vlen_loop_trace shape prod vmax).
Proof.
  intros shape prod vmax Hp Hv Hall.
  eapply Forall_impl; [|apply no_overflow_trace; eassumption].
  cbv beta. intros p Hpp. lia.
Qed.

Example no_overflow_ex :
  check_vlen_loop [3; 5; 7] 4 1000 = true /\ running_prods [3; 5; 7] 4 = [12; 60; 420] /\
  check_vlen_loop_trace [3; 50; 7] 4 1000 = [12; 600].
Proof. repeat split. Qed.

(** * check_vlen is exact *)

(* the dimensions that take part in the product: all of them, minus a leading 0
   (the record dimension) *)
Definition non_record_dims (shape : list Z) : list Z :=
  match shape with
  | s0 :: r => if s0 =? 0 then r else shape
  | [] => []
  end.

(* a legal variable shape: only the leading dimension may be 0 (NC_UNLIMITED) *)
Definition legal_shape (shape : list Z) : Prop :=
  match shape with
  | [] => True
  | s0 :: r => 0 <= s0 /\ Forall (fun s => 1 <= s) r
  end.

Lemma var_nelems_per_rec_zprod : forall shape,
  var_nelems_per_rec shape = zprod (non_record_dims shape).
Proof.
  intros [|s0 r]; cbn [var_nelems_per_rec non_record_dims]; [reflexivity|].
  destruct (s0 =? 0); reflexivity.
Qed.

Lemma check_vlen_as_loop : forall xsz shape vmax,
  check_vlen xsz shape vmax = check_vlen_loop (non_record_dims shape) xsz vmax.
Proof.
  intros xsz [|s0 r] vmax; cbn [check_vlen non_record_dims]; [reflexivity|].
  destruct (s0 =? 0); reflexivity.
Qed.

Lemma legal_non_record_dims : forall shape, legal_shape shape ->
  Forall (fun s => 1 <= s) (non_record_dims shape).
Proof.
  intros [|s0 r] H; cbn [non_record_dims legal_shape] in *; [constructor|].
  destruct H as [H0 Hr]. destruct (s0 =? 0) eqn:E; [assumption|].
  constructor; [lia | assumption].
Qed.

(* [xsz <= vmax] is only needed for scalars / record variables with no inner dimension,
   where the C function answers "fits" without any test (xsz <= 8 < 2^31-4 in reality). *)
Theorem check_vlen_exact : forall xsz shape vmax,
  1 <= xsz <= vmax -> legal_shape shape ->
  (check_vlen xsz shape vmax = true <-> xsz * zprod (non_record_dims shape) <= vmax).
Proof.
  intros xsz shape vmax Hx Hl.
  rewrite check_vlen_as_loop.
  apply check_vlen_loop_exact; try lia.
  apply legal_non_record_dims; assumption.
Qed.

Corollary check_vlen_exact_nelems : forall xsz shape vmax,
  1 <= xsz <= vmax -> legal_shape shape ->
  (check_vlen xsz shape vmax = true <-> xsz * var_nelems_per_rec shape <= vmax).
Proof.
  intros. rewrite var_nelems_per_rec_zprod. apply check_vlen_exact; assumption.
Qed.

(* the same, for a variable of a header *)
Corollary check_vlen_exact_var : forall dims v vmax,
  1 <= xlen_type (v_type v) <= vmax -> legal_shape (var_shape dims v) ->
  (check_vlen (xlen_type (v_type v)) (var_shape dims v) vmax = true <->
   var_nelems_per_rec (var_shape dims v) * xlen_type (v_type v) <= vmax).
Proof.
  intros. rewrite Z.mul_comm. apply check_vlen_exact_nelems; assumption.
Qed.

(* no division by zero / overflow inside check_vlen either *)
Corollary check_vlen_no_overflow : forall xsz shape vmax,
  1 <= xsz -> legal_shape shape ->
  Forall (fun p => 1 <= p <= vmax)
         (check_vlen_loop_trace (non_record_dims shape) xsz vmax).
Proof.
  intros. apply no_overflow_trace; [assumption | apply legal_non_record_dims; assumption].
Qed.

Example check_vlen_exact_ex :
  legal_shape [0; 1024; 1024; 512] /\
  check_vlen 4 [0; 1024; 1024; 512] (2^31 - 4) = false /\
  check_vlen 4 [0; 1024; 1024; 511] (2^31 - 4) = true /\
  4 * zprod (non_record_dims [0; 1024; 1024; 511]) = 2143289344.
Proof.
  split; [|repeat split].
  cbn [legal_shape]. split; [lia|]. repeat constructor; lia.
Qed.

(* without [xsz <= vmax] the scalar case is not exact *)
Example check_vlen_scalar_cex : check_vlen 8 [] 3 = true /\ ~ (8 * zprod (non_record_dims []) <= 3).
Proof. split; [reflexivity | vm_compute; intros H; apply H; reflexivity]. Qed.

(** * The thresholds *)

Theorem vlen_max_values :
  vlen_max_of 1 = 2147483644 /\            (* 2^31 - 4 *)
  vlen_max_of 2 = 4294967292 /\            (* 2^32 - 4 *)
  vlen_max_of 5 = 9223372036854775804.     (* 2^63 - 4 *)
Proof. repeat split. Qed.

Theorem vlen_max_values_pow :
  vlen_max_of 1 = 2^31 - 4 /\ vlen_max_of 2 = 2^32 - 4 /\ vlen_max_of 5 = 2^63 - 4.
Proof. repeat split. Qed.

(* every format: the threshold is one of the three, and below 2^63 *)
Lemma vlen_max_of_cases : forall fmt,
  vlen_max_of fmt = 2^31 - 4 \/ vlen_max_of fmt = 2^32 - 4 \/ vlen_max_of fmt = 2^63 - 4.
Proof.
  intros fmt. unfold vlen_max_of.
  destruct (fmt >=? 5); [right; right; reflexivity|].
  destruct (fmt =? 2); [right; left; reflexivity | left; reflexivity].
Qed.

Lemma vlen_max_of_range : forall fmt, 8 <= vlen_max_of fmt < 2^63.
Proof.
  intros fmt. destruct (vlen_max_of_cases fmt) as [H|[H|H]]; rewrite H; split;
    vm_compute; congruence.
Qed.

(** * check_vlens  <->  the declarative rule *)

Notation triple := (bool * Z * list Z)%type.    (* (is record var, xsz, shape) *)

Definition is_large (vmax : Z) (t : triple) : bool :=
  negb (check_vlen (snd (fst t)) (snd t) vmax).

Definition fixed_of (vs : list triple) : list triple := filter (fun t => negb (fst (fst t))) vs.
Definition rec_of (vs : list triple) : list triple := filter (fun t => fst (fst t)) vs.

Definition count_large (vmax : Z) (l : list triple) : Z := Zlen (filter (is_large vmax) l).

(* is the last element of l large (false on the empty list) *)
Definition last_is_large (vmax : Z) (l : list triple) : bool :=
  match rev l with [] => false | x :: _ => is_large vmax x end.

Definition all_small (vmax : Z) (l : list triple) : Prop :=
  Forall (fun t => is_large vmax t = false) l.

(* THE RULE, as a Prop over  vs = map (var_triple dims) vars  (definition order):
   - fmt >= 5 : no variable is large;
   - fmt <  5 : among the fixed variables at most one is large, and if one is, it is the
                last fixed variable and there is no record variable at all;
                among the record variables at most one is large and it is the last one. *)
Definition vlens_rule (fmt vmax : Z) (vs : list triple) : Prop :=
  let F := fixed_of vs in
  let R := rec_of vs in
  if fmt >=? 5 then all_small vmax vs
  else count_large vmax F <= 1
       /\ (count_large vmax F = 1 -> last_is_large vmax F = true /\ R = [])
       /\ count_large vmax R <= 1
       /\ (count_large vmax R = 1 -> last_is_large vmax R = true).

Definition vlens_rule_b (fmt vmax : Z) (vs : list triple) : bool :=
  let F := fixed_of vs in
  let R := rec_of vs in
  if fmt >=? 5 then negb (existsb (is_large vmax) vs)
  else (count_large vmax F <=? 1)
       && (negb (count_large vmax F =? 1) || (last_is_large vmax F && (Zlen R =? 0)))
       && (count_large vmax R <=? 1)
       && (negb (count_large vmax R =? 1) || last_is_large vmax R).

Definition hdr_triples (h : hdr) : list triple := map (var_triple (h_dims h)) (h_vars h).

Definition check_vlens_rule (h : hdr) : Prop :=
  vlens_rule (h_format h) (vlen_max_of (h_format h)) (hdr_triples h).

Lemma count_large_nil : forall vmax, count_large vmax [] = 0.
Proof. reflexivity. Qed.

Lemma count_large_cons : forall vmax a l,
  count_large vmax (a :: l) = (if is_large vmax a then 1 else 0) + count_large vmax l.
Proof.
  intros. unfold count_large. cbn [filter].
  destruct (is_large vmax a); [rewrite Zlen_cons|]; lia.
Qed.

Lemma count_large_app : forall vmax l1 l2,
  count_large vmax (l1 ++ l2) = count_large vmax l1 + count_large vmax l2.
Proof. intros. unfold count_large. rewrite filter_app, Zlen_app. reflexivity. Qed.

Lemma count_large_nonneg : forall vmax l, 0 <= count_large vmax l.
Proof. intros. apply Zlen_nonneg. Qed.

Lemma count_large_le_Zlen : forall vmax l, count_large vmax l <= Zlen l.
Proof.
  intros vmax l. induction l as [|a l IH]; [reflexivity|].
  rewrite count_large_cons, Zlen_cons. destruct (is_large vmax a); lia.
Qed.

Lemma count_large_zero_iff : forall vmax l, count_large vmax l = 0 <-> all_small vmax l.
Proof.
  intros vmax l. unfold all_small. induction l as [|a l IH].
  - split; intros; [constructor | reflexivity].
  - rewrite count_large_cons. pose proof (count_large_nonneg vmax l) as Hn.
    split.
    + intros H. destruct (is_large vmax a) eqn:E; [lia|].
      constructor; [assumption | apply IH; lia].
    + intros H. inversion H as [|? ? Ha Hl]; subst. rewrite Ha.
      apply IH in Hl. lia.
Qed.

Lemma existsb_count : forall vmax l,
  existsb (is_large vmax) l = (0 <? count_large vmax l).
Proof.
  intros vmax l. induction l as [|a l IH]; [reflexivity|].
  cbn [existsb]. rewrite count_large_cons, IH. pose proof (count_large_nonneg vmax l).
  destruct (is_large vmax a); lia.
Qed.

Lemma existsb_false_iff : forall vmax l,
  existsb (is_large vmax) l = false <-> all_small vmax l.
Proof.
  intros vmax l. rewrite existsb_count, <- count_large_zero_iff.
  pose proof (count_large_nonneg vmax l). lia.
Qed.

Lemma existsb_split : forall vmax vs,
  existsb (is_large vmax) vs =
  existsb (is_large vmax) (fixed_of vs) || existsb (is_large vmax) (rec_of vs).
Proof.
  intros vmax vs. unfold fixed_of, rec_of. induction vs as [|a l IH]; [reflexivity|].
  cbn [existsb filter]. rewrite IH.
  destruct (fst (fst a)); cbn [negb existsb]; destruct (is_large vmax a); cbn [orb];
    try reflexivity.
  rewrite orb_true_r. reflexivity.
Qed.

Lemma all_small_split : forall vmax vs,
  all_small vmax vs <-> all_small vmax (fixed_of vs) /\ all_small vmax (rec_of vs).
Proof.
  intros vmax vs. rewrite <- !existsb_false_iff, existsb_split. apply orb_false_iff.
Qed.

Lemma last_is_large_snoc : forall vmax l x, last_is_large vmax (l ++ [x]) = is_large vmax x.
Proof. intros. unfold last_is_large. rewrite rev_unit. reflexivity. Qed.

(* accumulator form of "last examined was large" *)
Definition lastL (vmax : Z) (init : bool) (l : list triple) : bool :=
  fold_left (fun _ t => is_large vmax t) l init.

Lemma lastL_false : forall vmax l, lastL vmax false l = last_is_large vmax l.
Proof.
  intros vmax l. destruct l as [|x l'] using rev_ind.
  - reflexivity.
  - unfold lastL. rewrite fold_left_app. cbn [fold_left].
    rewrite last_is_large_snoc. reflexivity.
Qed.

Definition sel (want_rec : bool) (vs : list triple) : list triple :=
  filter (fun t => Bool.eqb (fst (fst t)) want_rec) vs.

Lemma sel_false : forall vs, sel false vs = fixed_of vs.
Proof.
  intros. unfold sel, fixed_of. apply filter_ext. intros a. destruct (fst (fst a)); reflexivity.
Qed.

Lemma sel_true : forall vs, sel true vs = rec_of vs.
Proof.
  intros. unfold sel, rec_of. apply filter_ext. intros a. destruct (fst (fst a)); reflexivity.
Qed.

Lemma some3_eq : forall (a a' : Z) (b : bool) (c c' : Z),
  a = a' -> c = c' -> Some (a, b, c) = Some (a', b, c').
Proof. intros; subst; reflexivity. Qed.

Lemma vlens_pass_spec : forall fmt vmax vs w cnt last nsel,
  vlens_pass fmt vmax vs w cnt last nsel =
  if (fmt >=? 5) && existsb (is_large vmax) (sel w vs) then None
  else Some (cnt + count_large vmax (sel w vs), lastL vmax last (sel w vs),
             nsel + Zlen (sel w vs)).
Proof.
  intros fmt vmax vs w. induction vs as [|a l IH]; intros cnt last nsel.
  - cbn [vlens_pass sel filter existsb]. rewrite andb_false_r.
    rewrite count_large_nil, Zlen_nil, !Z.add_0_r. reflexivity.
  - destruct a as [[b x] sh]. unfold sel in *. cbn [vlens_pass filter fst snd].
    destruct (Bool.eqb b w) eqn:Ebw.
    + cbn [existsb]. rewrite count_large_cons, Zlen_cons.
      unfold lastL. cbn [fold_left].
      assert (Hil : is_large vmax (b, x, sh) = negb (check_vlen x sh vmax)) by reflexivity.
      rewrite !Hil.
      destruct (check_vlen x sh vmax) eqn:Ecv; cbn [negb orb].
      * rewrite IH. unfold lastL.
        destruct ((fmt >=? 5) && existsb (is_large vmax) _); [reflexivity|].
        apply some3_eq; lia.
      * destruct (fmt >=? 5) eqn:Ef; cbn [andb]; [reflexivity|].
        rewrite IH. cbn [andb]. unfold lastL.
        apply some3_eq; lia.
    + apply IH.
Qed.

Definition check_vlens_body (fmt vmax : Z) (vs : list triple) : Z :=
  match vlens_pass fmt vmax vs false 0 false 0 with
  | None => NC_EVARSIZE
  | Some (lf, lastf, _) =>
      if lf >? 1 then NC_EVARSIZE
      else if (lf =? 1) && negb lastf then NC_EVARSIZE
      else
        let nrec := Zlen (filter (fun t : triple => fst (fst t)) vs) in
        if nrec =? 0 then NC_NOERR
        else if lf =? 1 then NC_EVARSIZE
        else match vlens_pass fmt vmax vs true 0 false 0 with
             | None => NC_EVARSIZE
             | Some (lr, lastr, _) =>
                 if lr >? 1 then NC_EVARSIZE
                 else if (lr =? 1) && negb lastr then NC_EVARSIZE
                 else NC_NOERR
             end
  end.

Lemma check_vlens_unfold : forall h,
  check_vlens h = check_vlens_body (h_format h) (vlen_max_of (h_format h)) (hdr_triples h).
Proof.
  intros h. unfold check_vlens, hdr_triples.
  destruct (map (var_triple (h_dims h)) (h_vars h)) as [|t l]; reflexivity.
Qed.

(* a chain of early error returns accepts exactly when no guard fires *)
Lemma early_returns : forall (g1 g2 g3 g4 g5 g6 b : bool) (N E : Z),
  negb g1 && negb g2 && (g3 || negb g4 && negb g5 && negb g6) = b ->
  (if g1 then E else if g2 then E else if g3 then N else if g4 then E else
   if g5 then E else if g6 then E else N) = if b then N else E.
Proof. intros [|] [|] [|] [|] [|] [|] b N E <-; reflexivity. Qed.

Lemma check_vlens_body_spec : forall fmt vmax vs,
  check_vlens_body fmt vmax vs = if vlens_rule_b fmt vmax vs then NC_NOERR else NC_EVARSIZE.
Proof.
  intros fmt vmax vs. unfold check_vlens_body, vlens_rule_b.
  rewrite !vlens_pass_spec, sel_false, sel_true, !lastL_false, !Z.add_0_l.
  fold (rec_of vs).
  pose proof (count_large_nonneg vmax (fixed_of vs)) as HnF.
  pose proof (count_large_nonneg vmax (rec_of vs)) as HnR.
  (* The guards of [early_returns], in the order of [check_vlens_body]: g1 is [lf >? 1],
     g2 [(lf =? 1) && negb lastf], g3 [nrec =? 0], g4 [lf =? 1], g5 [lr >? 1],
     g6 [(lr =? 1) && negb lastr]; a fatal record pass (None) is g5 := true.  [lia] then
     shows the conjunction of the negated guards equal to [vlens_rule_b]: both are boolean
     combinations of comparisons of the two counts. *)
  destruct (fmt >=? 5) eqn:Ef; cbn [andb].
  - (* CDF-5: any large variable is fatal; without one both counts are 0 *)
    rewrite (existsb_split vmax vs), !existsb_count.
    pose proof (count_large_le_Zlen vmax (rec_of vs)) as HlR.
    destruct (0 <? count_large vmax (fixed_of vs)) eqn:EF; [reflexivity|].
    destruct (0 <? count_large vmax (rec_of vs)) eqn:ER.
    + apply (early_returns _ _ _ _ true false). lia.
    + apply early_returns. lia.
  - (* CDF-1/2 *)
    pose proof (count_large_le_Zlen vmax (rec_of vs)) as HlR.
    apply early_returns. lia.
Qed.

Lemma vlens_rule_b_iff : forall fmt vmax vs,
  vlens_rule_b fmt vmax vs = true <-> vlens_rule fmt vmax vs.
Proof.
  intros fmt vmax vs. unfold vlens_rule_b, vlens_rule.
  destruct (fmt >=? 5).
  - rewrite negb_true_iff. apply existsb_false_iff.
  - rewrite nil_iff_Zlen. lia.
Qed.

Lemma NC_NOERR_ne_EVARSIZE : NC_NOERR <> NC_EVARSIZE.
Proof. vm_compute. discriminate. Qed.

Theorem check_vlens_iff_rule : forall h,
  check_vlens h = NC_NOERR <-> check_vlens_rule h.
Proof.
  intros h. rewrite check_vlens_unfold, check_vlens_body_spec.
  unfold check_vlens_rule. rewrite <- vlens_rule_b_iff.
  destruct (vlens_rule_b _ _ _).
  - split; reflexivity.
  - split; [|discriminate]. intros H. symmetry in H. apply NC_NOERR_ne_EVARSIZE in H. contradiction.
Qed.

Theorem check_vlens_two_values : forall h,
  check_vlens h = NC_NOERR \/ check_vlens h = NC_EVARSIZE.
Proof.
  intros h. rewrite check_vlens_unfold, check_vlens_body_spec.
  destruct (vlens_rule_b _ _ _); [left | right]; reflexivity.
Qed.

Corollary check_vlens_reject_iff : forall h,
  check_vlens h = NC_EVARSIZE <-> ~ check_vlens_rule h.
Proof.
  intros h. rewrite <- check_vlens_iff_rule.
  pose proof NC_NOERR_ne_EVARSIZE as Hne.
  destruct (check_vlens_two_values h) as [H|H]; rewrite H; intuition congruence.
Qed.

(* ---- an equivalent, count-free reading of the rule ---- *)

(* "at most one is large and it must be the last"  ==  "all but the last are small" *)
Lemma only_last_large_iff : forall vmax l,
  (count_large vmax l <= 1 /\ (count_large vmax l = 1 -> last_is_large vmax l = true))
  <-> all_small vmax (removelast l).
Proof.
  intros vmax l. destruct l as [|x l'] using rev_ind.
  - cbn [removelast]. rewrite count_large_nil. split; [intros; constructor | intros; lia].
  - clear IHl'. rewrite removelast_last, count_large_app, last_is_large_snoc, count_large_cons,
      count_large_nil, <- count_large_zero_iff.
    pose proof (count_large_nonneg vmax l').
    destruct (is_large vmax x); split; intros H0.
    + destruct H0 as [H1 _]. lia.
    + split; [lia | intros _; reflexivity].
    + destruct H0 as [H1 H2].
      destruct (Z.eq_dec (count_large vmax l') 0) as [e|e]; [assumption|].
      assert (Hc : count_large vmax l' + (0 + 0) = 1) by lia. specialize (H2 Hc). discriminate.
    + split; [lia | intros Hc; exfalso; lia].
Qed.

Definition vlens_rule' (fmt vmax : Z) (vs : list triple) : Prop :=
  let F := fixed_of vs in
  let R := rec_of vs in
  if fmt >=? 5 then all_small vmax vs
  else all_small vmax (removelast F)          (* only the last fixed variable may be large *)
       /\ all_small vmax (removelast R)       (* only the last record variable may be large *)
       /\ (R <> [] -> all_small vmax F).      (* with record variables present, no fixed one may *)

Lemma vlens_rule_iff_rule' : forall fmt vmax vs,
  vlens_rule fmt vmax vs <-> vlens_rule' fmt vmax vs.
Proof.
  intros fmt vmax vs. unfold vlens_rule, vlens_rule'.
  destruct (fmt >=? 5); [reflexivity|].
  rewrite <- !only_last_large_iff, <- count_large_zero_iff, nil_iff_Zlen.
  pose proof (count_large_nonneg vmax (fixed_of vs)). lia.
Qed.

Corollary check_vlens_iff_rule' : forall h,
  check_vlens h = NC_NOERR <->
  vlens_rule' (h_format h) (vlen_max_of (h_format h)) (hdr_triples h).
Proof. intros h. rewrite check_vlens_iff_rule. apply vlens_rule_iff_rule'. Qed.

(* ---- "large" means what it should, for legal variables ---- *)

Lemma is_large_exact : forall vmax b xsz shape,
  1 <= xsz <= vmax -> legal_shape shape ->
  (is_large vmax (b, xsz, shape) = true <-> vmax < xsz * var_nelems_per_rec shape).
Proof.
  intros vmax b xsz shape Hx Hl. unfold is_large. cbn [fst snd].
  rewrite negb_true_iff, <- not_true_iff_false, (check_vlen_exact_nelems xsz shape vmax Hx Hl). lia.
Qed.

Definition ex_dims : list dim :=
  [mkdim [116] 0; mkdim [120] 1024; mkdim [121] 1024; mkdim [122] 1024].
Definition ex_var (nm : Z) (ids : list Z) (t : Z) : var := mkvar [nm] ids [] t 0 false.

(* CDF-1: two fixed variables, the last one of 2^30 floats = 4 GiB is large: accepted *)
Definition ex_h1 : hdr :=
  mkhdr 1 0 ex_dims [] [ex_var 97 [1; 2] 5; ex_var 98 [1; 2; 3] 5].
(* the large one is not last: rejected *)
Definition ex_h2 : hdr :=
  mkhdr 1 0 ex_dims [] [ex_var 98 [1; 2; 3] 5; ex_var 97 [1; 2] 5].
(* a large last fixed variable together with a record variable: rejected *)
Definition ex_h3 : hdr :=
  mkhdr 1 0 ex_dims [] [ex_var 98 [1; 2; 3] 5; ex_var 99 [0; 1] 5].
(* small fixed, small record, large LAST record: accepted *)
Definition ex_h4 : hdr :=
  mkhdr 2 0 ex_dims [] [ex_var 97 [1; 2] 5; ex_var 99 [0; 1] 5; ex_var 100 [0; 1; 2; 3] 6].
(* same in CDF-5: nothing is large there *)
Definition ex_h5 : hdr :=
  mkhdr 5 0 ex_dims [] [ex_var 98 [1; 2; 3] 5; ex_var 99 [0; 1] 5; ex_var 100 [0; 1; 2; 3] 6].

Example check_vlens_ex :
  check_vlens ex_h1 = NC_NOERR /\ check_vlens ex_h2 = NC_EVARSIZE /\
  check_vlens ex_h3 = NC_EVARSIZE /\ check_vlens ex_h4 = NC_NOERR /\
  check_vlens ex_h5 = NC_NOERR /\
  check_vlens (mkhdr 1 0 [] [] []) = NC_NOERR.
Proof. repeat split. Qed.

Example check_vlens_rule_ex : check_vlens_rule ex_h1 /\ check_vlens_rule ex_h4 /\ ~ check_vlens_rule ex_h3.
Proof.
  split; [|split].
  - apply check_vlens_iff_rule. reflexivity.
  - apply check_vlens_iff_rule. reflexivity.
  - intros H. apply check_vlens_iff_rule in H. vm_compute in H. discriminate.
Qed.

Example count_large_ex :
  count_large (vlen_max_of 1) (fixed_of (hdr_triples ex_h3)) = 1 /\
  last_is_large (vlen_max_of 1) (fixed_of (hdr_triples ex_h3)) = true /\
  rec_of (hdr_triples ex_h3) <> [].
Proof. repeat split. vm_compute. discriminate. Qed.

Print Assumptions check_vlen_loop_exact.
Print Assumptions check_vlen_loop_sound_nonneg.
Print Assumptions check_vlen_exact.
Print Assumptions check_vlen_exact_nelems.
Print Assumptions no_overflow.
Print Assumptions no_overflow_trace.
Print Assumptions check_vlens_iff_rule.
Print Assumptions check_vlens_iff_rule'.
Print Assumptions check_vlens_two_values.
Print Assumptions check_vlens_reject_iff.
Print Assumptions vlen_max_values.
