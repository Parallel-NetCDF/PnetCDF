(* Proofs_NbQueue.v — the two-level request queues of the nonblocking API (Nonblocking.v sections
   1, 2, 7) keep the structural invariant NbSpec.nb_inv when requests are POSTED and CANCELLED.

   Organisation
     1. lists (slice)
     2. congruence lemmas: areq_wf / areq_pairs / lead_pairs depend on the lead only through
        l_geom, l_stride (l_orig, l_xaddr); l_set_off / r_set_lead change none of them
     3. the queue invariant as a CHUNK decomposition (qchunks): the non-lead queue is the
        concatenation of the slices of the leads, in lead order; equivalence with
        slices_ok + Forall lead_wf
     4. nb_inv_init
     5. queue surgery: split_last_le_app, enqueue_shape, enqueue_inv
     6. posting: post_varm_spec / post_varn_spec and corollaries (inside Section WithGeometry)
     7. cancel
     8. examples: the invariant and the hypotheses are satisfiable

   MODEL/SPEC DISCREPANCY (reported): NbSpec.nb_inv does not constrain the parity of
   maxPutID / maxGetID, and next_id = maxid + 2 on a non-empty queue.  So nb_inv alone is NOT
   preserved by a post (nb_inv_post_counterexample below).  The missing conjunct is maxid_ok, which
   is established by init_state, preserved by post (maxid := id) and by cancel (maxids untouched,
   leads only removed).  The posting theorems are stated for nb_inv_full = nb_inv /\ maxid_ok;
   cancel preserves both nb_inv (cancel_inv_nb) and nb_inv_full (cancel_inv). *)
From Pnc Require Import NbSpec Proofs_Abuf Proofs_Lists.
Require Import Lia ZArith List Bool ZifyBool.
Import ListNotations.
Local Open Scope Z_scope.
Local Arguments Z.mul : simpl never.
Local Arguments Z.add : simpl never.
Local Arguments Z.sub : simpl never.
Local Arguments Z.div : simpl never.

(* 1. lists *)

(* the slice that sits between a and c *)
Lemma slice_app3 {A} (a b c : list A) : slice (a ++ b ++ c) (Zlen a) (Zlen b) = b.
Proof. unfold slice. rewrite zskipn_app_len by reflexivity. apply zfirstn_app_len. reflexivity. Qed.

Lemma slice_app3_eq {A} (a b c : list A) off num :
  off = Zlen a -> num = Zlen b -> slice (a ++ b ++ c) off num = b.
Proof. intros -> ->. apply slice_app3. Qed.

(* slices of a list that is modified outside the slice *)
Lemma slice_prefix {A} (a b : list A) off num :
  0 <= off -> 0 <= num -> off + num <= Zlen a -> slice (a ++ b) off num = slice a off num.
Proof.
  intros Ho Hn Hle. unfold slice. rewrite zskipn_app_le by lia.
  apply zfirstn_app_le. rewrite Zlen_zskipn_enough by lia. lia.
Qed.

Lemma slice_suffix {A} (a b : list A) off num :
  Zlen a <= off -> slice (a ++ b) off num = slice b (off - Zlen a) num.
Proof. intros H. unfold slice. now rewrite zskipn_app_ge by exact H. Qed.

(* replacing the part of the queue before / after a slice does not change it *)
Lemma slice_change_after {A} (a c c' : list A) off num :
  0 <= off -> 0 <= num -> off + num <= Zlen a -> slice (a ++ c) off num = slice (a ++ c') off num.
Proof. intros. now rewrite !slice_prefix by assumption. Qed.

Lemma slice_change_before {A} (a a' c : list A) off num :
  Zlen a <= off -> slice (a ++ c) off num = slice (a' ++ c) (off - Zlen a + Zlen a') num.
Proof.
  intros H. rewrite !slice_suffix by (pose proof (Zlen_nonneg a'); lia).
  f_equal. lia.
Qed.

Lemma NoDup_insert {A} (a b : list A) x : NoDup (a ++ b) -> ~ In x (a ++ b) -> NoDup (a ++ x :: b).
Proof.
  intros Hnd Hin. apply (NoDup_Add (Add_app x a b)). split; assumption.
Qed.

(* 2. congruence *)
Lemma areq_wf_congr l l' q q' s e s' e' :
  l_geom l' = l_geom l -> l_stride l' = l_stride l ->
  r_start q' = r_start q -> r_count q' = r_count q -> r_nelems q' = r_nelems q ->
  areq_wf (mkareq q' l' s' e') <-> areq_wf (mkareq q l s e).
Proof.
  intros Hg Hs H1 H2 H3. unfold areq_wf, req_stride. cbn [a_lead a_req].
  rewrite Hg, Hs, H1, H2, H3. reflexivity.
Qed.

Lemma areq_pairs_congr l l' q q' s e s' e' :
  l_geom l' = l_geom l -> l_stride l' = l_stride l ->
  r_start q' = r_start q -> r_count q' = r_count q -> r_xaddr q' = r_xaddr q ->
  areq_pairs (mkareq q' l' s' e') = areq_pairs (mkareq q l s e).
Proof.
  intros Hg Hs H1 H2 H3. unfold areq_pairs, req_stride. cbn [a_lead a_req].
  rewrite Hg, Hs, H1, H2, H3. reflexivity.
Qed.

Lemma lead_pairs_congr l l' :
  l_geom l' = l_geom l -> l_orig l' = l_orig l -> l_xaddr l' = l_xaddr l -> lead_pairs l' = lead_pairs l.
Proof. intros Hg Ho Hx. unfold lead_pairs. now rewrite Hg, Ho, Hx. Qed.

Lemma areq_wf_set_flag l q tf s :
  areq_wf (mkareq q (l_set_flag l tf s) 0 0) <-> areq_wf (mkareq q l 0 0).
Proof. apply areq_wf_congr; reflexivity. Qed.
Lemma areq_pairs_set_flag l q tf s :
  areq_pairs (mkareq q (l_set_flag l tf s) 0 0) = areq_pairs (mkareq q l 0 0).
Proof. apply areq_pairs_congr; reflexivity. Qed.
Lemma lead_pairs_set_flag l tf s : lead_pairs (l_set_flag l tf s) = lead_pairs l.
Proof. apply lead_pairs_congr; reflexivity. Qed.

(* what lead_wf says about a lead and ITS requests b *)
Definition chunk_ok (isput : bool) (l : lead) (b : list req) : Prop :=
  Z.even (l_id l) = isput /\ 0 <= l_id l /\
  Forall (fun q => areq_wf (mkareq q l 0 0)) b /\
  flat_map (fun q => areq_pairs (mkareq q l 0 0)) b = lead_pairs l.

Lemma lead_wf_chunk isput reqs l : lead_wf isput reqs l = chunk_ok isput l (lead_reqs reqs l).
Proof. reflexivity. Qed.

(* a non-lead entry without its back pointer *)
Definition req_core (q : req) := (r_start q, r_count q, r_nelems q, r_xaddr q).

Lemma chunk_ok_congr isput l l' b b' :
  l_id l' = l_id l -> l_geom l' = l_geom l -> l_stride l' = l_stride l ->
  l_orig l' = l_orig l -> l_xaddr l' = l_xaddr l -> map req_core b' = map req_core b ->
  chunk_ok isput l b -> chunk_ok isput l' b'.
Proof.
  intros Ei Eg Es Eo Ex Eb (He & Hid & Hwf & Hp). unfold chunk_ok.
  rewrite Ei, (lead_pairs_congr _ _ Eg Eo Ex), <- Hp. split; [exact He|]. split; [exact Hid|]. clear He Hid Hp.
  revert b' Eb. induction Hwf as [|q b Hq Hwf IH]; intros [|q' b'] Eb; try discriminate Eb.
  - split; [constructor|reflexivity].
  - cbn [map] in Eb. injection Eb as E1 E2 E3 E4 Eb. destruct (IH _ Eb) as (I1 & I2). split.
    + constructor; [|exact I1]. apply (areq_wf_congr l l' q q' 0 0 0 0); assumption.
    + cbn [flat_map]. rewrite I2. f_equal. apply areq_pairs_congr; assumption.
Qed.

Lemma req_core_set_lead (f : req -> Z) b : map req_core (map (fun r => r_set_lead r (f r)) b) = map req_core b.
Proof. rewrite map_map. apply map_ext. reflexivity. Qed.

Lemma chunk_ok_shift isput l b x (f : req -> Z) :
  chunk_ok isput l b -> chunk_ok isput (l_set_off l x) (map (fun r => r_set_lead r (f r)) b).
Proof. apply chunk_ok_congr; try reflexivity. apply req_core_set_lead. Qed.

(* lead_wf is preserved when the lead's nonlead_off changes consistently with a shift of its
   slice (and whatever happens to the rest of reqs) *)
Lemma lead_wf_congr isput reqs reqs' l x (f : req -> Z) :
  lead_reqs reqs' (l_set_off l x) = map (fun r => r_set_lead r (f r)) (lead_reqs reqs l) ->
  lead_wf isput reqs l -> lead_wf isput reqs' (l_set_off l x).
Proof.
  intros E H. rewrite lead_wf_chunk in *. rewrite E. apply chunk_ok_shift. exact H.
Qed.

Lemma lead_wf_same_slice isput reqs reqs' l :
  lead_reqs reqs' l = lead_reqs reqs l -> lead_wf isput reqs l -> lead_wf isput reqs' l.
Proof. intros E H. rewrite lead_wf_chunk in *. rewrite E. exact H. Qed.

(* 3. the invariant as a chunk decomposition *)
Fixpoint qchunks (isput : bool) (leads : list lead) (rs : list req) (k i : Z) : Prop :=
  match leads with
  | [] => rs = []
  | l :: r => exists b rest, rs = b ++ rest /\ l_nonlead_off l = k /\ Zlen b = l_nonlead_num l /\
                             0 < Zlen b /\ Forall (fun q => r_lead_off q = i) b /\ chunk_ok isput l b /\
                             qchunks isput r rest (k + Zlen b) (i + 1)
  end.

Lemma qchunks_eq isput leads rs k i k' i' :
  k = k' -> i = i' -> qchunks isput leads rs k i -> qchunks isput leads rs k' i'.
Proof. intros -> ->. exact (fun H => H). Qed.

Lemma qchunks_of_slices isput : forall leads pre rs i,
  slices_ok leads (pre ++ rs) (Zlen pre) i -> Forall (lead_wf isput (pre ++ rs)) leads ->
  qchunks isput leads rs (Zlen pre) i.
Proof.
  induction leads as [|l r IH]; intros pre rs i Hs Hw.
  - cbn [slices_ok] in Hs. cbn [qchunks]. rewrite Zlen_app in Hs.
    apply Zlen_zero_nil. lia.
  - cbn [slices_ok] in Hs. destruct Hs as (Hoff & Hnum & Hle & HF & Hrest).
    inversion Hw as [|? ? Hl Hr]; subst. rewrite Zlen_app in Hle.
    pose proof (zfirstn_zskipn (l_nonlead_num l) rs) as Ers.
    assert (Hb : Zlen (zfirstn (l_nonlead_num l) rs) = l_nonlead_num l) by (apply Zlen_zfirstn_enough; lia).
    set (b := zfirstn (l_nonlead_num l) rs) in *. set (rest := zskipn (l_nonlead_num l) rs) in *.
    assert (Esl : slice (pre ++ rs) (Zlen pre) (l_nonlead_num l) = b).
    { rewrite <- Ers. apply slice_app3_eq; [reflexivity|symmetry; exact Hb]. }
    cbn [qchunks]. exists b, rest. split; [symmetry; exact Ers|]. split; [exact Hoff|].
    split; [exact Hb|]. split; [lia|]. split; [rewrite <- Esl; exact HF|]. split.
    + rewrite lead_wf_chunk in Hl. unfold lead_reqs in Hl. rewrite Hoff, Esl in Hl. exact Hl.
    + assert (Eapp : pre ++ rs = (pre ++ b) ++ rest) by (rewrite <- app_assoc, Ers; reflexivity).
      rewrite Eapp in Hrest, Hr.
      apply (qchunks_eq isput r rest (Zlen (pre ++ b)) (i + 1)); [rewrite Zlen_app; lia|reflexivity|].
      apply IH; [|exact Hr].
      replace (Zlen (pre ++ b)) with (Zlen pre + l_nonlead_num l) by (rewrite Zlen_app; lia).
      exact Hrest.
Qed.

Lemma slices_of_qchunks isput : forall leads pre rs i,
  qchunks isput leads rs (Zlen pre) i ->
  slices_ok leads (pre ++ rs) (Zlen pre) i /\ Forall (lead_wf isput (pre ++ rs)) leads.
Proof.
  induction leads as [|l r IH]; intros pre rs i H.
  - cbn [qchunks] in H. subst rs. cbn [slices_ok]. rewrite app_nil_r. split; [reflexivity|constructor].
  - cbn [qchunks] in H. destruct H as (b & rest & Ers & Hoff & Hb & Hpos & HF & Hc & Hrest).
    subst rs.
    assert (Esl : slice (pre ++ b ++ rest) (Zlen pre) (l_nonlead_num l) = b)
      by (apply slice_app3_eq; [reflexivity|symmetry; exact Hb]).
    specialize (IH (pre ++ b) rest (i + 1)).
    assert (Hq : qchunks isput r rest (Zlen (pre ++ b)) (i + 1))
      by (revert Hrest; apply qchunks_eq; [rewrite Zlen_app; lia|reflexivity]).
    destruct (IH Hq) as (Hs & Hw). rewrite <- app_assoc in Hs, Hw.
    split.
    + cbn [slices_ok]. split; [exact Hoff|]. split; [lia|].
      split; [rewrite !Zlen_app; pose proof (Zlen_nonneg rest); lia|].
      split; [rewrite Esl; exact HF|].
      replace (Zlen pre + l_nonlead_num l) with (Zlen (pre ++ b)) by (rewrite Zlen_app; lia).
      exact Hs.
    + constructor; [|exact Hw]. rewrite lead_wf_chunk. unfold lead_reqs. rewrite Hoff, Esl. exact Hc.
Qed.

Lemma queue_inv_chunks isput maxid leads reqs :
  queue_inv isput maxid leads reqs <->
  NoDup (map l_id leads) /\ Forall (fun l => l_id l <= maxid) leads /\
  qchunks isput leads reqs 0 0 /\ Forall (fun l => l_to_free l = false) leads.
Proof.
  unfold queue_inv. split.
  - intros (H1 & H2 & H3 & H4 & H5). repeat split; try assumption.
    apply (qchunks_of_slices isput leads [] reqs 0); [exact H3|exact H4].
  - intros (H1 & H2 & H3 & H5).
    destruct (slices_of_qchunks isput leads [] reqs 0 H3) as (Hs & Hw).
    split; [exact H1|]. split; [exact H2|]. split; [exact Hs|]. split; [exact Hw|exact H5].
Qed.

Lemma qchunks_app_elim isput : forall A B rs k i,
  qchunks isput (A ++ B) rs k i ->
  exists ra rb, rs = ra ++ rb /\ qchunks isput A ra k i /\ qchunks isput B rb (k + Zlen ra) (i + Zlen A).
Proof.
  induction A as [|a A IH]; intros B rs k i H.
  - exists [], rs. split; [reflexivity|]. split; [reflexivity|].
    revert H. cbn [app]. apply qchunks_eq; rewrite Zlen_nil; lia.
  - cbn [app qchunks] in H. destruct H as (b & rest & Ers & Hoff & Hb & Hpos & HF & Hc & Hrest).
    destruct (IH B rest _ _ Hrest) as (ra & rb & Erest & HA & HB).
    exists (b ++ ra), rb. split; [rewrite <- app_assoc, <- Erest; exact Ers|]. split.
    + cbn [qchunks]. exists b, ra. split; [reflexivity|]. split; [exact Hoff|]. split; [exact Hb|].
      split; [exact Hpos|]. split; [exact HF|]. split; [exact Hc|exact HA].
    + revert HB. apply qchunks_eq; rewrite ?Zlen_app, ?Zlen_cons; lia.
Qed.

Lemma qchunks_app_intro isput : forall A B ra rb k i,
  qchunks isput A ra k i -> qchunks isput B rb (k + Zlen ra) (i + Zlen A) ->
  qchunks isput (A ++ B) (ra ++ rb) k i.
Proof.
  induction A as [|a A IH]; intros B ra rb k i HA HB.
  - cbn [qchunks] in HA. subst ra. cbn [app]. revert HB. apply qchunks_eq; rewrite Zlen_nil; lia.
  - cbn [qchunks] in HA. destruct HA as (b & rest & Era & Hoff & Hb & Hpos & HF & Hc & Hrest).
    subst ra. cbn [app qchunks]. exists b, (rest ++ rb). split; [apply app_assoc_reverse|].
    split; [exact Hoff|]. split; [exact Hb|]. split; [exact Hpos|]. split; [exact HF|].
    split; [exact Hc|]. apply IH; [exact Hrest|].
    revert HB. apply qchunks_eq; rewrite ?Zlen_app, ?Zlen_cons; lia.
Qed.

(* shifting a tail of the queue: the leads' nonlead_off by dk, the back pointers by di *)
Lemma qchunks_shift isput dk di : forall B rb k i,
  qchunks isput B rb k i ->
  qchunks isput (map (fun l => l_set_off l (l_nonlead_off l + dk)) B)
          (map (fun r => r_set_lead r (r_lead_off r + di)) rb) (k + dk) (i + di).
Proof.
  induction B as [|l B IH]; intros rb k i H.
  - cbn [qchunks] in H. subst rb. reflexivity.
  - cbn [qchunks] in H. destruct H as (b & rest & Ers & Hoff & Hb & Hpos & HF & Hc & Hrest).
    subst rb. cbn [map qchunks]. rewrite map_app.
    exists (map (fun r => r_set_lead r (r_lead_off r + di)) b),
           (map (fun r => r_set_lead r (r_lead_off r + di)) rest).
    split; [reflexivity|]. split; [cbn [l_set_off l_nonlead_off]; lia|].
    split; [rewrite Zlen_map; exact Hb|]. split; [rewrite Zlen_map; exact Hpos|].
    split.
    { apply Forall_map. revert HF. apply Forall_impl. intros q Hq.
      cbn [r_set_lead r_lead_off]. lia. }
    split; [apply chunk_ok_shift; exact Hc|].
    rewrite Zlen_map. specialize (IH rest _ _ Hrest). revert IH. apply qchunks_eq; lia.
Qed.

Lemma map_set_off_id (f : lead -> Z) B : map l_id (map (fun l => l_set_off l (f l)) B) = map l_id B.
Proof. rewrite map_map. apply map_ext. reflexivity. Qed.

Lemma Forall_set_off (P : lead -> Prop) (f : lead -> Z) B :
  (forall l x, P l -> P (l_set_off l x)) -> Forall P B -> Forall P (map (fun l => l_set_off l (f l)) B).
Proof. intros HP H. apply Forall_map. revert H. apply Forall_impl. intros l Hl. now apply HP. Qed.

(* 4. the initial state *)
Lemma queue_inv_nil isput maxid : queue_inv isput maxid [] [].
Proof.
  unfold queue_inv. cbn [map slices_ok]. repeat split; try constructor.
Qed.

Theorem nb_inv_init : nb_inv init_state.
Proof. split; apply queue_inv_nil. Qed.

(* the conjunct missing from nb_inv: on a non-empty queue maxid has the parity of the queue *)
Definition maxid_ok (st : nbstate) : Prop :=
  (put_lead st = [] \/ Z.even (maxPutID st) = true) /\
  (get_lead st = [] \/ Z.even (maxGetID st) = false).

Definition nb_inv_full (st : nbstate) : Prop := nb_inv st /\ maxid_ok st.

Theorem nb_inv_full_init : nb_inv_full init_state.
Proof. split; [exact nb_inv_init|split; left; reflexivity]. Qed.

(* wait / cancel never change the max ids and only shrink the lead queues *)
Lemma maxid_ok_shrink st st' :
  maxid_ok st -> maxPutID st' = maxPutID st -> maxGetID st' = maxGetID st ->
  (put_lead st' = [] \/ put_lead st <> []) -> (get_lead st' = [] \/ get_lead st <> []) ->
  maxid_ok st'.
Proof.
  intros (Hp & Hg) Ep Eg Hsp Hsg. unfold maxid_ok. rewrite Ep, Eg. split.
  - destruct Hsp as [H|H]; [left; exact H|]. destruct Hp as [Hp|Hp]; [contradiction|right; exact Hp].
  - destruct Hsg as [H|H]; [left; exact H|]. destruct Hg as [Hg|Hg]; [contradiction|right; exact Hg].
Qed.

Lemma maxid_ok_same_ids st st' :
  maxid_ok st -> maxPutID st' = maxPutID st -> maxGetID st' = maxGetID st ->
  (put_lead st = [] -> put_lead st' = []) -> (get_lead st = [] -> get_lead st' = []) ->
  maxid_ok st'.
Proof.
  intros H Ep Eg Hsp Hsg. apply (maxid_ok_shrink st st' H Ep Eg).
  - destruct (put_lead st) as [|a r]; [left; apply Hsp; reflexivity|right; discriminate].
  - destruct (get_lead st) as [|a r]; [left; apply Hsg; reflexivity|right; discriminate].
Qed.

Lemma or_nil_imp {A} (l : list A) (P : Prop) : l = [] \/ P -> l <> [] -> P.
Proof. intros [H|H] Hn; [contradiction|exact H]. Qed.

(* 5. queue surgery *)
Lemma split_last_le_app : forall rl key sh kept shifted,
  split_last_le rl key sh = (kept, shifted) -> kept ++ shifted = rev rl ++ sh.
Proof.
  induction rl as [|l r IH]; intros key sh kept shifted H; cbn [split_last_le] in H.
  - injection H as <- <-. reflexivity.
  - destruct (g_begin (l_geom l) <=? key) eqn:E.
    + injection H as <- <-. reflexivity.
    + apply IH in H. rewrite H. cbn [rev]. rewrite <- app_assoc. reflexivity.
Qed.

Lemma split_last_le_leads leads key kept shifted :
  split_last_le (rev leads) key [] = (kept, shifted) -> kept ++ shifted = leads.
Proof. intros H. apply split_last_le_app in H. now rewrite rev_involutive, app_nil_r in H. Qed.

(* the scan stops at the last lead whose variable begins at or before key *)
Lemma split_last_le_shifted : forall rl key sh kept shifted,
  split_last_le rl key sh = (kept, shifted) ->
  Forall (fun l => key < g_begin (l_geom l)) sh ->
  Forall (fun l => key < g_begin (l_geom l)) shifted /\
  (kept = [] \/ exists k0 kl, kept = k0 ++ [kl] /\ g_begin (l_geom kl) <= key).
Proof.
  induction rl as [|l r IH]; intros key sh kept shifted H Hsh; cbn [split_last_le] in H.
  - injection H as <- <-. split; [exact Hsh|left; reflexivity].
  - destruct (g_begin (l_geom l) <=? key) eqn:E.
    + injection H as <- <-. split; [exact Hsh|]. right. exists (rev r), l. cbn [rev]. split; [reflexivity|lia].
    + apply IH in H; [exact H|]. constructor; [lia|exact Hsh].
Qed.

Definition shift_leads (n : Z) (ls : list lead) : list lead :=
  map (fun l => l_set_off l (l_nonlead_off l + n)) ls.
Definition bump_reqs (d : Z) (rs : list req) : list req :=
  map (fun r => r_set_lead r (r_lead_off r + d)) rs.

Lemma enqueue_shape sorted key leads reqs mk_lead mk_reqs n leads' reqs' :
  enqueue sorted key leads reqs mk_lead mk_reqs n = (leads', reqs') ->
  exists kept shifted, leads = kept ++ shifted /\ (sorted = false -> shifted = []) /\
    match shifted with
    | [] => leads' = kept ++ [mk_lead (Zlen reqs)] /\ reqs' = reqs ++ mk_reqs (Zlen kept)
    | s0 :: _ => leads' = kept ++ mk_lead (l_nonlead_off s0) :: shift_leads n shifted /\
                 reqs' = zfirstn (l_nonlead_off s0) reqs ++ mk_reqs (Zlen kept) ++
                         bump_reqs 1 (zskipn (l_nonlead_off s0) reqs)
    end.
Proof.
  unfold enqueue. intros H. destruct sorted.
  - destruct (split_last_le (rev leads) key []) as [kept shifted] eqn:E.
    exists kept, shifted. split; [symmetry; eapply split_last_le_leads; exact E|].
    split; [discriminate|].
    destruct shifted as [|s0 sh]; cbv beta iota zeta in H; injection H as <- <-; split; reflexivity.
  - cbv beta iota zeta in H. exists leads, []. split; [now rewrite app_nil_r|].
    split; [reflexivity|]. injection H as <- <-. split; reflexivity.
Qed.

Lemma ids_insert kept shifted newl id n :
  NoDup (map l_id (kept ++ shifted)) -> Forall (fun l => l_id l < id) (kept ++ shifted) ->
  l_id newl = id -> NoDup (map l_id (kept ++ newl :: shift_leads n shifted)).
Proof.
  intros Hnd Hf Hid. rewrite map_app. cbn [map]. unfold shift_leads. rewrite map_set_off_id.
  rewrite map_app in Hnd. apply NoDup_insert; [exact Hnd|].
  rewrite <- map_app. intros Hin. apply in_map_iff in Hin. destruct Hin as (l & El & Hl).
  rewrite Forall_forall in Hf. specialize (Hf l Hl). lia.
Qed.

(* the uniform description of what enqueue does, given the chunk decomposition of the old queue *)
Lemma enqueue_chunks isput sorted key leads reqs mk_lead mk_reqs n leads' reqs' :
  qchunks isput leads reqs 0 0 ->
  enqueue sorted key leads reqs mk_lead mk_reqs n = (leads', reqs') ->
  exists kept shifted ra rb,
    leads = kept ++ shifted /\ reqs = ra ++ rb /\ (sorted = false -> shifted = []) /\
    qchunks isput kept ra 0 0 /\ qchunks isput shifted rb (Zlen ra) (Zlen kept) /\
    leads' = kept ++ mk_lead (Zlen ra) :: shift_leads n shifted /\
    reqs' = ra ++ mk_reqs (Zlen kept) ++ bump_reqs 1 rb.
Proof.
  intros Hch He. destruct (enqueue_shape _ _ _ _ _ _ _ _ _ He) as (kept & shifted & El & Hso & Hsh).
  subst leads. apply qchunks_app_elim in Hch. destruct Hch as (ra & rb & Er & Hk & Hs). subst reqs.
  assert (Hs' : qchunks isput shifted rb (Zlen ra) (Zlen kept)) by (revert Hs; apply qchunks_eq; lia).
  exists kept, shifted, ra, rb. split; [reflexivity|]. split; [reflexivity|]. split; [exact Hso|].
  split; [exact Hk|]. split; [exact Hs'|].
  destruct shifted as [|s0 sh].
  - destruct Hsh as (-> & ->). cbn [qchunks] in Hs'. subst rb. rewrite app_nil_r.
    split; [reflexivity|]. cbn [bump_reqs map]. rewrite app_nil_r. reflexivity.
  - destruct Hsh as (-> & ->). cbn [qchunks] in Hs'.
    destruct Hs' as (b & rest & _ & Hoff & _). rewrite Hoff.
    rewrite zfirstn_app_len, zskipn_app_len by reflexivity. split; reflexivity.
Qed.

(* [id] is fresh w.r.t. the leads in the queue (this follows from maxid < id, and holds
   vacuously when the queue is empty and the ids restart) *)
Theorem enqueue_inv isput maxid sorted key leads reqs mk_lead mk_reqs n id leads' reqs' :
  queue_inv isput maxid leads reqs ->
  Forall (fun l => l_id l < id) leads -> Z.even id = isput -> 0 <= id -> 0 < n ->
  (forall off, l_id (mk_lead off) = id /\ l_nonlead_off (mk_lead off) = off /\
               l_nonlead_num (mk_lead off) = n /\ l_to_free (mk_lead off) = false) ->
  (forall off lo, Forall (fun q => areq_wf (mkareq q (mk_lead off) 0 0)) (mk_reqs lo) /\
                  flat_map (fun q => areq_pairs (mkareq q (mk_lead off) 0 0)) (mk_reqs lo) =
                    lead_pairs (mk_lead off) /\
                  Forall (fun q => r_lead_off q = lo) (mk_reqs lo) /\ Zlen (mk_reqs lo) = n) ->
  enqueue sorted key leads reqs mk_lead mk_reqs n = (leads', reqs') ->
  queue_inv isput id leads' reqs' /\
  exists kept shifted off, leads = kept ++ shifted /\ (sorted = false -> shifted = []) /\
                           leads' = kept ++ mk_lead off :: shift_leads n shifted.
Proof.
  intros Hq Hfresh Hev Hid Hn Hml Hmr He.
  apply queue_inv_chunks in Hq. destruct Hq as (Hnd & Hmax & Hch & Hfree).
  destruct (enqueue_chunks _ _ _ _ _ _ _ _ _ _ Hch He)
    as (kept & shifted & ra & rb & El & Er & Hso & Hk & Hs & El' & Er').
  split; [|exists kept, shifted, (Zlen ra); split; [exact El|split; [exact Hso|exact El']]].
  subst leads reqs leads' reqs'.
  destruct (Hml (Zlen ra)) as (Hnid & Hnoff & Hnnum & Hnfree).
  destruct (Hmr (Zlen ra) (Zlen kept)) as (Hwf & Hpairs & Hlo & Hlen).
  apply queue_inv_chunks. split; [|split; [|split]].
  - apply (ids_insert kept shifted _ id n); assumption.
  - apply Forall_app in Hfresh. destruct Hfresh as (Hfk & Hfs).
    apply Forall_app. split.
    + revert Hfk. apply Forall_impl. intros l Hl. lia.
    + constructor; [lia|]. apply Forall_set_off; [intros l x Hl; exact Hl|].
      revert Hfs. apply Forall_impl. intros l Hl. lia.
  - apply qchunks_app_intro; [exact Hk|].
    cbn [qchunks]. exists (mk_reqs (Zlen kept)), (bump_reqs 1 rb).
    split; [reflexivity|]. split; [lia|]. split; [lia|]. split; [lia|].
    split; [revert Hlo; apply Forall_impl; intros q Hq; lia|].
    split; [unfold chunk_ok; rewrite Hnid; repeat split; assumption|].
    apply (qchunks_shift isput n 1) in Hs. revert Hs. apply qchunks_eq; lia.
  - apply Forall_app in Hfree. destruct Hfree as (Hfk & Hfs).
    apply Forall_app. split; [exact Hfk|]. constructor; [exact Hnfree|].
    apply Forall_set_off; [intros l x Hl; exact Hl|exact Hfs].
Qed.

(* 6. posting *)
Lemma next_id_fresh isput maxid leads reqs first :
  queue_inv isput maxid leads reqs -> (leads <> [] -> Z.even maxid = isput) ->
  Z.even first = isput -> 0 <= first ->
  Z.even (next_id (Zlen leads) maxid first) = isput /\ 0 <= next_id (Zlen leads) maxid first /\
  Forall (fun l => l_id l < next_id (Zlen leads) maxid first) leads.
Proof.
  intros Hq Hpar Hf H0. unfold next_id. destruct (Zlen leads =? 0) eqn:E.
  - assert (leads = []) by (apply Zlen_zero_nil; lia). subst leads.
    split; [exact Hf|]. split; [exact H0|constructor].
  - destruct leads as [|l r]; [rewrite Zlen_nil in E; lia|].
    assert (Hne : l :: r <> []) by discriminate. specialize (Hpar Hne).
    destruct Hq as (_ & Hmax & _ & Hwf & _).
    pose proof (Forall_inv Hmax) as Hl. pose proof (Forall_inv Hwf) as Hwl. cbv beta in Hl.
    destruct Hwl as (_ & Hl0 & _).
    split; [|split; [lia|]].
    + rewrite Z.even_add, Hpar. change (Z.even 2) with true. destruct isput; reflexivity.
    + revert Hmax. apply Forall_impl. intros a Ha. lia.
Qed.

(* what a successful post does to the state: newl enters one lead queue (kept ++ newl :: shifted),
   the leads behind it only get their nonlead_off moved; the other queue is untouched *)
Definition posted_into (isput : bool) (st st' : nbstate) (newl : lead) : Prop :=
  exists kept shifted,
    if isput
    then put_lead st = kept ++ shifted /\
         put_lead st' = kept ++ newl :: shift_leads (l_nonlead_num newl) shifted /\
         get_lead st' = get_lead st /\ get_reqs st' = get_reqs st /\
         maxPutID st' = l_id newl /\ maxGetID st' = maxGetID st
    else get_lead st = kept ++ shifted /\
         get_lead st' = kept ++ newl :: shift_leads (l_nonlead_num newl) shifted /\
         put_lead st' = put_lead st /\ put_reqs st' = put_reqs st /\
         maxGetID st' = l_id newl /\ maxPutID st' = maxPutID st.

(* a successful post replaces one lead queue by the result of enqueue and its max id by the new
   id; whatever it does to the pool, numrecs and the memory does not matter here *)
Lemma post_queue_spec (isput : bool) st st' sorted key (mk_lead : Z -> lead) (mk_reqs : Z -> list req) n leads' reqs' :
  enqueue sorted key (if isput then put_lead st else get_lead st) (if isput then put_reqs st else get_reqs st)
          mk_lead mk_reqs n = (leads', reqs') ->
  nb_inv_full st -> 0 < n ->
  (forall off, l_id (mk_lead off) =
                 next_id (Zlen (if isput then put_lead st else get_lead st))
                         (if isput then maxPutID st else maxGetID st) (if isput then 0 else 1) /\
               l_nonlead_off (mk_lead off) = off /\
               l_nonlead_num (mk_lead off) = n /\ l_to_free (mk_lead off) = false) ->
  (forall off lo, Forall (fun q => areq_wf (mkareq q (mk_lead off) 0 0)) (mk_reqs lo) /\
                  flat_map (fun q => areq_pairs (mkareq q (mk_lead off) 0 0)) (mk_reqs lo) =
                    lead_pairs (mk_lead off) /\
                  Forall (fun q => r_lead_off q = lo) (mk_reqs lo) /\ Zlen (mk_reqs lo) = n) ->
  (if isput
   then put_lead st' = leads' /\ put_reqs st' = reqs' /\ maxPutID st' = l_id (mk_lead 0) /\
        get_lead st' = get_lead st /\ get_reqs st' = get_reqs st /\ maxGetID st' = maxGetID st
   else get_lead st' = leads' /\ get_reqs st' = reqs' /\ maxGetID st' = l_id (mk_lead 0) /\
        put_lead st' = put_lead st /\ put_reqs st' = put_reqs st /\ maxPutID st' = maxPutID st) ->
  0 <= l_id (mk_lead 0) /\ Z.even (l_id (mk_lead 0)) = isput /\ nb_inv_full st' /\
  exists off, posted_into isput st st' (mk_lead off).
Proof.
  intros He ((Hput & Hget) & (Hmp & Hmg)) Hn Hml Hmr Hst'.
  destruct (Hml 0) as (Eid & _). unfold nb_inv_full, nb_inv, maxid_ok, posted_into.
  destruct isput.
  - destruct (next_id_fresh true _ _ _ 0 Hput (or_nil_imp _ _ Hmp) eq_refl (Z.le_refl 0)) as (Hev & Hid & Hfresh).
    destruct (enqueue_inv _ _ _ _ _ _ _ _ _ _ _ _ Hput Hfresh Hev Hid Hn Hml Hmr He)
      as (Hq & kept & shifted & off & El & _ & El').
    destruct Hst' as (E1 & E2 & E3 & E4 & E5 & E6). destruct (Hml off) as (Eoff & _ & En & _).
    rewrite E1, E2, E3, E4, E5, E6, Eid.
    split; [exact Hid|]. split; [exact Hev|].
    split; [split; [split; [exact Hq|exact Hget]|split; [right; exact Hev|exact Hmg]]|].
    exists off, kept, shifted. rewrite En, Eoff. repeat split; assumption.
  - destruct (next_id_fresh false _ _ _ 1 Hget (or_nil_imp _ _ Hmg) eq_refl Z.le_0_1) as (Hev & Hid & Hfresh).
    destruct (enqueue_inv _ _ _ _ _ _ _ _ _ _ _ _ Hget Hfresh Hev Hid Hn Hml Hmr He)
      as (Hq & kept & shifted & off & El & _ & El').
    destruct Hst' as (E1 & E2 & E3 & E4 & E5 & E6). destruct (Hml off) as (Eoff & _ & En & _).
    rewrite E1, E2, E3, E4, E5, E6, Eid.
    split; [exact Hid|]. split; [exact Hev|].
    split; [split; [split; [exact Hput|exact Hq]|split; [exact Hmp|right; exact Hev]]|].
    exists off, kept, shifted. rewrite En, Eoff. repeat split; assumption.
Qed.

Lemma Zlen_le_zsum_map {A} (f : A -> Z) l : Forall (fun p => 1 <= f p) l -> Zlen l <= zsum (map f l).
Proof.
  induction l as [|x l IH]; intros H; cbn [map zsum].
  - rewrite Zlen_nil. lia.
  - inversion H as [|? ? Hx Hl]; subst. specialize (IH Hl). rewrite Zlen_cons. lia.
Qed.

Lemma varn_nreqs_pos g parts :
  postn_ok g parts ->
  zsum (map (fun p => zprod (part_count (fst p) (snd p)))
            (filter (fun p => negb (zprod (part_count (fst p) (snd p)) =? 0)) parts)) * g_xsz g <> 0 ->
  0 < zsum (map (fun p => if g_isrec g then hd 1 (part_count (fst p) (snd p)) else 1)
                (filter (fun p => negb (zprod (part_count (fst p) (snd p)) =? 0)) parts)).
Proof.
  intros (_ & _ & _ & Hparts) Hne.
  set (nz := filter (fun p => negb (zprod (part_count (fst p) (snd p)) =? 0)) parts) in *.
  assert (Hnz : nz <> []) by (intros E; rewrite E in Hne; cbn [map zsum] in Hne; lia).
  apply Zlen_pos_not_nil in Hnz.
  enough (Zlen nz <= zsum (map (fun p => if g_isrec g then hd 1 (part_count (fst p) (snd p)) else 1) nz)) by lia.
  apply Zlen_le_zsum_map. apply Forall_forall. intros p Hp.
  unfold nz in Hp. apply filter_In in Hp. destruct Hp as (Hin & Hz).
  destruct (g_isrec g); [|lia].
  rewrite Forall_forall in Hparts. specialize (Hparts p Hin).
  apply req_ok_count_nonneg in Hparts.
  assert (Hzp : zprod (part_count (fst p) (snd p)) <> 0) by lia.
  pose proof (zprod_nonzero_pos _ Hparts Hzp) as Hpos.
  destruct (part_count (fst p) (snd p)) as [|c cs]; cbn [hd]; [lia|].
  inversion Hpos; subst. assumption.
Qed.

Section WithGeometry.
(* proved in Proofs_NbGeom.v (the geometric content of record splitting / varn splitting) *)
Hypothesis post_varm_reqs_ok : forall g start count stride xaddr lo l,
  post_ok g start count stride -> 0 < zprod count * g_xsz g ->
  l_geom l = g -> l_stride l = stride_eff stride -> l_xaddr l = xaddr ->
  l_orig l = [(start, count, match stride with Some t => t | None => ones_like count end)] ->
  let reqs := (if g_isrec g
               then rec_split lo start count (match stride_eff stride with Some t => hd 1 t | None => 1 end)
                              (hd 1 count) (zprod count / hd 1 count) xaddr (g_xsz g)
               else [mkreq lo start count (zprod count) xaddr]) in
  Forall (fun q => areq_wf (mkareq q l 0 0)) reqs /\
  flat_map (fun q => areq_pairs (mkareq q l 0 0)) reqs = lead_pairs l /\
  Forall (fun q => r_lead_off q = lo) reqs /\
  Zlen reqs = (if g_isrec g then hd 1 count else 1) /\ 0 < Zlen reqs.
Hypothesis post_varn_reqs_ok : forall g parts xaddr lo l,
  postn_ok g parts -> l_geom l = g -> l_stride l = None -> l_xaddr l = xaddr ->
  l_orig l = map (fun p => (fst p, part_count (fst p) (snd p), ones_like (fst p)))
                 (filter (fun p => negb (zprod (part_count (fst p) (snd p)) =? 0)) parts) ->
  let reqs := varn_reqs (g_isrec g) lo (g_xsz g) parts xaddr in
  Forall (fun q => areq_wf (mkareq q l 0 0)) reqs /\
  flat_map (fun q => areq_pairs (mkareq q l 0 0)) reqs = lead_pairs l /\
  Forall (fun q => r_lead_off q = lo) reqs /\
  Zlen reqs = zsum (map (fun p => if g_isrec g then hd 1 (part_count (fst p) (snd p)) else 1)
                        (filter (fun p => negb (zprod (part_count (fst p) (snd p)) =? 0)) parts)).

(* names the result of the one call of enqueue in a hypothesis (post_varm_spec, post_varn_spec) *)
Ltac name_enqueue Eq pl pr :=
  match goal with
  | Hp : context [enqueue ?a ?b ?c ?d ?e ?f ?h] |- _ =>
      destruct (enqueue a b c d e f h) as [pl pr] eqn:Eq
  end.

Lemma post_varm_spec st k g start count stride xaddr0 data sw tag :
  nb_inv_full st -> post_ok g start count stride ->
  forall st' id rc, post_varm st k g start count stride xaddr0 data sw tag = (st', id, rc) ->
  (st' = st /\ id = NC_REQ_NULL) \/
  (rc = NC_NOERR /\ 0 <= id /\ Z.even id = k_isput k /\ nb_inv_full st' /\
   exists newl, l_id newl = id /\ l_tag newl = tag /\ l_geom newl = g /\
                l_stride newl = stride_eff stride /\
                l_orig newl = [(start, count, match stride with Some t => t | None => ones_like count end)] /\
                l_to_free newl = false /\ l_nelems newl = zprod count /\
                posted_into (k_isput k) st st' newl).
Proof.
  intros Hinv Hpost st' id rc Hp. unfold post_varm in Hp.
  match type of Hp with (match ?c with true => _ | false => _ end) = _ => destruct c eqn:Ek end.
  { injection Hp as <- <- <-. left. split; reflexivity. }
  cbv zeta in Hp.
  destruct (zprod count * g_xsz g =? 0) eqn:Enb.
  { injection Hp as <- <- <-. left. split; reflexivity. }
  destruct (bput_alloc st k (zprod count * g_xsz g) xaddr0) as [[[rc0 ab] aidx] xaddr] eqn:Eb.
  destruct (negb (rc0 =? NC_NOERR)) eqn:Erc.
  { injection Hp as <- <- <-. left. split; reflexivity. }
  right.
  assert (Hpos : 0 < zprod count * g_xsz g).
  { destruct Hpost as ((Hx & _) & _ & Hreq). apply req_ok_count_nonneg in Hreq.
    apply zprod_nonneg in Hreq. apply Z.eqb_neq in Enb. nia. }
  match type of Hp with context [enqueue true _ _ _ _ ?mr ?n] => set (MR := mr) in *; set (NN := n) in * end.
  assert (Hmr : forall l lo, l_geom l = g -> l_stride l = stride_eff stride -> l_xaddr l = xaddr ->
              l_orig l = [(start, count, match stride with Some t => t | None => ones_like count end)] ->
              (Forall (fun q => areq_wf (mkareq q l 0 0)) (MR lo) /\
               flat_map (fun q => areq_pairs (mkareq q l 0 0)) (MR lo) = lead_pairs l /\
               Forall (fun q => r_lead_off q = lo) (MR lo) /\ Zlen (MR lo) = NN) /\ 0 < NN).
  { intros l lo E1 E2 E3 E4.
    destruct (post_varm_reqs_ok g start count stride xaddr lo l Hpost Hpos E1 E2 E3 E4) as (H1 & H2 & H3 & H4 & H5).
    rewrite H4 in H5. repeat split; assumption. }
  (* the put and the get case read the same *)
  destruct (k_isput k) eqn:Ekp; name_enqueue Henq pl pr; injection Hp as <- <- <-.
  all: match type of Henq with enqueue _ _ _ _ ?ml _ _ = _ => set (ML := ml) in * end.
  all: destruct (Hmr (ML 0) 0 eq_refl eq_refl eq_refl eq_refl) as (_ & Hn).
  (* post_queue_spec on the queue that was extended; its three open premises, in order: the fields of
     the new lead (by computation), the requests made for it (the geometry hypothesis), and that st'
     differs from st in that queue only (by computation) *)
  all: match goal with |- context [posted_into ?b ?s0 ?s _] =>
         destruct (post_queue_spec b s0 s _ _ _ _ _ _ _ Henq Hinv Hn) as (Hid & Hev & Hinv' & off & Hposted) end;
         [intros off; repeat split|intros off lo; apply Hmr; reflexivity|repeat split|].
  all: split; [reflexivity|]; split; [exact Hid|]; split; [exact Hev|]; split; [exact Hinv'|].
  all: exists (ML off); repeat (split; [reflexivity|]); exact Hposted.
Qed.

Lemma post_varn_spec st k g parts xaddr0 data sw tag :
  nb_inv_full st -> postn_ok g parts ->
  forall st' id rc, post_varn st k g parts xaddr0 data sw tag = (st', id, rc) ->
  (st' = st /\ id = NC_REQ_NULL) \/
  (rc = NC_NOERR /\ 0 <= id /\ Z.even id = k_isput k /\ nb_inv_full st' /\
   exists newl, l_id newl = id /\ l_tag newl = tag /\ l_geom newl = g /\ l_stride newl = None /\
                l_orig newl = map (fun p => (fst p, part_count (fst p) (snd p), ones_like (fst p)))
                                  (filter (fun p => negb (zprod (part_count (fst p) (snd p)) =? 0)) parts) /\
                l_to_free newl = false /\
                posted_into (k_isput k) st st' newl).
Proof.
  intros Hinv Hpost st' id rc Hp. unfold post_varn in Hp.
  match type of Hp with (match ?c with true => _ | false => _ end) = _ => destruct c eqn:Ek end.
  { injection Hp as <- <- <-. left. split; reflexivity. }
  cbv zeta in Hp.
  match type of Hp with (if ?c then _ else _) = _ => destruct c eqn:Enb end.
  { injection Hp as <- <- <-. left. split; reflexivity. }
  match type of Hp with context [bput_alloc ?a ?b ?c ?d] =>
    destruct (bput_alloc a b c d) as [[[rc0 ab] aidx] xaddr] eqn:Eb end.
  destruct (negb (rc0 =? NC_NOERR)) eqn:Erc.
  { injection Hp as <- <- <-. left. split; reflexivity. }
  right.
  apply Z.eqb_neq in Enb. pose proof (varn_nreqs_pos g parts Hpost Enb) as Hn.
  (* the put and the get case read the same *)
  destruct (k_isput k) eqn:Ekp; name_enqueue Henq pl pr; injection Hp as <- <- <-.
  all: match type of Henq with enqueue _ _ _ _ ?ml _ _ = _ => set (ML := ml) in * end.
  all: match goal with |- context [posted_into ?b ?s0 ?s _] =>
         destruct (post_queue_spec b s0 s _ _ _ _ _ _ _ Henq Hinv Hn) as (Hid & Hev & Hinv' & off & Hposted) end;
         [intros off; repeat split|intros off lo; apply post_varn_reqs_ok; [exact Hpost|reflexivity..]|repeat split|].
  all: split; [reflexivity|]; split; [exact Hid|]; split; [exact Hev|]; split; [exact Hinv'|].
  all: exists (ML off); repeat (split; [reflexivity|]); exact Hposted.
Qed.

(* ---------- corollaries in the form used by the history theorems ---------- *)
Theorem post_varm_inv st k g start count stride xaddr data sw tag :
  nb_inv_full st -> post_ok g start count stride ->
  nb_inv_full (fst (fst (post_varm st k g start count stride xaddr data sw tag))).
Proof.
  intros Hi Hp. destruct (post_varm st k g start count stride xaddr data sw tag) as [[st' id] rc] eqn:E.
  cbn [fst].
  destruct (post_varm_spec _ _ _ _ _ _ _ _ _ _ Hi Hp _ _ _ E) as [(-> & _)|(_ & _ & _ & H & _)]; assumption.
Qed.

Theorem post_varn_inv st k g parts xaddr data sw tag :
  nb_inv_full st -> postn_ok g parts ->
  nb_inv_full (fst (fst (post_varn st k g parts xaddr data sw tag))).
Proof.
  intros Hi Hp. destruct (post_varn st k g parts xaddr data sw tag) as [[st' id] rc] eqn:E.
  cbn [fst].
  destruct (post_varn_spec _ _ _ _ _ _ _ _ Hi Hp _ _ _ E) as [(-> & _)|(_ & _ & _ & H & _)]; assumption.
Qed.

Lemma posted_into_In isput st st' newl :
  posted_into isput st st' newl ->
  In newl (if isput then put_lead st' else get_lead st') /\ nreqs st' = nreqs st + 1.
Proof.
  intros (kept & shifted & H). unfold nreqs. destruct isput.
  - destruct H as (E1 & E2 & E3 & _). rewrite E1, E2, E3. split; [apply in_elt|].
    unfold shift_leads. rewrite !Zlen_app, Zlen_cons, Zlen_map. lia.
  - destruct H as (E1 & E2 & E3 & _). rewrite E1, E2, E3. split; [apply in_elt|].
    unfold shift_leads. rewrite !Zlen_app, Zlen_cons, Zlen_map. lia.
Qed.

Theorem post_varm_id st k g start count stride xaddr data sw tag :
  nb_inv_full st -> post_ok g start count stride ->
  let '(st', id, rc) := post_varm st k g start count stride xaddr data sw tag in
  rc = NC_NOERR -> id <> NC_REQ_NULL ->
  Z.even id = k_isput k /\
  exists l, In l (if k_isput k then put_lead st' else get_lead st') /\ l_id l = id /\ l_tag l = tag /\
            l_orig l = [(start, count, match stride with Some t => t | None => ones_like count end)] /\
            l_to_free l = false /\ nreqs st' = nreqs st + 1.
Proof.
  intros Hi Hp. destruct (post_varm st k g start count stride xaddr data sw tag) as [[st' id] rc] eqn:E.
  intros Hrc Hid.
  destruct (post_varm_spec _ _ _ _ _ _ _ _ _ _ Hi Hp _ _ _ E)
    as [(_ & Hn)|(_ & _ & Hev & _ & l & H1 & H2 & _ & _ & H5 & H6 & _ & H8)]; [contradiction|].
  split; [exact Hev|]. destruct (posted_into_In _ _ _ _ H8) as (Hin & Hnr).
  exists l. repeat split; assumption.
Qed.

Theorem post_varm_null st k g start count stride xaddr data sw tag :
  nb_inv_full st -> post_ok g start count stride ->
  let '(st', id, rc) := post_varm st k g start count stride xaddr data sw tag in
  rc <> NC_NOERR \/ id = NC_REQ_NULL -> st' = st.
Proof.
  intros Hi Hp. destruct (post_varm st k g start count stride xaddr data sw tag) as [[st' id] rc] eqn:E.
  intros Hor.
  destruct (post_varm_spec _ _ _ _ _ _ _ _ _ _ Hi Hp _ _ _ E) as [(H & _)|(Hrc & Hid & _)]; [exact H|].
  exfalso. destruct Hor as [H|H]; [contradiction|]. unfold NC_REQ_NULL in H. lia.
Qed.

Theorem post_varn_id st k g parts xaddr data sw tag :
  nb_inv_full st -> postn_ok g parts ->
  let '(st', id, rc) := post_varn st k g parts xaddr data sw tag in
  rc = NC_NOERR -> id <> NC_REQ_NULL ->
  Z.even id = k_isput k /\
  exists l, In l (if k_isput k then put_lead st' else get_lead st') /\ l_id l = id /\ l_tag l = tag /\
            l_orig l = map (fun p => (fst p, part_count (fst p) (snd p), ones_like (fst p)))
                           (filter (fun p => negb (zprod (part_count (fst p) (snd p)) =? 0)) parts) /\
            l_to_free l = false /\ nreqs st' = nreqs st + 1.
Proof.
  intros Hi Hp. destruct (post_varn st k g parts xaddr data sw tag) as [[st' id] rc] eqn:E.
  intros Hrc Hid.
  destruct (post_varn_spec _ _ _ _ _ _ _ _ Hi Hp _ _ _ E)
    as [(_ & Hn)|(_ & _ & Hev & _ & l & H1 & H2 & _ & _ & H5 & H6 & H8)]; [contradiction|].
  split; [exact Hev|]. destruct (posted_into_In _ _ _ _ H8) as (Hin & Hnr).
  exists l. repeat split; assumption.
Qed.

Theorem post_varn_null st k g parts xaddr data sw tag :
  nb_inv_full st -> postn_ok g parts ->
  let '(st', id, rc) := post_varn st k g parts xaddr data sw tag in
  rc <> NC_NOERR \/ id = NC_REQ_NULL -> st' = st.
Proof.
  intros Hi Hp. destruct (post_varn st k g parts xaddr data sw tag) as [[st' id] rc] eqn:E.
  intros Hor.
  destruct (post_varn_spec _ _ _ _ _ _ _ _ Hi Hp _ _ _ E) as [(H & _)|(Hrc & Hid & _)]; [exact H|].
  exfalso. destruct Hor as [H|H]; [contradiction|]. unfold NC_REQ_NULL in H. lia.
Qed.

End WithGeometry.

(* 7. cancel *)
(* the same pending request, up to its position in the queue *)
Definition lead_same (l l' : lead) : Prop :=
  l_id l' = l_id l /\ l_tag l' = l_tag l /\ l_orig l' = l_orig l /\ l_xaddr l' = l_xaddr l /\
  l_geom l' = l_geom l /\ l_swapbuf l' = l_swapbuf l.

Lemma lead_same_refl l : lead_same l l.
Proof. repeat split. Qed.
Lemma lead_same_set_off l x : lead_same l (l_set_off l x).
Proof. repeat split. Qed.
Lemma lead_same_trans a b c : lead_same a b -> lead_same b c -> lead_same a c.
Proof.
  intros (A1 & A2 & A3 & A4 & A5 & A6) (B1 & B2 & B3 & B4 & B5 & B6).
  unfold lead_same. rewrite B1, B2, B3, B4, B5, B6. repeat split; assumption.
Qed.

Lemma In_shift_same n B l : In l B -> exists l', In l' (shift_leads n B) /\ lead_same l l'.
Proof.
  intros H. exists (l_set_off l (l_nonlead_off l + n)). split; [|apply lead_same_set_off].
  unfold shift_leads. apply in_map_iff. exists l. split; [reflexivity|exact H].
Qed.

(* posting keeps every pending request *)
Lemma posted_into_frame isput st st' newl :
  posted_into isput st st' newl ->
  forall l, In l (put_lead st ++ get_lead st) ->
  exists l', In l' (put_lead st' ++ get_lead st') /\ lead_same l l'.
Proof.
  intros (kept & shifted & H) l Hin. apply in_app_or in Hin. destruct isput.
  - destruct H as (E1 & E2 & E3 & _). rewrite E2, E3. destruct Hin as [Hin|Hin].
    + rewrite E1 in Hin. apply in_app_or in Hin. destruct Hin as [Hin|Hin].
      * exists l. split; [|apply lead_same_refl]. apply in_or_app. left. apply in_or_app. left. exact Hin.
      * destruct (In_shift_same (l_nonlead_num newl) _ _ Hin) as (l' & Hl' & Hs).
        exists l'. split; [|exact Hs]. apply in_or_app. left. apply in_or_app. right. right. exact Hl'.
    + exists l. split; [|apply lead_same_refl]. apply in_or_app. right. exact Hin.
  - destruct H as (E1 & E2 & E3 & _). rewrite E2, E3. destruct Hin as [Hin|Hin].
    + exists l. split; [|apply lead_same_refl]. apply in_or_app. left. exact Hin.
    + rewrite E1 in Hin. apply in_app_or in Hin. destruct Hin as [Hin|Hin].
      * exists l. split; [|apply lead_same_refl]. apply in_or_app. right. apply in_or_app. left. exact Hin.
      * destruct (In_shift_same (l_nonlead_num newl) _ _ Hin) as (l' & Hl' & Hs).
        exists l'. split; [|exact Hs]. apply in_or_app. right. apply in_or_app. right. right. exact Hl'.
Qed.

Lemma remove_lead_spec : forall leads x leads' f,
  remove_lead leads x = Some (leads', f) ->
  exists A B, leads = A ++ f :: B /\ leads' = A ++ shift_leads (- l_nonlead_num f) B /\
              l_id f = x /\ x <> NC_REQ_NULL.
Proof.
  intros leads x leads' f H.
  destruct (remove_lead_some _ _ _ _ H) as (A & B & -> & -> & Hid & Hx & _).
  exists A, B. split; [reflexivity|]. split; [|split; assumption].
  (* x - n and x + - n are convertible *) reflexivity.
Qed.

Lemma remove_lead_none : forall leads x,
  remove_lead leads x = None -> x <> NC_REQ_NULL -> ~ In x (map l_id leads).
Proof.
  intros leads x H Hx Hin. apply in_map_iff in Hin. destruct Hin as (l & E & Hl).
  exact (proj1 (Forall_forall _ _) (remove_lead_absent _ _ H Hx) l Hl E).
Qed.

Theorem remove_inv isput maxid leads reqs x leads' f :
  queue_inv isput maxid leads reqs -> remove_lead leads x = Some (leads', f) ->
  queue_inv isput maxid leads' (remove_slice reqs (l_nonlead_off f) (l_nonlead_num f)).
Proof.
  intros Hq Hr. apply queue_inv_chunks in Hq. destruct Hq as (Hnd & Hmax & Hch & Hfree).
  destruct (remove_lead_spec _ _ _ _ Hr) as (A & B & -> & -> & Hid & Hx).
  apply qchunks_app_elim in Hch. destruct Hch as (ra & rb' & -> & HA & HfB).
  cbn [qchunks] in HfB. destruct HfB as (b & rest & -> & Hoff & Hb & Hpos & HF & Hc & Hrest).
  assert (Ers : remove_slice (ra ++ b ++ rest) (l_nonlead_off f) (l_nonlead_num f) = ra ++ bump_reqs (-1) rest).
  { unfold remove_slice. rewrite zfirstn_app_len by lia. f_equal.
    rewrite app_assoc, zskipn_app_len by (rewrite Zlen_app; lia).
    unfold bump_reqs. apply map_ext. intros a. f_equal; lia. }
  rewrite Ers. apply queue_inv_chunks. split; [|split; [|split]].
  - rewrite map_app in *. cbn [map] in Hnd. apply NoDup_remove_1 in Hnd.
    unfold shift_leads. rewrite map_set_off_id. exact Hnd.
  - apply Forall_app in Hmax. destruct Hmax as (H1 & H2). apply Forall_app. split; [exact H1|].
    apply Forall_set_off; [intros l y Hl; exact Hl|]. exact (Forall_inv_tail H2).
  - apply qchunks_app_intro; [exact HA|].
    apply (qchunks_shift isput (- l_nonlead_num f) (-1)) in Hrest. revert Hrest.
    apply qchunks_eq; rewrite ?Zlen_cons; lia.
  - apply Forall_app in Hfree. destruct Hfree as (H1 & H2). apply Forall_app. split; [exact H1|].
    apply Forall_set_off; [intros l y Hl; exact Hl|]. exact (Forall_inv_tail H2).
Qed.

Lemma remove_frame leads x leads' f l :
  remove_lead leads x = Some (leads', f) -> In l leads -> l_id l <> x ->
  exists l', In l' leads' /\ lead_same l l'.
Proof.
  intros Hr Hin Hne. destruct (remove_lead_spec _ _ _ _ Hr) as (A & B & -> & -> & Hid & Hx).
  apply in_app_or in Hin. destruct Hin as [Hin|[Hin|Hin]].
  - exists l. split; [apply in_or_app; left; exact Hin|apply lead_same_refl].
  - subst l. contradiction.
  - destruct (In_shift_same (- l_nonlead_num f) _ _ Hin) as (l' & Hl' & Hs).
    exists l'. split; [apply in_or_app; right; exact Hl'|exact Hs].
Qed.

(* ids after a removal: nothing is added, the removed id is gone *)
Lemma remove_ids leads x leads' f :
  remove_lead leads x = Some (leads', f) ->
  incl (map l_id leads') (map l_id leads) /\ (NoDup (map l_id leads) -> ~ In x (map l_id leads')).
Proof.
  intros Hr. destruct (remove_lead_spec _ _ _ _ Hr) as (A & B & -> & -> & Hid & Hx).
  rewrite !map_app. cbn [map]. unfold shift_leads. rewrite map_set_off_id, Hid. split.
  - apply incl_app; [apply incl_appl, incl_refl|apply incl_appr, incl_tl, incl_refl].
  - apply NoDup_remove_2.
Qed.

Lemma remove_nonempty leads x leads' f : remove_lead leads x = Some (leads', f) -> leads <> [].
Proof. destruct leads; [discriminate|discriminate]. Qed.

(* what cancel_ids does to the state for one id *)
Definition cancel_one (st : nbstate) (x : Z) : nbstate :=
  if x =? NC_REQ_NULL then st
  else if Z.land x 1 =? 1 then
    match remove_lead (get_lead st) x with
    | Some (gl, l) => set_get st gl (remove_slice (get_reqs st) (l_nonlead_off l) (l_nonlead_num l))
    | None => st
    end
  else
    match remove_lead (put_lead st) x with
    | Some (pl, l) =>
        set_abuf (set_put st pl (remove_slice (put_reqs st) (l_nonlead_off l) (l_nonlead_num l)))
                 (match st_abuf st with
                  | Some a => if 0 <=? l_abuf_index l then Some (abuf_release a (l_abuf_index l)) else Some a
                  | None => None end)
    | None => st
    end.
Definition cancel_st (st : nbstate) (ids : list Z) : nbstate := fold_left cancel_one ids st.

Lemma cancel_st_cons st x r : cancel_st st (x :: r) = cancel_st (cancel_one st x) r.
Proof. reflexivity. Qed.

Lemma cancel_ids_st : forall ids st i stat rc ev, c_st (cancel_ids st ids i stat rc ev) = cancel_st st ids.
Proof.
  induction ids as [|x r IH]; intros st i stat rc ev; [reflexivity|].
  rewrite cancel_st_cons. cbn [cancel_ids]. unfold cancel_one.
  (* every branch passes on the state of its recursive call *)
  destruct (x =? NC_REQ_NULL);
    [|destruct (Z.land x 1 =? 1);
      [destruct (remove_lead (get_lead st) x) as [[gl l]|]|destruct (remove_lead (put_lead st) x) as [[pl l]|]]];
    match goal with |- context [cancel_ids ?s r ?j ?t ?c ?e] =>
      specialize (IH s j t c e); destruct (cancel_ids s r j t c e) as [[[[s' a] b] c'] d] end;
    exact IH.
Qed.

Lemma cancel_one_pres (P : nbstate -> Prop) st x :
  P st ->
  (forall gl l, remove_lead (get_lead st) x = Some (gl, l) ->
     P (set_get st gl (remove_slice (get_reqs st) (l_nonlead_off l) (l_nonlead_num l)))) ->
  (forall pl l ab, remove_lead (put_lead st) x = Some (pl, l) ->
     P (set_abuf (set_put st pl (remove_slice (put_reqs st) (l_nonlead_off l) (l_nonlead_num l))) ab)) ->
  P (cancel_one st x).
Proof.
  intros H0 Hg Hp. unfold cancel_one. destruct (x =? NC_REQ_NULL); [exact H0|].
  destruct (Z.land x 1 =? 1).
  - destruct (remove_lead (get_lead st) x) as [[gl l]|]; [exact (Hg _ _ eq_refl)|exact H0].
  - destruct (remove_lead (put_lead st) x) as [[pl l]|]; [exact (Hp _ _ _ eq_refl)|exact H0].
Qed.

Lemma cancel_one_nb st x : nb_inv st -> nb_inv (cancel_one st x).
Proof.
  intros H. apply cancel_one_pres; [exact H| |]; destruct H as (Hp & Hg).
  - intros gl l Hr. split; [exact Hp|exact (remove_inv _ _ _ _ _ _ _ Hg Hr)].
  - intros pl l ab Hr. split; [exact (remove_inv _ _ _ _ _ _ _ Hp Hr)|exact Hg].
Qed.

Lemma cancel_one_maxid_ok st x : maxid_ok st -> maxid_ok (cancel_one st x).
Proof.
  intros H. apply cancel_one_pres; [exact H| |]; destruct H as (Hp & Hg).
  - intros gl l Hr. split; [exact Hp|right; exact (or_nil_imp _ _ Hg (remove_nonempty _ _ _ _ Hr))].
  - intros pl l ab Hr. split; [right; exact (or_nil_imp _ _ Hp (remove_nonempty _ _ _ _ Hr))|exact Hg].
Qed.

Definition all_leads (st : nbstate) : list lead := put_lead st ++ get_lead st.

Lemma cancel_one_frame st x l :
  In l (all_leads st) -> l_id l <> x -> exists l', In l' (all_leads (cancel_one st x)) /\ lead_same l l'.
Proof.
  intros Hin Hne. apply in_app_or in Hin.
  apply cancel_one_pres; unfold all_leads; cbn [set_abuf set_put set_get put_lead get_lead].
  - exists l. split; [apply in_or_app; exact Hin|apply lead_same_refl].
  - intros gl f Hr. destruct Hin as [Hin|Hin].
    + exists l. split; [apply in_or_app; left; exact Hin|apply lead_same_refl].
    + destruct (remove_frame _ _ _ _ _ Hr Hin Hne) as (l1 & Hl1 & Hs).
      exists l1. split; [apply in_or_app; right; exact Hl1|exact Hs].
  - intros pl f ab Hr. destruct Hin as [Hin|Hin].
    + destruct (remove_frame _ _ _ _ _ Hr Hin Hne) as (l1 & Hl1 & Hs).
      exists l1. split; [apply in_or_app; left; exact Hl1|exact Hs].
    + exists l. split; [apply in_or_app; right; exact Hin|apply lead_same_refl].
Qed.

Lemma cancel_st_frame : forall ids st l,
  In l (all_leads st) -> ~ In (l_id l) ids ->
  exists l', In l' (all_leads (cancel_st st ids)) /\ lead_same l l'.
Proof.
  induction ids as [|x r IH]; intros st l Hin Hni.
  { exists l. split; [exact Hin|apply lead_same_refl]. }
  rewrite cancel_st_cons.
  destruct (cancel_one_frame st x l Hin) as (l1 & Hl1 & Hs1); [intros E; apply Hni; left; symmetry; exact E|].
  destruct (IH _ l1 Hl1) as (l' & Hl' & Hs').
  { destruct Hs1 as (E & _). rewrite E. intros Hr. apply Hni. right. exact Hr. }
  exists l'. split; [exact Hl'|exact (lead_same_trans _ _ _ Hs1 Hs')].
Qed.

Lemma land1_odd x : (Z.land x 1 =? 1) = Z.odd x.
Proof.
  change (Z.land x 1) with (Z.land x (Z.ones 1)). rewrite Z.land_ones by lia.
  change (2 ^ 1) with 2. rewrite Zmod_odd. destruct (Z.odd x); reflexivity.
Qed.

Lemma queue_ids_parity isput maxid leads reqs y :
  queue_inv isput maxid leads reqs -> In y (map l_id leads) -> Z.even y = isput.
Proof.
  intros (_ & _ & _ & Hwf & _) Hin. apply in_map_iff in Hin. destruct Hin as (l & <- & Hl).
  rewrite Forall_forall in Hwf. destruct (Hwf l Hl) as (He & _). exact He.
Qed.

(* put ids are even, get ids odd: no id occurs twice in a state *)
Lemma nb_inv_ids_NoDup st : nb_inv st -> NoDup (map l_id (all_leads st)).
Proof.
  intros (Hp & Hg). unfold all_leads. rewrite map_app. apply NoDup_app_intro; [apply Hp|apply Hg|].
  intros x Hxp Hxg. apply (queue_ids_parity _ _ _ _ _ Hp) in Hxp. apply (queue_ids_parity _ _ _ _ _ Hg) in Hxg.
  congruence.
Qed.

Lemma cancel_one_ids_incl st x : incl (map l_id (all_leads (cancel_one st x))) (map l_id (all_leads st)).
Proof.
  apply cancel_one_pres; unfold all_leads; cbn [set_abuf set_put set_get put_lead get_lead].
  - apply incl_refl.
  - intros gl f Hr. rewrite !map_app.
    apply incl_app; [apply incl_appl, incl_refl|apply incl_appr; exact (proj1 (remove_ids _ _ _ _ Hr))].
  - intros pl f _ Hr. rewrite !map_app.
    apply incl_app; [apply incl_appl; exact (proj1 (remove_ids _ _ _ _ Hr))|apply incl_appr, incl_refl].
Qed.

Lemma cancel_st_ids_incl : forall ids st, incl (map l_id (all_leads (cancel_st st ids))) (map l_id (all_leads st)).
Proof.
  induction ids as [|x r IH]; intros st; [apply incl_refl|].
  rewrite cancel_st_cons. eapply incl_tran; [apply IH|apply cancel_one_ids_incl].
Qed.

(* after the step for y no lead has the id y: the queue of the other parity never had it, the
   queue of its parity has lost it or never had it *)
Lemma cancel_one_gone st y : nb_inv st -> 0 <= y -> ~ In y (map l_id (all_leads (cancel_one st y))).
Proof.
  intros (Hp & Hg) Hy. unfold cancel_one, all_leads.
  destruct (y =? NC_REQ_NULL) eqn:En; [unfold NC_REQ_NULL in En; lia|].
  assert (Hyn : y <> NC_REQ_NULL) by lia.
  rewrite land1_odd. destruct (Z.odd y) eqn:Eo.
  - assert (Hnp : ~ In y (map l_id (put_lead st))).
    { intros Hc. apply (queue_ids_parity _ _ _ _ _ Hp) in Hc. rewrite <- Z.negb_odd, Eo in Hc. discriminate. }
    destruct Hg as (Hnd & _).
    destruct (remove_lead (get_lead st) y) as [[gl f]|] eqn:Er; cbn [set_get put_lead get_lead];
      rewrite map_app; intros Hc; apply in_app_or in Hc; destruct Hc as [Hc|Hc]; try exact (Hnp Hc).
    + exact (proj2 (remove_ids _ _ _ _ Er) Hnd Hc).
    + exact (remove_lead_none _ _ Er Hyn Hc).
  - assert (Hng : ~ In y (map l_id (get_lead st))).
    { intros Hc. apply (queue_ids_parity _ _ _ _ _ Hg) in Hc. rewrite <- Z.negb_odd, Eo in Hc. discriminate. }
    destruct Hp as (Hnd & _).
    destruct (remove_lead (put_lead st) y) as [[pl f]|] eqn:Er; cbn [set_abuf set_put put_lead get_lead];
      rewrite map_app; intros Hc; apply in_app_or in Hc; destruct Hc as [Hc|Hc]; try exact (Hng Hc).
    + exact (proj2 (remove_ids _ _ _ _ Er) Hnd Hc).
    + exact (remove_lead_none _ _ Er Hyn Hc).
Qed.

Lemma cancel_st_removed : forall ids st, nb_inv st ->
  forall y, 0 <= y -> In y ids -> ~ In y (map l_id (all_leads (cancel_st st ids))).
Proof.
  induction ids as [|x r IH]; intros st H y Hy Hin; [destruct Hin|]. rewrite cancel_st_cons.
  destruct (Z.eq_dec x y) as [->|E].
  - intros Hc. apply cancel_st_ids_incl in Hc. exact (cancel_one_gone st y H Hy Hc).
  - apply IH; [apply cancel_one_nb; exact H|exact Hy|]. destruct Hin as [Hin|Hin]; [contradiction|exact Hin].
Qed.

(* nb_inv and maxid_ok only look at the queues and the max ids *)
Definition same_queues (st st' : nbstate) : Prop :=
  put_lead st' = put_lead st /\ get_lead st' = get_lead st /\
  put_reqs st' = put_reqs st /\ get_reqs st' = get_reqs st /\
  maxPutID st' = maxPutID st /\ maxGetID st' = maxGetID st.

Lemma nb_inv_same st st' : same_queues st st' -> nb_inv st -> nb_inv st'.
Proof. intros (E1 & E2 & E3 & E4 & E5 & E6) H. unfold nb_inv in *. rewrite E1, E2, E3, E4, E5, E6. exact H. Qed.

Lemma nb_inv_full_same st st' : same_queues st st' -> nb_inv_full st -> nb_inv_full st'.
Proof.
  intros Hs (H1 & H2). split; [exact (nb_inv_same _ _ Hs H1)|].
  destruct Hs as (E1 & E2 & _ & _ & E5 & E6). unfold maxid_ok in *. rewrite E1, E2, E5, E6. exact H2.
Qed.

Lemma cancel_pos_queues st n ids stat0 :
  0 < n -> same_queues (cancel_st st ids) (wr_st (cancel st n ids stat0)).
Proof.
  intros Hn. unfold cancel.
  destruct (n =? 0) eqn:E0; [lia|].
  destruct (n <? NC_PUT_REQ_ALL) eqn:E1; [unfold NC_PUT_REQ_ALL in E1; lia|].
  destruct (n <? 0) eqn:E2; [lia|].
  pose proof (cancel_ids_st ids st 0 stat0 NC_NOERR []) as Hc.
  destruct (cancel_ids st ids 0 stat0 NC_NOERR []) as [[[[st1 ids'] stat'] rc] ev].
  unfold c_st in Hc. cbn [fst] in Hc. subst st1. cbn [wr_st]. repeat split.
Qed.

(* what it takes for a property of the queues to survive cancel: the id list is worked off one id
   at a time, NC_GET_REQ_ALL / NC_PUT_REQ_ALL / NC_REQ_ALL empty a queue *)
Lemma cancel_pres (P : nbstate -> Prop) :
  (forall st st', same_queues st st' -> P st -> P st') ->
  (forall st x, P st -> P (cancel_one st x)) ->
  (forall st, P st -> P (set_get st [] [])) ->
  (forall st ab, P st -> P (set_abuf (set_put st [] []) ab)) ->
  forall st n ids stat0, P st -> P (wr_st (cancel st n ids stat0)).
Proof.
  intros Hsame Hone Hg Hp st n ids stat0 H. destruct (Z.ltb_spec 0 n) as [Hn|Hn].
  - apply (Hsame _ _ (cancel_pos_queues st n ids stat0 Hn)). clear Hn.
    revert st H. induction ids as [|x r IH]; intros st H; [exact H|]. apply IH, Hone, H.
  - unfold cancel.
    destruct (n =? 0) eqn:E0; [exact H|].
    destruct (n <? NC_PUT_REQ_ALL) eqn:E1; [exact H|].
    destruct (n <? 0) eqn:E2; [|lia].
    cbv zeta.
    destruct ((n =? NC_GET_REQ_ALL) || (n =? NC_REQ_ALL));
      destruct ((n =? NC_PUT_REQ_ALL) || (n =? NC_REQ_ALL)); cbn [wr_st].
    + apply Hp, Hg, H.
    + apply Hg, H.
    + apply Hp, H.
    + exact H.
Qed.

Theorem cancel_inv st n ids stat0 : nb_inv_full st -> nb_inv_full (wr_st (cancel st n ids stat0)).
Proof.
  apply (cancel_pres nb_inv_full).
  - exact nb_inv_full_same.
  - intros s x (H1 & H2). split; [apply cancel_one_nb; exact H1|apply cancel_one_maxid_ok; exact H2].
  - intros s ((Hp & Hg) & (Hmp & Hmg)). split; split; [exact Hp|apply queue_inv_nil|exact Hmp|left; reflexivity].
  - intros s ab ((Hp & Hg) & (Hmp & Hmg)). split; split; [apply queue_inv_nil|exact Hg|left; reflexivity|exact Hmg].
Qed.

(* nb_inv alone IS preserved by cancel (no id is created) *)
Theorem cancel_inv_nb st n ids stat0 : nb_inv st -> nb_inv (wr_st (cancel st n ids stat0)).
Proof.
  apply (cancel_pres nb_inv).
  - exact nb_inv_same.
  - intros s x. apply cancel_one_nb.
  - intros s (Hp & Hg). split; [exact Hp|apply queue_inv_nil].
  - intros s ab (Hp & Hg). split; [apply queue_inv_nil|exact Hg].
Qed.

(* cancel never touches the max ids *)
Theorem cancel_maxids st n ids stat0 :
  maxPutID (wr_st (cancel st n ids stat0)) = maxPutID st /\
  maxGetID (wr_st (cancel st n ids stat0)) = maxGetID st.
Proof.
  apply (cancel_pres (fun s => maxPutID s = maxPutID st /\ maxGetID s = maxGetID st)).
  - intros s s' (_ & _ & _ & _ & E5 & E6) H. rewrite E5, E6. exact H.
  - intros s x H. apply cancel_one_pres; intros; exact H.
  - intros s H. exact H.
  - intros s ab H. exact H.
  - split; reflexivity.
Qed.

(* requests not named stay pending, unchanged up to their position in the queue *)
Theorem cancel_ids_frame st n ids stat0 :
  0 <= n ->
  forall l, In l (put_lead st ++ get_lead st) -> ~ In (l_id l) ids ->
  exists l', In l' (put_lead (wr_st (cancel st n ids stat0)) ++ get_lead (wr_st (cancel st n ids stat0))) /\
             l_id l' = l_id l /\ l_tag l' = l_tag l /\ l_orig l' = l_orig l /\ l_xaddr l' = l_xaddr l /\
             l_geom l' = l_geom l /\ l_swapbuf l' = l_swapbuf l.
Proof.
  intros Hn l Hin Hni. destruct (Z.eq_dec n 0) as [E|E].
  - subst n. exists l. split; [exact Hin|]. repeat split.
  - destruct (cancel_pos_queues st n ids stat0 ltac:(lia)) as (E1 & E2 & _). rewrite E1, E2.
    exact (cancel_st_frame ids st l Hin Hni).
Qed.

(* requests named are gone *)
Theorem cancel_ids_removed st n ids stat0 :
  nb_inv st -> 0 < n ->
  forall l, In l (put_lead st ++ get_lead st) -> In (l_id l) ids ->
  ~ In (l_id l) (map l_id (put_lead (wr_st (cancel st n ids stat0)) ++ get_lead (wr_st (cancel st n ids stat0)))).
Proof.
  intros H Hn l Hin Hid.
  destruct (cancel_pos_queues st n ids stat0 Hn) as (E1 & E2 & _). rewrite E1, E2.
  apply (cancel_st_removed ids st H); [|exact Hid].
  destruct H as (Hp & Hg). apply in_app_or in Hin. destruct Hin as [Hin|Hin].
  - destruct Hp as (_ & _ & _ & Hwf & _). rewrite Forall_forall in Hwf. destruct (Hwf l Hin) as (_ & H0 & _). exact H0.
  - destruct Hg as (_ & _ & _ & Hwf & _). rewrite Forall_forall in Hwf. destruct (Hwf l Hin) as (_ & H0 & _). exact H0.
Qed.

(* 8. Examples: the invariant and the hypotheses are satisfiable *)
(* Used by the Examples below only.  conc proves a closed, fully evaluated proposition made of
   /\, \/, Forall, NoDup, ~ and equations of constants by taking it apart (conc_leaf: one leaf;
   conc_false: a contradictory hypothesis); conc_top unfolds the invariant and evaluates first. *)
Ltac conc_false :=
  match goal with
  | H : False |- _ => destruct H
  | H : ?a = ?a -> False |- _ => apply H; reflexivity
  | H : _ = _ |- _ => discriminate H
  | H : _ \/ _ |- _ => solve [destruct H; conc_false]
  end.
Ltac conc_leaf :=
  lazymatch goal with
  | |- True => exact I
  | |- False => conc_false
  | |- _ = _ => first [reflexivity | exfalso; conc_false]
  | |- _ \/ _ => first [solve [left; conc_leaf] | solve [right; conc_leaf] | exfalso; conc_false]
  | |- _ => exfalso; conc_false
  end.
Ltac conc :=
  repeat lazymatch goal with
         | |- _ /\ _ => split
         | |- Forall _ _ => constructor; cbv beta iota
         | |- NoDup _ => constructor; cbn [In]
         | |- ~ _ => intro
         | |- _ -> _ => intro
         end;
  conc_leaf.

(* structured evaluation: lists are evaluated, predicates are NOT normalised under binders *)
Lemma Forall_compute {A} (P : A -> Prop) l l' : l = l' -> Forall P l' -> Forall P l.
Proof. intros ->. exact (fun H => H). Qed.

Ltac conc_top :=
  repeat lazymatch goal with
         | |- _ /\ _ => split
         | |- let _ := _ in _ => cbv zeta
         | |- nb_inv_full _ => unfold nb_inv_full, nb_inv, maxid_ok, queue_inv
         | |- nb_inv _ => unfold nb_inv, queue_inv
         | |- lead_wf _ _ _ => unfold lead_wf, lead_reqs
         | |- Forall _ _ => eapply Forall_compute; [vm_compute; reflexivity|]; constructor; cbv beta
         end;
  vm_compute; conc.

Definition ex_g1 : geom := mkgeom 2048 8 [0;3;4] 200 3.     (* record variable *)
Definition ex_g2 : geom := mkgeom 1024 4 [4;5;6] 0 0.       (* fixed-size variable, begins earlier *)
Definition ex_parts : list (list Z * option (list Z)) :=
  [([0;0;0], Some [1;3;4]); ([5;1;0], None); ([2;0;0], Some [0;3;4])].

(* put of 2 records of g1 (2 non-lead requests) *)
Definition ex_st1 : nbstate := fst (fst (post_varm init_state KIput ex_g1 [1;0;0] [2;3;4] None 5000 [] false 11)).
(* strided put on g2: inserted BEFORE the first lead (g_begin 1024 < 2048), which is shifted *)
Definition ex_st2 : nbstate :=
  fst (fst (post_varm ex_st1 KIput ex_g2 [0;0;0] [2;5;6] (Some [2;1;1]) 9000 [] false 12)).
(* varn get on g1 with an empty part *)
Definition ex_st3 : nbstate := fst (fst (post_varn ex_st2 KIget ex_g1 ex_parts 20000 [] false 13)).

Example ex_post_ok :
  post_ok ex_g1 [1;0;0] [2;3;4] None /\ post_ok ex_g2 [0;0;0] [2;5;6] (Some [2;1;1]) /\ postn_ok ex_g1 ex_parts.
Proof. vm_compute. conc. Qed.

Example ex_queue_shape :
  map l_id (put_lead ex_st3) = [2; 0] /\ map l_nonlead_off (put_lead ex_st3) = [0; 1] /\
  map l_nonlead_num (put_lead ex_st3) = [1; 2] /\ map r_lead_off (put_reqs ex_st3) = [0; 1; 1] /\
  map l_id (get_lead ex_st3) = [1] /\ map l_nonlead_num (get_lead ex_st3) = [2] /\
  maxPutID ex_st3 = 2 /\ maxGetID ex_st3 = 1.
Proof. vm_compute. conc. Qed.

Example ex_inv1 : nb_inv_full ex_st1.
Proof. conc_top. Qed.
Example ex_inv2 : nb_inv_full ex_st2.
Proof. conc_top. Qed.
Example ex_inv3 : nb_inv_full ex_st3.
Proof. conc_top. Qed.

(* the conclusion of the geometry hypothesis on the record-split instance of ex_st1 *)
Example ex_geometry :
  let l := hd dummy_lead (put_lead ex_st1) in
  let reqs := rec_split 0 [1;0;0] [2;3;4] 1 2 12 5000 8 in
  Forall (fun q => areq_wf (mkareq q l 0 0)) reqs /\
  flat_map (fun q => areq_pairs (mkareq q l 0 0)) reqs = lead_pairs l /\
  Forall (fun q => r_lead_off q = 0) reqs /\ Zlen reqs = 2.
Proof. conc_top. Qed.

Example ex_cancel :
  map l_id (all_leads (wr_st (cancel ex_st3 2 [2; 1] [0; 0]))) = [0] /\
  nb_inv_full (wr_st (cancel ex_st3 2 [2; 1] [0; 0])).
Proof. conc_top. Qed.

(* nb_inv WITHOUT maxid_ok is not preserved by a post: the state below satisfies nb_inv (put queue
   [id 0], maxPutID = 1), the next put gets the odd id 3 *)
Definition ex_bad : nbstate := set_maxids ex_st1 1 0.
Example nb_inv_post_counterexample :
  nb_inv ex_bad /\ post_ok ex_g2 [0;0;0] [2;5;6] None /\
  ~ nb_inv (fst (fst (post_varm ex_bad KIput ex_g2 [0;0;0] [2;5;6] None 9000 [] false 12))).
Proof.
  split; [conc_top|]. split; [conc_top|].
  intros ((_ & _ & _ & Hwf & _) & _). apply Forall_inv in Hwf. destruct Hwf as (He & _).
  vm_compute in He. discriminate He.
Qed.

Print Assumptions nb_inv_full_init.
Print Assumptions enqueue_inv.
Print Assumptions split_last_le_app.
Print Assumptions post_varm_inv.
Print Assumptions post_varn_inv.
Print Assumptions post_varm_id.
Print Assumptions post_varm_null.
Print Assumptions post_varn_id.
Print Assumptions post_varn_null.
Print Assumptions cancel_inv.
Print Assumptions cancel_inv_nb.
Print Assumptions nb_inv_post_counterexample.
Print Assumptions cancel_ids_frame.
Print Assumptions cancel_ids_removed.
