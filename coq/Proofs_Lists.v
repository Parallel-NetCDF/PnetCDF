(* Proofs_Lists.v — lemmas about the Z-indexed list functions of Base.v (Zlen, znth, zupd,
   zfirstn, zskipn, zseq, zrange, zsum, zprod, zip, find_index, last_opt, list_eqb) and the few
   facts about flat_map, forallb, NoDup, filter and removelast that the standard library lacks. *)
From Pnc Require Import Base.
Require Import ZifyBool.
Local Open Scope Z_scope.
Local Arguments Z.mul : simpl never.
Local Arguments Z.add : simpl never.
Local Arguments Z.of_nat : simpl never.
Local Arguments Z.to_nat : simpl never.

Lemma Zlen_nil A : Zlen (@nil A) = 0.
Proof. reflexivity. Qed.

Lemma Zlen_cons {A} (x : A) l : Zlen (x :: l) = Zlen l + 1.
Proof. unfold Zlen. cbn [length]. lia. Qed.

Lemma Zlen_nonneg {A} (l : list A) : 0 <= Zlen l.
Proof. unfold Zlen. lia. Qed.

Lemma Zlen_app {A} (l1 l2 : list A) : Zlen (l1 ++ l2) = Zlen l1 + Zlen l2.
Proof. unfold Zlen. rewrite app_length. lia. Qed.

Lemma Zlen_snoc {A} (l : list A) x : Zlen (l ++ [x]) = Zlen l + 1.
Proof. apply Zlen_app. Qed.

Lemma Zlen_app_pos : forall A (l1 l2 : list A), 1 <= Zlen l1 -> 1 <= Zlen (l1 ++ l2).
Proof. intros A l1 l2 H. rewrite Zlen_app. pose proof (Zlen_nonneg l2). lia. Qed.

Lemma Zlen_map {A B} (f : A -> B) l : Zlen (map f l) = Zlen l.
Proof. unfold Zlen. now rewrite map_length. Qed.

Lemma Zlen_rev {A} (l : list A) : Zlen (rev l) = Zlen l.
Proof. unfold Zlen. now rewrite rev_length. Qed.

Lemma Zlen_repeat {A} (x : A) n : Zlen (repeat x n) = Z.of_nat n.
Proof. unfold Zlen. now rewrite repeat_length. Qed.

Lemma length_Zlen {A} (l : list A) : Zlen l = Z.of_nat (length l).
Proof. reflexivity. Qed.

Lemma length_eq_Zlen : forall A B (a : list A) (b : list B),
  length a = length b <-> Zlen a = Zlen b.
Proof. intros. unfold Zlen. lia. Qed.

Lemma to_nat_Zlen {A} (l : list A) : Z.to_nat (Zlen l) = length l.
Proof. unfold Zlen. lia. Qed.

Lemma Zlen_zero_nil {A} (l : list A) : Zlen l = 0 -> l = [].
Proof. destruct l as [|a l]; [reflexivity|]. rewrite Zlen_cons. pose proof (Zlen_nonneg l). lia. Qed.

Lemma nil_iff_Zlen {A} (l : list A) : l = [] <-> Zlen l = 0.
Proof. split; [intros ->; reflexivity | apply Zlen_zero_nil]. Qed.

Lemma Zlen_pos_not_nil {A} (l : list A) : 0 < Zlen l <-> l <> [].
Proof. rewrite nil_iff_Zlen. pose proof (Zlen_nonneg l). lia. Qed.

Lemma Zlen_filter_split {A} (f : A -> bool) l :
  Zlen (filter f l) + Zlen (filter (fun x => negb (f x)) l) = Zlen l.
Proof.
  induction l as [|x l IH]; [reflexivity|].
  cbn [filter]. destruct (f x); cbn [negb]; rewrite !Zlen_cons; lia.
Qed.

Lemma Zlen_flat_map_const {A B} (f : A -> list B) k l :
  (forall x, Zlen (f x) = k) -> Zlen (flat_map f l) = Zlen l * k.
Proof.
  intros H. induction l as [|x l IH]; [reflexivity|].
  cbn [flat_map]. rewrite Zlen_app, Zlen_cons, H, IH. lia.
Qed.

Lemma Zlen_concat_const : forall (es : list (list byte)) xsz,
  Forall (fun e => Zlen e = xsz) es -> Zlen (concat es) = Zlen es * xsz.
Proof.
  intros es xsz H. induction H as [|e es He Hes IH].
  - reflexivity.
  - cbn [concat]. rewrite Zlen_app, Zlen_cons, He, IH. lia.
Qed.

(* every element encodes to at least one byte => at least as many bytes as elements *)
Lemma Zlen_flat_map_ge : forall A (f : A -> list byte) (P : A -> Prop),
  (forall a, P a -> 1 <= Zlen (f a)) ->
  forall l, Forall P l -> Zlen l <= Zlen (flat_map f l).
Proof.
  intros A f P f_len. induction l as [|a l IH]; intros Hl.
  - cbn [flat_map]. apply Z.le_refl.
  - inversion Hl as [|a' l' Ha Hl' Heq]; subst.
    cbn [flat_map]. rewrite Zlen_cons, Zlen_app.
    pose proof (f_len a Ha). pose proof (IH Hl'). lia.
Qed.

Lemma Zlen_flat_map_zsum : forall A (f : A -> list byte) (len : A -> Z) (P : A -> Prop) l,
  (forall a, P a -> Zlen (f a) = len a) -> Forall P l ->
  Zlen (flat_map f l) = zsum (map len l).
Proof.
  intros A f len P l Hf Hl. induction Hl as [|a l Ha Hl IH]; [reflexivity|].
  cbn [flat_map map zsum]. rewrite Zlen_app, (Hf a Ha), IH. reflexivity.
Qed.

Lemma znth_nil {A} i (d : A) : znth [] i d = d.
Proof. reflexivity. Qed.

Lemma znth_cons_0 {A} (x : A) l d : znth (x :: l) 0 d = x.
Proof. reflexivity. Qed.

Lemma znth_cons_pos {A} (x : A) l i d : i <> 0 -> znth (x :: l) i d = znth l (i - 1) d.
Proof. intros H. cbn [znth]. destruct (Z.eqb_spec i 0); [contradiction | reflexivity]. Qed.

(* outside its bounds, on either side, a list reads as the default *)
Lemma znth_oob {A} (l : list A) i d : i < 0 \/ Zlen l <= i -> znth l i d = d.
Proof.
  revert i. induction l as [|a l IH]; intros i Hi; [reflexivity|].
  rewrite Zlen_cons in Hi. pose proof (Zlen_nonneg l).
  rewrite znth_cons_pos by lia. apply IH. lia.
Qed.

Lemma znth_app {A} (a b : list A) i d : 0 <= i ->
  znth (a ++ b) i d = if i <? Zlen a then znth a i d else znth b (i - Zlen a) d.
Proof.
  revert i. induction a as [|x a IH]; intros i Hi; cbn [app].
  - rewrite Zlen_nil. replace (i <? 0) with false by lia. f_equal. lia.
  - pose proof (Zlen_nonneg a). rewrite Zlen_cons.
    destruct (Z.eq_dec i 0) as [->|E].
    + replace (0 <? Zlen a + 1) with true by lia. reflexivity.
    + rewrite !znth_cons_pos, IH by lia. replace (i - 1 <? Zlen a) with (i <? Zlen a + 1) by lia.
      destruct (i <? Zlen a + 1); [reflexivity|]. f_equal. lia.
Qed.

Lemma znth_app_l {A} (a b : list A) i d : i < Zlen a -> znth (a ++ b) i d = znth a i d.
Proof.
  intros Hi. destruct (Z.ltb_spec i 0) as [Hn|Hn].
  - now rewrite !znth_oob by lia.
  - rewrite znth_app by lia. now replace (i <? Zlen a) with true by lia.
Qed.

Lemma znth_app_r {A} (a b : list A) i d : Zlen a <= i -> znth (a ++ b) i d = znth b (i - Zlen a) d.
Proof.
  intros Hi. pose proof (Zlen_nonneg a). rewrite znth_app by lia.
  now replace (i <? Zlen a) with false by lia.
Qed.

Lemma znth_app_exact {A} (pre : list A) x r d : znth (pre ++ x :: r) (Zlen pre) d = x.
Proof. rewrite znth_app_r, Z.sub_diag by lia. reflexivity. Qed.

Lemma znth_map {A B} (f : A -> B) l i da db :
  0 <= i < Zlen l -> znth (map f l) i db = f (znth l i da).
Proof.
  revert i. induction l as [|a l IH]; intros i Hi.
  - rewrite Zlen_nil in Hi. lia.
  - rewrite Zlen_cons in Hi. cbn [map znth].
    destruct (Z.eqb_spec i 0) as [E|E]; [reflexivity|]. apply IH. lia.
Qed.

Lemma znth_nth {A} (l : list A) k d : znth l (Z.of_nat k) d = nth k l d.
Proof.
  revert k. induction l as [|a l IH]; intros k.
  - destruct k; reflexivity.
  - destruct k as [|k]; [reflexivity|].
    rewrite znth_cons_pos by lia. replace (Z.of_nat (S k) - 1) with (Z.of_nat k) by lia. apply IH.
Qed.

Lemma znth_In {A} (l : list A) i d : 0 <= i < Zlen l -> In (znth l i d) l.
Proof.
  revert i. induction l as [|a l IH]; intros i Hi.
  - rewrite Zlen_nil in Hi. lia.
  - rewrite Zlen_cons in Hi. cbn [znth In].
    destruct (Z.eqb_spec i 0) as [E|E]; [now left|]. right. apply IH. lia.
Qed.

Lemma In_znth {A} (l : list A) x d : In x l -> exists i, 0 <= i < Zlen l /\ znth l i d = x.
Proof.
  induction l as [|a l IH]; intros H; [destruct H|].
  pose proof (Zlen_nonneg l) as Hl. destruct H as [<-|H].
  - exists 0. rewrite Zlen_cons. split; [lia | reflexivity].
  - destruct (IH H) as [i [Hi E]]. exists (i + 1). rewrite Zlen_cons. split; [lia|].
    rewrite znth_cons_pos by lia. replace (i + 1 - 1) with i by lia. exact E.
Qed.

Lemma Forall_znth {A} (P : A -> Prop) (l : list A) d :
  Forall P l <-> forall i, 0 <= i < Zlen l -> P (znth l i d).
Proof.
  rewrite Forall_forall. split.
  - intros H i Hi. apply H, znth_In, Hi.
  - intros H x Hx. destruct (In_znth l x d Hx) as (i & Hi & <-). apply H, Hi.
Qed.

Lemma znth_Forall {A} (P : A -> Prop) l i d : P d -> Forall P l -> P (znth l i d).
Proof.
  intros Hd Hl. destruct (Z.ltb_spec i 0) as [Hn|Hn]; [now rewrite znth_oob by lia|].
  destruct (Z.ltb_spec i (Zlen l)) as [Hi|Hi]; [|now rewrite znth_oob by lia].
  apply (proj1 (Forall_znth P l d) Hl). lia.
Qed.

Lemma znth_some_range {A} (l : list (option A)) i x : znth l i None = Some x -> 0 <= i < Zlen l.
Proof.
  intros H. destruct (Z.ltb_spec i 0) as [Hn|Hn]; [rewrite znth_oob in H by lia; discriminate|].
  destruct (Z.ltb_spec i (Zlen l)) as [Hi|Hi]; [lia|]. rewrite znth_oob in H by lia. discriminate.
Qed.

Lemma znth_ext {A} (a b : list A) d :
  Zlen a = Zlen b -> (forall i, 0 <= i < Zlen a -> znth a i d = znth b i d) -> a = b.
Proof.
  revert b. induction a as [|x a IH]; intros b Hl H.
  - rewrite Zlen_nil in Hl. symmetry. apply Zlen_zero_nil. lia.
  - destruct b as [|y b].
    + rewrite Zlen_cons, Zlen_nil in Hl. pose proof (Zlen_nonneg a). lia.
    + rewrite !Zlen_cons in Hl. pose proof (Zlen_nonneg a) as Ha. f_equal.
      * specialize (H 0). rewrite !znth_cons_0 in H. apply H. rewrite Zlen_cons. lia.
      * apply IH; [lia|]. intros i Hi. specialize (H (i + 1)).
        rewrite !znth_cons_pos in H by lia. replace (i + 1 - 1) with i in H by lia.
        apply H. rewrite Zlen_cons. lia.
Qed.

Lemma znth_inj {A} (l : list A) d : NoDup l -> forall i j,
  0 <= i < Zlen l -> 0 <= j < Zlen l -> znth l i d = znth l j d -> i = j.
Proof.
  induction 1 as [|x l Hx _ IH]; intros i j Hi Hj E.
  - rewrite Zlen_nil in Hi. lia.
  - rewrite Zlen_cons in Hi, Hj. cbn [znth] in E.
    destruct (i =? 0) eqn:Ei, (j =? 0) eqn:Ej.
    + lia.
    + exfalso. apply Hx. rewrite E. apply znth_In. lia.
    + exfalso. apply Hx. rewrite <- E. apply znth_In. lia.
    + assert (i - 1 = j - 1) by (apply IH; [lia|lia|exact E]). lia.
Qed.

Lemma Zlen_zupd {A} (l : list A) i v : Zlen (zupd l i v) = Zlen l.
Proof.
  revert i. induction l as [|x l IH]; intros i; [reflexivity|].
  cbn [zupd]. destruct (Z.eqb_spec i 0); rewrite !Zlen_cons; [reflexivity|]. now rewrite IH.
Qed.

Lemma znth_zupd_same {A} (l : list A) i v d : 0 <= i < Zlen l -> znth (zupd l i v) i d = v.
Proof.
  revert i. induction l as [|x l IH]; intros i Hi.
  - rewrite Zlen_nil in Hi. lia.
  - rewrite Zlen_cons in Hi. cbn [zupd]. destruct (Z.eqb_spec i 0) as [->|Hz]; [reflexivity|].
    rewrite znth_cons_pos by lia. apply IH. lia.
Qed.

Lemma znth_zupd_other {A} (l : list A) i j v d : i <> j -> znth (zupd l i v) j d = znth l j d.
Proof.
  revert i j. induction l as [|x l IH]; intros i j Hij; [reflexivity|].
  cbn [zupd]. destruct (Z.eqb_spec i 0) as [->|Hz].
  - now rewrite !znth_cons_pos by lia.
  - destruct (Z.eq_dec j 0) as [->|Hj]; [reflexivity|].
    rewrite !znth_cons_pos by lia. apply IH. lia.
Qed.

Lemma zupd_neq {A} (d : A) {l i v} : 0 <= i < Zlen l -> v <> znth l i d -> zupd l i v <> l.
Proof.
  intros Hi Hv E. apply Hv.
  rewrite <- E at 1. symmetry. apply znth_zupd_same. exact Hi.
Qed.

Lemma zupd_app_exact {A} (pre : list A) x r v : zupd (pre ++ x :: r) (Zlen pre) v = pre ++ v :: r.
Proof.
  induction pre as [|a pre IH]; [reflexivity|].
  cbn [app zupd]. rewrite Zlen_cons. pose proof (Zlen_nonneg pre).
  replace (Zlen pre + 1 =? 0) with false by lia.
  replace (Zlen pre + 1 - 1) with (Zlen pre) by lia. now rewrite IH.
Qed.

Lemma zfirstn_nil {A} n : zfirstn n (@nil A) = [].
Proof. reflexivity. Qed.

Lemma zskipn_nil {A} n : zskipn n (@nil A) = [].
Proof. reflexivity. Qed.

Lemma zfirstn_nonpos {A} n (l : list A) : n <= 0 -> zfirstn n l = [].
Proof.
  intros Hn. destruct l as [|x l]; cbn [zfirstn]; [reflexivity|].
  destruct (Z.leb_spec n 0); [reflexivity | lia].
Qed.

Lemma zskipn_nonpos {A} n (l : list A) : n <= 0 -> zskipn n l = l.
Proof.
  intros Hn. destruct l as [|x l]; cbn [zskipn]; [reflexivity|].
  destruct (Z.leb_spec n 0); [reflexivity | lia].
Qed.

Lemma zfirstn_0 {A} (l : list A) : zfirstn 0 l = [].
Proof. apply zfirstn_nonpos. lia. Qed.

Lemma zskipn_0 {A} (l : list A) : zskipn 0 l = l.
Proof. apply zskipn_nonpos. lia. Qed.

Lemma zfirstn_cons {A} n (x : A) l : 0 < n -> zfirstn n (x :: l) = x :: zfirstn (n - 1) l.
Proof. intros Hn. cbn [zfirstn]. destruct (Z.leb_spec n 0); [lia | reflexivity]. Qed.

Lemma zskipn_cons {A} n (x : A) l : 0 < n -> zskipn n (x :: l) = zskipn (n - 1) l.
Proof. intros Hn. cbn [zskipn]. destruct (Z.leb_spec n 0); [lia | reflexivity]. Qed.

Lemma zfirstn_nat : forall A (l : list A) n, zfirstn n l = firstn (Z.to_nat n) l.
Proof.
  induction l as [|x l IH]; intros n; cbn [zfirstn].
  - now rewrite firstn_nil.
  - destruct (n <=? 0) eqn:E.
    + replace (Z.to_nat n) with O by lia. reflexivity.
    + replace (Z.to_nat n) with (Datatypes.S (Z.to_nat (n - 1))) by lia. cbn [firstn]. now rewrite IH.
Qed.

Lemma zskipn_nat : forall A (l : list A) n, zskipn n l = skipn (Z.to_nat n) l.
Proof.
  induction l as [|x l IH]; intros n; cbn [zskipn].
  - now rewrite skipn_nil.
  - destruct (n <=? 0) eqn:E.
    + replace (Z.to_nat n) with O by lia. reflexivity.
    + replace (Z.to_nat n) with (Datatypes.S (Z.to_nat (n - 1))) by lia. cbn [skipn]. now rewrite IH.
Qed.

Lemma zfirstn_zskipn {A} n (l : list A) : zfirstn n l ++ zskipn n l = l.
Proof.
  revert n. induction l as [|a l IH]; intros n; [reflexivity|].
  cbn [zfirstn zskipn]. destruct (n <=? 0); [reflexivity|].
  cbn [app]. now rewrite IH.
Qed.

Lemma zfirstn_all {A} n (l : list A) : Zlen l <= n -> zfirstn n l = l.
Proof.
  revert n. induction l as [|x l IH]; intros n Hn; [reflexivity|].
  rewrite Zlen_cons in Hn. pose proof (Zlen_nonneg l).
  rewrite zfirstn_cons by lia. now rewrite IH by lia.
Qed.

Lemma zskipn_all {A} n (l : list A) : Zlen l <= n -> zskipn n l = [].
Proof.
  revert n. induction l as [|x l IH]; intros n H; [reflexivity|].
  rewrite Zlen_cons in H. pose proof (Zlen_nonneg l).
  rewrite zskipn_cons by lia. now rewrite IH by lia.
Qed.

Lemma Zlen_zfirstn {A} n (l : list A) : Zlen (zfirstn n l) = Z.max 0 (Z.min n (Zlen l)).
Proof.
  revert n. induction l as [|a l IH]; intros n.
  - cbn [zfirstn]. rewrite Zlen_nil. lia.
  - cbn [zfirstn]. pose proof (Zlen_nonneg l) as Hl. destruct (Z.leb_spec n 0) as [Hn|Hn].
    + rewrite Zlen_nil, Zlen_cons. lia.
    + rewrite !Zlen_cons, IH. lia.
Qed.

Lemma Zlen_zskipn {A} n (l : list A) : Zlen (zskipn n l) = Zlen l - Z.max 0 (Z.min n (Zlen l)).
Proof.
  rewrite <- (zfirstn_zskipn n l) at 2. rewrite Zlen_app, Zlen_zfirstn. lia.
Qed.

Lemma Zlen_zfirstn_enough {A} n (l : list A) : 0 <= n <= Zlen l -> Zlen (zfirstn n l) = n.
Proof. intros H. rewrite Zlen_zfirstn. lia. Qed.

Lemma Zlen_zskipn_enough {A} n (l : list A) : 0 <= n <= Zlen l -> Zlen (zskipn n l) = Zlen l - n.
Proof. intros H. rewrite Zlen_zskipn. lia. Qed.

Lemma znth_zfirstn {A} n (l : list A) i d : i < n -> znth (zfirstn n l) i d = znth l i d.
Proof.
  revert n i. induction l as [|x l IH]; intros n i Hi; [reflexivity|].
  destruct (Z.ltb_spec i 0) as [Hneg|Hnn]; [now rewrite !znth_oob by lia|].
  rewrite zfirstn_cons by lia.
  destruct (Z.eq_dec i 0) as [->|Hz]; [reflexivity|].
  rewrite !znth_cons_pos by lia. apply IH. lia.
Qed.

Lemma znth_zskipn {A} n (l : list A) i d :
  0 <= n -> 0 <= i -> znth (zskipn n l) i d = znth l (n + i) d.
Proof.
  revert n. induction l as [|a l IH]; intros n Hn Hi; [reflexivity|].
  cbn [zskipn]. destruct (Z.leb_spec n 0) as [Hn0|Hn0].
  - f_equal. lia.
  - rewrite IH by lia. rewrite (znth_cons_pos a l (n + i)) by lia. f_equal. lia.
Qed.

Lemma zfirstn_app_le {A} n (a b : list A) : n <= Zlen a -> zfirstn n (a ++ b) = zfirstn n a.
Proof.
  revert n. induction a as [|x a IH]; intros n H.
  - rewrite Zlen_nil in H. now rewrite !zfirstn_nonpos by lia.
  - cbn [app]. rewrite Zlen_cons in H. destruct (Z_le_gt_dec n 0) as [H0|H0].
    + now rewrite !zfirstn_nonpos by lia.
    + rewrite !zfirstn_cons by lia. now rewrite IH by lia.
Qed.

Lemma zskipn_app_le {A} n (a b : list A) : n <= Zlen a -> zskipn n (a ++ b) = zskipn n a ++ b.
Proof.
  revert n. induction a as [|x a IH]; intros n H.
  - rewrite Zlen_nil in H. now rewrite !zskipn_nonpos by lia.
  - cbn [app]. rewrite Zlen_cons in H. destruct (Z_le_gt_dec n 0) as [H0|H0].
    + now rewrite !zskipn_nonpos by lia.
    + rewrite !zskipn_cons by lia. now rewrite IH by lia.
Qed.

Lemma zskipn_app_ge {A} n (a b : list A) : Zlen a <= n -> zskipn n (a ++ b) = zskipn (n - Zlen a) b.
Proof.
  revert n. induction a as [|x a IH]; intros n H; cbn [app].
  - rewrite Zlen_nil, Z.sub_0_r. reflexivity.
  - rewrite Zlen_cons in *. pose proof (Zlen_nonneg a).
    rewrite zskipn_cons, IH by lia. f_equal. lia.
Qed.

Lemma zfirstn_app_exact {A} (a b : list A) : zfirstn (Zlen a) (a ++ b) = a.
Proof. rewrite zfirstn_app_le by lia. apply zfirstn_all. lia. Qed.

Lemma zskipn_app_exact {A} (a b : list A) : zskipn (Zlen a) (a ++ b) = b.
Proof. rewrite zskipn_app_le, zskipn_all by lia. reflexivity. Qed.

Lemma zfirstn_app_len {A} (a b : list A) n : n = Zlen a -> zfirstn n (a ++ b) = a.
Proof. intros ->. apply zfirstn_app_exact. Qed.

Lemma zskipn_app_len {A} (a b : list A) n : n = Zlen a -> zskipn n (a ++ b) = b.
Proof. intros ->. apply zskipn_app_exact. Qed.

Lemma zskipn_zskipn {A} m n (l : list A) : 0 <= m -> 0 <= n -> zskipn m (zskipn n l) = zskipn (n + m) l.
Proof.
  revert n. induction l as [|x l IH]; intros n Hm Hn; [reflexivity|].
  destruct (Z.eq_dec n 0) as [->|Hn0].
  - rewrite (zskipn_nonpos 0) by lia. f_equal.
  - rewrite (zskipn_cons n), (zskipn_cons (n + m)), IH by lia. f_equal. lia.
Qed.

Lemma zskipn_peel : forall A (file l t : list A) p, 0 <= p ->
  zskipn p file = l ++ t -> zskipn (p + Zlen l) file = t.
Proof.
  intros A file l t p Hp H.
  rewrite <- zskipn_zskipn by (try exact Hp; apply Zlen_nonneg).
  rewrite H. apply zskipn_app_exact.
Qed.

Lemma zfirstn_zfirstn {A} m n (l : list A) : m <= n -> zfirstn m (zfirstn n l) = zfirstn m l.
Proof.
  revert m n. induction l as [|x l IH]; intros m n H; [reflexivity|].
  destruct (Z_le_gt_dec m 0) as [H0|H0].
  - now rewrite !zfirstn_nonpos by lia.
  - rewrite (zfirstn_cons n) by lia. rewrite !zfirstn_cons by lia. now rewrite IH by lia.
Qed.

Lemma zfirstn_zskipn_comm {A} m n (l : list A) : 0 <= m -> 0 <= n ->
  zfirstn m (zskipn n l) = zskipn n (zfirstn (n + m) l).
Proof.
  revert n. induction l as [|x l IH]; intros n Hm Hn; [reflexivity|].
  destruct (Z.eq_dec n 0) as [->|Hn0].
  - rewrite !(zskipn_nonpos 0) by lia. f_equal.
  - destruct (Z.eq_dec m 0) as [->|Hm0].
    + rewrite zfirstn_nonpos by lia. rewrite zskipn_all; [reflexivity|].
      rewrite Zlen_zfirstn. lia.
    + rewrite (zskipn_cons n) by lia. rewrite (zfirstn_cons (n + m)) by lia.
      rewrite (zskipn_cons n) by lia. rewrite IH by lia. do 2 f_equal. lia.
Qed.

Lemma zfirstn_map {A B} (f : A -> B) n l : zfirstn n (map f l) = map f (zfirstn n l).
Proof.
  revert n. induction l as [|x l IH]; intros n; [reflexivity|].
  cbn [map zfirstn]. destruct (n <=? 0); [reflexivity|]. cbn [map]. now rewrite IH.
Qed.

Lemma zskipn_map {A B} (f : A -> B) n l : zskipn n (map f l) = map f (zskipn n l).
Proof.
  revert n. induction l as [|x l IH]; intros n; [reflexivity|].
  cbn [map zskipn]. destruct (n <=? 0); [reflexivity|]. now rewrite IH.
Qed.

Lemma zskipn_znth {A} (l : list A) d i : 0 <= i < Zlen l ->
  zskipn i l = znth l i d :: zskipn (i + 1) l.
Proof.
  revert i. induction l as [|x l IH]; intros i Hi; [rewrite Zlen_nil in Hi; lia|].
  rewrite Zlen_cons in Hi. cbn [znth]. destruct (i =? 0) eqn:E.
  - rewrite zskipn_nonpos by lia. rewrite zskipn_cons by lia. now rewrite zskipn_nonpos by lia.
  - rewrite !zskipn_cons by lia. rewrite (IH (i - 1)) by lia. do 2 f_equal. lia.
Qed.

Lemma zseq_length n lo : length (zseq lo n) = n.
Proof. revert lo. induction n as [|n IH]; intros lo; cbn [zseq length]; [reflexivity | now rewrite IH]. Qed.

Lemma In_zseq s n x : In x (zseq s n) <-> s <= x < s + Z.of_nat n.
Proof.
  revert s. induction n as [|n IH]; intros s; cbn [zseq In].
  - lia.
  - rewrite IH. lia.
Qed.

Lemma zseq_app m n lo : zseq lo (m + n) = zseq lo m ++ zseq (lo + Z.of_nat m) n.
Proof.
  revert lo. induction m as [|m IH]; intros lo.
  - cbn [zseq app Nat.add]. f_equal. lia.
  - cbn [zseq app Nat.add]. rewrite IH.
    replace (lo + Z.of_nat (S m)) with (lo + 1 + Z.of_nat m) by lia. reflexivity.
Qed.

Lemma zseq_S_app s n : zseq s (S n) = zseq s n ++ [s + Z.of_nat n].
Proof. rewrite <- Nat.add_1_r. apply zseq_app. Qed.

Lemma rev_zseq_S s n : rev (zseq s (S n)) = (s + Z.of_nat n) :: rev (zseq s n).
Proof. rewrite zseq_S_app, rev_app_distr. reflexivity. Qed.

Lemma zseq_map_add n k lo : map (Z.add k) (zseq lo n) = zseq (k + lo) n.
Proof.
  revert lo. induction n as [|n IH]; intros lo; cbn [zseq map]; [reflexivity|].
  rewrite IH. do 2 f_equal. lia.
Qed.

Lemma zseq_NoDup n lo : NoDup (zseq lo n).
Proof.
  revert lo. induction n as [|n IH]; intros lo; cbn [zseq]; constructor.
  - rewrite In_zseq. lia.
  - apply IH.
Qed.

Lemma znth_zseq s n i d : 0 <= i < Z.of_nat n -> znth (zseq s n) i d = s + i.
Proof.
  revert s i. induction n as [|n IH]; intros s i Hi.
  - lia.
  - cbn [zseq znth]. destruct (Z.eqb_spec i 0) as [E|E].
    + lia.
    + rewrite IH by lia. lia.
Qed.

Lemma zrange_nonpos lo len : len <= 0 -> zrange lo len = [].
Proof.
  intros H. unfold zrange.
  replace (Z.to_nat len) with 0%nat by lia. reflexivity.
Qed.

Lemma zrange_length lo len : length (zrange lo len) = Z.to_nat len.
Proof. apply zseq_length. Qed.

Lemma Zlen_zrange lo n : Zlen (zrange lo n) = Z.max 0 n.
Proof. unfold Zlen. rewrite zrange_length. lia. Qed.

Lemma In_zrange lo n x : In x (zrange lo n) <-> lo <= x < lo + n.
Proof. unfold zrange. rewrite In_zseq. lia. Qed.

Lemma znth_zrange lo n i d : 0 <= i < n -> znth (zrange lo n) i d = lo + i.
Proof. intros Hi. unfold zrange. apply znth_zseq. lia. Qed.

Lemma zrange_NoDup lo len : NoDup (zrange lo len).
Proof. apply zseq_NoDup. Qed.

Lemma zrange_app lo m n : 0 <= m -> 0 <= n ->
  zrange lo (m + n) = zrange lo m ++ zrange (lo + m) n.
Proof.
  intros Hm Hn. unfold zrange.
  rewrite Z2Nat.inj_add by assumption. rewrite zseq_app.
  do 2 f_equal. lia.
Qed.

Lemma zrange_1 lo : zrange lo 1 = [lo].
Proof. reflexivity. Qed.

Lemma zrange_0 lo : zrange lo 0 = [].
Proof. reflexivity. Qed.

Lemma zrange_map_add k lo n : map (Z.add k) (zrange lo n) = zrange (k + lo) n.
Proof. apply zseq_map_add. Qed.

Lemma zrange_shift lo n : zrange lo n = map (Z.add lo) (zrange 0 n).
Proof. rewrite zrange_map_add. f_equal. lia. Qed.

Lemma flat_map_zseq_blocks n lo a m : 0 <= m ->
  flat_map (fun i => zrange (a + i * m) m) (zseq lo n) = zrange (a + lo * m) (Z.of_nat n * m).
Proof.
  intros Hm. revert lo. induction n as [|n IH]; intros lo.
  - cbn [zseq flat_map]. rewrite zrange_nonpos; [reflexivity | lia].
  - cbn [zseq flat_map]. rewrite IH.
    replace (Z.of_nat (S n) * m) with (m + Z.of_nat n * m) by lia.
    rewrite zrange_app by nia.
    do 2 f_equal. lia.
Qed.

(* consecutive blocks of length m glue to one run *)
Lemma flat_map_zrange_blocks c a m : 0 <= m ->
  flat_map (fun i => zrange (a + i * m) m) (zrange 0 c) = zrange a (c * m).
Proof.
  intros Hm.
  destruct (Z.le_gt_cases c 0) as [Hc|Hc].
  - rewrite (zrange_nonpos 0 c) by assumption. cbn [flat_map].
    rewrite zrange_nonpos; [reflexivity | nia].
  - unfold zrange at 2. rewrite flat_map_zseq_blocks by assumption.
    rewrite Z2Nat.id by lia. f_equal. lia.
Qed.

Lemma zprod_nonneg l : Forall (fun x => 0 <= x) l -> 0 <= zprod l.
Proof. induction 1 as [|x l Hx _ IH]; cbn [zprod]; nia. Qed.

Lemma zprod_pos l : Forall (fun x => 1 <= x) l -> 1 <= zprod l.
Proof. induction 1 as [|x l Hx _ IH]; cbn [zprod]; nia. Qed.

Lemma zprod_app a b : zprod (a ++ b) = zprod a * zprod b.
Proof.
  induction a as [|x a IH]; cbn [zprod app]; [lia|].
  rewrite IH. lia.
Qed.

Lemma zprod_rev : forall l, zprod (rev l) = zprod l.
Proof.
  induction l as [|x l IH]; [reflexivity|]. cbn [rev zprod]. rewrite zprod_app, IH. cbn [zprod]. lia.
Qed.

Lemma zprod_zero_iff l : zprod l = 0 <-> In 0 l.
Proof.
  induction l as [|x l IH]; cbn [zprod In].
  - split; [lia | tauto].
  - rewrite <- IH. split.
    + intros H. apply Z.eq_mul_0 in H. destruct H; [left; lia | right; assumption].
    + intros [H|H]; [subst; lia | rewrite H; lia].
Qed.

Lemma zprod_nonzero_pos l : Forall (fun x => 0 <= x) l -> zprod l <> 0 ->
  Forall (fun x => 1 <= x) l.
Proof.
  induction l as [|x l IH]; intros H Hz; [constructor|].
  inversion H as [|? ? Hx Hl]; subst. cbn [zprod] in Hz.
  constructor.
  - assert (x <> 0) by (intros ->; apply Hz; lia). lia.
  - apply IH; [assumption|]. intros E. apply Hz. rewrite E. lia.
Qed.

Lemma zsum_app a b : zsum (a ++ b) = zsum a + zsum b.
Proof. induction a as [|x a IH]; cbn [zsum app]; lia. Qed.

Lemma zsum_rev l : zsum (rev l) = zsum l.
Proof. induction l as [|x l IH]; cbn [zsum rev]; [reflexivity|]. rewrite zsum_app. cbn [zsum]. lia. Qed.

Lemma zsum_nonneg l : Forall (fun x => 0 <= x) l -> 0 <= zsum l.
Proof. induction 1 as [|x l Hx _ IH]; cbn [zsum]; lia. Qed.

Lemma zsum_map_nonneg {A} (f : A -> Z) l : (forall a, In a l -> 0 <= f a) -> 0 <= zsum (map f l).
Proof.
  intros H. apply zsum_nonneg, Forall_forall. intros x Hx.
  apply in_map_iff in Hx. destruct Hx as (a & <- & Ha). apply H, Ha.
Qed.

Lemma zsum_map_const {A} (c : Z) (l : list A) : zsum (map (fun _ => c) l) = c * Zlen l.
Proof.
  induction l as [|a l IH]; cbn [map zsum].
  - rewrite Zlen_nil. lia.
  - rewrite Zlen_cons, IH. lia.
Qed.

Lemma last_opt_nil A : last_opt (@nil A) = None.
Proof. reflexivity. Qed.

Lemma last_opt_snoc {A} (l : list A) x : last_opt (l ++ [x]) = Some x.
Proof. unfold last_opt. rewrite rev_app_distr. reflexivity. Qed.

Lemma last_opt_cons {A} (x : A) l :
  last_opt (x :: l) = match last_opt l with Some y => Some y | None => Some x end.
Proof. unfold last_opt. cbn [rev]. destruct (rev l); reflexivity. Qed.

Lemma last_opt_In {A} (l : list A) x : last_opt l = Some x -> In x l.
Proof.
  unfold last_opt. intros H. apply in_rev.
  destruct (rev l) as [|y r]; [discriminate H|]. injection H as ->. left. reflexivity.
Qed.

Lemma last_opt_map {A B} (f : A -> B) l : last_opt (map f l) = option_map f (last_opt l).
Proof. unfold last_opt. rewrite <- map_rev. destruct (rev l); reflexivity. Qed.

(* a hit lies in the window of indices the search was started with, and satisfies the test *)
Lemma find_index_range {A} (p : A -> bool) l k j d :
  find_index p l k = Some j -> k <= j < k + Zlen l /\ p (znth l (j - k) d) = true.
Proof.
  revert k. induction l as [|a l IH]; intros k H; [discriminate|].
  cbn [find_index] in H. rewrite Zlen_cons. pose proof (Zlen_nonneg l).
  destruct (p a) eqn:E.
  - injection H as <-. rewrite Z.sub_diag. split; [lia | exact E].
  - apply IH in H. destruct H as [H1 H2]. split; [lia|].
    rewrite znth_cons_pos by lia. replace (j - k - 1) with (j - (k + 1)) by lia. exact H2.
Qed.

Lemma find_index_bounds {A} (p : A -> bool) l k i : find_index p l k = Some i -> k <= i < k + Zlen l.
Proof.
  destruct l as [|d l]; [discriminate|]. intros H. apply (find_index_range p _ k i d H).
Qed.

Lemma find_index_map {A B} (f : A -> B) (p : B -> bool) l k :
  find_index p (map f l) k = find_index (fun x => p (f x)) l k.
Proof.
  revert k. induction l as [|a l IH]; intros k; [reflexivity|].
  cbn [map find_index]. destruct (p (f a)); [reflexivity | apply IH].
Qed.

Lemma find_index_In x d l k : In x l ->
  exists i, find_index (fun y => y =? x) l k = Some (k + i) /\ 0 <= i < Zlen l /\ znth l i d = x.
Proof.
  revert k. induction l as [|y l IH]; intros k Hx; [destruct Hx|].
  pose proof (Zlen_nonneg l). rewrite Zlen_cons. cbn [find_index znth].
  destruct (y =? x) eqn:E.
  - exists 0. rewrite Z.add_0_r. cbn [Z.eqb]. repeat split; lia.
  - destruct Hx as [->|Hx]; [lia|]. destruct (IH (k + 1) Hx) as (i & H1 & H2 & H3).
    exists (i + 1). rewrite H1. replace (i + 1 =? 0) with false by lia.
    replace (i + 1 - 1) with i by lia. split; [f_equal; lia|]. split; [lia|exact H3].
Qed.

Lemma list_eqb_iff {A} (eqb : A -> A -> bool) :
  (forall x y, eqb x y = true <-> x = y) -> forall a b, list_eqb eqb a b = true <-> a = b.
Proof.
  intros H a. induction a as [|x a IH]; intros b; destruct b as [|y b]; cbn [list_eqb];
    [split; reflexivity|split; discriminate|split; discriminate|].
  rewrite andb_true_iff, H, IH. intuition congruence.
Qed.

Lemma flat_map_ext_In {A B} (f g : A -> list B) l :
  (forall a, In a l -> f a = g a) -> flat_map f l = flat_map g l.
Proof.
  induction l as [|a l IH]; intros H; cbn [flat_map]; [reflexivity|].
  rewrite H by (left; reflexivity). rewrite IH; [reflexivity|].
  intros b Hb. apply H. right; assumption.
Qed.

Lemma map_flat_map_comm {A B C} (f : B -> C) (g : A -> list B) l :
  map f (flat_map g l) = flat_map (fun x => map f (g x)) l.
Proof.
  induction l as [|a l IH]; cbn [flat_map map]; [reflexivity|].
  rewrite map_app, IH. reflexivity.
Qed.

Lemma flat_map_map_comm {A B C} (f : B -> list C) (g : A -> B) l :
  flat_map f (map g l) = flat_map (fun x => f (g x)) l.
Proof.
  induction l as [|a l IH]; cbn [flat_map map]; [reflexivity|].
  rewrite IH. reflexivity.
Qed.

Lemma flat_map_flat_map {A B C} (f : B -> list C) (g : A -> list B) l :
  flat_map f (flat_map g l) = flat_map (fun x => flat_map f (g x)) l.
Proof.
  induction l as [|a l IH]; cbn [flat_map]; [reflexivity|].
  rewrite flat_map_app, IH. reflexivity.
Qed.

Lemma flat_map_singleton {A B} (f : A -> B) l : flat_map (fun x => [f x]) l = map f l.
Proof.
  induction l as [|a l IH]; cbn [flat_map map app]; [reflexivity|].
  rewrite IH. reflexivity.
Qed.

Lemma flat_map_nil_all {A B} (l : list A) : flat_map (fun _ => @nil B) l = [].
Proof. induction l as [|a l IH]; cbn [flat_map app]; auto. Qed.

Lemma flat_map_length_const {A B} (f : A -> list B) l k :
  (forall a, In a l -> length (f a) = k) -> length (flat_map f l) = (length l * k)%nat.
Proof.
  induction l as [|a l IH]; intros H; cbn [flat_map length]; [reflexivity|].
  rewrite app_length, H by (left; reflexivity).
  rewrite IH; [lia|]. intros b Hb. apply H. right; assumption.
Qed.

Lemma forallb_Forall : forall A (p : A -> bool) l,
  forallb p l = true -> Forall (fun x => p x = true) l.
Proof.
  intros A p l H. apply Forall_forall. intros x Hx.
  rewrite forallb_forall in H. exact (H x Hx).
Qed.

Lemma Forall_forallb : forall A (p : A -> bool) l,
  Forall (fun x => p x = true) l -> forallb p l = true.
Proof.
  intros A p l H. apply forallb_forall. intros x Hx.
  rewrite Forall_forall in H. exact (H x Hx).
Qed.

Lemma forallb_map_Forall : forall A B (p : B -> bool) (g : A -> B) l,
  Forall (fun a => p (g a) = true) l -> forallb p (map g l) = true.
Proof.
  intros A B p g l H. induction H as [|a l Ha Hl IH]; [reflexivity|].
  cbn [map forallb]. rewrite Ha, IH. reflexivity.
Qed.

Lemma forallb_map_all : forall A B (p : B -> bool) (g : A -> B) l,
  (forall a, p (g a) = true) -> forallb p (map g l) = true.
Proof.
  intros A B p g l H. apply forallb_map_Forall. apply Forall_forall. intros a _. apply H.
Qed.

Lemma Forall_tl : forall A (P : A -> Prop) l, Forall P l -> Forall P (tl l).
Proof. intros A P [|x l] H; [exact H|]. inversion H; assumption. Qed.

Lemma Forall_firstn_skipn : forall A (P : A -> Prop) n l,
  Forall P l -> Forall P (firstn n l) /\ Forall P (skipn n l).
Proof. intros A P n l H. apply Forall_app. rewrite firstn_skipn. exact H. Qed.

Lemma skipn_skipn_ : forall A x y (l : list A), skipn x (skipn y l) = skipn (y + x) l.
Proof.
  intros A x y. induction y as [|y IH]; intros l; [reflexivity|].
  destruct l as [|a l]; cbn [skipn Nat.add].
  - destruct x; reflexivity.
  - apply IH.
Qed.

Lemma filter_map_comm : forall A B (f : A -> B) (p : B -> bool) l,
  filter p (map f l) = map f (filter (fun x => p (f x)) l).
Proof.
  intros A B f p l. induction l as [|x l IH]; [reflexivity|].
  cbn [map filter]. destruct (p (f x)); cbn [map]; rewrite IH; reflexivity.
Qed.

Lemma Zlen_filter_map : forall A B (g : A -> B) (p : B -> bool) l,
  Zlen (filter p (map g l)) = Zlen (filter (fun x => p (g x)) l).
Proof. intros A B g p l. rewrite filter_map_comm. apply Zlen_map. Qed.

Lemma filter_all_true {A} (f : A -> bool) l : Forall (fun e => f e = true) l -> filter f l = l.
Proof. induction 1 as [|e l He Hl IH]; cbn [filter]; [reflexivity|]. now rewrite He, IH. Qed.

Lemma nth_map_const {A} (l : list A) (c d : Z) i :
  (i < length l)%nat -> nth i (map (fun _ => c) l) d = c.
Proof.
  revert i. induction l as [|x l IH]; intros i Hi; cbn [length] in Hi; [lia|].
  destruct i as [|i]; cbn [map nth]; [reflexivity|]. apply IH. lia.
Qed.

Lemma NoDup_map_inj_In {A B} (f : A -> B) l :
  (forall x y, In x l -> In y l -> f x = f y -> x = y) -> NoDup l -> NoDup (map f l).
Proof.
  induction l as [|a l IH]; intros Hinj Hnd; cbn [map]; [constructor|].
  inversion Hnd as [|? ? Hnotin Hnd']; subst. constructor.
  - intros Hin. apply in_map_iff in Hin. destruct Hin as [y [Hy Hin]].
    assert (y = a) by (apply Hinj; [right; assumption | left; reflexivity | assumption]).
    subst. contradiction.
  - apply IH; [|assumption]. intros x y Hx Hy. apply Hinj; right; assumption.
Qed.

Lemma NoDup_app_intro {A} (a b : list A) :
  NoDup a -> NoDup b -> (forall x, In x a -> ~ In x b) -> NoDup (a ++ b).
Proof.
  revert b. induction a as [|x a IH]; intros b Ha Hb Hdis; cbn [app]; [assumption|].
  inversion Ha as [|? ? Hx Ha']; subst. constructor.
  - rewrite in_app_iff. intros [H|H]; [contradiction|].
    apply (Hdis x); [left; reflexivity | assumption].
  - apply IH; [assumption | assumption |]. intros y Hy. apply Hdis. right; assumption.
Qed.

Lemma NoDup_flat_map_disjoint {A B} (f : A -> list B) l :
  NoDup l ->
  (forall a, In a l -> NoDup (f a)) ->
  (forall a b x, In a l -> In b l -> In x (f a) -> In x (f b) -> a = b) ->
  NoDup (flat_map f l).
Proof.
  induction l as [|a l IH]; intros Hnd Hf Hdis; cbn [flat_map]; [constructor|].
  inversion Hnd as [|? ? Hnotin Hnd']; subst.
  apply NoDup_app_intro.
  - apply Hf. left; reflexivity.
  - apply IH; [assumption | |].
    + intros b Hb. apply Hf. right; assumption.
    + intros b c x Hb Hc. apply Hdis; right; assumption.
  - intros x Hxa Hin. apply in_flat_map in Hin. destruct Hin as [b [Hb Hxb]].
    assert (E : a = b).
    { apply (Hdis a b x); [left; reflexivity | right; assumption | assumption | assumption]. }
    subst. contradiction.
Qed.

Lemma removelast_cons_snoc {A} (a : A) l x : removelast (a :: l ++ [x]) = a :: l.
Proof. change (a :: l ++ [x]) with ((a :: l) ++ [x]). apply removelast_last. Qed.

Lemma snoc_cases {A} (l : list A) : l = [] \/ exists l' x, l = l' ++ [x].
Proof.
  destruct l as [|a l]; [left; reflexivity|right].
  destruct (@exists_last _ (a :: l)) as [l' [x E]]; [discriminate|]. eauto.
Qed.

Lemma zip_nil_r {A B} (a : list A) : zip a (@nil B) = [].
Proof. destruct a; reflexivity. Qed.

Lemma zip_fst_snd : forall A B (l : list (A * B)), zip (map fst l) (map snd l) = l.
Proof. induction l as [|[a b] l IH]; [reflexivity|]. cbn [map zip fst snd]. now rewrite IH. Qed.

Lemma zip_map2 : forall A B C (f : A -> B) (g : A -> C) l, zip (map f l) (map g l) = map (fun x => (f x, g x)) l.
Proof. induction l as [|x l IH]; [reflexivity|]. cbn [map zip]. now rewrite IH. Qed.

Lemma zip_app {A B} (a1 a2 : list A) (b1 b2 : list B) :
  length a1 = length b1 -> zip (a1 ++ a2) (b1 ++ b2) = zip a1 b1 ++ zip a2 b2.
Proof.
  revert b1. induction a1 as [|x a1 IH]; intros b1 H; destruct b1 as [|y b1];
    try discriminate; cbn [zip app]; [reflexivity|].
  rewrite IH; [reflexivity|]. cbn [length] in H. lia.
Qed.

Lemma zip_app_split {A B} (p : list A) (a b : list B) :
  zip p (a ++ b) = zip (zfirstn (Zlen a) p) a ++ zip (zskipn (Zlen a) p) b.
Proof.
  revert p. induction a as [|x a IH]; intros p; cbn [app].
  - rewrite Zlen_nil, zfirstn_nonpos, zskipn_nonpos by lia. reflexivity.
  - destruct p as [|y p]; [reflexivity|].
    pose proof (Zlen_nonneg a). rewrite Zlen_cons, zfirstn_cons, zskipn_cons by lia.
    replace (Zlen a + 1 - 1) with (Zlen a) by lia. cbn [zip app]. now rewrite IH.
Qed.

Lemma zip_length {A B} (a : list A) (b : list B) :
  length a = length b -> length (zip a b) = length a.
Proof.
  revert b. induction a as [|x a IH]; intros b H; destruct b as [|y b];
    try discriminate; cbn [zip length]; [reflexivity|].
  rewrite IH; [reflexivity|]. cbn [length] in H. lia.
Qed.

Lemma map_fst_zip {A B} (a : list A) (b : list B) : length a = length b -> map fst (zip a b) = a.
Proof.
  revert b. induction a as [|x a IH]; intros b H; destruct b as [|y b];
    try discriminate; cbn [zip map fst]; [reflexivity|].
  rewrite IH; [reflexivity|]. cbn [length] in H. lia.
Qed.

Lemma Forall2_Zlen : forall A B (R : A -> B -> Prop) a b, Forall2 R a b -> Zlen a = Zlen b.
Proof.
  intros A B R a b H. induction H as [|x y a b Hxy H IH]; [reflexivity|].
  rewrite !Zlen_cons, IH. reflexivity.
Qed.

Lemma Forall2_impl : forall A B (R S : A -> B -> Prop) a b,
  (forall x y, R x y -> S x y) -> Forall2 R a b -> Forall2 S a b.
Proof.
  intros A B R S a b HRS H. induction H as [|x y a b Hxy H IH]; constructor; [apply HRS; exact Hxy|exact IH].
Qed.

Lemma Forall2_and : forall A B (R S : A -> B -> Prop) a b,
  Forall2 R a b -> Forall2 S a b -> Forall2 (fun x y => R x y /\ S x y) a b.
Proof.
  intros A B R S a b H.
  induction H as [|x y a b Hxy H IH]; intros H2; inversion H2 as [|x0 y0 a0 b0 Hs Hss]; subst; constructor.
  - split; assumption.
  - apply IH. exact Hss.
Qed.

Lemma Forall2_trans_mid : forall A B C (R : A -> B -> Prop) (S : B -> C -> Prop) a b c,
  Forall2 R a b -> Forall2 S b c -> Forall2 (fun x z => exists y, In y b /\ R x y /\ S y z) a c.
Proof.
  intros A B C R S a b c H. revert c.
  induction H as [|x y a b Hxy H IH]; intros c H2; inversion H2 as [|y0 z b0 c0 Hyz Hbc]; subst; constructor.
  - exists y. split; [left; reflexivity|]. split; assumption.
  - eapply Forall2_impl; [|apply IH; exact Hbc].
    intros x' z' (y' & Hy' & Hr1 & Hs1). exists y'. split; [right; exact Hy'|]. split; assumption.
Qed.

Lemma Forall2_refl_In : forall A (R : A -> A -> Prop) l, (forall x, In x l -> R x x) -> Forall2 R l l.
Proof.
  intros A R l H. induction l as [|x l IH]; constructor.
  - apply H. left. reflexivity.
  - apply IH. intros y Hy. apply H. right. exact Hy.
Qed.

Lemma Forall2_map_r : forall A B (R : A -> B -> Prop) (f : A -> B) l,
  (forall x, In x l -> R x (f x)) -> Forall2 R l (map f l).
Proof.
  intros A B R f l H. induction l as [|x l IH]; cbn [map]; constructor.
  - apply H. left. reflexivity.
  - apply IH. intros y Hy. apply H. right. exact Hy.
Qed.

Lemma Forall2_map_l : forall A B C (R : B -> C -> Prop) (f : A -> B) l b,
  Forall2 R (map f l) b <-> Forall2 (fun x y => R (f x) y) l b.
Proof.
  intros A B C R f l b. split.
  - revert b. induction l as [|x l IH]; intros b H; inversion H; subst; constructor; auto.
  - intros H. induction H as [|x y l b Hxy H IH]; cbn [map]; constructor; assumption.
Qed.

Lemma Forall2_In_l : forall A B (R : A -> B -> Prop) a b x,
  Forall2 R a b -> In x a -> exists y, In y b /\ R x y.
Proof.
  intros A B R a b x H. induction H as [|x0 y0 a b Hxy H IH]; intros Hin; [destruct Hin|].
  destruct Hin as [->|Hin].
  - exists y0. split; [left; reflexivity|exact Hxy].
  - destruct (IH Hin) as (y & Hy & Hr). exists y. split; [right; exact Hy|exact Hr].
Qed.

Lemma Forall2_In_r : forall A B (R : A -> B -> Prop) a b y,
  Forall2 R a b -> In y b -> exists x, In x a /\ R x y.
Proof.
  intros A B R a b y H. induction H as [|x0 y0 a b Hxy H IH]; intros Hin; [destruct Hin|].
  destruct Hin as [->|Hin].
  - exists x0. split; [left; reflexivity|exact Hxy].
  - destruct (IH Hin) as (x & Hx & Hr). exists x. split; [right; exact Hx|exact Hr].
Qed.

Lemma Forall2_and_Forall_l : forall A B (R : A -> B -> Prop) (P : A -> Prop) a b,
  Forall P a -> Forall2 R a b -> Forall2 (fun x y => P x /\ R x y) a b.
Proof.
  intros A B R P a b HP H.
  induction H as [|x y a b Hxy H IH]; inversion HP as [|x0 a0 Hp Hps]; subst; constructor.
  - split; assumption.
  - apply IH. exact Hps.
Qed.

Lemma Forall2_ignore_r : forall A B (P : A -> Prop) (a : list A) (b : list B),
  Forall2 (fun x _ => P x) a b -> Forall P a.
Proof. intros A B P a b H. induction H; constructor; assumption. Qed.

Lemma Forall2_concat : forall A B (f : A -> list B) l segs,
  Forall2 (fun x s => f x = s) l segs -> flat_map f l = concat segs.
Proof.
  intros A B f l segs H. induction H as [|x s l segs Hxs H IH]; [reflexivity|].
  cbn [flat_map concat]. rewrite Hxs, IH. reflexivity.
Qed.

Lemma Forall2_nil_l : forall A B (R : A -> B -> Prop) l, Forall2 R [] l -> l = [].
Proof. intros A B R l H. inversion H. reflexivity. Qed.

Lemma Forall2_In_zip_r : forall A B (R : A -> B -> Prop) (a : list A) (b : list B) y,
  Forall2 R a b -> In y b -> exists x, In (x, y) (zip a b) /\ In x a.
Proof.
  intros A B R a b y H. induction H as [|x0 y0 a b Hr H IH]; intros Hin; [destruct Hin|].
  cbn [zip]. destruct Hin as [E | Hin].
  - subst y0. exists x0. split; left; reflexivity.
  - destruct (IH Hin) as [x [H1 H2]]. exists x. split; right; assumption.
Qed.

Lemma NoDup_app_inv : forall A (a b : list A), NoDup (a ++ b) ->
  NoDup a /\ NoDup b /\ (forall x, In x a -> ~ In x b).
Proof.
  intros A a. induction a as [|x a IH]; intros b H.
  - cbn [app] in H. split; [constructor|]. split; [exact H|]. intros y [].
  - cbn [app] in H. apply NoDup_cons_iff in H. destruct H as [Hx H].
    destruct (IH b H) as (Ha & Hb & Hd).
    split.
    + constructor; [|exact Ha]. intros Hin. apply Hx. apply in_or_app. now left.
    + split; [exact Hb|]. intros y [Hy|Hy] Hyb.
      * subst y. apply Hx. apply in_or_app. now right.
      * exact (Hd y Hy Hyb).
Qed.

Lemma existsb_false : forall (A : Type) (f : A -> bool) l, (forall x, In x l -> f x = false) -> existsb f l = false.
Proof. induction l as [|x l IH]; intro H; cbn; [reflexivity|]. rewrite (H x (or_introl eq_refl)). apply IH. intros; apply H; right; assumption. Qed.
