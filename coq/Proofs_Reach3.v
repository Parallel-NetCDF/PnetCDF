(* Proofs_Reach3.v — the invariant of Proofs_Reach.v is preserved by the data operations
   (put, collective and independent, every form; fill_var_rec; junk), then the case analysis
   exec_step_preserves_inv, the run theorem reachable_inv and its corollaries. *)
From Pnc Require Import Base Gen_consts Header HeaderSpec Access Data Disk Fill Exec.
From Pnc Require Import Proofs_Lists Proofs_Base Proofs_Header Proofs_Layout Proofs_Redef.
From Pnc Require Import Proofs_Access Proofs_Disk.
From Pnc Require Import Proofs_Exec2 Proofs_Exec Proofs_Reach Proofs_Reach2.
Require Import Lia ZArith List Bool ZifyBool.
Import ListNotations.
Local Open Scope Z_scope.


(** * 1. Every variable begins at or after the header *)

Lemma var_begin_ge_hdr : forall d h lay i, data_ok d h lay -> hdr_wf h ->
  0 <= i < Zlen (h_vars h) -> hdr_len h <= v_begin (znth (h_vars h) i dv).
Proof.
  intros d h lay i (_ & L2 & L3 & L4 & _) Hwf Hi.
  assert (Hne : h_vars h <> []) by (intros C; rewrite C, Zlen_nil in Hi; lia).
  pose proof (L2 Hne) as Hinv. pose proof Hinv as (_ & Hx & _).
  pose proof (proj1 (proj1 (lay_inv_places h lay Hwf Hinv L3) i Hi)) as Hb. cbv beta in Hb. lia.
Qed.

Lemma file_ok_var : forall np nd d f i, file_ok np nd d f -> f_indef f = false ->
  0 <= i < Zlen (h_vars (f_hdr f)) ->
  let v := znth (h_vars (f_hdr f)) i dv in
  0 <= l_recsize (f_lay f) /\ hdr_len (f_hdr f) <= v_begin v /\
  dims_wf (var_shape (h_dims (f_hdr f)) v) /\ wf_geom (geom_of f v) /\ rec_fits (geom_of f v).
Proof.
  intros np nd d f i (_ & (G1 & G2 & _) & _ & _ & Hm) Hindef Hi v. rewrite Hindef in Hm.
  destruct Hm as (_ & _ & O3). pose proof O3 as (_ & L2 & _).
  assert (Hin : In v (h_vars (f_hdr f))) by (apply znth_In; exact Hi).
  assert (Hne : h_vars (f_hdr f) <> []) by (intros C; rewrite C in Hin; destruct Hin).
  destruct (L2 Hne) as (_ & _ & _ & _ & _ & _ & _ & Hrs).
  rewrite Forall_forall in G2. destruct (var_good_geom _ v G1 (G2 v Hin)) as [Hx Hdw].
  split; [rewrite Hrs; exact (proj1 (rs_rule_bounds _ (wf_t3of _ G1)))|].
  split; [exact (var_begin_ge_hdr d _ _ i O3 G1 Hi)|]. split; [exact Hdw|].
  exact (geom_of_wf f v G1 Hrs (conj Hin (conj Hx Hdw))).
Qed.

(** * 2. What check_request accepts, every form *)

Lemma dims_ok_whole : forall ss, Forall (fun s => 1 <= s) ss ->
  dims_ok ss (map (fun _ => 0) ss) ss (ones (length ss)).
Proof.
  induction ss as [|s ss IH]; intros H; [exact I|].
  inversion H as [|? ? Hs Hr]; subst. cbn [map length]. rewrite ones_S. cbn [dims_ok].
  split; [lia|]. split; [lia|]. split; [lia|]. split; [right; lia|]. apply IH. exact Hr.
Qed.

Lemma req_ok_whole : forall shape numrecs, dims_wf shape -> 0 <= numrecs ->
  req_ok shape (map (fun _ => 0) shape)
         (if match shape with s0 :: _ => s0 =? 0 | [] => false end then numrecs :: tl shape else shape)
         (ones (length shape)).
Proof.
  intros [|s0 ss] numrecs Hwf Hn; [exact I|]. destruct Hwf as [H0 Hss].
  cbn [map length tl]. rewrite ones_S.
  destruct (Z.eqb_spec s0 0) as [E|E]; cbn [req_ok].
  - split; [lia|]. split; [lia|]. split; [lia|]. split; [left; exact E|]. apply dims_ok_whole. exact Hss.
  - split; [lia|]. split; [lia|]. split; [lia|]. split; [right; right; lia|]. apply dims_ok_whole. exact Hss.
Qed.

Definition rq_req_ok (shape : list Z) (r : rreq) : Prop :=
  req_ok shape (rq_start r) (rq_count r) (stride_or_ones (length shape) (rq_stride r)).

Lemma olens_len : forall s c t n, olen s n && olen c n && olen t n = true ->
  match s with Some l => length l = n | None => True end /\
  match c with Some l => length l = n | None => True end /\
  match t with Some l => length l = n | None => True end.
Proof.
  intros s c t n H. rewrite !andb_true_iff in H. destruct H as [[Hs Hc] Ht].
  destruct s, c, t; cbn [olen] in *; repeat split; try apply Nat.eqb_eq; assumption.
Qed.

(* what form_args hands to check_scs, for every form: the lengths acc_lens_b asked for, and no
   count or stride under the var1 kind *)
Lemma form_args_lens : forall fm n, acc_lens_b fm n = true ->
  let '(kind, s, c, t, _) := form_args fm in
  olen s n && olen c n && olen t n = true /\ (kind = API_VAR1 -> c = None /\ t = None).
Proof.
  intros [|s|s c|s c [t|]|s c [t|] [m|]|reqs] n H; cbn [acc_lens_b form_args olen] in *;
    rewrite ?andb_true_r in *; (split; [try exact H; reflexivity|]); intros C;
    try discriminate C; split; reflexivity.
Qed.

Lemma check_request_all_ok : forall w f rank isread a e rs,
  dims_wf (var_shape (h_dims (f_hdr f)) (the_var f a)) ->
  0 <= rk_numrecs (get_rank f rank) ->
  acc_lens_b (ac_form a) (length (v_dimids (the_var f a))) = true ->
  check_request w f rank isread a = (e, Some rs) ->
  Forall (rq_req_ok (var_shape (h_dims (f_hdr f)) (the_var f a))) rs.
Proof.
  intros w f rank isread a e rs Hdw Hnr Hlens H.
  unfold check_request in H. cbv zeta in H. unfold is_recvar in H.
  assert (Hn : length (v_dimids (the_var f a)) = length (var_shape (h_dims (f_hdr f)) (the_var f a)))
    by (unfold var_shape; rewrite map_length; reflexivity).
  rewrite Hn in Hlens. clear Hn.
  remember (var_shape (h_dims (f_hdr f)) (the_var f a)) as shape eqn:Eshape. clear Eshape.
  pose proof (form_args_lens _ _ Hlens) as Hfa.
  destruct (ac_form a) as [|s|s c|s c t|s c t m|reqs].
  2-5: (* var1, vara, vars, varm: one sub-request *)
    destruct (form_args _) as [[[[kind s'] c'] t'] m']; destruct Hfa as [Hl Hk];
    exact (Forall_impl _ (fun r Hr => proj2 Hr)
             (one_request_ok _ _ _ _ _ _ _ _ _ _ _ _ (olens_len _ _ _ _ Hl) Hk H)).
  all: clear Hfa; cbn [acc_lens_b] in Hlens.
  - (* var *)
    injection H as _ <-. constructor; [|constructor]. unfold rq_req_ok.
    cbn [rq_start rq_count rq_stride stride_or_ones]. apply req_ok_whole; assumption.
  - (* varn *)
    destruct reqs as [|rq0 reqs0] eqn:Erq; [injection H as _ <-; constructor|].
    rewrite <- Erq in H, Hlens. clear Erq.
    destruct shape as [|sh ss] eqn:Esh.
    { match type of H with (if ?c then _ else _) = _ => destruct c end; [|discriminate H].
      injection H as _ <-. constructor; [exact I|constructor]. }
    match type of H with (if negb (?e0 =? NC_NOERR) then _ else _) = _ => destruct (Z.eqb_spec e0 NC_NOERR) as [Ee|Ee] end;
      cbn [negb] in H; [|discriminate H].
    injection H as _ <-. apply first_err_ok in Ee.
    rewrite forallb_forall in Hlens. rewrite Forall_forall in Ee.
    apply Forall_forall. intros r Hr. apply in_map_iff in Hr. destruct Hr as [sc [<- Hsc]].
    specialize (Hlens sc Hsc). apply andb_true_iff in Hlens. destruct Hlens as [Hls Hlc].
    apply Nat.eqb_eq in Hls, Hlc.
    unfold rq_req_ok. cbn [rq_start rq_count rq_stride].
    apply (check_scs_req_ok (h_format (f_hdr f)) (w_strict w) isread API_VARA _
             (rk_numrecs (get_rank f rank)) (fst sc) (snd sc) None Hls Hlc I).
    apply Ee. apply in_map_iff. exists sc. split; [reflexivity|exact Hsc].
Qed.

(** * 3. The offsets of an accepted request lie at or after the variable's begin *)

Lemma offsets_ge_begin : forall g start count stride,
  wf_geom g -> req_ok (g_shape g) start count (stride_or_ones (length (g_shape g)) stride) ->
  forall o, In o (model_offsets g start count stride) -> g_begin g <= o.
Proof.
  intros g start count stride Hwf Hreq o Ho.
  assert (Hspec : model_offsets g start count stride =
                  spec_offsets g start count (stride_or_ones (length (g_shape g)) stride)).
  { destruct stride as [t|]; cbn [stride_or_ones] in *.
    - apply model_offsets_eq_spec; assumption.
    - apply model_offsets_eq_spec_none; assumption. }
  rewrite Hspec in Ho. unfold spec_offsets in Ho. apply in_map_iff in Ho. destruct Ho as [idx [<- Hidx]].
  pose proof (req_indices_idx_ok g _ _ _ idx Hreq Hidx) as Hok.
  destruct Hwf as (Hx & Hrs & _). unfold idx_ok in Hok.
  destruct (g_isrec g) eqn:Erec.
  - destruct idx as [|i0 r]; [contradiction|]. destruct Hok as [Hi0 Hr].
    destruct (elem_off_bounds_rec g i0 r ltac:(lia) Erec Hr) as [B _].
    assert (0 <= i0 * g_recsize g) by nia. lia.
  - destruct (elem_off_bounds_fixed g idx ltac:(lia) Erec Hok) as [B _]. exact B.
Qed.

(* a disk that changes at or above a bound only *)
Definition grows_above (B : Z) (d d' : disk) : Prop :=
  (dk_exists d = true -> dk_exists d' = true) /\ dk_size d <= dk_size d' /\
  forall x, x < B -> dk_get d' x = dk_get d x.

Lemma grows_above_refl : forall B d, grows_above B d d.
Proof. intros B d. split; [intros E; exact E|]. split; [lia|reflexivity]. Qed.

Lemma grows_above_trans : forall B d1 d2 d3,
  grows_above B d1 d2 -> grows_above B d2 d3 -> grows_above B d1 d3.
Proof.
  intros B d1 d2 d3 (E1 & S1 & G1) (E2 & S2 & G2).
  split; [intros E; exact (E2 (E1 E))|]. split; [lia|]. intros x Hx. rewrite (G2 x Hx). exact (G1 x Hx).
Qed.

Lemma grows_above_write : forall B d o bs, B <= o -> grows_above B d (dk_write d o bs).
Proof.
  intros B d o bs Ho. split; [intros E; rewrite dk_exists_write, E; apply orb_true_r|].
  split; [rewrite dk_size_write; destruct (0 <? Zlen bs); lia|].
  intros x Hx. rewrite dk_get_write. replace ((o <=? x) && (x <? o + Zlen bs)) with false by lia.
  reflexivity.
Qed.

Lemma grows_above_scatter : forall B offs d xsz bs, (forall o, In o offs -> B <= o) ->
  grows_above B d (dk_scatter d xsz offs bs).
Proof.
  intros B offs. induction offs as [|o r IH]; intros d xsz bs H; cbn [dk_scatter]; [apply grows_above_refl|].
  eapply grows_above_trans; [apply grows_above_write; apply H; left; reflexivity|].
  apply IH. intros o' Ho'. apply H. right. exact Ho'.
Qed.

(* the disk left by put_rank *)
Definition put_fold (f : filest) (a : access) (krs : list (Z * rreq)) (d : disk) : disk :=
  fold_left (fun dacc kr =>
               let r := snd kr in
               let offs := model_offsets (geom_of f (the_var f a)) (rq_start r) (rq_count r) (rq_stride r) in
               dk_scatter dacc (g_xsz (geom_of f (the_var f a))) offs
                          (put_stream a (v_type (the_var f a)) (fst kr) r))
            krs d.

Lemma in_with_bases : forall rs k0 kr, In kr (with_bases rs k0) -> In (snd kr) rs.
Proof.
  induction rs as [|r rs IH]; intros k0 kr H; [destruct H|]. cbn [with_bases] in H.
  destruct H as [<-|H]; [left; reflexivity|right; exact (IH _ _ H)].
Qed.

Lemma grows_above_put_fold : forall f a B krs d,
  (forall kr o, In kr krs ->
     In o (model_offsets (geom_of f (the_var f a)) (rq_start (snd kr)) (rq_count (snd kr)) (rq_stride (snd kr))) ->
     B <= o) ->
  grows_above B d (put_fold f a krs d).
Proof.
  intros f a B krs. induction krs as [|kr krs IH]; intros d H; [apply grows_above_refl|].
  unfold put_fold. cbn [fold_left]. cbv zeta.
  eapply grows_above_trans; [|apply IH; intros kr0 o Hk Ho; exact (H kr0 o (or_intror Hk) Ho)].
  apply grows_above_scatter. intros o Ho. exact (H kr o (or_introl eq_refl) Ho).
Qed.

(** * 4. The disk may change above the header *)

Lemma data_ok_disk_frame : forall d d' h lay, data_ok d h lay -> grows_above (hdr_len h) d d' ->
  data_ok d' h lay.
Proof.
  intros d d' h lay (L1 & L2 & L3 & L4 & L5) (He & Hs & Hg). unfold data_ok.
  split; [exact L1|]. split; [exact L2|]. split; [exact L3|]. split; [exact L4|].
  intros Hwf. destruct (L5 Hwf) as (D1 & D2 & D3).
  split; [exact (He D1)|]. split; [lia|].
  rewrite <- D3. apply dk_read_ext. intros x Hx. apply Hg. lia.
Qed.

Lemma file_ok_disk_frame : forall np nd d d' f, file_ok np nd d f -> f_indef f = false ->
  grows_above (hdr_len (f_hdr f)) d d' -> file_ok np nd d' f.
Proof.
  intros np nd d d' f (Hs & Hg & Ha & Hr & Hm) Hindef Hgr. rewrite Hindef in Hm.
  destruct Hm as (O1 & O2 & O3).
  unfold file_ok. rewrite Hindef. repeat (split; [assumption|]).
  exact (data_ok_disk_frame d d' _ _ O3 Hgr).
Qed.

Lemma inv_set_disk : forall w id f d',
  world_inv w -> znth (w_files w) id None = Some f -> f_tainted f = false ->
  (file_inv w f -> file_ok (w_nprocs w) (Zlen (w_disks w)) d' f) ->
  world_inv (set_disk w (f_slot f) d').
Proof.
  intros w id f d' Hw Hz Ht Hn.
  apply (inv_replace w _ id f f Hw Hz Ht (frame_set_disk w id _ d'));
    [rewrite w_files_set_disk; exact Hz|reflexivity|].
  intros Hf _. rewrite get_disk_set_disk_same by exact (proj1 Hf). exact (Hn Hf).
Qed.

(** * 5. put_rank *)

Lemma sanity_ok_modes : forall f isput coll a, sanity f isput true coll a = NC_NOERR ->
  isput && f_rdonly f = false /\ f_indef f = false /\ f_indep f = negb coll /\
  0 <= ac_var a < Zlen (h_vars (f_hdr f)).
Proof.
  intros f isput coll a H. destruct (sanity_ok _ _ _ _ _ H) as (Hro & Hdef & H1 & H2 & Hv).
  cbn [andb] in Hdef, H1, H2. refine (conj Hro (conj Hdef (conj _ Hv))).
  destruct coll, (f_indep f); try reflexivity; discriminate.
Qed.

Lemma put_rank_cases : forall w id f rank coll a w' rc nn part,
  put_rank w id f rank coll a = (w', rc, nn, part) ->
  (w' = w /\ nn = None) \/
  (sanity f true true coll a = NC_NOERR /\
   exists e1 rs, check_request w f rank false a = (e1, Some rs) /\
     w' = set_disk w (f_slot f) (put_fold f a (with_bases rs 0) (disk_of w f)) /\
     (forall n, nn = Some n -> 0 <= n /\ g_isrec (geom_of f (the_var f a)) = true)).
Proof.
  intros w id f rank coll a w' rc nn part H. unfold put_rank in H. cbv zeta in H.
  destruct (Z.eqb_spec (sanity f true true coll a) NC_NOERR) as [Es|Es]; cbn [negb] in H.
  2:{ injection H as <- _ <- _. left. split; reflexivity. }
  destruct (check_request w f rank false a) as [e1 orq] eqn:Ec.
  destruct orq as [rs|]; [|injection H as <- _ <- _; left; split; reflexivity].
  destruct (iomismatch a rs); [injection H as <- _ <- _; left; split; reflexivity|].
  destruct (total_elems rs =? 0); [injection H as <- _ <- _; left; split; reflexivity|].
  injection H as <- _ <- _. right. split; [exact Es|]. exists e1, rs. split; [reflexivity|].
  split; [reflexivity|].
  intros n Hn. destruct (g_isrec (geom_of f (the_var f a))); [|discriminate Hn].
  injection Hn as <-. split; [apply fold_max_ge_init|reflexivity].
Qed.

Lemma num_rec_vars_pos : forall h v, In v (h_vars h) -> is_recvar (h_dims h) v = true ->
  0 < num_rec_vars h.
Proof.
  intros h v Hin Hrec. unfold num_rec_vars.
  assert (Hf : In v (filter (is_recvar (h_dims h)) (h_vars h))) by (apply filter_In; split; assumption).
  destruct (filter (is_recvar (h_dims h)) (h_vars h)) as [|x l]; [destruct Hf|].
  rewrite Zlen_cons. pose proof (Zlen_nonneg l). lia.
Qed.

Lemma rank_numrecs_nonneg : forall np nd d f rank, file_ok np nd d f -> 0 <= rk_numrecs (get_rank f rank).
Proof.
  intros np nd d f rank (_ & (_ & _ & G3) & _ & (_ & R2 & _) & _). unfold get_rank.
  apply (znth_Forall (fun r => 0 <= rk_numrecs r)); [cbn; lia|].
  eapply Forall_impl; [|exact R2]. intros r Hr. cbn beta in Hr. lia.
Qed.

(** an accepted put of a file in data mode writes above the header only *)
Lemma put_fold_file_ok : forall np nd d f w rank coll a e1 rs,
  file_ok np nd d f -> put_acc_ok f a = true ->
  sanity f true true coll a = NC_NOERR ->
  check_request w f rank false a = (e1, Some rs) ->
  file_ok np nd (put_fold f a (with_bases rs 0) d) f.
Proof.
  intros np nd d f w rank coll a e1 rs Hok Hacc Hsan Hchk.
  destruct (sanity_ok_modes f true coll a Hsan) as (_ & Hindef & _ & Hvar).
  destruct (file_ok_var np nd d f (ac_var a) Hok Hindef Hvar) as (_ & Hbeg & Hdw & Hwg & _).
  change (znth (h_vars (f_hdr f)) (ac_var a) dv) with (the_var f a) in *. set (v := the_var f a) in *.
  assert (Hlens : acc_lens_b (ac_form a) (length (v_dimids v)) = true).
  { unfold put_acc_ok in Hacc. fold v in Hacc.
    destruct ((ac_var a <? 0) || (ac_var a >=? Zlen (h_vars (f_hdr f)))) eqn:E; [lia|]. exact Hacc. }
  pose proof (check_request_all_ok w f rank false a e1 rs Hdw (rank_numrecs_nonneg _ _ _ f rank Hok)
                Hlens Hchk) as Hall. fold v in Hall.
  apply (file_ok_disk_frame np nd d _ f Hok Hindef). apply grows_above_put_fold.
  intros kr o Hkr Ho. pose proof (in_with_bases rs 0 kr Hkr) as Hr'.
  rewrite Forall_forall in Hall. specialize (Hall _ Hr'). unfold rq_req_ok in Hall.
  fold v in Ho.
  pose proof (offsets_ge_begin (geom_of f v) _ _ _ Hwg Hall o Ho) as Hge.
  change (g_begin (geom_of f v)) with (v_begin v) in Hge. lia.
Qed.

Lemma put_rank_inv : forall w id f rank coll a w' rc nn part,
  world_inv w -> znth (w_files w) id None = Some f -> f_tainted f = false ->
  put_acc_ok f a = true ->
  put_rank w id f rank coll a = (w', rc, nn, part) ->
  world_inv w' /\ w_files w' = w_files w /\
  (forall n, nn = Some n ->
     0 <= n /\ f_rdonly f = false /\ f_indef f = false /\ f_indep f = negb coll /\
     0 < num_rec_vars (f_hdr f)).
Proof.
  intros w id f rank coll a w' rc nn part Hw Hz Ht Hacc H.
  destruct (put_rank_cases _ _ _ _ _ _ _ _ _ _ H) as [[-> ->]|(Hsan & e1 & rs & Hchk & -> & Hnn)].
  { split; [exact Hw|]. split; [reflexivity|]. intros n C. discriminate C. }
  destruct (sanity_ok_modes f true coll a Hsan) as (Hro & Hindef & Hindep & Hvar).
  split.
  { apply (inv_set_disk w id f _ Hw Hz Ht). intros Hf.
    exact (put_fold_file_ok _ _ _ f w rank coll a e1 rs Hf Hacc Hsan Hchk). }
  split; [reflexivity|].
  intros n Hn. destruct (Hnn n Hn) as [H0 Hrec].
  repeat split; try assumption.
  apply (num_rec_vars_pos (f_hdr f) (the_var f a)); [|exact Hrec].
  unfold the_var. apply znth_In. exact Hvar.
Qed.

(** * 6. The collective put *)

Definition fatal_rc (rc : Z) : bool :=
  (rc =? NC_EPERM) || (rc =? NC_EINDEFINE) || (rc =? NC_EINDEP) || (rc =? NC_ENOTINDEP).

Definition bad_code (f : filest) : Z :=
  if f_rdonly f then NC_EPERM else if f_indef f then NC_EINDEFINE else NC_EINDEP.

Lemma put_rank_mode_bad : forall w id f rank a, f_rdonly f || f_indef f || f_indep f = true ->
  put_rank w id f rank true a = (w, bad_code f, None, false) /\ fatal_rc (bad_code f) = true.
Proof.
  intros w id f rank a H. unfold put_rank, sanity, bad_code. cbv zeta. cbn [andb].
  destruct (f_rdonly f); [split; reflexivity|].
  destruct (f_indef f); [split; reflexivity|].
  destruct (f_indep f); [split; reflexivity|]. discriminate H.
Qed.

(* with a mode error every rank returns the same fatal code, so a non-empty call is fatal *)
Lemma cp_fold_inv : forall id f ras w out,
  world_inv w -> znth (w_files w) id None = Some f -> f_tainted f = false ->
  (forall ra, In ra ras -> put_acc_ok f (snd ra) = true) ->
  exists w1 res, fold_left (cp_step id f) ras (w, out) = (w1, res) /\
    world_inv w1 /\ w_files w1 = w_files w /\
    (f_rdonly f || f_indef f || f_indep f = true ->
     ras <> [] \/ existsb (fun x => fatal_rc (snd (fst x))) out = true ->
     existsb (fun x => fatal_rc (snd (fst x))) res = true).
Proof.
  intros id f ras. induction ras as [|ra ras IH]; intros w out Hw Hz Ht Hacc; cbn [fold_left].
  - exists w, out. split; [reflexivity|]. split; [exact Hw|]. split; [reflexivity|].
    intros _ [C|C]; [destruct (C eq_refl)|exact C].
  - unfold cp_step at 2.
    destruct (put_rank w id f (fst ra) true (snd ra)) as [[[w' rc] nn] part] eqn:E.
    destruct (put_rank_inv w id f _ _ _ _ _ _ _ Hw Hz Ht (Hacc ra (or_introl eq_refl)) E) as (Hw' & Hf' & _).
    destruct (IH w' (out ++ [(fst ra, rc, nn)]) Hw' ltac:(rewrite Hf'; exact Hz) Ht
                 (fun ra0 H0 => Hacc ra0 (or_intror H0))) as (w1 & res & E1 & Hw1 & Hf1 & Hfat).
    exists w1, res. split; [exact E1|]. split; [exact Hw1|]. split; [congruence|].
    intros Hbad _. apply (Hfat Hbad). right.
    destruct (put_rank_mode_bad w id f (fst ra) (snd ra) Hbad) as [Eb Hfb].
    rewrite Eb in E. injection E as _ <- _ _.
    rewrite existsb_app. cbn [existsb fst snd]. rewrite Hfb. apply orb_true_r.
Qed.

Lemma coll_put_inv : forall w id f ras,
  world_inv w -> znth (w_files w) id None = Some f -> f_tainted f = false ->
  (forall ra, In ra ras -> put_acc_ok f (snd ra) = true) ->
  world_inv (fst (coll_put w id f ras)).
Proof.
  intros w id f ras Hw Hz Ht Hacc. rewrite coll_put_eq.
  destruct (cp_fold_inv id f ras w [] Hw Hz Ht Hacc) as (w1 & res & E & Hw1 & Hf1 & Hfat).
  rewrite E. cbv zeta.
  match goal with |- context [if ?c then _ else _] => destruct c eqn:Efatal end; [exact Hw|].
  rewrite Hf1, Hz.
  match goal with |- context [existsb ?p ras] => destruct (existsb p ras) eqn:Erec end; cbn [fst]; [|exact Hw1].
  apply existsb_exists in Erec. destruct Erec as [ra [Hra Hrec]]. cbv zeta in Hrec.
  destruct ((0 <=? ac_var (snd ra)) && (ac_var (snd ra) <? Zlen (h_vars (f_hdr f)))) eqn:Erange;
    [|discriminate Hrec].
  assert (Hmode : f_rdonly f || f_indef f || f_indep f = false).
  { destruct (f_rdonly f || f_indef f || f_indep f); [|reflexivity].
    assert (Hne : ras <> []) by (intros C; rewrite C in Hra; destruct Hra).
    destruct (eq_true_false_abs _ (Hfat eq_refl (or_introl Hne)) Efatal). }
  apply orb_false_iff in Hmode. destruct Hmode as [Hmode Hindep].
  apply orb_false_iff in Hmode. destruct Hmode as [Hro Hindef].
  apply (coll_numrecs_sync_inv w1 id f _ Hw1 ltac:(rewrite Hf1; exact Hz) Ht Hindef Hindep).
  apply (num_rec_vars_pos (f_hdr f) (the_var f (snd ra))); [|exact Hrec].
  unfold the_var. apply znth_In. clear -Erange. lia.
Qed.

(** * 7. The independent put *)

Lemma indep_numrecs_ok : forall np nd d f rank nn, file_ok np nd d f ->
  (forall n, nn = Some n -> 0 <= n /\ f_rdonly f = false /\ f_indef f = false /\
                            f_indep f = true /\ 0 < num_rec_vars (f_hdr f)) ->
  file_ok np nd d (indep_numrecs f rank nn).
Proof.
  intros np nd d f rank nn Hok Hnn. unfold indep_numrecs. destruct nn as [n|]; [|exact Hok].
  destruct (Hnn n eq_refl) as (H0 & Hro & Hindef & Hindep & Hnrv).
  destruct (Z.ltb_spec (rk_numrecs (get_rank f rank)) n) as [Hlt|Hge]; [|exact Hok].
  destruct Hok as (Hs & Hg & Ha & (R1 & R2 & R3) & Hm).
  unfold file_ok, upd_rank, upd_ranks. cbn [f_slot f_hdr f_align f_indef f_old f_isnew f_lay].
  split; [exact Hs|]. split; [exact Hg|]. split; [exact Ha|]. split; [|exact Hm].
  unfold ranks_ok. cbn [f_ranks f_hdr f_indep f_rdonly]. rewrite Zlen_zupd.
  split; [exact R1|]. split.
  - apply rz_Forall_zupd_in; [exact R2|]. intros Hi. cbn [rk_set_numrecs rk_numrecs].
    rewrite (Forall_znth _ (f_ranks f) (rank_init 0)) in R2. specialize (R2 rank Hi).
    unfold get_rank in Hlt. lia.
  - intros [C|[C|C]]; [congruence|lia|congruence].
Qed.

Lemma indep_put_inv : forall w id f rank a,
  world_inv w -> znth (w_files w) id None = Some f -> f_tainted f = false ->
  put_acc_ok f a = true ->
  world_inv (fst (indep_put w id f rank a)) /\
  exists f', znth (w_files (fst (indep_put w id f rank a))) id None = Some f' /\
             f_tainted f' = false /\ f_hdr f' = f_hdr f.
Proof.
  intros w id f rank a Hw Hz Ht Hacc. unfold indep_put.
  destruct (put_rank w id f rank false a) as [[[w' rc] nn] part] eqn:E.
  destruct (put_rank_inv w id f _ _ _ _ _ _ _ Hw Hz Ht Hacc E) as (Hw' & Hf' & Hnn).
  rewrite Hf', Hz. cbn [fst].
  pose proof (znth_some_range _ _ _ Hz) as Hid.
  assert (Hz' : znth (w_files w') id None = Some f) by (rewrite Hf'; exact Hz).
  destruct (acc_geom_indep_numrecs f rank nn a) as (_ & _ & Hsl & Hh & _).
  assert (Htt : f_tainted (indep_numrecs f rank nn) = f_tainted f).
  { unfold indep_numrecs. destruct nn as [n|]; [|reflexivity].
    destruct (rk_numrecs (get_rank f rank) <? n); reflexivity. }
  split.
  - apply (inv_put_file w' id f (indep_numrecs f rank nn) Hw' Hz' Ht Hsl).
    intros Hf _. apply indep_numrecs_ok; [exact Hf|].
    intros n Hn. destruct (Hnn n Hn) as (N0 & N1 & N2 & N3 & N4). repeat split; assumption.
  - exists (indep_numrecs f rank nn). rewrite znth_put_file_same by (rewrite Hf'; exact Hid).
    split; [reflexivity|]. split; [rewrite Htt; exact Ht|exact Hh].
Qed.

Lemma put_acc_ok_hdr : forall f f' a, f_hdr f' = f_hdr f -> put_acc_ok f' a = put_acc_ok f a.
Proof. intros f f' a E. unfold put_acc_ok, the_var. rewrite E. reflexivity. Qed.

Lemma indep_fold_inv : forall id f0 a ranks w out,
  world_inv w ->
  (exists fc, znth (w_files w) id None = Some fc /\ f_tainted fc = false /\ f_hdr fc = f_hdr f0) ->
  put_acc_ok f0 a = true ->
  world_inv (fst (fold_left (fun (acc : world * list obs) r =>
                    let '(wc, out) := acc in
                    match znth (w_files wc) id None with
                    | Some fc => let '(w', o') := indep_put wc id fc r a in (w', out ++ o')
                    | None => acc end) ranks (w, out))).
Proof.
  intros id f0 a ranks. induction ranks as [|r ranks IH]; intros w out Hw (fc & Hz & Ht & Eh) Hacc;
    cbn [fold_left]; [exact Hw|].
  rewrite Hz.
  assert (Hacc' : put_acc_ok fc a = true) by (rewrite (put_acc_ok_hdr f0 fc a Eh); exact Hacc).
  destruct (indep_put_inv w id fc r a Hw Hz Ht Hacc') as (Hw' & f' & Hz' & Ht' & Eh').
  destruct (indep_put w id fc r a) as [w' o'] eqn:E. cbn [fst] in *.
  apply IH; [exact Hw'| |exact Hacc].
  exists f'. split; [exact Hz'|]. split; [exact Ht'|congruence].
Qed.

(** * 8. fill_var_rec, junk *)

Lemma exec_fill_var_rec_inv : forall w s varid recno, world_inv w ->
  world_inv (fst (exec_all w (OFillVarRec s varid recno))).
Proof.
  intros w s varid recno Hw. exec_all_file Hw as id f.
  destruct (f_rdonly f); [exact Hw|].
  destruct (f_indef f) eqn:Hindef; [exact Hw|].
  destruct (varid =? -1); [exact Hw|].
  destruct ((varid <? 0) || (varid >=? Zlen (h_vars (f_hdr f)))) eqn:Evar; [exact Hw|].
  set (v := znth (h_vars (f_hdr f)) varid (mkvar [] [] [] 0 0 true)).
  destruct (is_recvar (h_dims (f_hdr f)) v) eqn:Hrec; cbn [negb]; [|exact Hw].
  destruct (f_indep f) eqn:Hindep; [exact Hw|].
  match goal with |- context [if ?c then (w, same_all w NC_ENOTFILL []) else _] => destruct c end; [exact Hw|].
  destruct (negb (fill_att_ok v)); [apply taint_slot_inv; exact Hw|].
  destruct (recno <? 0) eqn:Erec; [apply taint_slot_inv; exact Hw|].
  cbn [fst].
  assert (Hvar : 0 <= varid < Zlen (h_vars (f_hdr f))) by lia.
  match goal with |- world_inv (coll_numrecs_sync (set_disk w (f_slot f) ?D) id f ?news) =>
    set (d1 := D); set (nw := news) end.
  assert (Hw1 : world_inv (set_disk w (f_slot f) d1)).
  { apply (inv_set_disk w id f d1 Hw Hz Ht). intros Hf.
    destruct (file_ok_var _ _ _ f varid Hf Hindef Hvar) as (Hrs0 & Hbeg & _).
    change (znth (h_vars (f_hdr f)) varid dv) with v in Hbeg.
    apply (file_ok_disk_frame _ _ (disk_of w f) d1 f Hf Hindef). apply grows_above_write. nia. }
  apply (coll_numrecs_sync_inv _ id f nw Hw1); [rewrite w_files_set_disk; exact Hz|exact Ht|exact Hindef|exact Hindep|].
  apply (num_rec_vars_pos (f_hdr f) v); [apply znth_In; exact Hvar|exact Hrec].
Qed.

Lemma inv_free_disk : forall w s d, world_inv w -> slot_free w s = true -> world_inv (set_disk w s d).
Proof.
  intros w s d (Hnp & Hmu & Hal & Hdist & Hfiles) Hfree. unfold world_inv.
  split; [exact Hnp|]. split; [exact Hmu|]. split; [exact Hal|]. split; [exact Hdist|].
  intros i g Hg Ht. rewrite w_files_set_disk in Hg.
  pose proof (slot_free_spec w s i g Hfree Hg) as Hsl.
  apply (file_inv_frame w (set_disk w s d) g eq_refl (Zlen_w_disks_set_disk w s d)).
  - apply get_disk_set_disk_other. lia.
  - exact (Hfiles i g Hg Ht).
Qed.

(** * 9. exec_all, exec_each, exec_one *)

Lemma exec_put_all_inv : forall w s coll a, world_inv w -> op_ok w (OPut s coll a) = true ->
  world_inv (fst (exec_all w (OPut s coll a))).
Proof.
  intros w s coll a Hw Hok. exec_all_file Hw as id f.
  cbn [op_ok] in Hok. rewrite Hl in Hok.
  cbv delta [acc_unmodelled] beta iota.
  destruct coll.
  - apply (coll_put_inv w id f _ Hw Hz Ht). intros ra Hra. apply in_map_iff in Hra.
    destruct Hra as [r [<- _]]. exact Hok.
  - apply (indep_fold_inv id f a (all_ranks w) w [] Hw); [|exact Hok].
    exists f. split; [exact Hz|]. split; [exact Ht|reflexivity].
Qed.

Ltac taint_case Hw :=
  unfold exec_all; cbv beta iota zeta delta [slot_of]; cbn [fst]; apply taint_slot_inv; exact Hw.

Theorem exec_all_inv : forall w o, world_inv w -> op_ok w o = true -> world_inv (fst (exec_all w o)).
Proof.
  intros w o Hw Hok. destruct o.
  - (* OCreate *) apply exec_create_inv; assumption.
  - (* OOpen *) apply exec_open_inv; assumption.
  - (* OClose *) apply exec_close_inv; assumption.
  - (* OAbort *) apply exec_abort_inv; assumption.
  - (* OEnddef *) apply exec_enddef_inv; assumption.
  - (* OEnddefX *) apply exec_enddefx_inv; assumption.
  - (* ORedef *) apply exec_redef_inv; assumption.
  - (* OBeginIndep *) apply exec_begin_indep_inv; assumption.
  - (* OEndIndep *) apply exec_end_indep_inv; assumption.
  - (* OSync *) apply exec_sync_inv; assumption.
  - (* OSyncNumrecs *) apply exec_sync_numrecs_inv; assumption.
  - (* OFlush *) taint_case Hw.
  - (* ODefDim *) apply exec_def_dim_inv; assumption.
  - (* ODefVar *) apply exec_def_var_inv; assumption.
  - (* ORenameDim *) taint_case Hw.
  - (* ORenameVar *) taint_case Hw.
  - (* OPutAtt *) apply exec_put_att_inv; assumption.
  - (* OGetAtt *) exec_all_file Hw as xid fl.
    destruct (atts_of (f_hdr fl) varid) as [l|]; [|exact Hw]. destruct (find_att l nm); exact Hw.
  - (* ODelAtt *) taint_case Hw.
  - (* ORenameAtt *) taint_case Hw.
  - (* OCopyAtt *) taint_case Hw.
  - (* OSetFill *) apply exec_set_fill_inv; assumption.
  - (* ODefVarFill *) apply exec_def_var_fill_inv; assumption.
  - (* OInqVarFill *) exec_all_file Hw as xid fl.
    destruct ((varid <? 0) || (varid >=? Zlen (h_vars (f_hdr fl)))); exact Hw.
  - (* OFillVarRec *) apply exec_fill_var_rec_inv; assumption.
  - (* OInq *) exec_all_file Hw as xid fl. exact Hw.
  - (* OInqName *) exec_all_file Hw as xid fl. destruct (kind =? 0).
    + destruct (find_dim (f_hdr fl) nm); exact Hw.
    + destruct (find_var (f_hdr fl) nm); exact Hw.
  - (* OInqAttid *) exec_all_file Hw as xid fl.
    destruct (atts_of (f_hdr fl) varid) as [l|]; [|exact Hw]. destruct (find_att l nm); exact Hw.
  - (* OInqNumrecs *) exec_all_file Hw as xid fl. exact Hw.
  - (* OInqNreqs *) taint_case Hw.
  - (* OInqBuffer *) taint_case Hw.
  - (* OAttach *) taint_case Hw.
  - (* ODetach *) taint_case Hw.
  - (* OSnapshot *) unfold exec_all. cbv beta iota zeta.
    destruct (is_tainted w f); [exact Hw|]. destruct (dk_exists (get_disk w f)); exact Hw.
  - (* OExists *) exact Hw.
  - (* OJunk *) unfold exec_all. cbv beta iota zeta. cbn [fst]. cbn [op_ok] in Hok.
    apply inv_free_disk; assumption.
  - (* OPut *) apply exec_put_all_inv; assumption.
  - (* OGet *) exec_all_file Hw as xid fl. cbv delta [acc_unmodelled] beta iota. exact Hw.
  - (* OIput *) taint_case Hw.
  - (* OIget *) taint_case Hw.
  - (* OBput *) taint_case Hw.
  - (* OWait *) taint_case Hw.
  - (* OCancel *) taint_case Hw.
  - (* OBufs *) taint_case Hw.
  - (* OSetId *) unfold exec_all. cbv beta iota zeta. cbn [fst]. exact Hw.
  - (* OHint *) unfold exec_all. cbv beta iota zeta. cbn [fst].
    pose proof Hw as (_ & _ & (A1 & A2 & A3) & _).
    apply world_inv_set_hints; [exact Hw|].
    destruct (key =? 0); [|destruct (key =? 1); [|destruct (key =? 2)]];
      unfold align_ok; cbn [env_h_align env_v_align env_r_align];
      destruct (v <? 0) eqn:Ev; repeat split; lia.
  - (* ONoHints *) unfold exec_all. cbv beta iota zeta. cbn [fst].
    apply world_inv_set_hints; [exact Hw|apply align_ok_no_align].
  - (* OBarrier *) exact Hw.
  - (* OSleep *) exact Hw.
  - (* OUnknown *) taint_case Hw.
Qed.

Lemma in_zip : forall A B (a : list A) (b : list B) x y, In (x, y) (zip a b) -> In x a /\ In y b.
Proof.
  intros A B a. induction a as [|a0 a IH]; intros [|b0 b] x y H; cbn [zip] in H; try destruct H.
  - injection H as <- <-. split; left; reflexivity.
  - destruct (IH b x y H) as [H1 H2]. split; right; assumption.
Qed.

Theorem exec_each_inv : forall w os, world_inv w -> step_ok w (SEach os) = true ->
  world_inv (fst (exec_each w os)).
Proof.
  intros w os Hw Hok. unfold exec_each. cbv zeta.
  destruct os as [|o0 os']; [exact Hw|].
  cbn [step_ok] in Hok.
  destruct (lookup_file w (slot_of o0)) as [[id f]|] eqn:El; [|exact Hw].
  destruct (f_tainted f) eqn:Ht; [exact Hw|].
  destruct (lookup_file_some w _ id f El) as [Hz Hid].
  set (os := o0 :: os') in *.
  match goal with |- context [if forallb ?p (map acc_of os) then _ else _] =>
    destruct (forallb p (map acc_of os)) eqn:Eput end.
  - apply (coll_put_inv w id f _ Hw Hz Ht). intros [rank a] Hra. cbn [snd].
    apply in_flat_map in Hra. destruct Hra as [[r oa] [Hp Hin]]. cbn [fst snd] in Hin.
    destruct oa as [[[ip cl] a']|]; [|destruct Hin]. destruct Hin as [E|[]]. injection E as <- <-.
    destruct (in_zip _ _ _ _ _ _ Hp) as [_ Hacc]. apply in_map_iff in Hacc. destruct Hacc as [o [Eo Ho]].
    rewrite forallb_forall in Eput.
    pose proof (Eput _ (in_map acc_of os o Ho)) as Eo'. rewrite Eo in Eo'.
    destruct ip; [|discriminate Eo']. destruct cl; [|discriminate Eo'].
    rewrite forallb_forall in Hok. specialize (Hok o Ho).
    destruct o; cbn [acc_of] in Eo; try discriminate Eo. injection Eo as _ <-. exact Hok.
  - match goal with |- context [if ?c then _ else _] => destruct c end; [exact Hw|].
    cbn [fst]. apply taint_slot_inv. exact Hw.
Qed.

Theorem exec_one_inv : forall w rank o, world_inv w -> op_ok w o = true ->
  world_inv (fst (exec_one w rank o)).
Proof.
  intros w rank o Hw Hok. destruct o; lazy beta iota zeta delta [exec_one slot_of].
  (* OExists, OBarrier, OSleep return w *)
  35, 48, 49: exact Hw.
  all: apply with_file_inv; [exact Hw|]; intros xid fl Hl Hz Ht; cbn [fst].
  (* so do OInq and OInqNumrecs *)
  26, 29: exact Hw.
  (* OPut, OGet: the collective forms taint the slot like everything else *)
  34, 35: destruct coll; [apply taint_slot_inv; exact Hw|]; cbv delta [acc_unmodelled] beta iota.
  34: { cbn [op_ok] in Hok. rewrite Hl in Hok. exact (proj1 (indep_put_inv w xid fl rank a Hw Hz Ht Hok)). }
  34: { destruct (get_rank_op w fl rank false a). exact Hw. }
  all: apply taint_slot_inv; exact Hw.
Qed.

(** * The main theorem: every step of a script that respects the contract [step_ok] preserves
    the invariant.  [step_ok w s] is a boolean computed from the current world and the step:
    create/open/junk only on a disk slot no open file sits on, open only of a file that passes
    the validation [open_ok], put with start/count/stride arrays of ndims entries; every other
    operation (including all the error paths, the unmodelled operations that taint the file, and
    every get) is unconditionally covered. *)
Theorem exec_step_preserves_inv : forall w s, world_inv w -> step_ok w s = true ->
  world_inv (fst (exec_step w s)).
Proof.
  intros w s Hw Hok. destruct s as [o|os|r o]; cbn [exec_step].
  - apply exec_all_inv; assumption.
  - apply exec_each_inv; assumption.
  - apply exec_one_inv; assumption.
Qed.

(* the operations whose steps need no side condition at all *)
Definition op_uncond (o : op) : bool :=
  match o with OCreate _ _ _ | OOpen _ _ | OJunk _ _ _ | OPut _ _ _ => false | _ => true end.

Lemma op_uncond_ok : forall w o, op_uncond o = true -> op_ok w o = true.
Proof. intros w o H. destruct o; try reflexivity; discriminate H. Qed.

Corollary exec_step_preserves_inv_uncond : forall w o, world_inv w -> op_uncond o = true ->
  world_inv (fst (exec_step w (SAll o))) /\ forall r, world_inv (fst (exec_step w (SOne r o))).
Proof.
  intros w o Hw H. split; [|intros r]; apply exec_step_preserves_inv; try exact Hw;
    cbn [step_ok]; apply op_uncond_ok; exact H.
Qed.

(** * 10. Every reachable state *)

(* a run of the driver (harness/driver.ml): script steps, and the two world settings the driver
   applies between steps *)
Inductive cmd := CStep (s : step) | CStrict (b : bool) | CMoveUnit (u : Z).

Definition run_cmd (w : world) (c : cmd) : world :=
  match c with
  | CStep s => fst (exec_step w s)
  | CStrict b => set_strict w b
  | CMoveUnit u => set_move_unit w u
  end.

Definition cmd_ok (w : world) (c : cmd) : bool :=
  match c with CStep s => step_ok w s | CStrict _ => true | CMoveUnit u => 1 <=? u end.

Definition run (w : world) (cs : list cmd) : world := fold_left run_cmd cs w.

Fixpoint run_ok (w : world) (cs : list cmd) : bool :=
  match cs with [] => true | c :: r => cmd_ok w c && run_ok (run_cmd w c) r end.

Lemma world0_inv : forall n, 1 <= n -> world_inv (world0 n).
Proof.
  intros n Hn. unfold world_inv, world0. cbn [w_nprocs w_move_unit w_hints w_files].
  split; [exact Hn|]. split; [unfold MOVE_UNIT; lia|]. split; [apply align_ok_no_align|].
  split; [intros i j f g H; cbn [znth] in H; discriminate H|].
  intros i f H. cbn [znth] in H. discriminate H.
Qed.

Lemma run_cmd_inv : forall w c, world_inv w -> cmd_ok w c = true -> world_inv (run_cmd w c).
Proof.
  intros w c Hw Hok. destruct c as [s|b|u]; cbn [run_cmd cmd_ok] in *.
  - apply exec_step_preserves_inv; assumption.
  - exact Hw.
  - apply world_inv_set_move_unit; [exact Hw|lia].
Qed.

Lemma run_inv : forall cs w, world_inv w -> run_ok w cs = true -> world_inv (run w cs).
Proof.
  induction cs as [|c cs IH]; intros w Hw Hok; [exact Hw|].
  cbn [run_ok] in Hok. apply andb_true_iff in Hok. destruct Hok as [H1 H2].
  unfold run. cbn [fold_left]. apply IH; [apply run_cmd_inv; assumption|exact H2].
Qed.

(** every state reachable from the initial world by a run that respects the contract *)
Theorem reachable_inv : forall n cs, 1 <= n -> run_ok (world0 n) cs = true ->
  world_inv (run (world0 n) cs).
Proof. intros n cs Hn Hok. apply run_inv; [apply world0_inv; exact Hn|exact Hok]. Qed.

(* the plain fold of exec_step over a list of steps *)
Corollary reachable_inv_steps : forall n steps, 1 <= n ->
  run_ok (world0 n) (map CStep steps) = true ->
  world_inv (fst (fold_left (fun (acc : world * list obs) s => exec_step (fst acc) s) steps (world0 n, []))).
Proof.
  intros n steps Hn Hok.
  assert (E : forall steps w out,
             fst (fold_left (fun (acc : world * list obs) s => exec_step (fst acc) s) steps (w, out)) =
             run w (map CStep steps)).
  { clear. induction steps as [|s steps IH]; intros w out; [reflexivity|].
    cbn [fold_left map fst]. unfold run. cbn [fold_left run_cmd].
    destruct (exec_step w s) as [w' o'] eqn:Es. rewrite (IH w' o'). reflexivity. }
  rewrite E. apply reachable_inv; assumption.
Qed.

(** * 11. Corollaries: the one-step theorems, in every reachable state *)

(* C03: the header in the file is the header in memory *)
(** In any world satisfying the invariant, for every open file in data mode whose header is
    encodable (wf_hdr: format 1/2/5, every count, size, numrecs and begin fits its field): the
    first hdr_len bytes of the file are exactly the encoded in-memory header, and every prefix
    of at least that length decodes (HeaderSpec.decode, the grammar decoder) to the in-memory
    header content. *)
Theorem inv_header_on_disk : forall w id f,
  world_inv w -> znth (w_files w) id None = Some f -> f_tainted f = false -> f_indef f = false ->
  wf_hdr (f_hdr f) = true ->
  hdr_on_disk w f /\
  forall m, hdr_len (f_hdr f) <= m ->
    decode (dk_read (disk_of w f) 0 m) = Some (decoded_of (f_hdr f)) /\
    dc_hdr (decoded_of (f_hdr f)) = hdr_content (f_hdr f).
Proof.
  intros w id f Hw Hz Ht Hindef Hwf.
  pose proof (file_inv_of_znth w id f Hw Hz Ht) as (_ & _ & _ & _ & Hm). rewrite Hindef in Hm.
  destruct Hm as (_ & _ & (_ & _ & _ & _ & L5)). destruct (L5 Hwf) as (D1 & D2 & D3).
  split; [split; [exact D1|split; [exact D2|exact D3]]|].
  intros m Hm. split; [|reflexivity]. apply header_prefix_decodes; assumption.
Qed.

Theorem reachable_header_on_disk : forall n cs id f,
  1 <= n -> run_ok (world0 n) cs = true ->
  let w := run (world0 n) cs in
  znth (w_files w) id None = Some f -> f_tainted f = false -> f_indef f = false ->
  wf_hdr (f_hdr f) = true ->
  dk_read (disk_of w f) 0 (hdr_len (f_hdr f)) = encode_header (f_hdr f) /\
  forall m, hdr_len (f_hdr f) <= m ->
    exists dc, decode (dk_read (disk_of w f) 0 m) = Some dc /\ dc_hdr dc = hdr_content (f_hdr f).
Proof.
  intros n cs id f Hn Hok w Hz Ht Hindef Hwf.
  destruct (inv_header_on_disk w id f (reachable_inv n cs Hn Hok) Hz Ht Hindef Hwf) as [(_ & _ & D3) Hdec].
  split; [exact D3|]. intros m Hm. destruct (Hdec m Hm) as [E1 E2].
  exists (decoded_of (f_hdr f)). split; assumption.
Qed.

(* C03 / C15: where the variables lie *)
Lemma set_begins_self : forall h, set_begins h (map v_begin (h_vars h)) = h.
Proof.
  intros [fmt nr dims gatts vars]. unfold set_begins. cbn [h_format h_numrecs h_dims h_gatts h_vars].
  f_equal. induction vars as [|v vars IH]; [reflexivity|].
  cbn [map zip fst snd]. rewrite IH. destruct v; reflexivity.
Qed.

(** In any world satisfying the invariant, for every open file in data mode: the layout
    invariant of Proofs_Layout holds of the file's layout; every variable begins at or after the
    header; HeaderSpec.layout_ok holds of the in-memory header (fixed variables in definition
    order, 4-byte aligned, pairwise disjoint, after the header; record variables after the fixed
    section, pairwise disjoint inside a record); two fixed variables are disjoint and every fixed
    variable ends at or before begin_rec, where the record variables start. *)
Theorem inv_layout : forall w id f,
  world_inv w -> znth (w_files w) id None = Some f -> f_tainted f = false -> f_indef f = false ->
  let h := f_hdr f in let lay := f_lay f in
  lay_inv (t3of h) (lay_core lay) /\ (h_vars h <> [] -> lay_inv (t3of h) lay) /\
  layout_ok h (hdr_len h) = true /\
  (forall i, 0 <= i < Zlen (h_vars h) -> hdr_len h <= v_begin (znth (h_vars h) i dv)) /\
  (forall i j, 0 <= i -> i < j -> j < Zlen (h_vars h) ->
     is_recvar (h_dims h) (znth (h_vars h) i dv) = false ->
     is_recvar (h_dims h) (znth (h_vars h) j dv) = false ->
     v_begin (znth (h_vars h) i dv) + var_len (h_dims h) (znth (h_vars h) i dv)
       <= v_begin (znth (h_vars h) j dv)) /\
  (forall i, 0 <= i < Zlen (h_vars h) ->
     if is_recvar (h_dims h) (znth (h_vars h) i dv)
     then l_begin_rec lay <= v_begin (znth (h_vars h) i dv)
     else v_begin (znth (h_vars h) i dv) + var_len (h_dims h) (znth (h_vars h) i dv) <= l_begin_rec lay).
Proof.
  intros w id f Hw Hz Ht Hindef h lay.
  pose proof (file_inv_of_znth w id f Hw Hz Ht) as (_ & (G1 & _ & _) & _ & _ & Hm). rewrite Hindef in Hm.
  destruct Hm as (_ & _ & O3). pose proof O3 as (L1 & L2 & L3 & L4 & _). fold h lay in L1, L2, L3, L4, G1, O3.
  split; [exact L1|]. split; [exact L2|].
  assert (Hcases : h_vars h = [] \/ h_vars h <> []) by (destruct (h_vars h); [left; reflexivity|right; discriminate]).
  destruct Hcases as [Hnil|Hne].
  { split; [unfold layout_ok; rewrite Hnil; reflexivity|].
    rewrite Hnil, Zlen_nil. repeat split; intros; lia. }
  pose proof (L2 Hne) as Hinv.
  split.
  { pose proof (lay_inv_layout_ok h lay (wf_t3of h G1) Hinv) as Hlo.
    rewrite <- L3, set_begins_self, L4 in Hlo. exact Hlo. }
  split; [intros i Hi; apply (var_begin_ge_hdr _ h lay i O3 G1 Hi)|].
  destruct (lay_inv_places h lay G1 Hinv L3) as [P1 P2].
  split; [exact P2|intros i Hi; exact (proj2 (P1 i Hi))].
Qed.

Theorem reachable_layout_ok_all : forall n cs id f,
  1 <= n -> run_ok (world0 n) cs = true ->
  let w := run (world0 n) cs in
  znth (w_files w) id None = Some f -> f_tainted f = false -> f_indef f = false ->
  layout_ok (f_hdr f) (hdr_len (f_hdr f)) = true /\
  (forall i, 0 <= i < Zlen (h_vars (f_hdr f)) ->
     hdr_len (f_hdr f) <= v_begin (znth (h_vars (f_hdr f)) i dv)) /\
  (h_vars (f_hdr f) <> [] -> lay_inv (t3of (f_hdr f)) (f_lay f)).
Proof.
  intros n cs id f Hn Hok w Hz Ht Hindef.
  destruct (inv_layout w id f (reachable_inv n cs Hn Hok) Hz Ht Hindef) as (_ & L2 & L3 & L4 & _).
  split; [exact L3|]. split; [exact L4|exact L2].
Qed.

(* C01: put then get *)
(** the layout hypotheses of put_accepted / get_accepted are supplied by the invariant: what
    remains are the interpreter's own (boolean) checks and the ndims contract of the arrays *)
Lemma inv_acc_geom_wf : forall w id f isput coll a,
  world_inv w -> znth (w_files w) id None = Some f -> f_tainted f = false ->
  sanity f isput true coll a = NC_NOERR ->
  0 <= f_slot f < Zlen (w_disks w) /\ wf_geom (acc_geom f a) /\ rec_fits (acc_geom f a).
Proof.
  intros w id f isput coll a Hw Hz Ht Hsan.
  pose proof (file_inv_of_znth w id f Hw Hz Ht) as Hf.
  destruct (sanity_ok_modes f isput coll a Hsan) as (_ & Hindef & _ & Hvar).
  split; [exact (proj1 Hf)|]. exact (proj2 (proj2 (proj2 (file_ok_var _ _ _ f (ac_var a) Hf Hindef Hvar)))).
Qed.

Theorem inv_put_get : forall w id f rank a r w'' obs rank2 coll2 a2,
  world_inv w -> znth (w_files w) id None = Some f -> f_tainted f = false ->
  (* the put, as the interpreter checks it *)
  sanity f true true false a = NC_NOERR ->
  check_request w f rank false a = (NC_NOERR, Some [r]) ->
  iomismatch a [r] = false ->
  form_lengths (ac_form a) (length (g_shape (acc_geom f a))) ->
  indep_put w id f rank a = (w'', obs) ->
  let f' := indep_numrecs f rank (put_newrecs f a r) in
  (* the get of the same request, as the interpreter checks it *)
  ac_var a2 = ac_var a ->
  sanity f' false true coll2 a2 = NC_NOERR ->
  check_request w'' f' rank2 true a2 = (NC_NOERR, Some [r]) ->
  ac_buf a2 = BTyped -> ac_memt a2 = acc_xt f' a2 ->
  form_lengths (ac_form a2) (length (g_shape (acc_geom f' a2))) ->
  world_inv w'' /\ znth (w_files w'') id None = Some f' /\
  get_rank_op w'' f' rank2 coll2 a2 =
  (NC_NOERR,
   [THex (guard_bytes ++
          flat_map (fun k => mem_of_be (put_elem a (acc_xt f a) k)) (zrange 0 (nelems_of r)) ++
          guard_bytes)]).
Proof.
  intros w id f rank a r w'' obs rank2 coll2 a2 Hw Hz Ht Hsan Hchk Hio Hfl Hip f' Hv Hsan2 Hchk2 Hb2 Hm2 Hfl2.
  destruct (inv_acc_geom_wf w id f true false a Hw Hz Ht Hsan) as (Hs & Hwg & Hfit).
  assert (Hacc : put_accepted w f rank false a r)
    by exact (conj Hs (conj Hsan (conj Hchk (conj Hio (conj Hfl (conj Hwg Hfit)))))).
  assert (Hpa : put_acc_ok f a = true).
  { unfold put_acc_ok. destruct (sanity_ok_modes f true false a Hsan) as (_ & _ & _ & Hvar).
    replace ((ac_var a <? 0) || (ac_var a >=? Zlen (h_vars (f_hdr f)))) with false by lia.
    cbn [orb]. rewrite g_shape_acc_geom in Hfl. unfold var_shape in Hfl. rewrite map_length in Hfl.
    clear -Hfl.
    destruct (ac_form a) as [|[s|]|[s|] [c|]|[s|] [c|] [t|]|s c t m|reqs]; cbn [form_lengths acc_lens_b olen] in *;
      try contradiction;
      repeat match goal with H : _ /\ _ |- _ => destruct H end;
      repeat (apply andb_true_iff; split); try reflexivity; apply Nat.eqb_eq; assumption. }
  destruct (indep_put_inv w id f rank a Hw Hz Ht Hpa) as (Hw'' & _). rewrite Hip in Hw''. cbn [fst] in Hw''.
  destruct (acc_geom_indep_numrecs f rank (put_newrecs f a r) a2) as (Eg & _).
  assert (Hget : get_accepted w'' f' rank2 coll2 a2 r).
  { split; [exact Hsan2|]. split; [exact Hchk2|]. split; [exact Hb2|]. split; [exact Hm2|].
    split; [exact Hfl2|]. unfold f'. rewrite Eg.
    assert (Hsan2' : sanity f false true coll2 a2 = NC_NOERR).
    { revert Hsan2. unfold f', sanity, indep_numrecs.
      destruct (put_newrecs f a r) as [nn|]; [|exact (fun x => x)].
      destruct (rk_numrecs (get_rank f rank) <? nn); exact (fun x => x). }
    exact (proj1 (proj2 (inv_acc_geom_wf w id f false coll2 a2 Hw Hz Ht Hsan2'))). }
  destruct (indep_put_then_get w id f rank a r w'' obs rank2 coll2 a2 Hacc Hz Hip Hv Hget) as [Hz'' Hres].
  split; [exact Hw''|]. split; [exact Hz''|exact Hres].
Qed.

Theorem reachable_put_get : forall n cs id f rank a r w'' obs rank2 coll2 a2,
  1 <= n -> run_ok (world0 n) cs = true ->
  let w := run (world0 n) cs in
  znth (w_files w) id None = Some f -> f_tainted f = false ->
  sanity f true true false a = NC_NOERR ->
  check_request w f rank false a = (NC_NOERR, Some [r]) ->
  iomismatch a [r] = false ->
  form_lengths (ac_form a) (length (g_shape (acc_geom f a))) ->
  indep_put w id f rank a = (w'', obs) ->
  let f' := indep_numrecs f rank (put_newrecs f a r) in
  ac_var a2 = ac_var a ->
  sanity f' false true coll2 a2 = NC_NOERR ->
  check_request w'' f' rank2 true a2 = (NC_NOERR, Some [r]) ->
  ac_buf a2 = BTyped -> ac_memt a2 = acc_xt f' a2 ->
  form_lengths (ac_form a2) (length (g_shape (acc_geom f' a2))) ->
  get_rank_op w'' f' rank2 coll2 a2 =
  (NC_NOERR,
   [THex (guard_bytes ++
          flat_map (fun k => mem_of_be (put_elem a (acc_xt f a) k)) (zrange 0 (nelems_of r)) ++
          guard_bytes)]).
Proof.
  intros n cs id f rank a r w'' obs rank2 coll2 a2 Hn Hok w Hz Ht H1 H2 H3 H4 H5 f' H6 H7 H8 H9 H10 H11.
  exact (proj2 (proj2 (inv_put_get w id f rank a r w'' obs rank2 coll2 a2 (reachable_inv n cs Hn Hok)
                         Hz Ht H1 H2 H3 H4 H5 H6 H7 H8 H9 H10 H11))).
Qed.

(* C06: redef ... enddef preserves the data *)
(** In any world satisfying the invariant, for every file in define mode after a redef (whatever
    was defined since): a successful enddef leaves every byte of every variable of the header
    saved at redef at its new place with its old value - for every number of processes, move
    unit, alignment and fill mode - and the invariant holds again. *)
Theorem inv_redef_preserves : forall w id f ea oh ol w',
  world_inv w -> znth (w_files w) id None = Some f -> f_tainted f = false ->
  f_indef f = true -> f_old f = Some (oh, ol) ->
  do_enddef w id f ea = Some (w', NC_NOERR) ->
  world_inv w' /\
  exists lay,
    znth (w_files w') id None = Some (enddef_file f lay) /\
    (wf_hdr (enddef_hdr f lay) = true ->
     let d0 := get_disk w (f_slot f) in
     let d3 := get_disk w' (f_slot f) in
     forall i, 0 <= i < Zlen (h_vars oh) ->
       let ov := znth (h_vars oh) i dv in
       let len := var_len (h_dims oh) ov in
       let ob := znth (l_begins ol) i 0 in
       let nb := znth (l_begins lay) i 0 in
       (is_recvar (h_dims oh) ov = false ->
          forall o, 0 <= o < len -> dk_get d3 (nb + o) = dk_get d0 (ob + o)) /\
       (is_recvar (h_dims oh) ov = true ->
          nb - l_begin_rec lay = ob - l_begin_rec ol /\
          forall r o, 0 <= r < h_numrecs oh -> 0 <= o < len ->
            (ob - l_begin_rec ol) + o < l_recsize ol ->
            dk_get d3 (nb + r * l_recsize lay + o) = dk_get d0 (ob + r * l_recsize ol + o))).
Proof.
  intros w id f ea oh ol w' Hw Hz Ht Hindef Hold Hed.
  split; [exact (proj1 (do_enddef_inv w id f ea w' NC_NOERR Hw Hz Ht Hed))|].
  pose proof (znth_some_range _ _ _ Hz) as Hid.
  pose proof Hw as (Hnp & Hmu & _).
  pose proof (file_inv_of_znth w id f Hw Hz Ht) as (Hslot & (G1 & G2 & G3) & (A1 & A2 & A3) & _ & Hm).
  rewrite Hindef, Hold in Hm. destruct Hm as (_ & _ & O1 & O2 & O3 & (L1 & L2 & _) & O5 & O6).
  assert (Hnr : enddef_numrecs f = h_numrecs oh) by (unfold enddef_numrecs; rewrite O1; exact O6).
  destruct (h_vars oh) as [|v0 vs0] eqn:Evars.
  - destruct (redef_enddef_inv w id f ea oh ol w' Hindef Hold Hed) as (_ & _ & _ & lay & _ & _ & _ & _ & _ & Ew).
    exists lay. split; [rewrite Ew; apply znth_put_set_same; exact Hid|].
    intros _ d0 d3 i Hi. rewrite Zlen_nil in Hi. lia.
  - assert (Hne : h_vars oh <> []) by (rewrite Evars; discriminate).
    rewrite <- Evars in *.
    destruct (redef_enddef_run_preserves w id f ea oh ol w' Hindef Hold ltac:(rewrite O2; reflexivity)
                G1 A1 A2 A3 (L2 Hne) O5 Hnp Hmu ltac:(rewrite Hnr; unfold hdr_good in O3; lia) Hslot Hid Hed)
      as (lay & Hz' & _ & Hdisk).
    exists lay. split; [exact Hz'|]. intros Hwfh. cbv zeta. rewrite <- Hnr.
    exact (proj2 (Hdisk Hwfh)).
Qed.

Theorem reachable_redef_preserves : forall n cs id f ea oh ol w',
  1 <= n -> run_ok (world0 n) cs = true ->
  let w := run (world0 n) cs in
  znth (w_files w) id None = Some f -> f_tainted f = false ->
  f_indef f = true -> f_old f = Some (oh, ol) ->
  do_enddef w id f ea = Some (w', NC_NOERR) ->
  exists lay,
    znth (w_files w') id None = Some (enddef_file f lay) /\
    (wf_hdr (enddef_hdr f lay) = true ->
     forall i, 0 <= i < Zlen (h_vars oh) ->
       let ov := znth (h_vars oh) i dv in
       (is_recvar (h_dims oh) ov = false ->
          forall o, 0 <= o < var_len (h_dims oh) ov ->
            dk_get (get_disk w' (f_slot f)) (znth (l_begins lay) i 0 + o) =
            dk_get (get_disk w (f_slot f)) (znth (l_begins ol) i 0 + o)) /\
       (is_recvar (h_dims oh) ov = true ->
          forall r o, 0 <= r < h_numrecs oh -> 0 <= o < var_len (h_dims oh) ov ->
            (znth (l_begins ol) i 0 - l_begin_rec ol) + o < l_recsize ol ->
            dk_get (get_disk w' (f_slot f)) (znth (l_begins lay) i 0 + r * l_recsize lay + o) =
            dk_get (get_disk w (f_slot f)) (znth (l_begins ol) i 0 + r * l_recsize ol + o))).
Proof.
  intros n cs id f ea oh ol w' Hn Hok w Hz Ht Hindef Hold Hed.
  destruct (inv_redef_preserves w id f ea oh ol w' (reachable_inv n cs Hn Hok) Hz Ht Hindef Hold Hed)
    as (_ & lay & Hz' & H).
  exists lay. split; [exact Hz'|]. intros Hwfh i Hi. cbv zeta in H |- *.
  destruct (H Hwfh i Hi) as [P1 P2]. split; [exact P1|].
  intros Hk. exact (proj2 (P2 Hk)).
Qed.

(** * 12. The open contract is met by every file the model itself closed *)

Lemma hdr_good_content : forall h, hdr_good h -> hdr_good (hdr_content h).
Proof.
  intros h Hg. apply (hdr_good_key h (hdr_content h) Hg); try reflexivity.
  unfold hdr_content. cbn [h_vars]. rewrite map_map. reflexivity.
Qed.

(* a record variable the guards accept is not empty *)
Lemma rec_var_len_pos : forall h v, hdr_good h -> In v (rec_vars h) -> 0 < var_len (h_dims h) v.
Proof.
  intros h v (G1 & G2 & _) Hin. unfold rec_vars in Hin. apply filter_In in Hin. destruct Hin as [Hin Hrec].
  rewrite Forall_forall in G2. destruct (var_good_geom _ v G1 (G2 v Hin)) as [Hx Hdw].
  pose proof (var_len_unpadded (h_dims h) v) as [[Hu _] _].
  unfold unpadded, var_nelems_per_rec in Hu. unfold is_recvar in Hrec. unfold dims_wf in Hdw.
  destruct (var_shape (h_dims h) v) as [|s0 ss]; [discriminate Hrec|]. rewrite Hrec in Hu.
  destruct Hdw as [_ Hss]. pose proof (Proofs_Lists.zprod_pos ss Hss). nia.
Qed.

(** the disk of a file in data mode with an encodable header below 64 KiB passes the validation
    of open, also after the truncation close applies to a file without variables *)
Lemma open_ok_of_data_ok : forall d d' h lay,
  hdr_good h -> data_ok d h lay -> wf_hdr h = true -> hdr_len h <= 65536 ->
  dk_exists d' = true -> hdr_len h <= dk_size d' ->
  dk_read d' 0 (hdr_len h) = encode_header h ->
  open_ok d' = true.
Proof.
  intros d d' h lay Hg (L1 & L2 & L3 & L4 & _) Hwf Hsmall D1 D2 D3.
  pose proof Hg as (G1 & _).
  unfold open_ok. rewrite D1. cbn [negb orb].
  rewrite (open_decodes_header d' h Hwf D3 D2 Hsmall). cbv zeta.
  change (dc_hdr (decoded_of h)) with (hdr_content h).
  change (dc_len (decoded_of h)) with (Zlen (encode_header h)).
  rewrite <- (hdr_len_encode h Hwf), hdr_len_content, wf_hdr_content, Hwf, t3of_content.
  rewrite (proj2 (hdr_good_b_iff _) (hdr_good_content h Hg)), Z.eqb_refl.
  replace (hdr_len h <=? dk_size d') with true by lia.
  rewrite D3, encode_header_content, bytes_eqb_refl. cbn [andb].
  rewrite layout_of_hdr_content.
  assert (Hcases : h_vars h = [] \/ h_vars h <> []) by (destruct (h_vars h); [left; reflexivity|right; discriminate]).
  destruct Hcases as [Hnil|Hne].
  - assert (Et : t3of h = []) by (unfold t3of; rewrite Hnil; reflexivity).
    unfold hdr_content. cbn [h_vars]. rewrite Hnil. cbn [map]. rewrite andb_true_r.
    unfold layout_of_hdr. rewrite Hnil. cbv zeta. cbn [filter]. rewrite Et.
    unfold lay_inv_b, lay_core. cbn [l_xsz l_begin_var l_begin_rec l_recsize l_begins map sel length
      begins_increasing last_end contig_b Nat.eqb andb].
    replace (Z.min (hdr_len h) 0 <=? 0) with true by lia. reflexivity.
  - pose proof (L2 Hne) as Hinv.
    destruct (layout_of_hdr_agrees h lay G1 Hinv L3 Hne (fun v Hv => rec_var_len_pos h v Hg Hv)) as [_ Hinv'].
    rewrite L4 in Hinv'.
    rewrite (proj2 (lay_inv_b_iff _ _) (lay_inv_core _ _ Hinv')), (proj2 (lay_inv_b_iff _ _) Hinv'). cbn [andb].
    unfold hdr_content. cbn [h_vars]. destruct (h_vars h); [contradiction|reflexivity].
Qed.

Lemma slot_free_after_remove : forall w id f x, world_inv w -> znth (w_files w) id None = Some f ->
  slot_free (put_file (set_disk w (f_slot f) x) id None) (f_slot f) = true.
Proof.
  intros w id f x (_ & _ & _ & Hdist & _) Hz. pose proof (znth_some_range _ _ _ Hz) as Hid.
  unfold slot_free. apply forallb_forall. intros o Ho.
  destruct (In_znth _ o None Ho) as (j & Hj & Ej).
  destruct o as [g|]; [|reflexivity].
  destruct (Z.eq_dec j id) as [E|E].
  - subst j. rewrite znth_put_set_same in Ej by exact Hid. discriminate Ej.
  - rewrite znth_put_file_other in Ej by lia. rewrite w_files_set_disk in Ej.
    destruct (Z.eqb_spec (f_slot g) (f_slot f)) as [Es|Es]; [|reflexivity].
    exfalso. apply E. exact (Hdist j id g f Ej Hz Es).
Qed.

(** close; open: in every reachable state, closing a file (data mode, no numrecs sync pending)
    whose header is encodable and below 64 KiB leaves a world in which the open of its slot
    satisfies the contract op_ok - so reopening what the model wrote is always covered. *)
Theorem inv_close_open_ok : forall w id f mode,
  world_inv w -> znth (w_files w) id None = Some f -> f_tainted f = false ->
  f_indef f = false -> negb (f_rdonly f) && f_indep f = false ->
  wf_hdr (f_hdr f) = true -> hdr_len (f_hdr f) <= 65536 ->
  do_close w id f = Some (close_world w id f, close_obs w f) /\
  world_inv (close_world w id f) /\
  op_ok (close_world w id f) (OOpen (f_slot f) mode) = true.
Proof.
  intros w id f mode Hw Hz Ht Hindef Hsync Hwf Hsmall.
  pose proof (do_close_data_eq w id f Hindef Hsync Hz) as Ec.
  split; [exact Ec|].
  destruct (do_close_frame w id f _ _ Hz Ec) as [Fr Hn].
  split; [exact (inv_remove w _ id f Hw Hz Fr Hn)|].
  pose proof (file_inv_of_znth w id f Hw Hz Ht) as (Hslot & Hg & _ & _ & Hm).
  rewrite Hindef in Hm. destruct Hm as (_ & _ & O3).
  pose proof O3 as (_ & _ & _ & L4 & L5).
  destruct (close_disk_header w f (L5 Hwf) L4) as (C1 & C2 & C3).
  assert (Ed : get_disk (close_world w id f) (f_slot f) = close_disk w f).
  { unfold close_world. apply get_disk_put_set_same. exact Hslot. }
  cbn [op_ok]. rewrite Ed, C1. cbn [negb orb].
  rewrite !andb_true_iff. split; [split|].
  - unfold slot_in_range, close_world. rewrite w_disks_put_file, Zlen_w_disks_set_disk. lia.
  - unfold close_world. apply slot_free_after_remove; assumption.
  - exact (open_ok_of_data_ok (disk_of w f) (close_disk w f) (f_hdr f) (f_lay f) Hg O3 Hwf Hsmall C1 C2 C3).
Qed.
