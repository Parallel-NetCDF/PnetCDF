(* Proofs_Nonblocking.v — C02: assembly of the results about Nonblocking.v.
   Part 1 (F3 statuses, F3 frame, F1 number of records, F2 reads): the statements that are FALSE of
   the faithful model, each kept visible as `Definition X_full : Prop`, refuted by a concrete history
   (the witness, replayed on the real library by checks/C02.py, is a finding: F1, F2, F3), and the
   numrecs lemma that does hold.
   Part 2a: the aggregation moves exactly the bytes of the blocking calls (the geometric hypotheses
            of Proofs_NbSegs closed with Proofs_NbGeom).
   Part 2b: a wait refines the blocking calls.
   Part 2c: the queue invariant over whole histories; with it status_own and wait_subset_frame,
            refuted in part 1 for fx = false, hold in full for the repaired variant (fx = true).
   Part 2d: a failed wait is not without effect for fx = false, and is for fx = true.
   Part 2e: numrecs after a wait.
   Part 2f: collective wait of several processes.
   Part 2g: offsets of any magnitude; a comparator that truncates the offset difference to 32 bits
            is no order. *)
(* Proofs_Abuf comes first: its example state ex_st would otherwise hide the field ex_st of extract_reqs *)
From Pnc Require Import Proofs_Abuf NbSpec Proofs_Lists Proofs_NbGeom Proofs_NbSegs Proofs_NbWait Proofs_NbQueue.
Require Import Lia ZArith List Bool.
Import ListNotations.
Local Open Scope Z_scope.

(* the states reachable from the initial state by accepted posts, waits and cancels, with the concrete
   (stable insertion) sort *)
Definition reach (fx : bool) (ops : list nbop) : nbstate * disk :=
  nb_run isort_reqs isort_segs fx (init_state, empty_disk) ops.

(* two variables of a CDF file: a fixed int a[4] at 512, a record variable int b[t][4] at 528, recsize 16 *)
Definition gA : geom := mkgeom 512 4 [4] 16 1.
Definition gB : geom := mkgeom 528 4 [0; 4] 16 1.

Lemma post_ok_gA : forall s c, 0 <= s -> 0 <= c -> (c = 0 \/ s + (c - 1) * 1 < 4) -> post_ok gA [s] [c] None.
Proof.
  intros s c Hs Hc Hb. unfold post_ok, wf_geom, rec_fits, rec_packed, dims_wf, gA. cbn.
  repeat split; try lia; try discriminate; auto.
Qed.
Lemma post_ok_gB : forall r, 0 <= r -> post_ok gB [r; 0] [1; 4] None.
Proof.
  intros r Hr. unfold post_ok, wf_geom, rec_fits, rec_packed, dims_wf, gB. cbn.
  repeat split; try lia; auto.
  repeat constructor; lia.
Qed.

(* F3: statuses *)
(* full statement: the status pointer of every completed request is the slot of a position that names it *)
Definition status_own_full (fx : bool) : Prop :=
  forall ops ids stat0, Forall nbop_ok ops -> Zlen stat0 = Zlen ids ->
    let st := fst (reach fx ops) in
    let ex := extract_reqs fx st (Zlen ids) ids true stat0 in
    ex_err ex = NC_NOERR ->
    forall l i, In l (put_lead (ex_st ex) ++ get_lead (ex_st ex)) -> l_to_free l = true ->
                l_status l = Some i -> znth ids i NC_REQ_NULL = l_id l.

Definition two_puts : list nbop :=
  [NPostM KIput gA [0] [2] None 1000 [1;1;1;1;2;2;2;2] false 0;
   NPostM KIput gA [2] [2] None 2000 [3;3;3;3;4;4;4;4] false 1].
Lemma two_puts_ok : Forall nbop_ok two_puts.
Proof. apply Forall_cons; [|apply Forall_cons; [|apply Forall_nil]]; cbn [nbop_ok]; apply post_ok_gA; lia. Qed.

(* witness: two pending puts (ids 0 and 2) named in the order [2; 0]: the number of ids equals the number
   of pending puts and no get is pending, so extract_reqs takes the "same as NC_PUT_REQ_ALL" shortcut
   and binds statuses[0] to the request with id 0 although req_ids[0] = 2 *)
Theorem status_own_old_refuted : ~ status_own_full false.
Proof.
  intro H.
  specialize (H two_puts [2; 0] [-99; -99] two_puts_ok eq_refl).
  cbv zeta in H.
  set (ex := extract_reqs false (fst (reach false two_puts)) (Zlen [2; 0]) [2; 0] true [-99; -99]) in H.
  assert (C : znth [2; 0] 0 NC_REQ_NULL = l_id (hd dummy_lead (put_lead (ex_st ex)))).
  { apply H; vm_compute; [reflexivity | left; reflexivity | reflexivity | reflexivity]. }
  vm_compute in C. discriminate C.
Qed.

(* F3: frame *)
(* full statement: a request whose id is not passed to the wait stays pending *)
Definition wait_subset_frame_full (fx : bool) : Prop :=
  forall ops a file, Forall nbop_ok ops -> wa_n a = Zlen (wa_ids a) ->
    let st := fst (reach fx ops) in
    let r := fst (wait_one isort_reqs isort_segs fx st a file) in
    wr_rc r = NC_NOERR ->
    forall l, In l (put_lead st ++ get_lead st) -> ~ In (l_id l) (wa_ids a) ->
              In (l_id l) (map l_id (put_lead (wr_st r) ++ get_lead (wr_st r))).

(* witness: two pending puts, wait(2, [NC_REQ_NULL; 0]): the request with id 2 is completed too *)
Theorem wait_subset_frame_old_refuted : ~ wait_subset_frame_full false.
Proof.
  intro H.
  pose (a := mkwa 2 [NC_REQ_NULL; 0] true [-99; -99]).
  specialize (H two_puts a empty_disk two_puts_ok eq_refl).
  cbv zeta in H.
  set (r := fst (wait_one isort_reqs isort_segs false (fst (reach false two_puts)) a empty_disk)) in H.
  assert (C : In (l_id (znth (put_lead (fst (reach false two_puts))) 1 dummy_lead))
                 (map l_id (put_lead (wr_st r) ++ get_lead (wr_st r)))).
  { apply H.
    - vm_compute. reflexivity.
    - vm_compute. right. left. reflexivity.
    - vm_compute. intros [X | [X | X]]; [discriminate X | discriminate X | exact X]. }
  vm_compute in C. exact C.
Qed.

(* F1: number of records *)
Definition fixed_then_record : list nbop :=
  [NPostM KIput gA [0] [4] None 1000 [0;0;0;1;0;0;0;2;0;0;0;3;0;0;0;4] false 0;
   NPostM KIput gB [5; 0] [1; 4] None 2000 [0;0;0;5;0;0;0;6;0;0;0;7;0;0;0;8] false 1].
Lemma fixed_then_record_ok : Forall nbop_ok fixed_then_record.
Proof.
  apply Forall_cons; [|apply Forall_cons; [|apply Forall_nil]]; cbn [nbop_ok]; [apply post_ok_gA; lia | apply post_ok_gB; lia].
Qed.

Lemma fold_max_ge_init : forall (l : list lead) (f : lead -> bool) m,
  m <= fold_left (fun m x => if f x then Z.max m (l_max_rec x) else m) l m.
Proof.
  induction l as [|x l IH]; intros f m; cbn [fold_left]; [lia|].
  destruct (f x); [specialize (IH f (Z.max m (l_max_rec x))); lia | apply IH].
Qed.
Lemma fold_max_ge_elem : forall (l : list lead) (f : lead -> bool) m x,
  In x l -> f x = true -> l_max_rec x <= fold_left (fun m x => if f x then Z.max m (l_max_rec x) else m) l m.
Proof.
  induction l as [|y l IH]; intros f m x Hin Hf; [destruct Hin|].
  cbn [fold_left]. destruct Hin as [E | Hin].
  - subst y. rewrite Hf. pose proof (fold_max_ge_init l f (Z.max m (l_max_rec x))). lia.
  - apply IH; assumption.
Qed.

(* the loop of req_commit covers every flagged request on a record variable and never lowers numrecs *)
Theorem newnumrecs_covers_flagged : forall st l,
  In l (put_lead st) -> l_to_free l = true -> g_isrec (l_geom l) = true ->
  l_max_rec l <= newnumrecs_loop st /\ st_numrecs st <= newnumrecs_loop st.
Proof.
  intros st l Hin Hf Hr. unfold newnumrecs_loop. split.
  - apply (fold_max_ge_elem (put_lead st) (fun l => g_isrec (l_geom l) && l_to_free l)); [exact Hin|].
    rewrite Hr, Hf. reflexivity.
  - apply (fold_max_ge_init (put_lead st) (fun l => g_isrec (l_geom l) && l_to_free l)).
Qed.

(* the loop as it was before fix 186ba92c in /repo: it inspected the first num_w_lead_reqs (= the NUMBER of
   requests being completed) entries of the queue.  Kept to show what the present statement excludes. *)
Definition newnumrecs_loop_old (st : nbstate) (nwl : Z) : Z :=
  fold_left (fun m l => if g_isrec (l_geom l) && l_to_free l then Z.max m (l_max_rec l) else m)
            (zfirstn nwl (put_lead st)) (st_numrecs st).
Definition newnumrecs_old_covers_flagged_full (fx : bool) : Prop :=
  forall ops a, Forall nbop_ok ops ->
    let ex := extract_reqs fx (fst (reach fx ops)) (wa_n a) (wa_ids a) (wa_has_stat a) (wa_stat0 a) in
    ex_err ex = NC_NOERR ->
    forall l, In l (put_lead (ex_st ex)) -> l_to_free l = true -> g_isrec (l_geom l) = true ->
              l_max_rec l <= newnumrecs_loop_old (ex_st ex) (ex_nwl ex).
(* witness (finding F1, fixed): iput on the fixed variable (id 0), iput on record 5 of the record variable (id 2),
   wait naming only id 2: the old loop inspects lead 0 (not flagged) and stops *)
Theorem newnumrecs_old_refuted : ~ newnumrecs_old_covers_flagged_full false.
Proof.
  intro H.
  pose (a := mkwa 1 [2] true [-99]).
  specialize (H fixed_then_record a fixed_then_record_ok). cbv zeta in H.
  set (ex := extract_reqs false (fst (reach false fixed_then_record)) (wa_n a) (wa_ids a) (wa_has_stat a) (wa_stat0 a)) in H.
  assert (C : l_max_rec (znth (put_lead (ex_st ex)) 1 dummy_lead) <= newnumrecs_loop_old (ex_st ex) (ex_nwl ex)).
  { apply H; vm_compute; [reflexivity | right; left; reflexivity | reflexivity | reflexivity]. }
  vm_compute in C. apply C. reflexivity.
Qed.

(* F2: reads *)
(* full statement: the buffers of the completed gets hold what the blocking reads deliver, whatever the
   requests address (reads may overlap freely) *)
Definition wait_refines_blocking_get_full (fx : bool) : Prop :=
  forall ops a file, Forall nbop_ok ops ->
    let st := fst (reach fx ops) in
    let ex := extract_reqs fx st (wa_n a) (wa_ids a) (wa_has_stat a) (wa_stat0 a) in
    let r := fst (wait_one isort_reqs isort_segs fx st a file) in
    wr_rc r = NC_NOERR ->
    disk_eq (st_mem (wr_st r))
            (fold_left (fun m l => blocking_get file m l) (flagged (get_lead (ex_st ex))) (st_mem st)).

Definition two_gets : list nbop :=
  [NPostM KIget gA [0] [2] None 1000 [] false 0;
   NPostM KIget gA [0] [2] None 2000 [] false 1].
Lemma two_gets_ok : Forall nbop_ok two_gets.
Proof. apply Forall_cons; [|apply Forall_cons; [|apply Forall_nil]]; cbn [nbop_ok]; apply post_ok_gA; lia. Qed.

(* witness: two gets of the same two elements completed by one wait: merge_requests drops the covered
   segment of the second request, its buffer (address 2000) is never filled *)
Theorem wait_refines_blocking_get_refuted : forall fx, ~ wait_refines_blocking_get_full fx.
Proof.
  intros fx H.
  pose (a := mkwa NC_REQ_ALL [] false []).
  pose (file := dk_write empty_disk 512 [11; 12; 13; 14; 15; 16; 17; 18]).
  specialize (H two_gets a file two_gets_ok).
  cbv zeta in H.
  assert (E : wr_rc (fst (wait_one isort_reqs isort_segs fx (fst (reach fx two_gets)) a file)) = NC_NOERR)
    by (destruct fx; vm_compute; reflexivity).
  specialize (H E 2000).
  destruct fx; vm_compute in H; discriminate H.
Qed.

(* Part 2a. The aggregation moves exactly the bytes of the blocking calls *)

(* writes to pairwise disjoint byte ranges commute (general, over Disk.dk_write) *)
Definition writes_commute := disjoint_writes_commute.

(* for ANY functions qsort may be (sorted permutations), record / varn splitting, sorted or unsorted queues,
   interleaved or not: when no file byte is addressed twice the single MPI_File_write of a wait writes what
   the blocking writes of the extracted requests write *)
Theorem commit_stream_correct_write :
  forall sort_reqs sort_segs leads reqs file mem,
    sorter_ok a_start sort_reqs -> sorter_ok s_off sort_segs ->
    Forall areq_wf (map (annotate leads) reqs) ->
    NoDup (map fst (flat_map areq_pairs (map (annotate leads) reqs))) ->
    disk_eq (mpi_write file mem (aggregate sort_reqs sort_segs leads reqs))
            (write_pairs file mem (flat_map areq_pairs (map (annotate leads) reqs))).
Proof. exact (commit_stream_correct req_ftype_pairs vars_flatten_pairs vars_flatten_pos). Qed.

(* the same for ANY partition of the request list into typed groups (not only the one req_aggregation computes) *)
Theorem groups_stream_correct_write :
  forall sort_segs gs file mem,
    sorter_ok s_off sort_segs -> Forall areq_wf (flat_map snd gs) ->
    NoDup (map fst (flat_map areq_pairs (flat_map snd gs))) ->
    disk_eq (mpi_write file mem (types_of_groups sort_segs gs))
            (write_pairs file mem (flat_map areq_pairs (flat_map snd gs))).
Proof. exact (groups_stream_correct req_ftype_pairs vars_flatten_pairs vars_flatten_pos). Qed.

(* reads: PARTIAL - needs "no file byte read twice by the requests completed together" (F2) *)
Theorem commit_stream_correct_read_partial :
  forall sort_reqs sort_segs leads reqs file mem,
    sorter_ok a_start sort_reqs -> sorter_ok s_off sort_segs ->
    Forall areq_wf (map (annotate leads) reqs) ->
    NoDup (map fst (flat_map areq_pairs (map (annotate leads) reqs))) ->
    NoDup (map snd (flat_map areq_pairs (map (annotate leads) reqs))) ->
    disk_eq (mpi_read file mem (aggregate sort_reqs sort_segs leads reqs))
            (read_pairs file mem (flat_map areq_pairs (map (annotate leads) reqs))).
Proof. exact (commit_stream_correct_read req_ftype_pairs vars_flatten_pairs vars_flatten_pos). Qed.

(* the sort used when the model is run is such a function *)
Lemma isort_reqs_ok : sorter_ok a_start isort_reqs.
Proof. exact (isort_sorter_ok areq a_start). Qed.
Lemma isort_segs_ok : sorter_ok s_off isort_segs.
Proof. exact (isort_sorter_ok seg s_off). Qed.

(* Part 2b. wait refines blocking execution *)

(* extraction touches only the four queues *)
Lemma extract_fields : forall fx st n ids hs stat0,
  st_mem (ex_st (extract_reqs fx st n ids hs stat0)) = st_mem st /\
  maxPutID (ex_st (extract_reqs fx st n ids hs stat0)) = maxPutID st /\
  maxGetID (ex_st (extract_reqs fx st n ids hs stat0)) = maxGetID st /\
  st_numrecs (ex_st (extract_reqs fx st n ids hs stat0)) = st_numrecs st.
Proof.
  intros fx st n ids hs stat0. unfold extract_reqs. cbv zeta.
  destruct (ex_mark ids 0 hs (put_lead st) (get_lead st) stat0 0 0 0 0 NC_NOERR)
    as [[[[[[[pl1 gl1] stat1] nwl] nwr] nrl] nrr] err].
  destruct (ex_copy ids pl1 gl1 (put_reqs st) (get_reqs st)) as [[ids' pe] ge].
  destruct (if nwr =? 0 then (pl1, put_reqs st) else coalesce_nonlead pl1 (put_reqs st) 0) as [pl2 pr2].
  destruct (if nrr =? 0 then (gl1, get_reqs st) else coalesce_nonlead gl1 (get_reqs st) 0) as [gl2 gr2].
  (* every remaining test chooses between states that differ in the four queues only *)
  repeat match goal with |- context [if ?c then _ else _] => destruct c end; repeat split; reflexivity.
Qed.
Lemma extract_mem : forall fx st n ids hs stat0, st_mem (ex_st (extract_reqs fx st n ids hs stat0)) = st_mem st.
Proof. intros. apply extract_fields. Qed.

(* no extracted request: the empty type maps move nothing, so the tests `0 < #requests` of commit_io can be ignored *)
Lemma write_if_any : forall sr ss leads pe file mem,
  (if 0 <? Zlen pe then mpi_write file mem (aggregate sr ss leads pe) else file)
  = mpi_write file mem (aggregate sr ss leads pe).
Proof. intros. destruct pe; reflexivity. Qed.

Lemma read_if_any : forall sr ss leads ge file mem,
  (if 0 <? Zlen ge then mpi_read file mem (aggregate sr ss leads ge) else mem)
  = mpi_read file mem (aggregate sr ss leads ge).
Proof. intros. destruct ge; reflexivity. Qed.

(* the file after an independent wait: ONE write built from the extracted put requests *)
Lemma wait_one_file : forall sr ss fx st a file,
  ex_err (extract_reqs fx st (wa_n a) (wa_ids a) (wa_has_stat a) (wa_stat0 a)) = NC_NOERR ->
  snd (wait_one sr ss fx st a file) =
  mpi_write file (st_mem st)
    (aggregate sr ss (put_lead (ex_st (extract_reqs fx st (wa_n a) (wa_ids a) (wa_has_stat a) (wa_stat0 a))))
               (ex_put (extract_reqs fx st (wa_n a) (wa_ids a) (wa_has_stat a) (wa_stat0 a)))).
Proof.
  intros sr ss fx st a file Herr. unfold wait_one. rewrite Herr.
  replace (negb (NC_NOERR =? NC_NOERR)) with false by reflexivity.
  unfold commit_io. rewrite extract_mem.
  destruct (commit_post _ _ _) as [st3 ev]. apply write_if_any.
Qed.

Lemma fold_blocking_put : forall leads file mem,
  fold_left (fun f l => blocking_put f mem l) leads file = write_pairs file mem (flat_map lead_pairs leads).
Proof.
  induction leads as [|l leads IH]; intros file mem; [reflexivity|].
  cbn [fold_left flat_map]. rewrite write_pairs_app. rewrite IH. reflexivity.
Qed.
Lemma fold_blocking_get : forall leads file mem,
  fold_left (fun m l => blocking_get file m l) leads mem = read_pairs file mem (flat_map lead_pairs leads).
Proof.
  induction leads as [|l leads IH]; intros file mem; [reflexivity|].
  cbn [fold_left flat_map]. rewrite read_pairs_app. rewrite IH. reflexivity.
Qed.

(* the write of ONE process inside a wait, on any file *)
Lemma rank_put_correct : forall sr ss fx st n ids hs stat0 f,
  sorter_ok a_start sr -> sorter_ok s_off ss -> nb_inv st ->
  ex_err (extract_reqs fx st n ids hs stat0) = NC_NOERR ->
  NoDup (map fst (flat_map lead_pairs (flagged (put_lead (ex_st (extract_reqs fx st n ids hs stat0)))))) ->
  disk_eq (mpi_write f (st_mem st) (aggregate sr ss (put_lead (ex_st (extract_reqs fx st n ids hs stat0)))
                                              (ex_put (extract_reqs fx st n ids hs stat0))))
          (fold_left (fun f l => blocking_put f (st_mem st) l)
                     (flagged (put_lead (ex_st (extract_reqs fx st n ids hs stat0)))) f).
Proof.
  intros sr ss fx st n ids hs stat0 f Hsr Hss Hinv Herr Hnd.
  rewrite fold_blocking_put.
  destruct (wait_put_pairs fx st n ids hs stat0 Hinv Herr) as [Hwf Hperm].
  rewrite <- Hperm in Hnd.
  eapply disk_eq_trans.
  - apply commit_stream_correct_write; assumption.
  - apply write_pairs_perm; assumption.
Qed.

(* MAIN (puts): for every state satisfying the queue invariant, every argument list (ALL forms, the
   shortcuts, any subset in any order), every qsort: if no file byte is written twice by the requests the
   wait completes, the file afterwards is the file after the corresponding blocking puts, issued in queue order *)
Theorem wait_refines_blocking_put : forall sr ss fx st a file,
  sorter_ok a_start sr -> sorter_ok s_off ss -> nb_inv st ->
  ex_err (extract_reqs fx st (wa_n a) (wa_ids a) (wa_has_stat a) (wa_stat0 a)) = NC_NOERR ->
  NoDup (map fst (flat_map lead_pairs
          (flagged (put_lead (ex_st (extract_reqs fx st (wa_n a) (wa_ids a) (wa_has_stat a) (wa_stat0 a))))))) ->
  disk_eq (snd (wait_one sr ss fx st a file))
          (fold_left (fun f l => blocking_put f (st_mem st) l)
                     (flagged (put_lead (ex_st (extract_reqs fx st (wa_n a) (wa_ids a) (wa_has_stat a) (wa_stat0 a)))))
                     file).
Proof.
  intros sr ss fx st a file Hsr Hss Hinv Herr Hnd.
  rewrite wait_one_file by exact Herr. apply rank_put_correct; assumption.
Qed.

(* ... and the order in which the blocking puts are issued does not matter *)
Corollary wait_refines_blocking_put_any_order : forall sr ss fx st a file leads',
  sorter_ok a_start sr -> sorter_ok s_off ss -> nb_inv st ->
  ex_err (extract_reqs fx st (wa_n a) (wa_ids a) (wa_has_stat a) (wa_stat0 a)) = NC_NOERR ->
  NoDup (map fst (flat_map lead_pairs
          (flagged (put_lead (ex_st (extract_reqs fx st (wa_n a) (wa_ids a) (wa_has_stat a) (wa_stat0 a))))))) ->
  Permutation leads' (flagged (put_lead (ex_st (extract_reqs fx st (wa_n a) (wa_ids a) (wa_has_stat a) (wa_stat0 a))))) ->
  disk_eq (snd (wait_one sr ss fx st a file))
          (fold_left (fun f l => blocking_put f (st_mem st) l) leads' file).
Proof.
  intros sr ss fx st a file leads' Hsr Hss Hinv Herr Hnd Hp.
  eapply disk_eq_trans; [apply wait_refines_blocking_put; assumption|].
  rewrite !fold_blocking_put. apply write_pairs_perm; [|exact Hnd].
  rewrite Hp. reflexivity.
Qed.

Lemma commit_io_file : forall sr ss st pe ge dw dr nn file,
  snd (commit_io sr ss st pe ge dw dr nn file) =
  if dw then mpi_write file (st_mem st) (aggregate sr ss (put_lead st) pe) else file.
Proof. intros. unfold commit_io. reflexivity. Qed.

Lemma commit_io_mem : forall sr ss st pe ge dw dr nn file,
  st_mem (fst (commit_io sr ss st pe ge dw dr nn file)) =
  if dr then mpi_read (snd (commit_io sr ss st pe ge dw dr nn file)) (st_mem st) (aggregate sr ss (get_lead st) ge)
  else st_mem st.
Proof.
  intros. unfold commit_io. cbn [fst snd].
  destruct dw, dr; cbn [andb]; try destruct (st_numrecs st <? nn); reflexivity.
Qed.

Lemma wait_one_mem : forall sr ss fx st a file,
  ex_err (extract_reqs fx st (wa_n a) (wa_ids a) (wa_has_stat a) (wa_stat0 a)) = NC_NOERR ->
  st_mem (wr_st (fst (wait_one sr ss fx st a file))) =
  mpi_read (snd (wait_one sr ss fx st a file)) (st_mem st)
    (aggregate sr ss (get_lead (ex_st (extract_reqs fx st (wa_n a) (wa_ids a) (wa_has_stat a) (wa_stat0 a))))
               (ex_get (extract_reqs fx st (wa_n a) (wa_ids a) (wa_has_stat a) (wa_stat0 a)))).
Proof.
  intros sr ss fx st a file Herr. rewrite (wait_one_unfold sr ss fx st a file Herr). cbv zeta. cbn [fst snd wr_st].
  rewrite (proj1 (commit_post_fields _ _ _)), commit_io_mem, extract_mem. apply read_if_any.
Qed.

(* PARTIAL (gets): when the requests completed together read no file byte twice (and their buffers are
   distinct), every read buffer holds what the blocking reads deliver - reading the file AFTER the writes of
   the same wait.  Without the first hypothesis the statement is false: wait_refines_blocking_get_refuted (F2). *)
Theorem wait_refines_blocking_get_partial : forall sr ss fx st a file,
  sorter_ok a_start sr -> sorter_ok s_off ss -> nb_inv st ->
  ex_err (extract_reqs fx st (wa_n a) (wa_ids a) (wa_has_stat a) (wa_stat0 a)) = NC_NOERR ->
  NoDup (map fst (flat_map lead_pairs
          (flagged (get_lead (ex_st (extract_reqs fx st (wa_n a) (wa_ids a) (wa_has_stat a) (wa_stat0 a))))))) ->
  NoDup (map snd (flat_map lead_pairs
          (flagged (get_lead (ex_st (extract_reqs fx st (wa_n a) (wa_ids a) (wa_has_stat a) (wa_stat0 a))))))) ->
  disk_eq (st_mem (wr_st (fst (wait_one sr ss fx st a file))))
          (fold_left (fun m l => blocking_get (snd (wait_one sr ss fx st a file)) m l)
                     (flagged (get_lead (ex_st (extract_reqs fx st (wa_n a) (wa_ids a) (wa_has_stat a) (wa_stat0 a)))))
                     (st_mem st)).
Proof.
  intros sr ss fx st a file Hsr Hss Hinv Herr Hnd1 Hnd2.
  rewrite wait_one_mem by exact Herr. rewrite fold_blocking_get.
  destruct (wait_get_pairs fx st (wa_n a) (wa_ids a) (wa_has_stat a) (wa_stat0 a) Hinv Herr) as [Hwf Hperm].
  rewrite <- Hperm in Hnd1, Hnd2.
  eapply disk_eq_trans.
  - apply commit_stream_correct_read_partial; assumption.
  - apply read_pairs_perm; assumption.
Qed.

(* Part 2c. The queue invariant over whole histories *)

(* the invariant (NbSpec.nb_inv + parity of the id counters) holds initially and is preserved by every
   accepted post, every cancel, and every wait that returns NC_NOERR *)
Theorem post_varm_preserves_inv : forall st k g start count stride xaddr data sw tag,
  nb_inv_full st -> post_ok g start count stride ->
  nb_inv_full (fst (fst (post_varm st k g start count stride xaddr data sw tag))).
Proof. exact (post_varm_inv post_varm_reqs_ok). Qed.

Theorem post_varn_preserves_inv : forall st k g parts xaddr data sw tag,
  nb_inv_full st -> postn_ok g parts ->
  nb_inv_full (fst (fst (post_varn st k g parts xaddr data sw tag))).
Proof. exact (post_varn_inv post_varn_reqs_ok). Qed.

Lemma extract_maxids : forall fx st n ids hs stat0,
  maxPutID (ex_st (extract_reqs fx st n ids hs stat0)) = maxPutID st /\
  maxGetID (ex_st (extract_reqs fx st n ids hs stat0)) = maxGetID st.
Proof. intros fx st n ids hs stat0. destruct (extract_fields fx st n ids hs stat0) as (_ & H1 & H2 & _). split; assumption. Qed.

Theorem wait_one_preserves_inv : forall sr ss fx st a file,
  nb_inv_full st -> wr_rc (fst (wait_one sr ss fx st a file)) = NC_NOERR ->
  nb_inv_full (wr_st (fst (wait_one sr ss fx st a file))).
Proof.
  intros sr ss fx st a file [Hinv Hmax] Hrc. split.
  - apply wait_one_inv; assumption.
  - destruct (wait_one_ok sr ss fx st a file Hinv Hrc) as (_ & _ & _ & Hmp & Hmg & _).
    destruct (wait_one_leads sr ss fx st a file Hinv Hrc) as [Hpl Hgl].
    destruct (extract_leads_same fx st (wa_n a) (wa_ids a) (wa_has_stat a) (wa_stat0 a)) as [Hsp Hsg].
    apply (maxid_ok_shrink st); [exact Hmax | exact Hmp | exact Hmg | | ].
    + destruct (put_lead st) as [|l0 r0] eqn:Ep; [left | right; discriminate].
      rewrite Hpl. apply Forall2_nil_l in Hsp. rewrite Hsp. reflexivity.
    + destruct (get_lead st) as [|l0 r0] eqn:Eg; [left | right; discriminate].
      rewrite Hgl. apply Forall2_nil_l in Hsg. rewrite Hsg. reflexivity.
Qed.

(* one operation of a history: only for a wait does the invariant need an argument of its own *)
Lemma nb_step_inv : forall sr ss fx st f o, nb_inv_full st -> nbop_ok o ->
  (forall a, o = NWait a -> nb_inv_full (wr_st (fst (wait_one sr ss fx st a f)))) ->
  nb_inv_full (fst (nb_step sr ss fx (st, f) o)).
Proof.
  intros sr ss fx st f o Hinv Hop Hw. unfold nb_step.
  destruct o as [k g s c t xa d sw tag | k g ps xa d sw tag | a | n ids s0]; cbn [nbop_ok] in Hop.
  - cbn [fst]. apply post_varm_preserves_inv; assumption.
  - cbn [fst]. apply post_varn_preserves_inv; assumption.
  - specialize (Hw a eq_refl). destruct (wait_one sr ss fx st a f) as [r f']. exact Hw.
  - cbn [fst]. apply cancel_inv. exact Hinv.
Qed.

(* a history in which every posted request is an accepted one and every wait returns NC_NOERR *)
Fixpoint run_ok (sr : list areq -> list areq) (ss : list seg -> list seg) (fx : bool) (sf : nbstate * disk) (ops : list nbop) : Prop :=
  match ops with
  | [] => True
  | o :: r => nbop_ok o /\
              (match o with
               | NWait a => wr_rc (fst (wait_one sr ss fx (fst sf) a (snd sf))) = NC_NOERR
               | _ => True
               end) /\
              run_ok sr ss fx (nb_step sr ss fx sf o) r
  end.

(* queue_inv over ALL histories whose waits succeed (induction over the operation list), both variants *)
Theorem nb_run_inv : forall sr ss fx ops sf,
  nb_inv_full (fst sf) -> run_ok sr ss fx sf ops -> nb_inv_full (fst (nb_run sr ss fx sf ops)).
Proof.
  intros sr ss fx ops. induction ops as [|o ops IH]; intros sf Hinv Hok; [exact Hinv|].
  destruct Hok as (Hop & Hw & Hrest).
  unfold nb_run. cbn [fold_left]. apply IH; [|exact Hrest].
  destruct sf as [st f]. cbn [fst snd] in *. apply nb_step_inv; [exact Hinv | exact Hop|].
  intros a ->. apply wait_one_preserves_inv; assumption.
Qed.

Corollary reachable_inv : forall fx ops, run_ok isort_reqs isort_segs fx (init_state, empty_disk) ops ->
  nb_inv_full (fst (reach fx ops)).
Proof. intros fx ops H. apply nb_run_inv; [exact nb_inv_full_init | exact H]. Qed.

(* the repaired variant (fx = true): a wait that FAILS also preserves the invariant, so it holds
   over ALL histories of accepted posts, whatever the waits return *)
Lemma map_unflag_nil : forall l, map unflag l = [] -> l = [].
Proof. intros [|x l] H; [reflexivity | discriminate H]. Qed.

Theorem wait_one_preserves_inv_fixed : forall sr ss st a file,
  nb_inv_full st -> nb_inv_full (wr_st (fst (wait_one sr ss true st a file))).
Proof.
  intros sr ss st a file Hfull.
  destruct (Z.eq_dec (wr_rc (fst (wait_one sr ss true st a file))) NC_NOERR) as [Hrc | Hrc].
  - apply wait_one_preserves_inv; assumption.
  - destruct Hfull as [Hinv Hmax]. split; [apply wait_one_inv_fixed; exact Hinv|].
    destruct (wait_one_failed_fixed sr ss st a file Hinv Hrc) as (_ & _ & Hpl & Hgl & _ & _).
    destruct (wait_one_failed_struct sr ss true st a file Hrc) as (_ & Hst & _).
    apply (maxid_ok_shrink st); [exact Hmax | | | | ].
    + rewrite Hst. apply extract_maxids.
    + rewrite Hst. apply extract_maxids.
    + destruct (put_lead st) as [|l0 r0] eqn:Ep; [left | right; discriminate]. rewrite Hpl. reflexivity.
    + destruct (get_lead st) as [|l0 r0] eqn:Eg; [left | right; discriminate]. rewrite Hgl. reflexivity.
Qed.

Theorem nb_run_inv_fixed : forall sr ss ops sf,
  nb_inv_full (fst sf) -> Forall nbop_ok ops -> nb_inv_full (fst (nb_run sr ss true sf ops)).
Proof.
  intros sr ss ops. induction ops as [|o ops IH]; intros sf Hinv Hok; [exact Hinv|].
  inversion Hok as [|? ? Hop Hrest]; subst.
  unfold nb_run. cbn [fold_left]. apply IH; [|exact Hrest].
  destruct sf as [st f]. cbn [fst snd] in *. apply nb_step_inv; [exact Hinv | exact Hop|].
  intros a _. apply wait_one_preserves_inv_fixed. exact Hinv.
Qed.

Corollary reachable_inv_fixed : forall ops, Forall nbop_ok ops -> nb_inv_full (fst (reach true ops)).
Proof. intros ops H. apply nb_run_inv_fixed; [exact nb_inv_full_init | exact H]. Qed.

(* the statements that were refuted for the snapshot hold IN FULL for the repaired variant *)
Theorem status_own : status_own_full true.
Proof.
  intros ops ids stat0 Hok Hlen. cbv zeta. intros Herr l i Hin Hf Hs.
  destruct (reachable_inv_fixed ops Hok) as [Hinv _].
  eapply (status_own_fixed (fst (reach true ops)) (Zlen ids) ids stat0); try eassumption; try reflexivity.
  apply Zlen_nonneg.
Qed.

Theorem wait_subset_frame : wait_subset_frame_full true.
Proof.
  intros ops a file Hok Hn. cbv zeta. intros Hrc l Hin Hnot.
  destruct (reachable_inv_fixed ops Hok) as [Hinv _].
  assert (H0 : 0 <= wa_n a) by (rewrite Hn; apply Zlen_nonneg).
  destruct (wait_subset_frame_fixed isort_reqs isort_segs (fst (reach true ops)) a file Hinv H0 Hn Hrc l Hin Hnot)
    as (l' & Hin' & Hsame & _).
  apply in_map_iff. exists l'. split; [|exact Hin'].
  symmetry. apply Hsame.
Qed.

(* Part 2d. a failed wait is NOT without effect *)
(* full statement: a wait that returns an error leaves the queues as they were *)
Definition failed_wait_no_effect_full (fx : bool) : Prop :=
  forall ops a file, Forall nbop_ok ops ->
    let st := fst (reach fx ops) in
    let r := fst (wait_one isort_reqs isort_segs fx st a file) in
    wr_rc r <> NC_NOERR ->
    (* nothing is written, delivered or marked; only the (dangling) status pointers are reset *)
    snd (wait_one isort_reqs isort_segs fx st a file) = file /\ wr_ev r = [] /\
    put_lead (wr_st r) = map unflag (put_lead st) /\ get_lead (wr_st r) = map unflag (get_lead st) /\
    put_reqs (wr_st r) = put_reqs st /\ get_reqs (wr_st r) = get_reqs st.

Definition two_puts_one_get : list nbop :=
  two_puts ++ [NPostM KIget gA [3] [1] None 3000 [] false 2].
Lemma two_puts_one_get_ok : Forall nbop_ok two_puts_one_get.
Proof.
  unfold two_puts_one_get. apply Forall_app. split; [exact two_puts_ok|].
  apply Forall_cons; [|apply Forall_nil]. cbn [nbop_ok]. apply post_ok_gA; lia.
Qed.

(* witness: two puts and one get pending, wait(2, [0; 0]) (a duplicated id, no shortcut): NC_EINVAL_REQUEST,
   but the request with id 0 keeps its NC_REQ_TO_FREE flag; naming it again can never succeed *)
Theorem failed_wait_no_effect_old_refuted : ~ failed_wait_no_effect_full false.
Proof.
  intro H.
  pose (a := mkwa 2 [0; 0] true [-99; -99]).
  specialize (H two_puts_one_get a empty_disk two_puts_one_get_ok).
  cbv zeta in H.
  set (r := fst (wait_one isort_reqs isort_segs false (fst (reach false two_puts_one_get)) a empty_disk)) in H.
  assert (E : wr_rc r <> NC_NOERR) by (vm_compute; discriminate).
  destruct (H E) as (_ & _ & Hp & _).
  apply (f_equal (fun pl => l_to_free (hd dummy_lead pl))) in Hp.
  vm_compute in Hp. discriminate Hp.
Qed.

Example poisoned_request_cannot_be_completed :
  let a := mkwa 2 [0; 0] true [-99; -99] in
  let st1 := wr_st (fst (wait_one isort_reqs isort_segs false (fst (reach false two_puts_one_get)) a empty_disk)) in
  wr_rc (fst (wait_one isort_reqs isort_segs false st1 (mkwa 1 [0] true [-99]) empty_disk)) = NC_EINVAL_REQUEST
  /\ nreqs st1 = 3.
Proof. vm_compute. split; reflexivity. Qed.

(* ... and with the repair a failed wait has no effect *)
Theorem failed_wait_no_effect : failed_wait_no_effect_full true.
Proof.
  intros ops a file _. cbv zeta. intros Hrc.
  exact (wait_one_failed_any_state isort_reqs isort_segs (fst (reach true ops)) a file Hrc).
Qed.

Example repaired_request_can_be_completed :
  let a := mkwa 2 [0; 0] true [-99; -99] in
  let st1 := wr_st (fst (wait_one isort_reqs isort_segs true (fst (reach true two_puts_one_get)) a empty_disk)) in
  wr_rc (fst (wait_one isort_reqs isort_segs true (fst (reach true two_puts_one_get)) a empty_disk)) = NC_EINVAL_REQUEST /\
  wr_rc (fst (wait_one isort_reqs isort_segs true st1 (mkwa 1 [0] true [-99]) empty_disk)) = NC_NOERR /\
  nreqs (wr_st (fst (wait_one isort_reqs isort_segs true st1 (mkwa 1 [0] true [-99]) empty_disk))) = 2.
Proof. vm_compute. repeat split; reflexivity. Qed.

(* Part 2e. numrecs after a wait (F1 fixed in /repo) *)
Lemma slices_ok_lead_reqs_pos : forall leads reqs k i, 0 <= k -> slices_ok leads reqs k i ->
  forall l, In l leads -> 0 < Zlen (lead_reqs reqs l).
Proof.
  induction leads as [|l0 leads IH]; intros reqs k i Hk Hs l Hin; [destruct Hin|].
  cbn [slices_ok] in Hs. destruct Hs as (Hoff & Hnum & Hle & _ & Hrest).
  destruct Hin as [E | Hin].
  - subst l0. unfold lead_reqs, slice. rewrite Hoff.
    rewrite Zlen_zfirstn_enough; [lia|]. rewrite Zlen_zskipn_enough by (pose proof (Zlen_nonneg reqs); lia). lia.
  - apply (IH reqs (k + l_nonlead_num l0) (i + 1)); [lia | exact Hrest | exact Hin].
Qed.

Lemma flagged_put_extracted : forall fx st n ids hs stat0 l,
  nb_inv st -> ex_err (extract_reqs fx st n ids hs stat0) = NC_NOERR ->
  In l (flagged (put_lead (ex_st (extract_reqs fx st n ids hs stat0)))) ->
  0 < Zlen (ex_put (extract_reqs fx st n ids hs stat0)).
Proof.
  intros fx st n ids hs stat0 l Hinv Herr Hl.
  destruct (extract_put_slices fx st n ids hs stat0 Hinv Herr) as [Hperm _].
  destruct (extract_leads_same fx st n ids hs stat0) as [Hsame _].
  unfold flagged in Hl. apply filter_In in Hl. destruct Hl as [Hin Hf].
  destruct (Forall2_In_zip_r _ _ _ _ _ l Hsame Hin) as [l0 [Hz Hl0]].
  destruct Hinv as [[_ [_ [Hs _]]] _].
  pose proof (slices_ok_lead_reqs_pos _ _ 0 0 ltac:(lia) Hs l0 Hl0) as Hpos.
  apply Permutation_length in Hperm.
  assert (Hge : (length (lead_reqs (put_reqs st) l0) <= length (ex_put (extract_reqs fx st n ids hs stat0)))%nat).
  { rewrite Hperm.
    set (F := fun p : lead * lead => if l_to_free (snd p) then lead_reqs (put_reqs st) (fst p) else []).
    clear Hperm Hsame.
    induction (zip (put_lead st) (put_lead (ex_st (extract_reqs fx st n ids hs stat0)))) as [|p z IHz]; [destruct Hz|].
    cbn [flat_map]. rewrite app_length. destruct Hz as [E | Hz].
    - subst p. unfold F at 1. cbn [fst snd]. rewrite Hf. lia.
    - specialize (IHz Hz). lia. }
  unfold Zlen in *. lia.
Qed.

(* FULL statement, proved (the library was repaired): after a successful wait the number of records covers
   every completed put to a record variable *)
Theorem numrecs_after_wait : forall sr ss fx st a file,
  nb_inv st -> wr_rc (fst (wait_one sr ss fx st a file)) = NC_NOERR ->
  forall l, In l (flagged (put_lead (ex_st (extract_reqs fx st (wa_n a) (wa_ids a) (wa_has_stat a) (wa_stat0 a))))) ->
            g_isrec (l_geom l) = true ->
            l_max_rec l <= st_numrecs (wr_st (fst (wait_one sr ss fx st a file))) /\
            st_numrecs st <= st_numrecs (wr_st (fst (wait_one sr ss fx st a file))).
Proof.
  intros sr ss fx st a file Hinv Hrc l Hl Hrec.
  pose proof (wait_one_noerr sr ss fx st a file Hrc) as Herr.
  pose proof (flagged_put_extracted fx st _ _ _ _ l Hinv Herr Hl) as Hput.
  rewrite (wait_one_unfold sr ss fx st a file Herr). cbv zeta. cbn [fst wr_st].
  rewrite (proj1 (proj2 (commit_post_fields _ _ _))).
  set (ex := extract_reqs fx st (wa_n a) (wa_ids a) (wa_has_stat a) (wa_stat0 a)) in *.
  assert (Hn0 : st_numrecs (ex_st ex) = st_numrecs st) by apply extract_fields.
  unfold flagged in Hl. apply filter_In in Hl. destruct Hl as [Hin Hf].
  destruct (newnumrecs_covers_flagged (ex_st ex) l Hin Hf Hrec) as [H1 H2].
  unfold commit_io. cbn [fst].
  replace (0 <? Zlen (ex_put ex)) with true by (symmetry; apply Z.ltb_lt; exact Hput).
  cbn [andb].
  destruct (st_numrecs (ex_st ex) <? newnumrecs_loop (ex_st ex)) eqn:Elt;
    destruct (0 <? Zlen (ex_get ex)); cbn [set_mem set_numrecs st_numrecs]; lia.
Qed.

(* Part 2f. collective wait of several processes *)
Lemma write_chunks_cong : forall b stream d d', disk_eq d d' -> disk_eq (write_chunks d b stream) (write_chunks d' b stream).
Proof.
  induction b as [|[o l] b IH]; intros stream d d' H; [exact H|].
  cbn [write_chunks]. apply IH. apply dk_write_cong. exact H.
Qed.
Lemma mpi_write_cong : forall f f' mem t, disk_eq f f' -> disk_eq (mpi_write f mem t) (mpi_write f' mem t).
Proof. intros f f' mem t H. unfold mpi_write. apply write_chunks_cong. exact H. Qed.
Lemma write_pairs_cong : forall ps f f' mem, disk_eq f f' -> disk_eq (write_pairs f mem ps) (write_pairs f' mem ps).
Proof. exact Proofs_NbSegs.write_pairs_cong. Qed.

Lemma existsb_false_Forall : forall A (p : A -> bool) l, Forall (fun x => p x = false) l -> existsb p l = false.
Proof. intros A p l H. induction H as [|x l Hx H IH]; [reflexivity|]. cbn [existsb]. rewrite Hx, IH. reflexivity. Qed.

Lemma fold_left_ext_In : forall A B (f g : A -> B -> A) l a,
  (forall a x, In x l -> f a x = g a x) -> fold_left f l a = fold_left g l a.
Proof.
  induction l as [|x l IH]; intros a H; [reflexivity|]. cbn [fold_left].
  rewrite (H a x) by (left; reflexivity). apply IH. intros a' y Hy. apply H. right. exact Hy.
Qed.

(* collective wait (ncmpi_wait_all) of any number of processes with any arguments per process: when every
   process's extraction succeeds and no process writes a file byte twice, the file is what the blocking puts
   give, process after process (the MPI-IO model of this development applies the file views in rank order) *)
Theorem wait_coll_refines_blocking_put : forall sr ss fx (sa : list (nbstate * waitargs)) file,
  sorter_ok a_start sr -> sorter_ok s_off ss ->
  Forall (fun p => nb_inv (fst p)) sa ->
  Forall (fun p => ex_err (extract_reqs fx (fst p) (wa_n (snd p)) (wa_ids (snd p)) (wa_has_stat (snd p)) (wa_stat0 (snd p))) = NC_NOERR) sa ->
  Forall (fun p => NoDup (map fst (flat_map lead_pairs (flagged (put_lead (ex_st
            (extract_reqs fx (fst p) (wa_n (snd p)) (wa_ids (snd p)) (wa_has_stat (snd p)) (wa_stat0 (snd p))))))))) sa ->
  disk_eq (snd (wait_coll sr ss fx (map fst sa) (map snd sa) file))
          (fold_left (fun f p =>
              fold_left (fun f l => blocking_put f (st_mem (fst p)) l)
                        (flagged (put_lead (ex_st (extract_reqs fx (fst p) (wa_n (snd p)) (wa_ids (snd p)) (wa_has_stat (snd p)) (wa_stat0 (snd p))))))
                        f)
            sa file).
Proof.
  intros sr ss fx sa file Hsr Hss Hinv Herr Hnd.
  unfold wait_coll.
  assert (Hzip : zip (map fst sa) (map snd sa) = sa).
  { clear. induction sa as [|[s a] sa IH]; [reflexivity|]. cbn [map zip fst snd]. rewrite IH. reflexivity. }
  rewrite Hzip.
  set (EX := fun p : nbstate * waitargs => extract_reqs fx (fst p) (wa_n (snd p)) (wa_ids (snd p)) (wa_has_stat (snd p)) (wa_stat0 (snd p))).
  assert (Hany : existsb (fun ex => negb (ex_err ex =? NC_NOERR)) (map EX sa) = false).
  { apply existsb_false_Forall. apply Forall_map. eapply Forall_impl; [|exact Herr].
    intros p Hp. cbv beta. unfold EX. rewrite Hp. reflexivity. }
  change (map (fun p : nbstate * waitargs => extract_reqs fx (fst p) (wa_n (snd p)) (wa_ids (snd p)) (wa_has_stat (snd p)) (wa_stat0 (snd p))) sa)
    with (map EX sa).
  rewrite Hany. cbn [snd].
  (* when no process has a put request, every process writes the empty type maps: the test can be ignored *)
  rewrite (fold_left_ext_In _ _ _
             (fun f ex => mpi_write f (st_mem (ex_st ex)) (aggregate sr ss (put_lead (ex_st ex)) (ex_put ex)))).
  2:{ intros f ex Hin. destruct (existsb (fun ex0 => 0 <? Zlen (ex_put ex0)) (map EX sa)) eqn:Edw; [reflexivity|].
      rewrite <- write_if_any. destruct (0 <? Zlen (ex_put ex)) eqn:E1; [|reflexivity].
      rewrite (proj2 (existsb_exists _ _)) in Edw; [discriminate Edw | exists ex; split; assumption]. }
  (* general statement over the list of processes and any starting file *)
  assert (G : forall (l : list (nbstate * waitargs)) f f',
             Forall (fun p => nb_inv (fst p)) l -> Forall (fun p => ex_err (EX p) = NC_NOERR) l ->
             Forall (fun p => NoDup (map fst (flat_map lead_pairs (flagged (put_lead (ex_st (EX p))))))) l ->
             disk_eq f f' ->
             disk_eq (fold_left (fun f ex => mpi_write f (st_mem (ex_st ex)) (aggregate sr ss (put_lead (ex_st ex)) (ex_put ex)))
                                (map EX l) f)
                     (fold_left (fun f p => fold_left (fun f l => blocking_put f (st_mem (fst p)) l) (flagged (put_lead (ex_st (EX p)))) f) l f')).
  { induction l as [|p l IH]; intros f f' Hi He Hn Hff; [exact Hff|].
    cbn [map fold_left]. inversion Hi as [|? ? Hi1 Hi2]; subst. inversion He as [|? ? He1 He2]; subst.
    inversion Hn as [|? ? Hn1 Hn2]; subst.
    apply IH; try assumption.
    unfold EX at 1 2 3. rewrite extract_mem.
    eapply disk_eq_trans; [apply mpi_write_cong; exact Hff|].
    apply rank_put_correct; assumption. }
  apply G; try assumption. apply disk_eq_refl.
Qed.

(* Part 2g. offsets of any magnitude *)
(* The theorems above quantify over Z: commit_stream_correct_write / wait_refines_blocking_put hold for file offsets
   of any size (row pitches of several GiB included), PROVIDED qsort's comparator orders the offsets (sorter_ok).
   A comparator returning the difference truncated to a 32-bit int - `return (int)(a->off - b->off);` - does not:   *)
Definition cmp_trunc32 (a b : Z) : Z :=
  let d := (a - b) mod 4294967296 in if d <? 2147483648 then d else d - 4294967296.
Definition cmp_trunc32_orders_full : Prop :=
  forall a b, 0 <= a -> 0 <= b -> (0 < cmp_trunc32 a b <-> b < a) /\ (cmp_trunc32 a b = 0 <-> a = b).
Theorem cmp_trunc32_orders_refuted : ~ cmp_trunc32_orders_full.
Proof.
  intro H. destruct (H 2147483648 0 ltac:(lia) ltac:(lia)) as [[_ H1] _].
  assert (C : 0 < cmp_trunc32 2147483648 0) by (apply H1; lia).
  vm_compute in C. discriminate C.
Qed.
Example cmp_trunc32_equal_at_4GiB : cmp_trunc32 4294967296 0 = 0 /\ cmp_trunc32 (3 * 1073741824) 0 < 0.
Proof. vm_compute. split; reflexivity. Qed.
(* within 2^31 it is an order: the defect needs segments of one interleaved group >= 2 GiB apart *)
Lemma cmp_trunc32_small : forall a b, - 2147483648 <= a - b < 2147483648 -> cmp_trunc32 a b = a - b.
Proof.
  intros a b H. unfold cmp_trunc32. cbv zeta.
  pose proof (Z.mod_pos_bound (a - b) 4294967296 ltac:(lia)) as Hb.
  pose proof (Z.div_mod (a - b) 4294967296 ltac:(lia)) as Hd.
  destruct ((a - b) mod 4294967296 <? 2147483648) eqn:E.
  - apply Z.ltb_lt in E. assert ((a - b) / 4294967296 = 0) by nia. nia.
  - apply Z.ltb_ge in E. assert ((a - b) / 4294967296 = -1) by nia. nia.
Qed.
