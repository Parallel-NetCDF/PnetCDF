(* Proofs_GenBeginsRedef.v — NC_begins as generated (Gen_begins.v) when a saved old header exists
   (ncp->old != NULL, i.e. enddef after redef), against Header.begins_fixed / begins_rec with the old begins. *)
From Pnc Require Import Base Gen_consts Header CSub Gen_begins Proofs_Lists Proofs_GenBegins.
Require Import String.
Require Import Lia ZArith ZifyBool List Bool.
Import ListNotations.
Local Open Scope Z_scope.

(* an old variable as NC_begins reads it: is it a record variable, its begin *)
Definition cv_old (p : bool * Z) : c_NC_var :=
  {| NC_var__begin := snd p; NC_var__dsizes := None; NC_var__len := 0;
     NC_var__shape := if fst p then Some ([0], 0) else None; NC_var__xsz := 0 |}.
Lemma cv_isrec_old : forall p, cv_isrec (cv_old p) = fst p.
Proof. intros [[|] b]; reflexivity. Qed.
Lemma cv_wf_old : forall p, cv_wf (cv_old p).
Proof. intros [[|] b]; reflexivity. Qed.

(* the view of ncp->old *)
Definition c_old (ovs : list (bool * Z)) (obv obr : Z) : c_NC__old :=
  {| NC__old__begin_rec := obr; NC__old__begin_var := obv;
     NC__old__vars := {| NC_vararray__ndefined := Zlen ovs; NC_vararray__value := Some (map cv_old ovs, 0) |} |}.

Fixpoint drop_rec (l : list (bool * Z)) : list (bool * Z) :=
  match l with (true, _) :: t => drop_rec t | _ => l end.
Fixpoint drop_fix (l : list (bool * Z)) : list (bool * Z) :=
  match l with (false, _) :: t => drop_fix t | _ => l end.

Lemma drop_rec_len : forall l, Zlen (drop_rec l) <= Zlen l.
Proof. induction l as [|[[|] b] t IH]; cbn [drop_rec]; rewrite ?Zlen_cons; lia. Qed.
Lemma drop_fix_len : forall l, Zlen (drop_fix l) <= Zlen l.
Proof. induction l as [|[[|] b] t IH]; cbn [drop_fix]; rewrite ?Zlen_cons; lia. Qed.

(* the old variables as the passes of Proofs_GenBegins.v see them *)
Lemma old_vars_c_old : forall ovs obv obr, old_vars (Some (c_old ovs obv obr)) (map cv_old ovs).
Proof. intros. cbn [old_vars c_old NC__old__vars]. rewrite Zlen_map. reflexivity. Qed.

Lemma cv_old_wf : forall ovs, Forall cv_wf (map cv_old ovs).
Proof. intros. rewrite Forall_map. apply Forall_forall. intros p _. apply cv_wf_old. Qed.

Lemma cv_old_pairs : forall ovs, map (fun v => (cv_isrec v, NC_var__begin v)) (map cv_old ovs) = ovs.
Proof.
  intros. rewrite map_map. rewrite <- (map_id ovs) at 2. apply map_ext. intros [r b]. rewrite cv_isrec_old. reflexivity.
Qed.

(* ---------- against Header.begins_fixed with the old begins ---------- *)
Definition ofix (ol : list (bool * Z)) : list Z := map snd (filter (fun p => negb (fst p)) ol).
Definition orec (ol : list (bool * Z)) : list Z := map snd (filter (fun p => fst p) ol).

Lemma obegs_cv_old : forall ovs, obegs false (map cv_old ovs) = ofix ovs /\ obegs true (map cv_old ovs) = orec ovs.
Proof.
  intros ovs. destruct (obegs_pairs (map cv_old ovs)) as [H1 H2]. rewrite cv_old_pairs in H1, H2.
  split; symmetry; assumption.
Qed.

(* the first loop of the generated NC_begins after a redef, against Header.begins_fixed with the begins of the
   old fixed-size variables *)
Theorem gen_begins_redef_fixed_partial : forall n0 xsz ovs obv obr OB vars ev lastv,
  NC__old n0 = Some (c_old ovs obv obr) -> Zlen ovs <= 2147483647 ->
  NC_vararray__ndefined (NC__vars n0) = Zlen vars -> Zlen vars <= 2147483647 ->
  Forall cv_wf vars -> Forall (fun v => 0 <= NC_var__len v) vars ->
  0 <= ev -> ev + lens4 vars <= MAXOFF -> OB + lens4 vars <= MAXOFF ->
  Forall (fun p => snd p <= OB) ovs ->
  let s0 := mkS (with_vals n0 vars) ev None 0 0 lastv in
  exists s',
    c_loop (NC_begins_loop1_fuel n0 xsz s0) (NC_begins_loop1_cdef n0 xsz) (NC_begins_loop1_cond n0 xsz)
           (NC_begins_loop1_body n0 xsz) (NC_begins_loop1_inc n0 xsz) s0
    = match begins_fixed (NC__format n0) (map pair_of vars) (ofix ovs) ev [] with
      | Some _ => CNorm s'
      | None => CRetS NC_EVARSIZE s'
      end /\
    forall ef fb, begins_fixed (NC__format n0) (map pair_of vars) (ofix ovs) ev [] = Some (ef, fb) ->
      NC_begins__end_var s' = ef /\ map fixed_begin (arr_of s') = fb.
Proof.
  intros n0 xsz ovs obv obr OB vars ev lastv Hold Hno Hnd Hn Hwf Hlen Hev Hb HbO HOB s0.
  rewrite <- (proj1 (obegs_cv_old ovs)).
  destruct (gen_begins_fixed_old n0 xsz (map cv_old ovs) OB vars ev lastv) as [s' [H1 H2]]; try assumption.
  - rewrite Hold. apply old_vars_c_old.
  - rewrite Zlen_map. exact Hno.
  - apply cv_old_wf.
  - rewrite Forall_map. exact HOB.
  - lia.
  - exists s'. split; [exact H1|]. intros ef fb E. destruct (H2 ef fb E) as (A & B & _). split; assumption.
Qed.

(* the second loop after a redef, against Header.begins_rec with the begins of the old record variables *)
Theorem gen_begins_redef_rec_partial : forall n0 xsz ovs obv obr vars ev fv lastv,
  NC__old n0 = Some (c_old ovs obv obr) -> Zlen ovs <= 2147483647 ->
  NC_vararray__ndefined (NC__vars n0) = Zlen vars -> Zlen vars <= 2147483647 ->
  Forall cv_wf vars -> Forall (fun v => 0 <= NC_var__len v) vars ->
  0 <= ev -> ev + lens4 vars <= MAXOFF ->
  let s0 := mkS (with_vals_rs n0 vars 0) ev fv 0 0 lastv in
  exists s',
    c_loop (NC_begins_loop3_fuel n0 xsz s0) (NC_begins_loop3_cdef n0 xsz) (NC_begins_loop3_cond n0 xsz)
           (NC_begins_loop3_body n0 xsz) (NC_begins_loop3_inc n0 xsz) s0
    = match begins_rec (NC__format n0) (map pair_of vars) (orec ovs) ev 0 None [] with
      | Some _ => CNorm s'
      | None => CRetS NC_EVARSIZE s'
      end /\
    forall er rs ll rb, begins_rec (NC__format n0) (map pair_of vars) (orec ovs) ev 0 None [] = Some (er, rs, ll, rb) ->
      NC_begins__end_var s' = er /\ NC__recsize (NC_begins__P_ncp s') = rs /\
      map rec_begin (arr_of s') = rb /\ last_rec_len None (arr_of s') = ll.
Proof.
  intros n0 xsz ovs obv obr vars ev fv lastv Hold Hno Hnd Hn Hwf Hlen Hev Hb.
  rewrite <- (proj2 (obegs_cv_old ovs)).
  apply (gen_begins_rec_old n0 xsz (map cv_old ovs) vars ev fv lastv); try assumption.
  - rewrite Hold. apply old_vars_c_old.
  - rewrite Zlen_map. exact Hno.
  - apply cv_old_wf.
Qed.

(* ------------------------------------------------------------------------- *)
(** * The whole generated function after a redef RUNS: concrete cases against Header.begins (Some old) *)
(* ------------------------------------------------------------------------- *)
(* the view of NC *ncp at the entry of NC_begins in an enddef that follows a redef: old = (old layout, is-record
   flags of the old variables), as Exec.do_enddef passes it to Header.begins *)
Definition c_view_nc_redef (h : hdr) (hm vm ha ra pbr flags : Z) (ol : layout) (recs : list bool) : c_NC :=
  {| NC__begin_rec := pbr; NC__begin_var := 0; NC__flags := flags; NC__format := h_format h;
     NC__h_align := ha; NC__h_minfree := hm; NC__nprocs := 1; NC__numrecs := h_numrecs h;
     NC__old := Some (c_old (zip recs (l_begins ol)) (l_begin_var ol) (l_begin_rec ol));
     NC__r_align := ra; NC__recsize := 0; NC__safe_mode := 0; NC__v_minfree := vm;
     NC__vars := {| NC_vararray__ndefined := Zlen (h_vars h);
                    NC_vararray__value := match h_vars h with [] => None
                                          | _ => Some (map (cv_of (h_dims h)) (h_vars h), 0) end |};
     NC__xsz := 0 |}.

Definition begins_agree_redef (h : hdr) (hm vm ha ra pbr : Z) (ol : layout) (recs : list bool) : bool :=
  match NC_begins_c (c_view_nc_redef h hm vm ha ra pbr 0 ol recs) (hdr_len h),
        begins h hm vm ha ra (Some (ol, recs)) pbr with
  | FValS rc s, Some lay =>
      (rc =? NC_NOERR) &&
      let l := layout_of_state s in
      (l_xsz l =? l_xsz lay) && (l_begin_var l =? l_begin_var lay) && (l_begin_rec l =? l_begin_rec lay) &&
      (l_recsize l =? l_recsize lay) && list_eqb Z.eqb (l_begins l) (l_begins lay)
  | FValS rc _, None => rc =? NC_EVARSIZE
  | _, _ => false
  end.

Definition exr_h1 : hdr :=   (* old header: fixed a, record r1 *)
  mkhdr 2 3 exb_dims [] [exb_var 97 [1; 2] 3; exb_var 98 [0; 1] 5].
Definition exr_lay (hm vm ha ra : Z) : layout :=
  match begins exr_h1 hm vm ha ra None 0 with Some l => l | None => mklayout 0 0 0 0 [] end.

Example gen_begins_redef_runs :
  (* variables appended (fixed and record), alignment grown, old begins larger than the packed ones, header grown *)
  begins_agree_redef (mkhdr 2 3 exb_dims [] [exb_var 97 [1; 2] 3; exb_var 98 [0; 1] 5; exb_var 99 [2] 1; exb_var 100 [0; 2] 6])
                     0 0 4 4 (l_begin_rec (exr_lay 0 0 512 4)) (exr_lay 0 0 512 4) [false; true] = true /\
  begins_agree_redef (mkhdr 2 3 exb_dims [] [exb_var 97 [1; 2] 3; exb_var 98 [0; 1] 5; exb_var 99 [2] 1])
                     0 0 1024 8 (l_begin_rec (exr_lay 0 0 4 4)) (exr_lay 0 0 4 4) [false; true] = true /\
  begins_agree_redef (mkhdr 2 3 exb_dims [] [exb_var 97 [1; 2] 3; exb_var 98 [0; 1] 5])
                     2000 64 4 4 (l_begin_rec (exr_lay 0 0 4 4)) (exr_lay 0 0 4 4) [false; true] = true /\
  begins_agree_redef (mkhdr 2 3 exb_dims [] [exb_var 96 [0; 2] 4; exb_var 97 [1; 2] 3; exb_var 98 [0; 1] 5])
                     0 0 4 4 (l_begin_rec (exr_lay 0 100 512 4)) (exr_lay 0 100 512 4) [false; true] = true /\
  (* a previous begin_rec below the old one: the old begin_rec wins *)
  begins_agree_redef (mkhdr 2 3 exb_dims [] [exb_var 97 [1; 2] 3; exb_var 98 [0; 1] 5])
                     0 0 4 4 0 (exr_lay 0 100 512 4) [false; true] = true.
Proof. repeat split; vm_compute; reflexivity. Qed.

Print Assumptions gen_begins_redef_fixed_partial.
Print Assumptions gen_begins_redef_rec_partial.
Print Assumptions gen_begins_redef_runs.
