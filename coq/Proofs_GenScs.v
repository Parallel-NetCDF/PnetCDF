(* Proofs_GenScs.v — the tie between the dispatcher's argument checker as built and Access.check_scs:

     Gen_scs.check_start_count_stride_c pncp varid isRead (kind_code kind) start count stride NC_NOERR numrecs
       = FVal (Access.check_scs format strict (recdim >=? 0) (z2b isRead) kind shape numrecs start count stride)

   for ALL arguments satisfying the guards the C code relies on (gen_check_scs_eq), together with
     gen_check_EINVALCOORDS_eq   check_EINVALCOORDS (C) = Access.check_EINVALCOORDS, no guard
     gen_check_EEDGE_eq          check_EEDGE (C) = Access.check_EEDGE where its arithmetic does not overflow
     gen_check_scs_null_start    start == NULL is rejected with NC_EINVALCOORDS
     gen_check_scs_inq_error     an error of the driver's inq_dim is returned unchanged
   Gen_scs.v is regenerated on every run by tools/tr_scs.py (tools/tr_cfun.py, target scs) from
   src/dispatchers/var_getput.c as built (m4 output); combinators: CSub.v.

   The view: pncp->vars[varid] = c_pvar recdim shape (ndims = length of shape, shape array as stored by the
   dispatcher); pncp->format, pncp->flag as they are (strict = flag & NC_MODE_STRICT_COORD_BOUND <> 0);
   start / count / stride = NULL or arrays of ndims entries; api_kind by kind_code (NC_api enumeration);
   the driver call pncp->driver->inq_dim(..., &shape[0]) is an unknown function that returns x1_inq_dim_ret
   and stores x1_inq_dim_out (the current number of records) to shape[0]; the theorem instantiates them with
   NC_NOERR and the model's numrecs.
   Guards: ndims > 0 (the callers test it; the C code reads start[0] unconditionally), the arrays have ndims
   entries, ndims fits an int, format is a classic one (1, 2, 5), the dimension lengths (with the record count
   in place of shape[0]) are values of MPI_Offset, and scs_sum_ok: for an accepted start (0 <= start <= shape)
   and a count in [0, shape] the sum start + count, which check_EEDGE computes in MPI_Offset, does not exceed
   2^63 - 1.  That can fail only for a dimension longer than 2^62 (scs_sum_ok_small); the library does not
   enforce it (gen_check_scs_sum_witness).
   The stride test needs NO guard: since commit 084e6895 of /repo check_EEDGE compares
   stride > (shape - 1 - start) / (count - 1) instead of forming (count - 1) * stride; stride_test_exact and
   eedge_test prove that test equal to the model's start + (count - 1) * stride >= shape for every stride
   value, and eedge_checks that its subtractions and its division are defined (operands >= 0, so the
   truncating C division is the model's floor division).
   The generated code carries error codes and limits as numbers: -57, -210, -40, 4294967295 below are
   NC_EEDGE, NC_ENEGATIVECNT, NC_EINVALCOORDS, NC_MAX_UINT of Gen_consts.v (regenerated from the headers),
   unfolded by `change` where the two have to meet. *)
From Pnc Require Import Base Gen_consts Access CSub Gen_scs Proofs_Lists Proofs_CSub Proofs_CheckScs.
Require Import String.
Require Import Lia ZArith ZifyBool List Bool.
Import ListNotations.
Local Open Scope Z_scope.

Lemma gen_check_EINVALCOORDS_eq : forall sc s c sh,
  check_EINVALCOORDS_c sc s c sh = FVal (check_EINVALCOORDS (z2b sc) s c sh).
Proof.
  intros sc s c sh. unfold check_EINVALCOORDS_c, check_EINVALCOORDS_body, check_EINVALCOORDS.
  destruct (z2b sc).
  - destruct ((s <? 0) || (s >=? sh)); reflexivity.
  - destruct ((s <? 0) || (s >? sh)); cbn [c_bind]; [reflexivity|].
    destruct ((s =? sh) && (c >? 0)); reflexivity.
Qed.

(* what check_EEDGE still relies on: the sum start + count (evaluated when count <= shape) fits MPI_Offset,
   start is not negative (the dispatcher has tested it before), shape is a value of MPI_Offset *)
Definition edge_arith_ok (s c sh : Z) : Prop :=
  (c <= sh -> in_i64 (s + c) = true) /\ 0 <= s /\ sh <= 9223372036854775807.

Definition ptr_at (pt : c_ptr Z) (t : option Z) : Prop :=
  match t with
  | None => pt = None
  | Some tv => p_ok pt 0 = true /\ p_get 0 pt 0 = tv
  end.

(* the stride test without the product:  for c > 1, t > 0 and 0 <= sh - 1 - s,
   t > (sh - 1 - s) / (c - 1)   iff   s + (c - 1) * t >= sh   — for EVERY stride value t *)
Lemma stride_test_exact : forall s c t sh, 1 < c -> 0 <= sh - 1 - s ->
  (t >? (sh - 1 - s) / (c - 1)) = (s + (c - 1) * t >=? sh).
Proof.
  intros s c t sh Hc Hd.
  assert (Hm : (c - 1) * ((sh - 1 - s) / (c - 1)) <= sh - 1 - s < (c - 1) * ((sh - 1 - s) / (c - 1)) + (c - 1)).
  { pose proof (Z.mul_div_le (sh - 1 - s) (c - 1)). pose proof (Z.mul_succ_div_gt (sh - 1 - s) (c - 1)). lia. }
  destruct (t >? (sh - 1 - s) / (c - 1)) eqn:E; symmetry; nia.
Qed.

Lemma eedge_checks : forall s c sh,
  c <= sh -> s + c <= sh -> 0 <= s -> sh <= 9223372036854775807 -> 1 < c ->
  in_i64 (sh - 1) = true /\ in_i64 (sh - 1 - s) = true /\ in_i64 (c - 1) = true /\
  div_ok i64_min (sh - 1 - s) (c - 1) = true.
Proof.
  intros s c sh H1 H2 H3 H4 H5.
  split; [apply in_i64_iff; lia|]. split; [apply in_i64_iff; lia|]. split; [apply in_i64_iff; lia|].
  apply div_ok_pos. lia.
Qed.

(* the C test (truncating division on operands that are >= 0 here) against the model's product test *)
Lemma eedge_test : forall s c tv sh, c <= sh -> s + c <= sh ->
  ((c >? 1) && (tv >? 0) && (tv >? Z.quot (sh - 1 - s) (c - 1))) = ((c >? 0) && (s + (c - 1) * tv >=? sh)).
Proof.
  intros s c tv sh H1 H2.
  destruct (c >? 1) eqn:Ec; cbn [andb].
  - rewrite quot_is_div by lia. rewrite stride_test_exact by lia.
    replace (c >? 0) with true by lia. cbn [andb].
    destruct (tv >? 0) eqn:Et; cbn [andb]; [reflexivity|].
    symmetry. assert (Hle : (c - 1) * tv <= 0) by nia. lia.
  - destruct (c >? 0) eqn:Ec0; cbn [andb]; [|reflexivity].
    assert (Hceq : c = 1) by lia. subst c. replace (s + (1 - 1) * tv) with s by ring. lia.
Qed.

Lemma gen_check_EEDGE_eq : forall ps pc pt psh s c t sh,
  p_ok ps 0 = true -> p_get 0 ps 0 = s ->
  p_ok pc 0 = true -> p_get 0 pc 0 = c ->
  p_ok psh 0 = true -> p_get 0 psh 0 = sh ->
  ptr_at pt t -> edge_arith_ok s c sh ->
  check_EEDGE_c ps pc pt psh = FVal (check_EEDGE s c t sh).
Proof.
  intros ps pc pt psh s c t sh Hs1 Hs2 Hc1 Hc2 Hh1 Hh2 Ht [Ha [Hs0 Hshm]].
  unfold check_EEDGE_c, check_EEDGE_body, check_EEDGE.
  rewrite ?Hs1, ?Hs2, ?Hc1, ?Hc2, ?Hh1, ?Hh2. cbn [andb].
  assert (Hif : (if c >? sh then true else in_i64 (s + c) && true) = true).
  { destruct (c >? sh) eqn:E; [reflexivity|]. rewrite Ha by (clear - E; lia). reflexivity. }
  rewrite !Hif. cbn [c_chk].
  destruct ((c >? sh) || (s + c >? sh)) eqn:E1; cbn [c_bind]; [reflexivity|].
  assert (Hcs : c <= sh /\ s + c <= sh) by (clear - E1; lia). destruct Hcs as [Hcs1 Hcs2].
  destruct t as [tv|]; cbn [ptr_at] in Ht.
  - destruct Ht as [Ht1 Ht2].
    assert (Hnn : p_isnull pt = false) by (destruct pt; [reflexivity | discriminate]).
    rewrite Hnn, Ht1, Ht2. cbn [andb].
    assert (Hchk : ((if c >? 1 then true else true) &&
                    (if (c >? 1) && (tv >? 0)
                     then in_i64 (sh - 1) && true && in_i64 (sh - 1 - s) && in_i64 (c - 1) &&
                          div_ok i64_min (sh - 1 - s) (c - 1)
                     else true)) = true).
    { destruct (c >? 1) eqn:Ec; cbn [andb]; [|reflexivity].
      destruct (tv >? 0); [|reflexivity].
      assert (Hc1' : 1 < c) by (clear - Ec; lia).
      destruct (eedge_checks s c sh Hcs1 Hcs2 Hs0 Hshm Hc1') as [H1 [H2 [H3 H4]]].
      rewrite H1, H2, H3, H4. reflexivity. }
    rewrite Hchk. cbn [c_chk].
    rewrite (eedge_test s c tv sh Hcs1 Hcs2).
    destruct ((c >? 0) && (s + (c - 1) * tv >=? sh)); reflexivity.
  - subst pt. reflexivity.
Qed.

(* the view *)
Definition c_arr (l : option (list Z)) : c_ptr Z :=
  match l with Some x => Some (x, 0) | None => None end.
Definition kind_code (k : apikind) : Z :=
  match k with API_VAR1 => 3 | API_VARA => 4 | API_VARS => 5 | API_VARM => 6 end.
Definition c_pvar (recdim : Z) (shape : list Z) : c_PNC_var :=
  {| PNC_var__ndims := Zlen shape; PNC_var__recdim := recdim; PNC_var__shape := Some (shape, 0) |}.

Ltac scs_st :=
  unfold set_check_start_count_stride__err, set_check_start_count_stride__firstDim,
         set_check_start_count_stride__i, set_check_start_count_stride__len,
         set_check_start_count_stride__len_2, set_check_start_count_stride__ndims,
         set_check_start_count_stride__shape;
  cbn [check_start_count_stride__err check_start_count_stride__firstDim
       check_start_count_stride__i check_start_count_stride__len
       check_start_count_stride__len_2 check_start_count_stride__ndims
       check_start_count_stride__shape].

(* count == NULL ? 1 : count[i] *)
Lemma len_at_chk : forall count (shp : list Z) k, (k < length shp)%nat ->
  match count with Some cn => length cn = length shp | None => True end ->
  (if p_isnull (c_arr count) then true else p_ok (c_arr count) (Z.of_nat k)) = true.
Proof.
  intros [cn|] shp k Hk Hl; cbn [c_arr p_isnull]; [|reflexivity].
  apply p_ok_nat. lia.
Qed.

Lemma len_at_val : forall count (shp : list Z) k, (k < length shp)%nat ->
  (if p_isnull (c_arr count) then 1 else p_get 0 (c_arr count) (Z.of_nat k)) = nth k (cnt_or1 count shp) 0.
Proof.
  intros [cn|] shp k Hk; cbn [c_arr p_isnull cnt_or1].
  - apply p_get_nat.
  - symmetry. apply nth_map_const. exact Hk.
Qed.

Lemma cnt_or1_length : forall count (shp : list Z),
  match count with Some cn => length cn = length shp | None => True end ->
  length (cnt_or1 count shp) = length shp.
Proof. intros [cn|] shp H; cbn [cnt_or1]; [exact H | apply map_length]. Qed.

(* one step of the model's folds *)
Lemma coords_err_step : forall strict st cn shp k,
  (k < length st)%nat -> (k < length cn)%nat -> (k < length shp)%nat ->
  coords_err strict (skipn k st) (skipn k cn) (skipn k shp) =
  let e := check_EINVALCOORDS strict (nth k st 0) (nth k cn 0) (nth k shp 0) in
  if e =? NC_NOERR then coords_err strict (skipn (S k) st) (skipn (S k) cn) (skipn (S k) shp) else e.
Proof.
  intros strict st cn shp k H1 H2 H3.
  rewrite (cs_skipn_nth_cons _ st k 0 H1), (cs_skipn_nth_cons _ cn k 0 H2), (cs_skipn_nth_cons _ shp k 0 H3).
  reflexivity.
Qed.

Lemma coords_err_end : forall strict st cn shp k, (length st <= k)%nat ->
  coords_err strict (skipn k st) (skipn k cn) (skipn k shp) = NC_NOERR.
Proof. intros. rewrite (skipn_all2 st) by assumption. reflexivity. Qed.

(* an accepted start index lies in [0, shape] *)
Lemma coords_fit : forall strict st cn shp m k,
  length st = length shp -> length cn = length shp -> (k + m = length shp)%nat ->
  coords_err strict (skipn k st) (skipn k cn) (skipn k shp) = NC_NOERR ->
  forall j, (k <= j)%nat -> (j < length shp)%nat -> 0 <= nth j st 0 <= nth j shp 0.
Proof.
  intros strict st cn shp. induction m as [|m IH]; intros k Hls Hlc Hk H j Hj1 Hj2; [lia|].
  rewrite coords_err_step in H by lia. cbv zeta in H.
  destruct (check_EINVALCOORDS strict (nth k st 0) (nth k cn 0) (nth k shp 0) =? NC_NOERR) eqn:E.
  - destruct (Nat.eq_dec j k) as [->|Hne].
    + apply Z.eqb_eq in E. rewrite check_EINVALCOORDS_code in E.
      destruct (start_fits strict (nth k st 0) (nth k cn 0) (nth k shp 0)) eqn:Ef; [|discriminate].
      apply start_fits_nonneg in Ef. exact Ef.
    + apply (IH (S k)); try assumption; lia.
  - rewrite H in E. discriminate.
Qed.

Definition NC_STRICT : Z := 2097152.   (* NC_MODE_STRICT_COORD_BOUND as the generated code has it *)

Definition edge_dim (s c : Z) (t : option Z) (sh : Z) : Z :=
  if sh <? 0 then NC_EEDGE else if c <? 0 then NC_ENEGATIVECNT else check_EEDGE s c t sh.

Lemma edge_err_step : forall st cn ts shp k,
  (k < length st)%nat -> (k < length cn)%nat -> (k < length ts)%nat -> (k < length shp)%nat ->
  edge_err (skipn k st) (skipn k cn) (skipn k ts) (skipn k shp) =
  let e := edge_dim (nth k st 0) (nth k cn 0) (nth k ts None) (nth k shp 0) in
  if e =? NC_NOERR then edge_err (skipn (S k) st) (skipn (S k) cn) (skipn (S k) ts) (skipn (S k) shp) else e.
Proof.
  intros st cn ts shp k H1 H2 H3 H4.
  rewrite (cs_skipn_nth_cons _ st k 0 H1), (cs_skipn_nth_cons _ cn k 0 H2),
          (cs_skipn_nth_cons _ ts k None H3), (cs_skipn_nth_cons _ shp k 0 H4).
  reflexivity.
Qed.

Lemma edge_err_end : forall st cn ts shp k, (length st <= k)%nat ->
  edge_err (skipn k st) (skipn k cn) (skipn k ts) (skipn k shp) = NC_NOERR.
Proof. intros. rewrite (skipn_all2 st) by assumption. reflexivity. Qed.

(* start + i etc. *)
Lemma p_add_ok_arr : forall (l : list Z) k, (k <= length l)%nat -> p_add_ok (Some (l, 0)) (Z.of_nat k) = true.
Proof. intros. unfold p_add_ok. rewrite length_Zlen. lia. Qed.

Lemma p_ok_add_arr : forall (l : list Z) k, (k < length l)%nat -> p_ok (p_add (Some (l, 0)) (Z.of_nat k)) 0 = true.
Proof. intros. unfold p_add. apply p_ok_some. rewrite length_Zlen. lia. Qed.

Lemma p_get_add_arr : forall (l : list Z) k, p_get 0 (p_add (Some (l, 0)) (Z.of_nat k)) 0 = nth k l 0.
Proof.
  intros. unfold p_add. rewrite p_get_some. replace (0 + Z.of_nat k + 0) with (Z.of_nat k) by lia. apply znth_nth.
Qed.

(* what a checking loop yields: the model's code e if it is an error (returned at once), else the state after the loop *)
Definition loop_post {S} (R : cres S) (e : Z) (P : S -> Prop) : Prop :=
  match R with
  | CRet v => e <> NC_NOERR /\ v = e
  | CNorm s' => e = NC_NOERR /\ P s'
  | _ => False
  end.

(* a checking loop in front of the rest K of the function *)
Lemma loop_post_run : forall S (R : cres S) e P (K : S -> cres S) A,
  loop_post R e P -> (forall s', e = NC_NOERR -> P s' -> c_fun (K s') = FVal A) ->
  c_fun (c_bind R K) = FVal (if negb (e =? NC_NOERR) then e else A).
Proof.
  intros S R e P K A H HK. destruct R; cbn [loop_post] in H; try contradiction; destruct H as [H1 H2].
  - rewrite H1. apply HK; assumption.
  - subst v. destruct (e =? NC_NOERR) eqn:E; [apply Z.eqb_eq in E; contradiction | reflexivity].
Qed.

(* a checking loop as the last statement before  return NC_NOERR *)
Lemma loop_post_last : forall S (R : cres S) e P,
  loop_post R e P -> c_fun (c_bind R (fun _ => CRet NC_NOERR)) = FVal e.
Proof.
  intros S R e P H. destruct R; cbn [loop_post] in H; try contradiction; destruct H as [H1 H2].
  - rewrite H1. reflexivity.
  - subst v. reflexivity.
Qed.

Definition mkst (e fd i ln l2 nd : Z) (shp : list Z) : st_check_start_count_stride :=
  {| check_start_count_stride__err := e; check_start_count_stride__firstDim := fd;
     check_start_count_stride__i := i; check_start_count_stride__len := ln;
     check_start_count_stride__len_2 := l2; check_start_count_stride__ndims := nd;
     check_start_count_stride__shape := Some (shp, 0) |}.

Definition scs_done (fd ln : Z) (shp : list Z) (s : st_check_start_count_stride) : Prop :=
  exists e l2, s = mkst e fd (Zlen shp) ln l2 (Zlen shp) shp.

(* for (i = ...; i < ndims; i++) body  as the translator renders it: the three loops differ in the body only *)
Definition scs_for (f : nat) (body : st_check_start_count_stride -> cres st_check_start_count_stride) :=
  c_loop f (fun _ => true)
    (fun s => check_start_count_stride__i s <? check_start_count_stride__ndims s) body
    (fun s => c_chk (in_i32 (check_start_count_stride__i s + 1)) "check_start_count_stride: i++"
                (CNorm (set_check_start_count_stride__i (check_start_count_stride__i s + 1) s))).

(* The three loops of check_start_count_stride have one shape: i runs up to ndims, iteration j either returns
   the code err j of dimension j or goes on, changing at most err and len_2.  E j is the model's code for the
   dimensions from j on; k is the dimension the loop starts from (facts about a body may hold from there only). *)
Lemma scs_loop : forall body fd ln shp k (err E : nat -> Z),
  Zlen shp <= 2147483647 ->
  (forall j e l2, (k <= j)%nat -> (j < length shp)%nat ->
     exists e' l2', body (mkst e fd (Z.of_nat j) ln l2 (Zlen shp) shp) =
                    if err j =? NC_NOERR then CNorm (mkst e' fd (Z.of_nat j) ln l2' (Zlen shp) shp) else CRet (err j)) ->
  E (length shp) = NC_NOERR ->
  (forall j, (j < length shp)%nat -> E j = if err j =? NC_NOERR then E (S j) else err j) ->
  (k <= length shp)%nat ->
  forall e l2 iz, iz = Z.of_nat k ->
  loop_post (scs_for (c_fuel_lt iz (Zlen shp)) body (mkst e fd iz ln l2 (Zlen shp) shp))
            (E k) (scs_done fd ln shp).
Proof.
  intros body fd ln shp k0 err E Hn Hb HEn HEk Hk0 e0 l20 iz ->.
  assert (Hind : forall m k f e l2, (k0 <= k)%nat -> (k + m = length shp)%nat -> (m < f)%nat ->
            loop_post (scs_for f body (mkst e fd (Z.of_nat k) ln l2 (Zlen shp) shp))
                      (E k) (scs_done fd ln shp));
    [ | apply (Hind (length shp - k0)%nat);
        [apply Nat.le_refl | lia | rewrite length_Zlen; apply c_fuel_lt_enough; exact Hk0] ].
  unfold scs_for. induction m as [|m IH]; intros k f' e l2 Hk0' Hk Hf; (destruct f' as [|f]; [lia|]).
  - assert (Hkn : k = length shp) by lia. subst k.
    rewrite c_loop_exit; [ | reflexivity | unfold mkst; scs_st; rewrite length_Zlen; lia ].
    cbn [loop_post]. split; [exact HEn|]. exists e, l2. rewrite length_Zlen. reflexivity.
  - destruct (Hb k e l2 Hk0' ltac:(lia)) as [e' [l2' Hbk]]. rewrite HEk by lia.
    destruct (err k =? NC_NOERR) eqn:Ee.
    + rewrite (c_loop_next _ f _ _ body _ _ (mkst e' fd (Z.of_nat k) ln l2' (Zlen shp) shp)
                           (mkst e' fd (Z.of_nat (S k)) ln l2' (Zlen shp) shp));
        [ apply IH; lia | reflexivity | unfold mkst; scs_st; rewrite length_Zlen; lia | left; exact Hbk | ].
      unfold mkst. scs_st.
      assert (Hi32 : in_i32 (Z.of_nat k + 1) = true) by (apply in_i32_iff; rewrite length_Zlen in Hn; lia).
      rewrite Hi32. replace (Z.of_nat k + 1) with (Z.of_nat (S k)) by lia. reflexivity.
    + rewrite c_loop_iter, Hbk by (reflexivity || (unfold mkst; scs_st; rewrite length_Zlen; lia)).
      cbn [loop_post]. split; [apply Z.eqb_neq; exact Ee | reflexivity].
Qed.

Section Loops.
Variables (pncp : c_PNC) (varid isr kz : Z) (st : list Z) (count stride : option (list Z)) (xret xout : Z).
Let strict := z2b (Z.land (PNC__flag pncp) NC_STRICT).

Lemma loop1_body_at : forall k e fd ln l2 shp,
  length st = length shp ->
  match count with Some cn => length cn = length shp | None => True end ->
  (k < length shp)%nat ->
  let ek := check_EINVALCOORDS strict (nth k st 0) (nth k (cnt_or1 count shp) 0) (nth k shp 0) in
  check_start_count_stride_loop1_body pncp varid isr kz (Some (st, 0)) (c_arr count) (c_arr stride) xret xout
    (mkst e fd (Z.of_nat k) ln l2 (Zlen shp) shp) =
  if ek =? NC_NOERR then CNorm (mkst ek fd (Z.of_nat k) ln (nth k (cnt_or1 count shp) 0) (Zlen shp) shp) else CRet ek.
Proof.
  intros k e fd ln l2 shp Hls Hlc Hk ek.
  unfold check_start_count_stride_loop1_body, mkst. scs_st.
  rewrite (len_at_chk count shp k) by assumption. cbn [c_chk c_bind]. scs_st.
  rewrite (len_at_val count shp k) by assumption.
  rewrite !p_ok_nat by lia. rewrite !p_get_nat. cbn [andb c_chk].
  rewrite gen_check_EINVALCOORDS_eq. cbn [c_call c_bind]. scs_st.
  fold NC_STRICT. fold strict. fold ek. change NC_NOERR with 0.
  destruct (ek =? 0); reflexivity.
Qed.

Lemma loop1_res : forall k iz e0 fd ln l2 shp,
  length st = length shp ->
  match count with Some cn => length cn = length shp | None => True end ->
  (k <= length shp)%nat -> iz = Z.of_nat k -> Zlen shp <= 2147483647 ->
  let e := coords_err strict (skipn k st) (skipn k (cnt_or1 count shp)) (skipn k shp) in
  let R := scs_for (c_fuel_lt iz (Zlen shp))
     (check_start_count_stride_loop1_body pncp varid isr kz (Some (st, 0)) (c_arr count) (c_arr stride) xret xout)
     (mkst e0 fd iz ln l2 (Zlen shp) shp) in
  loop_post R e (scs_done fd ln shp).
Proof.
  intros k iz e0 fd ln l2 shp Hls Hlc Hk Hiz Hn e R. subst e R.
  pose proof (cnt_or1_length count shp Hlc) as Hl1.
  apply (scs_loop _ fd ln shp k
           (fun j => check_EINVALCOORDS strict (nth j st 0) (nth j (cnt_or1 count shp) 0) (nth j shp 0))
           (fun j => coords_err strict (skipn j st) (skipn j (cnt_or1 count shp)) (skipn j shp)));
    [ exact Hn | | | | exact Hk | exact Hiz ].
  - intros j e l2' _ Hj. eexists _, _. apply loop1_body_at; assumption.
  - apply coords_err_end. lia.
  - intros j Hj. apply coords_err_step; lia.
Qed.

End Loops.

(* check_EEDGE(start + k, count + k, pt, shape + k) *)
Lemma edge_call_arr : forall (st cn shp : list Z) pt tk k,
  (k < length st)%nat -> (k < length cn)%nat -> (k < length shp)%nat ->
  ptr_at pt tk -> edge_arith_ok (nth k st 0) (nth k cn 0) (nth k shp 0) ->
  check_EEDGE_c (p_add (Some (st, 0)) (Z.of_nat k)) (p_add (Some (cn, 0)) (Z.of_nat k)) pt
                (p_add (Some (shp, 0)) (Z.of_nat k))
  = FVal (check_EEDGE (nth k st 0) (nth k cn 0) tk (nth k shp 0)).
Proof.
  intros st cn shp pt tk k H1 H2 H3 Ht Ha.
  apply gen_check_EEDGE_eq;
    [ apply p_ok_add_arr | apply p_get_add_arr | apply p_ok_add_arr | apply p_get_add_arr
    | apply p_ok_add_arr | apply p_get_add_arr | | ]; assumption.
Qed.

Section Loop2.
Variables (pncp : c_PNC) (varid isr kz : Z) (st cn : list Z) (stride : option (list Z)) (xret xout : Z).

Lemma loop2_body_at : forall k e fd ln l2 shp,
  length st = length shp -> length cn = length shp ->
  match stride with Some t => length t = length shp | None => True end ->
  (k < length shp)%nat ->
  (0 <= nth k cn 0 -> edge_arith_ok (nth k st 0) (nth k cn 0) (nth k shp 0)) ->
  let ek := edge_dim (nth k st 0) (nth k cn 0) (nth k (strides_of cn stride) None) (nth k shp 0) in
  exists e',
  check_start_count_stride_loop2_body pncp varid isr kz (Some (st, 0)) (Some (cn, 0)) (c_arr stride) xret xout
    (mkst e fd (Z.of_nat k) ln l2 (Zlen shp) shp) =
  if ek =? NC_NOERR then CNorm (mkst e' fd (Z.of_nat k) ln l2 (Zlen shp) shp) else CRet ek.
Proof.
  intros k e fd ln l2 shp Hls Hlc Hlt Hk Hak ek. subst ek.
  unfold check_start_count_stride_loop2_body, mkst. scs_st.
  rewrite !p_ok_nat by lia. rewrite !p_get_nat. cbn [c_chk].
  unfold edge_dim. change NC_EEDGE with (-57). change NC_ENEGATIVECNT with (-210). change NC_NOERR with 0.
  destruct (nth k shp 0 <? 0) eqn:Esh; cbn [c_bind]; [exists e; reflexivity|].
  scs_st. rewrite !p_ok_nat by lia. rewrite !p_get_nat. cbn [c_chk].
  destruct (nth k cn 0 <? 0) eqn:Ec; cbn [c_bind]; [exists e; reflexivity|].
  scs_st. rewrite !p_add_ok_arr by lia. cbn [andb c_chk].
  specialize (Hak ltac:(lia)).
  rewrite (nth_strides_of cn stride (length cn) k) by (lia || (destruct stride; [lia | exact I])).
  (* stride == NULL ? check_EEDGE(..., NULL, ...) : check_EEDGE(..., stride + i, ...) *)
  destruct stride as [t|]; cbn [c_arr p_isnull option_map].
  - rewrite p_add_ok_arr by lia. cbn [andb c_chk].
    rewrite (edge_call_arr st cn shp _ (Some (nth k t 0)) k);
      [ | lia | lia | lia | split; [apply p_ok_add_arr; lia | apply p_get_add_arr] | exact Hak ].
    cbn [c_call c_bind]. scs_st.
    set (ek := check_EEDGE _ _ _ _). exists ek. destruct (ek =? 0); reflexivity.
  - rewrite (edge_call_arr st cn shp _ None k); [ | lia | lia | lia | reflexivity | exact Hak ].
    cbn [c_call c_bind]. scs_st.
    set (ek := check_EEDGE _ _ _ _). exists ek. destruct (ek =? 0); reflexivity.
Qed.

Lemma loop2_res : forall k iz e0 fd ln l2 shp,
  length st = length shp -> length cn = length shp ->
  match stride with Some t => length t = length shp | None => True end ->
  (forall j, (k <= j)%nat -> (j < length shp)%nat -> 0 <= nth j cn 0 ->
             edge_arith_ok (nth j st 0) (nth j cn 0) (nth j shp 0)) ->
  (k <= length shp)%nat -> iz = Z.of_nat k -> Zlen shp <= 2147483647 ->
  let e := edge_err (skipn k st) (skipn k cn) (skipn k (strides_of cn stride)) (skipn k shp) in
  let R := scs_for (c_fuel_lt iz (Zlen shp))
     (check_start_count_stride_loop2_body pncp varid isr kz (Some (st, 0)) (Some (cn, 0)) (c_arr stride) xret xout)
     (mkst e0 fd iz ln l2 (Zlen shp) shp) in
  loop_post R e (scs_done fd ln shp).
Proof.
  intros k iz e0 fd ln l2 shp Hls Hlc Hlt Har Hk Hiz Hn e R. subst e R.
  pose proof (strides_of_length cn stride (length shp) Hlc Hlt) as Hlts.
  apply (scs_loop _ fd ln shp k
           (fun j => edge_dim (nth j st 0) (nth j cn 0) (nth j (strides_of cn stride) None) (nth j shp 0))
           (fun j => edge_err (skipn j st) (skipn j cn) (skipn j (strides_of cn stride)) (skipn j shp)));
    [ exact Hn | | | | exact Hk | exact Hiz ].
  - intros j e l2' Hj1 Hj2.
    destruct (loop2_body_at j e fd ln l2' shp Hls Hlc Hlt Hj2 (Har j Hj1 Hj2)) as [e' He'].
    exists e', l2'. exact He'.
  - apply edge_err_end. lia.
  - intros j Hj. apply edge_err_step; lia.
Qed.
End Loop2.

Section Loop3.
Variables (pncp : c_PNC) (varid isr kz : Z) (pst pcn : c_ptr Z) (t : list Z) (xret xout : Z).

Lemma loop3_res : forall k iz e0 fd ln l2 shp,
  length t = length shp ->
  (k <= length shp)%nat -> iz = Z.of_nat k -> Zlen shp <= 2147483647 ->
  let e := if existsb (fun x => x <=? 0) (skipn k t) then NC_ESTRIDE else NC_NOERR in
  let R := scs_for (c_fuel_lt iz (Zlen shp))
     (check_start_count_stride_loop3_body pncp varid isr kz pst pcn (Some (t, 0)) xret xout)
     (mkst e0 fd iz ln l2 (Zlen shp) shp) in
  loop_post R e (scs_done fd ln shp).
Proof.
  intros k iz e0 fd ln l2 shp Hlt Hk Hiz Hn e R. subst e R.
  apply (scs_loop _ fd ln shp k
           (fun j => if nth j t 0 <=? 0 then NC_ESTRIDE else NC_NOERR)
           (fun j => if existsb (fun x => x <=? 0) (skipn j t) then NC_ESTRIDE else NC_NOERR));
    [ exact Hn | | | | exact Hk | exact Hiz ].
  - intros j e l2' _ Hj. exists e, l2'.
    unfold check_start_count_stride_loop3_body, mkst. scs_st.
    rewrite p_ok_nat by lia. rewrite p_get_nat. cbn [c_chk].
    destruct (nth j t 0 <=? 0); reflexivity.
  - rewrite (skipn_all2 t) by lia. reflexivity.
  - intros j Hj. rewrite (cs_skipn_nth_cons _ t j 0) by lia. cbn [existsb].
    destruct (nth j t 0 <=? 0); reflexivity.
Qed.
End Loop3.

Definition scs_lengths (shape st : list Z) (count stride : option (list Z)) : Prop :=
  shape <> [] /\ length st = length shape /\
  match count with Some cn => length cn = length shape | None => True end /\
  match stride with Some t => length t = length shape | None => True end.

(* what remains of the arithmetic guard: the sum start[i] + count[i], which check_EEDGE computes for an accepted
   start (0 <= start <= shape) and a count in [0, shape], must fit MPI_Offset; it can exceed 2^63 - 1 only when
   the dimension is longer than 2^62 (scs_sum_ok_small) *)
Definition scs_sum_ok (shp st : list Z) (count : option (list Z)) : Prop :=
  match count with
  | None => True
  | Some cn => forall j, (j < length st)%nat ->
                 0 <= nth j st 0 <= nth j shp 0 -> 0 <= nth j cn 0 <= nth j shp 0 ->
                 nth j st 0 + nth j cn 0 <= 9223372036854775807
  end.

Lemma scs_sum_ok_small : forall shp st count,
  Forall (fun x => x <= 4611686018427387903) shp -> length st = length shp -> scs_sum_ok shp st count.
Proof.
  intros shp st [cn|] Hall Hl; cbn [scs_sum_ok]; [|exact I].
  intros j Hj Hs Hc.
  assert (Hx : nth j shp 0 <= 4611686018427387903).
  { rewrite Forall_forall in Hall. apply Hall. apply nth_In. lia. }
  lia.
Qed.

(* the arithmetic guard of check_EEDGE for an accepted start, from the guards of the theorem *)
Lemma sum_edge_ok : forall shp st cn j,
  scs_sum_ok shp st (Some cn) -> (j < length st)%nat ->
  0 <= nth j st 0 <= nth j shp 0 -> nth j shp 0 <= 9223372036854775807 -> 0 <= nth j cn 0 ->
  edge_arith_ok (nth j st 0) (nth j cn 0) (nth j shp 0).
Proof.
  intros shp st cn j Har Hj Hfit Hm Hc.
  split; [|split; [exact (proj1 Hfit) | exact Hm]].
  intros Hcs. apply in_i64_iff. pose proof (Har j Hj Hfit (conj Hc Hcs)) as Hsum. clear - Hsum Hfit Hc. lia.
Qed.

(* once loop 1 has accepted the start indices from k on, check_EEDGE's arithmetic is safe for those dimensions *)
Lemma accepted_edge_ok : forall strict shp st cn1 cn k,
  length st = length shp -> length cn1 = length shp -> (k <= length shp)%nat ->
  coords_err strict (skipn k st) (skipn k cn1) (skipn k shp) = NC_NOERR ->
  scs_sum_ok shp st (Some cn) ->
  (forall j, (j < length shp)%nat -> nth j shp 0 <= 9223372036854775807) ->
  forall j, (k <= j)%nat -> (j < length shp)%nat -> 0 <= nth j cn 0 ->
  edge_arith_ok (nth j st 0) (nth j cn 0) (nth j shp 0).
Proof.
  intros strict shp st cn1 cn k Hls Hl1 Hkn Hce Har Hmaxj j Hj1 Hj2 Hj3.
  apply (sum_edge_ok shp st cn j Har); [rewrite Hls; exact Hj2 | | apply Hmaxj; exact Hj2 | exact Hj3].
  apply (coords_fit strict st cn1 shp (length shp - k) k Hls Hl1 ltac:(lia) Hce j Hj1 Hj2).
Qed.

Theorem gen_check_scs_eq : forall pncp varid isr kind recdim shape numrecs st count stride,
  p_ok (PNC__vars pncp) varid = true ->
  p_get c_PNC_var_default (PNC__vars pncp) varid = c_pvar recdim shape ->
  In (PNC__format pncp) [1; 2; 5] ->
  scs_lengths shape st count stride -> Zlen shape <= 2147483647 ->
  Forall (fun x => x <= 9223372036854775807) (shp_of (recdim >=? 0) shape numrecs) ->
  scs_sum_ok (shp_of (recdim >=? 0) shape numrecs) st count ->
  check_start_count_stride_c pncp varid isr (kind_code kind) (Some (st, 0)) (c_arr count) (c_arr stride)
                             NC_NOERR numrecs
  = FVal (check_scs (PNC__format pncp) (z2b (Z.land (PNC__flag pncp) NC_STRICT)) (recdim >=? 0) (z2b isr)
                    kind shape numrecs (Some st) count stride).
Proof.
  intros pncp varid isr kind recdim shape numrecs st count stride Hok Hget Hfmt [Hne [Hls [Hlc Hlt]]] Hn Hmax Har.
  rewrite check_scs_eq. cbv zeta.
  unfold check_start_count_stride_c, check_start_count_stride_body, st_check_start_count_stride_init.
  set (strict := z2b (Z.land (PNC__flag pncp) NC_STRICT)).
  set (fmt := PNC__format pncp) in *.
  cbn [c_bind]. scs_st. rewrite !Hok, !Hget. cbn [c_chk c_bind c_pvar PNC_var__shape PNC_var__recdim PNC_var__ndims]. scs_st.
  destruct shape as [|sh0 shr]; [exfalso; apply Hne; reflexivity|]. clear Hne.
  destruct st as [|s0 str]; [discriminate|].
  set (isrec := recdim >=? 0).
  set (shp := shp_of isrec (sh0 :: shr) numrecs).
  assert (Hshp_len : length shp = length (sh0 :: shr)) by (unfold shp, shp_of; destruct isrec; reflexivity).
  change (shp_of (recdim >=? 0) (sh0 :: shr) numrecs) with shp in Hmax, Har.
  rewrite <- Hshp_len in Hls, Hlc, Hlt.
  assert (Hpos : (0 < length shp)%nat) by (rewrite Hshp_len; apply Nat.lt_0_succ).
  assert (Hmaxj : forall j, (j < length shp)%nat -> nth j shp 0 <= 9223372036854775807).
  { intros j Hj. rewrite Forall_forall in Hmax. apply Hmax. apply nth_In. exact Hj. }
  assert (Hsh0 : isrec = true -> p_ok (Some (shp, 0)) 0 = true /\ p_get 0 (Some (shp, 0)) 0 = numrecs).
  { intros Hi. unfold shp, shp_of. rewrite Hi. split; [apply p_ok_cons0 | reflexivity]. }
  (* the record count replaces shape[0] *)
  match goal with |- c_fun (c_bind ?X _) = _ =>
    assert (H1 : X = CNorm (mkst 0 0 0 0 0 0 shp)) end.
  { unfold shp, shp_of, mkst. destruct isrec; [|reflexivity].
    assert (Hp : p_ok (Some (sh0 :: shr, 0)) 0 = true) by apply p_ok_cons0.
    rewrite Hp. reflexivity. }
  rewrite H1. clear H1. unfold mkst at 1. cbn [c_bind]. scs_st.
  (* start[0] *)
  assert (Hp0 : p_ok (Some (s0 :: str, 0)) 0 = true) by apply p_ok_cons0.
  rewrite !Hp0. cbn [p_isnull orb c_chk hd]. rewrite !p_get_some. cbn [Z.add znth Z.eqb].
  destruct (s0 <? 0) eqn:Es0; cbn [c_bind]; [reflexivity|]. scs_st.
  assert (Hf5 : ((fmt <=? 2) || (fmt =? 4)) = (fmt <? 5))
    by (destruct Hfmt as [H|[H|[H|[]]]]; rewrite <- H; reflexivity).
  rewrite !Hf5.
  set (cn1 := cnt_or1 count shp).
  pose proof (cnt_or1_length count shp Hlc) as Hl1. fold cn1 in Hl1.
  pose proof (len_at_chk count shp 0 Hpos Hlc) as Hlen0c.
  assert (Hlen0 : (if p_isnull (c_arr count) then 1 else p_get 0 (c_arr count) 0) = hd 1 cn1).
  { pose proof (len_at_val count shp 0 Hpos) as Hv. cbn [Z.of_nat] in Hv. rewrite Hv. fold cn1.
    destruct cn1; [rewrite <- Hl1 in Hpos; inversion Hpos | reflexivity]. }
  cbn [Z.of_nat] in Hlen0c.
  set (e_rec := if isrec
                then if (fmt <? 5) && (s0 >? NC_MAX_UINT) then NC_EINVALCOORDS
                     else if z2b isr
                          then if (numrecs =? 0) && (hd 1 cn1 >? 0) then NC_EINVALCOORDS
                               else check_EINVALCOORDS strict s0 (hd 1 cn1) numrecs
                          else NC_NOERR
                else NC_NOERR).
  match goal with |- c_fun (c_bind ?X _) = _ =>
    assert (H2 : exists e1 ln1, X = if negb (e_rec =? NC_NOERR) then CRet e_rec
                                    else CNorm (mkst e1 (b2z isrec) 0 ln1 0 0 shp)) end.
  { unfold e_rec, mkst. destruct isrec eqn:Eisrec; [|exists 0, 0; reflexivity].
    destruct (Hsh0 eq_refl) as [Hsh0a Hsh0b].
    assert (Hif : (if fmt <? 5 then true else true) = true) by (destruct (fmt <? 5); reflexivity).
    rewrite Hif. cbn [c_chk]. change NC_MAX_UINT with 4294967295. change NC_EINVALCOORDS with (-40). change NC_NOERR with 0.
    destruct ((fmt <? 5) && (s0 >? 4294967295)) eqn:Emax; cbn [c_bind]; [exists 0, 0; reflexivity|]. scs_st.
    destruct (z2b isr) eqn:Eisr; cbn [c_bind]; [|exists 0, 0; reflexivity]. scs_st.
    rewrite Hlen0c, Hlen0. cbn [c_chk c_bind]. scs_st. rewrite Hsh0a, Hsh0b. cbn [c_chk andb].
    destruct ((numrecs =? 0) && (hd 1 cn1 >? 0)) eqn:Enr; cbn [c_bind]; [exists 0, 0; reflexivity|]. scs_st.
    rewrite Hsh0a, Hsh0b. cbn [c_chk]. rewrite gen_check_EINVALCOORDS_eq. cbn [c_call c_bind]. scs_st.
    fold NC_STRICT. fold strict.
    destruct (check_EINVALCOORDS strict s0 (hd 1 cn1) numrecs =? 0) eqn:Ece; cbn [negb c_bind]; scs_st.
    - eexists _, _. reflexivity.
    - exists 0, 0. reflexivity. }
  destruct H2 as [e1 [ln1 H2]]. rewrite H2. clear H2.
  fold cn1. fold e_rec.
  destruct (negb (e_rec =? NC_NOERR)) eqn:Erec; cbn [c_bind]; [reflexivity|].
  unfold mkst. scs_st. rewrite ?Hok, ?Hget. cbn [c_chk c_bind c_pvar PNC_var__ndims]. scs_st.
  assert (HZ : Zlen (sh0 :: shr) = Zlen shp) by (rewrite !length_Zlen, Hshp_len; reflexivity).
  rewrite HZ in *.
  set (k := if isrec then 1%nat else 0%nat).
  assert (Hkz : b2z isrec = Z.of_nat k) by (unfold k; destruct isrec; reflexivity).
  assert (Hkn : (k <= length shp)%nat) by (unfold k; destruct isrec; [exact Hpos | apply Nat.le_0_l]).
  (* loop 1: the remaining start indices *)
  apply (loop_post_run _ _ _ _ _ _
           (loop1_res pncp varid isr (kind_code kind) (s0 :: str) count stride NC_NOERR numrecs
                      k (b2z isrec) e1 (b2z isrec) ln1 0 shp Hls Hlc Hkn Hkz Hn)).
  intros s' Hce [e2 [l22 ->]]. unfold mkst. scs_st.
  (* the record index of a read has been accepted against the record count *)
  assert (Hs0n : isrec = true -> z2b isr = true -> 0 <= s0 <= numrecs).
  { intros Hi Hr. unfold e_rec in Erec. rewrite Hi, Hr in Erec.
    destruct ((fmt <? 5) && (s0 >? NC_MAX_UINT)); [discriminate|].
    destruct ((numrecs =? 0) && (hd 1 cn1 >? 0)); [discriminate|].
    rewrite check_EINVALCOORDS_code in Erec.
    destruct (start_fits strict s0 (hd 1 cn1) numrecs) eqn:Ef; [|discriminate].
    apply start_fits_nonneg in Ef. exact Ef. }
  destruct count as [cn|]; cbn [c_arr p_isnull].
  2:{ destruct kind; reflexivity. }
  destruct cn as [|c0 cnr]; [discriminate|].
  assert (Hpc0 : p_ok (Some (c0 :: cnr, 0)) 0 = true) by apply p_ok_cons0.
  cbn [c_bind]. scs_st.
  set (ts := strides_of (c0 :: cnr) stride).
  set (e0 := if isrec
             then if hd 0 (c0 :: cnr) <? 0 then NC_ENEGATIVECNT
                  else if z2b isr then check_EEDGE s0 (hd 0 (c0 :: cnr)) (hd None ts) numrecs else NC_NOERR
             else NC_NOERR).
  match goal with |- c_fun (c_bind (c_bind ?X _) _) = _ =>
    assert (H3 : exists e3, X = if negb (e0 =? NC_NOERR) then CRet e0
                                else CNorm (mkst e3 (b2z isrec) (Zlen shp) ln1 l22 (Zlen shp) shp)) end.
  { unfold e0, mkst. destruct isrec eqn:Eisrec; [|exists e2; reflexivity].
    rewrite Hpc0, p_get_some. cbn [Z.add znth Z.eqb c_chk hd].
    change NC_ENEGATIVECNT with (-210). change NC_NOERR with 0.
    destruct (c0 <? 0) eqn:Ec0; cbn [c_bind]; [exists e2; reflexivity|]. scs_st.
    destruct (z2b isr) eqn:Eisr; cbn [c_bind]; scs_st; [|exists e2; reflexivity].
    destruct (Hsh0 eq_refl) as [Hsh0a Hsh0b].
    rewrite (gen_check_EEDGE_eq _ _ _ _ s0 c0 (hd None ts) numrecs);
      [ | exact Hp0 | reflexivity | exact Hpc0 | reflexivity | exact Hsh0a | exact Hsh0b | | ].
    - cbn [c_call c_bind]. scs_st.
      destruct (check_EEDGE s0 c0 (hd None ts) numrecs =? 0) eqn:Ee; cbn [negb c_bind]; scs_st; [eexists; reflexivity | exists 0; reflexivity].
    - unfold ts, strides_of. destruct stride as [t|]; cbn [c_arr].
      + destruct t as [|t0 tr]; [discriminate|]. cbn [map hd ptr_at]. split; [|reflexivity].
        apply p_ok_cons0.
      + reflexivity.
    - assert (Hc0n : 0 <= c0) by (clear - Ec0; lia).
      exact (sum_edge_ok shp (s0 :: str) (c0 :: cnr) 0 Har (Nat.lt_0_succ _) (Hs0n eq_refl eq_refl)
                         (Hmaxj 0%nat Hpos) Hc0n). }
  destruct H3 as [e3 H3]. rewrite H3. clear H3.
  destruct (negb (e0 =? NC_NOERR)) eqn:Ee0; cbn [c_bind]; [reflexivity|]. unfold mkst. scs_st.
  (* loop 2: counts and edges of the remaining dimensions *)
  pose proof (accepted_edge_ok strict shp (s0 :: str) cn1 (c0 :: cnr) k Hls Hl1 Hkn Hce Har Hmaxj) as Har'.
  rewrite c_bind_assoc.
  apply (loop_post_run _ _ _ _ _ _
           (loop2_res pncp varid isr (kind_code kind) (s0 :: str) (c0 :: cnr) stride NC_NOERR numrecs
                      k (b2z isrec) e3 (b2z isrec) ln1 l22 shp Hls Hlc Hlt Har' Hkn Hkz Hn)).
  intros s' _ [e4 [l23 ->]]. unfold mkst. scs_st.
  (* loop 3: the strides *)
  unfold stride_code.
  destruct stride as [t|]; cbn [c_arr p_isnull negb]; [|reflexivity].
  cbn [c_bind]. scs_st.
  apply (loop_post_last _ _ _ _
           (loop3_res pncp varid isr (kind_code kind) (Some (s0 :: str, 0)) (Some (c0 :: cnr, 0)) t NC_NOERR numrecs
                      0 0 e4 (b2z isrec) ln1 l23 shp Hlt (Nat.le_0_l _) eq_refl Hn)).
Qed.

(* a NULL start is rejected before anything is read through it *)
Theorem gen_check_scs_null_start : forall pncp varid isr kz recdim shape numrecs pcount pstride,
  p_ok (PNC__vars pncp) varid = true ->
  p_get c_PNC_var_default (PNC__vars pncp) varid = c_pvar recdim shape ->
  shape <> [] ->
  check_start_count_stride_c pncp varid isr kz None pcount pstride NC_NOERR numrecs = FVal NC_EINVALCOORDS.
Proof.
  intros pncp varid isr kz recdim shape numrecs pcount pstride Hok Hget Hne.
  unfold check_start_count_stride_c, check_start_count_stride_body, st_check_start_count_stride_init.
  cbn [c_bind]. scs_st. rewrite !Hok, !Hget. cbn [c_chk c_bind c_pvar PNC_var__shape PNC_var__recdim]. scs_st.
  destruct shape as [|sh0 shr]; [exfalso; apply Hne; reflexivity|].
  assert (Hp : p_ok (Some (sh0 :: shr, 0)) 0 = true) by apply p_ok_cons0.
  destruct (recdim >=? 0); [rewrite Hp|]; reflexivity.
Qed.

(* a failing inquiry of the record count is returned as it is *)
Theorem gen_check_scs_inq_error : forall pncp varid isr kz recdim shape pstart pcount pstride xret xout,
  p_ok (PNC__vars pncp) varid = true ->
  p_get c_PNC_var_default (PNC__vars pncp) varid = c_pvar recdim shape ->
  shape <> [] -> 0 <= recdim -> xret <> NC_NOERR ->
  check_start_count_stride_c pncp varid isr kz pstart pcount pstride xret xout = FVal xret.
Proof.
  intros pncp varid isr kz recdim shape pstart pcount pstride xret xout Hok Hget Hne Hrec Hx.
  unfold check_start_count_stride_c, check_start_count_stride_body, st_check_start_count_stride_init.
  cbn [c_bind]. scs_st. rewrite !Hok, !Hget. cbn [c_chk c_bind c_pvar PNC_var__shape PNC_var__recdim]. scs_st.
  destruct shape as [|sh0 shr]; [exfalso; apply Hne; reflexivity|].
  assert (Hp : p_ok (Some (sh0 :: shr, 0)) 0 = true) by apply p_ok_cons0.
  assert (Hr : (recdim >=? 0) = true) by lia.
  rewrite Hr, Hp. cbn [andb c_chk c_bind]. scs_st.
  assert (Hx0 : (xret =? 0) = false) by (change NC_NOERR with 0 in Hx; lia).
  rewrite Hx0. reflexivity.
Qed.

Theorem gen_scs_subset_complete : tr_cfun_unsupported = [].
Proof. reflexivity. Qed.

(* the guards are satisfiable; the generated function runs *)
Definition ex_pnc (fmt flag : Z) (vars : list c_PNC_var) : c_PNC :=
  {| PNC__flag := flag; PNC__format := fmt; PNC__vars := Some (vars, 0) |}.

Example gen_check_scs_guards_ex :
  let pncp := ex_pnc 5 0 [c_pvar (-1) [4; 6]; c_pvar 0 [0; 10; 20]] in
  let st := [2; 0; 5] in let cn := Some [3; 10; 4] in let sd := Some [1; 1; 4] in
  (p_ok (PNC__vars pncp) 1 = true /\
   p_get c_PNC_var_default (PNC__vars pncp) 1 = c_pvar 0 [0; 10; 20] /\
   In (PNC__format pncp) [1; 2; 5] /\
   scs_lengths [0; 10; 20] st cn sd /\ Zlen [0; 10; 20] <= 2147483647 /\
   Forall (fun x => x <= 9223372036854775807) (shp_of (0 >=? 0) [0; 10; 20] 5) /\
   scs_sum_ok (shp_of (0 >=? 0) [0; 10; 20] 5) st cn) /\
  check_start_count_stride_c pncp 1 1 (kind_code API_VARS) (Some (st, 0)) (c_arr cn) (c_arr sd) NC_NOERR 5 = FVal NC_NOERR /\
  check_start_count_stride_c pncp 1 1 (kind_code API_VARS) (Some (st, 0)) (c_arr cn) (c_arr sd) NC_NOERR 4 = FVal NC_EEDGE /\
  check_start_count_stride_c pncp 1 0 (kind_code API_VARS) (Some (st, 0)) (c_arr cn) (c_arr (Some [1; 1; 5])) NC_NOERR 4 = FVal NC_EEDGE /\
  check_start_count_stride_c pncp 1 0 (kind_code API_VARS) (Some (st, 0)) (c_arr cn) (c_arr (Some [1; 0; 4])) NC_NOERR 4 = FVal NC_ESTRIDE.
Proof.
  cbv zeta. split; [|repeat split].
  split; [reflexivity|]. split; [reflexivity|]. split; [cbn; tauto|].
  split; [repeat split; discriminate|]. split; [cbn; lia|].
  split; [repeat constructor; lia|].
  apply scs_sum_ok_small; [repeat constructor; lia | reflexivity].
Qed.

(* The stride test is free of overflow for EVERY stride value: gen_check_EEDGE_eq has no hypothesis about the
   stride.  Before the repair of check_EEDGE (commit 084e6895 of /repo: the product (count - 1) * stride replaced
   by a division) the inputs below made the C arithmetic overflow and the request was accepted; now the generated
   function agrees with the model on them. *)
Example gen_check_scs_huge_strides :
  let pncp := ex_pnc 5 0 [c_pvar (-1) [10]] in
  check_start_count_stride_c pncp 0 0 (kind_code API_VARS) (Some ([0], 0)) (Some ([3], 0))
                             (Some ([4611686018427387904], 0)) NC_NOERR 0 = FVal NC_EEDGE /\
  check_start_count_stride_c pncp 0 0 (kind_code API_VARS) (Some ([0], 0)) (Some ([5], 0))
                             (Some ([4611686018427387905], 0)) NC_NOERR 0 = FVal NC_EEDGE /\
  check_start_count_stride_c pncp 0 0 (kind_code API_VARS) (Some ([0], 0)) (Some ([2], 0))
                             (Some ([9223372036854775807], 0)) NC_NOERR 0 = FVal NC_EEDGE /\
  check_start_count_stride_c pncp 0 0 (kind_code API_VARS) (Some ([0], 0)) (Some ([2], 0))
                             (Some ([-9223372036854775808], 0)) NC_NOERR 0 = FVal NC_ESTRIDE /\
  check_start_count_stride_c pncp 0 0 (kind_code API_VARS) (Some ([0], 0)) (Some ([4], 0))
                             (Some ([3], 0)) NC_NOERR 0 = FVal NC_NOERR /\
  check_start_count_stride_c pncp 0 0 (kind_code API_VARS) (Some ([1], 0)) (Some ([4], 0))
                             (Some ([3], 0)) NC_NOERR 0 = FVal NC_EEDGE /\
  check_scs 5 false false false API_VARS [10] 0 (Some [0]) (Some [5]) (Some [4611686018427387905]) = NC_EEDGE.
Proof. cbv zeta. repeat split. Qed.

(* what remains: a dimension longer than 2^62 lets start + count exceed MPI_Offset (start <= shape and
   count <= shape do not bound the sum below 2^63); there the C sum is undefined, the model says NC_EEDGE *)
Example gen_check_scs_sum_witness :
  let big := 4611686018427387905 in     (* 2^62 + 1 *)
  let pncp := ex_pnc 5 0 [c_pvar (-1) [big]] in
  check_start_count_stride_c pncp 0 0 (kind_code API_VARA) (Some ([big - 1], 0)) (Some ([big], 0)) None NC_NOERR 0
    = FUndef "check_EEDGE: if (*count > *shape || *start + *count > *shape)" /\
  check_scs 5 false false false API_VARA [big] 0 (Some [big - 1]) (Some [big]) None = NC_EEDGE /\
  ~ scs_sum_ok [big] [big - 1] (Some [big]).
Proof.
  cbv zeta. split; [reflexivity|]. split; [reflexivity|].
  intros H. specialize (H 0%nat ltac:(cbn; lia)). cbn [nth] in H. lia.
Qed.

Print Assumptions gen_check_scs_eq.
Print Assumptions gen_check_scs_null_start.
Print Assumptions gen_check_scs_inq_error.
Print Assumptions gen_scs_subset_complete.
