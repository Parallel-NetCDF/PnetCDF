(* Proofs_Logical.v — the logical content of a file (Logical.v) versus its layout.

   Main results (for ALL contents and ALL layout choices; nothing is a bounded sweep):
     dump_regen_identity          logical_content (encode_with_layout c lc) = Some c
     logical_eq_true_iff          logical_eq a b = true <-> a = b
     content_eq_true_iff          content_eq a b = true <-> equal up to the format number
     logical_eq_equiv             logical_eq is an equivalence relation
     logical_eq_layout_invariant  two layouts of one content compare equal
     files_logical_eq_iff         two written files compare equal iff the contents are equal
     logical_eq_detects_single_edit   every single logical edit is detected
     written_files_strict_valid   the header of a written file is strictly valid
     encode_with_layout_valid_partial   file_valid of a written file whose gaps are multiples of 4, provided
                                  record packing applies to at most one record variable (packed_alone);
     encode_with_layout_valid_refuted   without packed_alone the statement is false (bad_c: a zero-size second
                                  record variable — excluded by the library — gets an unaligned begin) *)
From Pnc Require Import Logical Proofs_Base Proofs_Lists Proofs_Header.
Local Open Scope Z_scope.

(** * Hypotheses of the main theorems *)

Definition wf_content (c : logical) : Prop :=
  wf_hdr (hdr_of c (map (fun _ => 0) (lg_vars c))) = true /\ data_ok c = true.

(* the begins fit the OFFSET field of the format *)
Definition layout_fits (c : logical) (lc : layout_choice) : Prop :=
  Forall (fun b => off_ok (lg_format c) b = true) (layout_begins c lc).

(** * The header variables of a content placed at given begins *)

Definition hvars (vs : list lvar) (bl : list Z) : list var :=
  map (fun p => var_of (fst p) (snd p)) (zip vs bl).

Lemma hdr_of_eq : forall c bl,
  hdr_of c bl =
  mkhdr (lg_format c) (lg_numrecs c) (lg_dims c) (lg_gatts c) (hvars (lg_vars c) bl).
Proof. reflexivity. Qed.

Lemma hvars_cons : forall v vs b bl, hvars (v :: vs) (b :: bl) = var_of v b :: hvars vs bl.
Proof. reflexivity. Qed.

Lemma hvars_begins_cons : forall dims packed v vs gaps curf curr,
  hvars (v :: vs) (begins_of dims packed (v :: vs) gaps curf curr) =
  if lx_isrec dims v
  then var_of v curr ::
       hvars vs (begins_of dims packed vs (tl gaps) curf (curr + lx_slot dims packed v))
  else var_of v (curf + Zlen (hd [] gaps)) ::
       hvars vs (begins_of dims packed vs (tl gaps)
                           (curf + Zlen (hd [] gaps) + lx_len dims v) curr).
Proof.
  intros dims packed v vs gaps curf curr. cbn [begins_of].
  destruct (lx_isrec dims v); reflexivity.
Qed.

(** * Reflection of the boolean equalities *)

(* each record equality below is a conjunction of equalities of the fields; after rewriting
   with the reflection of the fields, [congruence] does both directions *)
Lemma dim_eqb_iff : forall a b, dim_eqb a b = true <-> a = b.
Proof.
  intros [n1 s1] [n2 s2]. unfold dim_eqb. cbn [d_name d_size].
  rewrite andb_true_iff, bytes_eqb_iff, Z.eqb_eq. intuition congruence.
Qed.

Lemma att_eqb_iff : forall a b, att_eqb a b = true <-> a = b.
Proof.
  intros [n1 t1 k1 d1] [n2 t2 k2 d2]. unfold att_eqb. cbn [a_name a_type a_nelems a_data].
  rewrite !andb_true_iff, !bytes_eqb_iff, !Z.eqb_eq. intuition congruence.
Qed.

Lemma lvar_eqb_iff : forall a b, lvar_eqb a b = true <-> a = b.
Proof.
  intros [n1 t1 i1 a1 d1] [n2 t2 i2 a2 d2]. unfold lvar_eqb.
  cbn [lv_name lv_type lv_dimids lv_atts lv_data].
  rewrite !andb_true_iff, bytes_eqb_iff, Z.eqb_eq.
  rewrite (list_eqb_iff Z.eqb Z.eqb_eq), (list_eqb_iff att_eqb att_eqb_iff),
          (list_eqb_iff bytes_eqb bytes_eqb_iff).
  intuition congruence.
Qed.

Lemma content_eq_iff : forall a b, content_eq a b = true <->
  lg_numrecs a = lg_numrecs b /\ lg_dims a = lg_dims b /\ lg_gatts a = lg_gatts b /\
  lg_vars a = lg_vars b.
Proof.
  intros a b. unfold content_eq.
  rewrite !andb_true_iff, Z.eqb_eq.
  rewrite (list_eqb_iff dim_eqb dim_eqb_iff), (list_eqb_iff att_eqb att_eqb_iff),
          (list_eqb_iff lvar_eqb lvar_eqb_iff).
  tauto.
Qed.

Theorem content_eq_true_iff : forall a b,
  content_eq a b = true <-> set_format a 0 = set_format b 0.
Proof.
  intros a b. rewrite content_eq_iff. unfold set_format. intuition congruence.
Qed.

Theorem logical_eq_true_iff : forall a b, logical_eq a b = true <-> a = b.
Proof.
  intros [f1 n1 d1 g1 v1] [f2 n2 d2 g2 v2]. unfold logical_eq.
  rewrite andb_true_iff, Z.eqb_eq, content_eq_iff.
  cbn [lg_format lg_numrecs lg_dims lg_gatts lg_vars]. intuition congruence.
Qed.

Lemma logical_eq_false_of_neq : forall a b, b <> a -> logical_eq a b = false.
Proof.
  intros a b H. apply not_true_iff_false. rewrite logical_eq_true_iff. congruence.
Qed.

(** * logical_eq is an equivalence relation *)

Theorem logical_eq_equiv :
  (forall a, logical_eq a a = true) /\
  (forall a b, logical_eq a b = logical_eq b a) /\
  (forall a b c, logical_eq a b = true -> logical_eq b c = true -> logical_eq a c = true).
Proof.
  split; [|split].
  - intros a. apply logical_eq_true_iff. reflexivity.
  - intros a b. apply eq_true_iff_eq. rewrite !logical_eq_true_iff. split; congruence.
  - intros a b c. rewrite !logical_eq_true_iff. congruence.
Qed.

(** * Every single logical edit is detected *)

Lemma neq_under {A B} (f : A -> B) {x y} : f x <> f y -> x <> y.
Proof. intros H E. apply H. f_equal. exact E. Qed.

(* An edit replaces the component at the end of a path of fields and list positions by a
   different one.  Going down the path, a field step is [neq_under] (the projection of the
   edited record is the edited field), a list step is [zupd_neq]. *)
Theorem logical_eq_detects_single_edit : forall c,
  (forall i k j b, 0 <= i < Zlen (lg_vars c) ->
     0 <= k < Zlen (lv_data (znth (lg_vars c) i dlv)) ->
     0 <= j < Zlen (znth (lv_data (znth (lg_vars c) i dlv)) k []) ->
     b <> znth (znth (lv_data (znth (lg_vars c) i dlv)) k []) j 0 ->
     logical_eq c (edit_value c i k j b) = false) /\
  (forall i j b, 0 <= i < Zlen (lg_gatts c) -> 0 <= j < Zlen (a_data (znth (lg_gatts c) i datt)) ->
     b <> znth (a_data (znth (lg_gatts c) i datt)) j 0 ->
     logical_eq c (edit_gatt_value c i j b) = false) /\
  (forall i a j b, 0 <= i < Zlen (lg_vars c) -> 0 <= a < Zlen (lv_atts (znth (lg_vars c) i dlv)) ->
     0 <= j < Zlen (a_data (znth (lv_atts (znth (lg_vars c) i dlv)) a datt)) ->
     b <> znth (a_data (znth (lv_atts (znth (lg_vars c) i dlv)) a datt)) j 0 ->
     logical_eq c (edit_vatt_value c i a j b) = false) /\
  (forall i n, 0 <= i < Zlen (lg_vars c) -> n <> lv_name (znth (lg_vars c) i dlv) ->
     logical_eq c (edit_var_name c i n) = false) /\
  (forall i n, 0 <= i < Zlen (lg_dims c) -> n <> d_name (znth (lg_dims c) i ddim) ->
     logical_eq c (edit_dim_name c i n) = false) /\
  (forall i n, 0 <= i < Zlen (lg_gatts c) -> n <> a_name (znth (lg_gatts c) i datt) ->
     logical_eq c (edit_gatt_name c i n) = false) /\
  (forall i n vs', 0 <= i < Zlen (lg_dims c) -> n <> d_size (znth (lg_dims c) i ddim) ->
     logical_eq c (edit_dim_len c i n vs') = false) /\
  (forall n, n <> lg_numrecs c -> logical_eq c (set_numrecs_l c n) = false) /\
  (forall f, f <> lg_format c -> logical_eq c (set_format c f) = false /\
                                 content_eq c (set_format c f) = true).
Proof.
  intros c. repeat split.
  - intros i k j b Hi Hk Hj Hb.
    apply logical_eq_false_of_neq, (neq_under lg_vars), (zupd_neq dlv Hi),
      (neq_under lv_data), (zupd_neq [] Hk), (zupd_neq 0 Hj), Hb.
  - intros i j b Hi Hj Hb.
    apply logical_eq_false_of_neq, (neq_under lg_gatts), (zupd_neq datt Hi),
      (neq_under a_data), (zupd_neq 0 Hj), Hb.
  - intros i a j b Hi Ha Hj Hb.
    apply logical_eq_false_of_neq, (neq_under lg_vars), (zupd_neq dlv Hi),
      (neq_under lv_atts), (zupd_neq datt Ha), (neq_under a_data),
      (zupd_neq 0 Hj), Hb.
  - intros i n Hi Hn.
    apply logical_eq_false_of_neq, (neq_under lg_vars), (zupd_neq dlv Hi),
      (neq_under lv_name), Hn.
  - intros i n Hi Hn.
    apply logical_eq_false_of_neq, (neq_under lg_dims), (zupd_neq ddim Hi),
      (neq_under d_name), Hn.
  - intros i n Hi Hn.
    apply logical_eq_false_of_neq, (neq_under lg_gatts), (zupd_neq datt Hi),
      (neq_under a_name), Hn.
  - intros i n vs' Hi Hn.
    apply logical_eq_false_of_neq, (neq_under lg_dims), (zupd_neq ddim Hi),
      (neq_under d_size), Hn.
  - intros n Hn. apply logical_eq_false_of_neq, (neq_under lg_numrecs), Hn.
  - apply logical_eq_false_of_neq, (neq_under lg_format), H.
  - apply content_eq_true_iff. reflexivity.
Qed.

(** * The header of a written file is strictly valid *)

Theorem written_files_strict_valid : forall h rest,
  wf_hdr h = true -> dimids_ok h = true -> unlim_ok h = true -> vsize_ok h = true ->
  exists d, decode (encode_header h ++ rest) = Some d /\ strict_valid d = true /\
            dc_hdr d = hdr_content h /\ dc_len d = Zlen (encode_header h).
Proof.
  intros h rest H Hd Hu Hv. exists (decoded_of h). split; [|split; [|split]].
  - apply decode_encode_full. exact H.
  - apply strict_valid_decoded_of; assumption.
  - reflexivity.
  - reflexivity.
Qed.

(** * Reading the data section back *)

Lemma zskipn_nil : forall A n, zskipn n (@nil A) = [].
Proof. reflexivity. Qed.

Lemma take_elems_concat : forall xsz n (es : list (list byte)) r,
  Forall (fun e => Zlen e = xsz) es -> length es = n ->
  take_elems xsz n (concat es ++ r) = es.
Proof.
  intros xsz n es r H <-. induction H as [|e es He Hes IH].
  - reflexivity.
  - cbn [length concat take_elems]. rewrite <- app_assoc. subst xsz.
    rewrite zfirstn_app_exact, zskipn_app_exact, IH. reflexivity.
Qed.

Lemma slab_length : forall nper r n (data : list (list byte)),
  length data = (n * nper)%nat -> (r < n)%nat -> length (slab nper r data) = nper.
Proof.
  intros nper r n data Hl Hr. unfold slab. rewrite firstn_length, skipn_length, Hl.
  apply Nat.min_l. nia.
Qed.

Lemma Forall_slab : forall (P : list byte -> Prop) nper r data,
  Forall P data -> Forall P (slab nper r data).
Proof.
  intros P nper r data H. unfold slab. apply Forall_firstn_skipn, Forall_firstn_skipn, H.
Qed.

Lemma slab_S : forall nper r (data : list (list byte)),
  slab nper (S r) data = slab nper r (skipn nper data).
Proof. intros nper r data. unfold slab. rewrite skipn_skipn_. reflexivity. Qed.

Lemma take_records_slabs : forall xsz nper recsize n cur (data : list (list byte)),
  0 <= recsize -> Forall (fun e => Zlen e = xsz) data -> length data = (n * nper)%nat ->
  (forall r, (r < n)%nat ->
     exists t, zskipn (Z.of_nat r * recsize) cur = concat (slab nper r data) ++ t) ->
  take_records xsz nper recsize n cur = data.
Proof.
  intros xsz nper recsize n. induction n as [|n IH]; intros cur data Hrs HF Hl H.
  - destruct data; [reflexivity|discriminate].
  - cbn [take_records]. rewrite <- (firstn_skipn nper data). f_equal.
    + destruct (H 0%nat ltac:(lia)) as [t Ht]. rewrite zskipn_0 in Ht. rewrite Ht.
      change (firstn nper data) with (slab nper 0 data).
      apply take_elems_concat; [apply Forall_slab, HF|apply (slab_length _ _ _ _ Hl); lia].
    + apply IH; [exact Hrs|apply Forall_firstn_skipn, HF| |].
      { rewrite skipn_length, Hl. cbn [Nat.mul]. lia. }
      intros r Hr. destruct (H (S r) ltac:(lia)) as [t Ht]. exists t.
      rewrite zskipn_zskipn by lia. rewrite <- slab_S, <- Ht. f_equal. lia.
Qed.

Lemma flat_map_seq_at : forall sz n (F : nat -> list byte) tail, 0 <= sz ->
  (forall r, (r < n)%nat -> Zlen (F r) = sz) ->
  forall r, (r < n)%nat ->
  exists t, zskipn (Z.of_nat r * sz) (flat_map F (seq 0 n) ++ tail) = F r ++ t.
Proof.
  intros sz n. induction n as [|n IH]; intros F tail Hsz HF r Hr; [lia|].
  cbn [seq flat_map]. rewrite <- app_assoc. destruct r as [|r].
  - rewrite zskipn_0. eexists. reflexivity.
  - replace (Z.of_nat (S r) * sz) with (sz + Z.of_nat r * sz) by lia.
    rewrite <- zskipn_zskipn by lia.
    rewrite (zskipn_app_len (F 0%nat) _ sz) by (symmetry; apply HF; lia).
    rewrite <- seq_shift, flat_map_map_comm.
    apply (IH (fun x => F (S x)) tail Hsz); [|lia].
    intros r' Hr'. apply HF. lia.
Qed.

Lemma Zlen_pad_to : forall n l, Zlen l <= n -> Zlen (pad_to n l) = n.
Proof. intros n l H. unfold pad_to. rewrite Zlen_app, Zlen_zeros by lia. lia. Qed.

(** * What [wf_content] gives for each variable, and how its data are read back *)

Section Content.
  Variable dims : list dim.
  Variable numrecs : Z.
  Variable packed : bool.
  Hypothesis Hnr : 0 <= numrecs.

  Definition lv_ok (v : lvar) : Prop :=
    1 <= lx_xsz v /\ 0 <= lx_nper dims v /\
    lx_nper dims v * lx_xsz v <= lx_len dims v /\ lx_len dims v mod 4 = 0 /\
    Forall (fun e => Zlen e = lx_xsz v) (lv_data v) /\
    Zlen (lv_data v) = (if lx_isrec dims v then numrecs * lx_nper dims v else lx_nper dims v).

  Lemma lx_len_nonneg : forall v, lv_ok v -> 0 <= lx_len dims v.
  Proof. intros v (Hx & Hn & Hle & _). nia. Qed.

  Lemma lx_slot_ge : forall v, lv_ok v ->
    0 <= lx_nper dims v * lx_xsz v <= lx_slot dims packed v.
  Proof. intros v (Hx & Hn & Hle & _). unfold lx_slot. destruct packed; nia. Qed.

  Lemma Zlen_fixed_payload : forall v, lv_ok v -> lx_isrec dims v = false ->
    Zlen (fixed_payload dims v) = lx_len dims v.
  Proof.
    intros v (Hx & Hn & Hle & Hm & HF & HL) Hr. unfold fixed_payload.
    apply Zlen_pad_to. rewrite (Zlen_concat_const _ _ HF), HL, Hr. exact Hle.
  Qed.

  Lemma rec_data_length : forall v, lv_ok v -> lx_isrec dims v = true ->
    length (lv_data v) = (Z.to_nat numrecs * Z.to_nat (lx_nper dims v))%nat.
  Proof.
    intros v (Hx & Hn & Hle & Hm & HF & HL) Hr. rewrite Hr in HL.
    rewrite <- Z2Nat.inj_mul, <- HL by assumption. symmetry. apply to_nat_Zlen.
  Qed.

  Lemma Zlen_rec_payload : forall v r, lv_ok v -> lx_isrec dims v = true ->
    (r < Z.to_nat numrecs)%nat -> Zlen (rec_payload dims packed v r) = lx_slot dims packed v.
  Proof.
    intros v r Hok Hr Hlt. unfold rec_payload. apply Zlen_pad_to.
    rewrite (Zlen_concat_const _ (lx_xsz v)).
    - unfold Zlen. rewrite (slab_length _ r _ _ (rec_data_length v Hok Hr) Hlt).
      pose proof (lx_slot_ge v Hok). destruct Hok as (Hx & Hn & _). lia.
    - apply Forall_slab. destruct Hok as (_ & _ & _ & _ & HF & _). exact HF.
  Qed.

  Definition recoff (l : list lvar) : Z :=
    zsum (map (lx_slot dims packed) (filter (lx_isrec dims) l)).

  Lemma recoff_nonneg : forall l, Forall lv_ok l -> 0 <= recoff l.
  Proof.
    intros l H. unfold recoff. induction H as [|v l Hv Hl IH]; cbn [filter map zsum]; [lia|].
    destruct (lx_isrec dims v); [|exact IH]. cbn [map zsum].
    pose proof (lx_slot_ge v Hv). lia.
  Qed.

  Lemma rec_bytes_cons : forall v l r,
    rec_bytes dims packed (v :: l) r =
    (if lx_isrec dims v then rec_payload dims packed v r else []) ++ rec_bytes dims packed l r.
  Proof. reflexivity. Qed.

  Lemma Zlen_rec_bytes : forall l r, Forall lv_ok l -> (r < Z.to_nat numrecs)%nat ->
    Zlen (rec_bytes dims packed l r) = recoff l.
  Proof.
    intros l r H Hlt. unfold rec_bytes, recoff. induction H as [|v l Hv Hl IH]; [reflexivity|].
    cbn [flat_map filter]. rewrite Zlen_app, IH. destruct (lx_isrec dims v) eqn:E.
    - cbn [map zsum]. rewrite (Zlen_rec_payload v r Hv E Hlt). reflexivity.
    - rewrite Zlen_nil. lia.
  Qed.

  (* The variables are read back from any file that holds the fixed section at [curf] and
     record r of the record variables at [curr + r * recsize]. *)
  Variable file : list byte.
  Variable recsize : Z.
  Hypothesis Hrs : 0 <= recsize.

  Lemma var_data_var_of : forall v b,
    var_data file dims numrecs recsize (var_of v b) =
    if lx_isrec dims v
    then take_records (lx_xsz v) (Z.to_nat (lx_nper dims v)) recsize (Z.to_nat numrecs)
                      (zskipn b file)
    else take_elems (lx_xsz v) (Z.to_nat (lx_nper dims v)) (zskipn b file).
  Proof. reflexivity. Qed.

  Lemma var_data_fixed : forall v b t, lv_ok v -> lx_isrec dims v = false ->
    zskipn b file = fixed_payload dims v ++ t ->
    var_data file dims numrecs recsize (var_of v b) = lv_data v.
  Proof.
    intros v b t (Hx & Hn & Hle & Hm & HF & HL) Hr Hb.
    rewrite var_data_var_of, Hr, Hb. unfold fixed_payload, pad_to. rewrite <- app_assoc.
    apply take_elems_concat; [exact HF|]. rewrite <- to_nat_Zlen, HL, Hr. reflexivity.
  Qed.

  Lemma var_data_rec : forall v b, lv_ok v -> lx_isrec dims v = true -> 0 <= b ->
    (forall r, (r < Z.to_nat numrecs)%nat ->
       exists t, zskipn (b + Z.of_nat r * recsize) file = rec_payload dims packed v r ++ t) ->
    var_data file dims numrecs recsize (var_of v b) = lv_data v.
  Proof.
    intros v b Hok Hr Hb0 Hb. rewrite var_data_var_of, Hr.
    apply take_records_slabs; [exact Hrs| |exact (rec_data_length v Hok Hr)|].
    - destruct Hok as (_ & _ & _ & _ & HF & _). exact HF.
    - intros r Hlt. destruct (Hb r Hlt) as [t Ht]. rewrite zskipn_zskipn by nia. rewrite Ht.
      unfold rec_payload, pad_to. rewrite <- app_assoc. eexists. reflexivity.
  Qed.

  Lemma lvar_of_eta : forall v b,
    var_data file dims numrecs recsize (var_of v b) = lv_data v ->
    lvar_of file dims numrecs recsize (var_of v b) = v.
  Proof.
    intros [nm t ids atts data] b H. unfold lvar_of. rewrite H. reflexivity.
  Qed.

  Lemma vars_roundtrip : forall vs gaps curf curr,
    Forall lv_ok vs -> 0 <= curf -> 0 <= curr ->
    (exists t, zskipn curf file = enc_fixed dims vs gaps ++ t) ->
    (forall r, (r < Z.to_nat numrecs)%nat ->
       exists t, zskipn (curr + Z.of_nat r * recsize) file = rec_bytes dims packed vs r ++ t) ->
    map (lvar_of file dims numrecs recsize)
        (hvars vs (begins_of dims packed vs gaps curf curr)) = vs.
  Proof.
    intros vs. induction vs as [|v vs IH]; intros gaps curf curr Hok Hcf Hcr [tf HFx] HRc;
      [reflexivity|].
    inversion Hok as [|v' vs' Hv Hvs Heq]; subst v' vs'.
    cbn [enc_fixed] in HFx. rewrite hvars_begins_cons.
    destruct (lx_isrec dims v) eqn:E; cbn [map]; f_equal.
    - (* record variable: its record r is the head of record r *)
      apply lvar_of_eta, (var_data_rec v curr Hv E Hcr).
      intros r Hlt. destruct (HRc r Hlt) as [t Ht]. rewrite rec_bytes_cons, E, <- app_assoc in Ht.
      eexists. exact Ht.
    - pose proof (lx_slot_ge v Hv) as Hs.
      apply IH; [exact Hvs|exact Hcf|lia|exists tf; exact HFx|].
      intros r Hlt. destruct (HRc r Hlt) as [t Ht]. rewrite rec_bytes_cons, E, <- app_assoc in Ht.
      exists t. apply zskipn_peel in Ht; [|nia].
      rewrite (Zlen_rec_payload v r Hv E Hlt) in Ht. rewrite <- Ht. f_equal. lia.
    - (* fixed-size variable: behind its gap at the head of the fixed section *)
      rewrite <- !app_assoc in HFx. apply zskipn_peel in HFx; [|exact Hcf].
      apply lvar_of_eta, (var_data_fixed v _ _ Hv E HFx).
    - pose proof (Zlen_nonneg (hd [] gaps)) as Hg. pose proof (lx_len_nonneg v Hv) as Hl0.
      rewrite <- !app_assoc in HFx. apply zskipn_peel in HFx; [|exact Hcf].
      apply zskipn_peel in HFx; [|lia]. rewrite (Zlen_fixed_payload v Hv E) in HFx.
      apply IH; [exact Hvs|lia|exact Hcr|exists tf; exact HFx|].
      intros r Hlt. destruct (HRc r Hlt) as [t Ht]. rewrite rec_bytes_cons, E in Ht.
      exists t. exact Ht.
  Qed.
End Content.

(** * The header of the written file: well-formedness, length, record size *)

Lemma begins_of_length : forall dims packed vs gaps curf curr,
  length (begins_of dims packed vs gaps curf curr) = length vs.
Proof.
  intros dims packed vs. induction vs as [|v vs IH]; intros gaps curf curr; [reflexivity|].
  cbn [begins_of]. destruct (lx_isrec dims v); cbn [length]; rewrite IH; reflexivity.
Qed.

Lemma layout_begins_length : forall c lc, length (layout_begins c lc) = length (lg_vars c).
Proof. intros c lc. unfold layout_begins. apply begins_of_length. Qed.

Lemma is_recvar_var_of : forall dims v b, is_recvar dims (var_of v b) = lx_isrec dims v.
Proof. reflexivity. Qed.

Lemma var_len_var_of : forall dims v b, var_len dims (var_of v b) = lx_len dims v.
Proof. reflexivity. Qed.

(* What a function that ignores the begins sees in [hvars vs bl] is determined by vs:
   under map, forallb and (for is_recvar) filter. *)
Lemma map_hvars : forall (B : Type) (g : var -> B), (forall v b, g (var_of v b) = g (var_of v 0)) ->
  forall vs (bl : list Z), length bl = length vs ->
  map g (hvars vs bl) = map (fun v => g (var_of v 0)) vs.
Proof.
  intros B g Hg vs. induction vs as [|v vs IH]; intros [|b bl] Hl; try discriminate; [reflexivity|].
  injection Hl as Hl. rewrite hvars_cons. cbn [map]. rewrite Hg, (IH bl Hl). reflexivity.
Qed.

Lemma forallb_hvars : forall p : var -> bool, (forall v b, p (var_of v b) = p (var_of v 0)) ->
  forall vs (bl : list Z), length bl = length vs ->
  forallb p (hvars vs bl) = forallb (fun v => p (var_of v 0)) vs.
Proof.
  intros p Hp vs. induction vs as [|v vs IH]; intros [|b bl] Hl; try discriminate; [reflexivity|].
  injection Hl as Hl. rewrite hvars_cons. cbn [forallb]. rewrite Hp, (IH bl Hl). reflexivity.
Qed.

Lemma map_rec_hvars : forall (B : Type) dims (g : var -> B) (g' : lvar -> B),
  (forall v b, g (var_of v b) = g' v) ->
  forall vs (bl : list Z), length bl = length vs ->
  map g (filter (is_recvar dims) (hvars vs bl)) = map g' (filter (lx_isrec dims) vs).
Proof.
  intros B dims g g' Hg vs. induction vs as [|v vs IH]; intros [|b bl] Hl; try discriminate;
    [reflexivity|].
  injection Hl as Hl. rewrite hvars_cons. cbn [filter]. rewrite is_recvar_var_of.
  destruct (lx_isrec dims v); cbn [map]; rewrite (IH bl Hl); [rewrite Hg|]; reflexivity.
Qed.

Lemma Zlen_hvars : forall (vs : list lvar) (bl : list Z), length bl = length vs ->
  Zlen (hvars vs bl) = Zlen vs.
Proof.
  intros vs bl H. unfold Zlen, hvars. rewrite map_length, zip_length by (symmetry; exact H).
  reflexivity.
Qed.

(* wf_var without its begin *)
Definition wf_lvar (fmt : Z) (v : lvar) : bool :=
  wf_name fmt (lv_name v) && nn_ok fmt (Zlen (lv_dimids v)) && forallb (nn_ok fmt) (lv_dimids v) &&
  nn_ok fmt (Zlen (lv_atts v)) && forallb (wf_att fmt) (lv_atts v) &&
  valid_type fmt (lv_type v).

Lemma wf_hvars : forall fmt vs (bl : list Z), length bl = length vs ->
  forallb (wf_var fmt) (hvars vs bl) = forallb (wf_lvar fmt) vs && forallb (off_ok fmt) bl.
Proof.
  intros fmt vs. induction vs as [|v vs IH]; intros [|b bl] Hl; try discriminate; [reflexivity|].
  injection Hl as Hl. rewrite hvars_cons. cbn [forallb]. rewrite (IH bl Hl).
  change (wf_var fmt (var_of v b)) with (wf_lvar fmt v && off_ok fmt b).
  destruct (wf_lvar fmt v), (off_ok fmt b), (forallb (wf_lvar fmt) vs); reflexivity.
Qed.

Lemma wf_hdr_of_begins : forall c bl, length bl = length (lg_vars c) ->
  wf_hdr (hdr_of c bl) =
  wf_hdr (hdr_of c (map (fun _ => 0) (lg_vars c))) && forallb (off_ok (lg_format c)) bl.
Proof.
  intros c bl Hl. rewrite !hdr_of_eq. unfold wf_hdr.
  cbn [h_format h_numrecs h_dims h_gatts h_vars].
  rewrite !Zlen_hvars, !wf_hvars by (exact Hl || apply map_length).
  rewrite (forallb_map_all _ _ (off_ok (lg_format c)) (fun _ => 0)), andb_true_r, andb_assoc;
    [reflexivity|].
  intros _. unfold off_ok. destruct (lg_format c =? 1); reflexivity.
Qed.

Lemma hdr_content_hdr_of : forall c bl, hdr_content (hdr_of c bl) = hdr_of c bl.
Proof.
  intros c bl. unfold hdr_content, hdr_of. cbn [h_format h_numrecs h_dims h_gatts h_vars].
  f_equal. rewrite map_map. apply map_ext. intros [v b]. reflexivity.
Qed.

Lemma lv_ok_of_wf : forall fmt dims numrecs v,
  forallb (wf_dim fmt) dims = true -> wf_lvar fmt v = true ->
  lvar_data_ok dims numrecs v = true -> lv_ok dims numrecs v.
Proof.
  intros fmt dims numrecs v Hd Hv Hdat.
  unfold wf_lvar in Hv. apply andb_true_iff in Hv. destruct Hv as [_ Ht].
  pose proof (valid_type_xlen fmt _ Ht) as Hx.
  pose proof (var_nelems_per_rec_nonneg _
                (var_shape_nonneg dims (var_of v 0) (wf_dims_nonneg fmt dims Hd))) as Hn.
  unfold lvar_data_ok, elems_ok in Hdat. apply andb_true_iff in Hdat. destruct Hdat as [HF HL].
  unfold lv_ok. fold (lx_nper dims v) in Hn. fold (lx_xsz v) in Hx.
  (* the padded size is the unpadded one rounded up to a multiple of 4 *)
  assert (Hlen : lx_nper dims v * lx_xsz v <= lx_len dims v /\ lx_len dims v mod 4 = 0).
  { unfold lx_len, var_len, var_len_of. cbn [v_type var_of].
    fold (lx_nper dims v). fold (lx_xsz v). cbv zeta.
    destruct (lx_nper dims v * lx_xsz v mod 4 >? 0) eqn:E; lia. }
  split; [lia|]. split; [exact Hn|]. split; [apply Hlen|]. split; [apply Hlen|]. split.
  - apply forallb_Forall in HF. revert HF. apply Forall_impl. intros e. apply Z.eqb_eq.
  - apply Z.eqb_eq. exact HL.
Qed.

Definition recsize_of (dims : list dim) (recs : list var) : Z :=
  match recs with
  | fr :: _ => if zsum (map (var_len dims) recs) =? var_len dims fr
               then var_nelems_per_rec (var_shape dims fr) * xlen_type (v_type fr)
               else zsum (map (var_len dims) recs)
  | [] => 0
  end.

Lemma l_recsize_layout : forall h x,
  l_recsize (layout_of_hdr h x) = recsize_of (h_dims h) (filter (is_recvar (h_dims h)) (h_vars h)).
Proof.
  intros h x. unfold layout_of_hdr, recsize_of. destruct (h_vars h) as [|v vs] eqn:Ev.
  - reflexivity.
  - destruct (filter (is_recvar (h_dims h)) (v :: vs)) as [|fr recs]; reflexivity.
Qed.

Lemma zsum_dominated : forall A (f g : A -> Z) l,
  Forall (fun x => 0 <= g x <= f x) l -> 0 <= zsum (map g l) <= zsum (map f l).
Proof. intros A f g l H. induction H as [|x l Hx Hl IH]; cbn [map zsum]; lia. Qed.

(* The record size the library derives from the header is the number of bytes the encoder
   writes per record.  When the packing rule fires, the record variables behind the first
   have padded size 0, hence are empty. *)
Lemma recsize_of_recoff : forall dims numrecs vs (bl : list Z), length bl = length vs ->
  Forall (lv_ok dims numrecs) vs ->
  recsize_of dims (filter (is_recvar dims) (hvars vs bl)) = recoff dims (rec_packed dims vs) vs.
Proof.
  intros dims numrecs vs bl Hl Hok.
  pose proof (map_rec_hvars _ dims (var_len dims) (lx_len dims) (fun _ _ => eq_refl) vs bl Hl)
    as Hlen.
  pose proof (map_rec_hvars _ dims
                (fun v => var_nelems_per_rec (var_shape dims v) * xlen_type (v_type v))
                (fun v => lx_nper dims v * lx_xsz v) (fun _ _ => eq_refl) vs bl Hl) as Hnx.
  apply (incl_Forall (incl_filter (lx_isrec dims) vs)) in Hok.
  unfold recoff, rec_packed, recsize_of. rewrite Hlen.
  destruct (filter (is_recvar dims) (hvars vs bl)) as [|fr recs];
    destruct (filter (lx_isrec dims) vs) as [|lfr lrecs]; try discriminate Hlen; [reflexivity|].
  injection Hlen as -> _. injection Hnx as -> _. unfold lx_slot.
  destruct (zsum (map (lx_len dims) (lfr :: lrecs)) =? lx_len dims lfr) eqn:E; [|reflexivity].
  cbn [map zsum] in *. inversion Hok as [|v' l' _ Hr Heq]; subst.
  assert (Hd : Forall (fun v => 0 <= lx_nper dims v * lx_xsz v <= lx_len dims v) lrecs).
  { revert Hr. apply Forall_impl. intros v (Hx & Hn & Hle & _). nia. }
  apply zsum_dominated in Hd. lia.
Qed.

(** * dump / regenerate identity *)

Lemma data_ok_inv : forall c, data_ok c = true ->
  (if has_unlim (lg_dims c) then lg_numrecs c else 0) = lg_numrecs c /\
  Forall (fun v => lvar_data_ok (lg_dims c) (lg_numrecs c) v = true) (lg_vars c).
Proof.
  intros c H. unfold data_ok in H. apply andb_true_iff in H. destruct H as [Hu Hv].
  split.
  - destruct (has_unlim (lg_dims c)); [reflexivity|]. cbn [orb] in Hu. lia.
  - apply forallb_Forall. exact Hv.
Qed.

Lemma wf_content_lv_ok : forall c, wf_content c ->
  0 <= lg_numrecs c /\ Forall (lv_ok (lg_dims c) (lg_numrecs c)) (lg_vars c).
Proof.
  intros c [H Hd]. rewrite hdr_of_eq in H.
  destruct (wf_hdr_inv _ _ _ _ _ H) as (Hf & Hnr & Hdn & Hdl & Han & Hal & Hvn & Hvl).
  rewrite wf_hvars in Hvl by apply map_length. apply andb_true_iff in Hvl.
  destruct Hvl as [Hvl _]. apply forallb_Forall in Hvl.
  destruct (data_ok_inv c Hd) as [_ Hdat].
  split; [exact (nn_ok_nonneg _ _ Hnr)|].
  rewrite Forall_forall in *. intros v Hv.
  apply (lv_ok_of_wf (lg_format c)); [exact Hdl|exact (Hvl v Hv)|exact (Hdat v Hv)].
Qed.

Lemma written_header : forall c lc, wf_content c -> layout_fits c lc ->
  let h := hdr_of c (layout_begins c lc) in
  wf_hdr h = true /\ decode (encode_with_layout c lc) = Some (decoded_of h) /\
  Zlen (encode_header h) = hdr_len (hdr_of c (map (fun _ => 0) (lg_vars c))).
Proof.
  intros c lc [Hwf0 _] Hfit. cbv zeta.
  assert (Hwf : wf_hdr (hdr_of c (layout_begins c lc)) = true).
  { rewrite wf_hdr_of_begins, Hwf0 by apply layout_begins_length. apply Forall_forallb, Hfit. }
  split; [exact Hwf|split].
  - apply (decode_encode_full _ _ Hwf).
  - rewrite <- (hdr_len_encode _ Hwf). unfold hdr_len. rewrite !hdr_of_eq.
    cbn [h_format h_dims h_gatts h_vars].
    rewrite !(map_hvars Z (len_var (lg_format c)))
      by (reflexivity || apply layout_begins_length || apply map_length).
    reflexivity.
Qed.

Lemma written_vars_read_back : forall c lc, wf_content c -> layout_fits c lc ->
  map (lvar_of (encode_with_layout c lc) (lg_dims c) (lg_numrecs c)
         (recoff (lg_dims c) (rec_packed (lg_dims c) (lg_vars c)) (lg_vars c)))
      (hvars (lg_vars c) (layout_begins c lc)) = lg_vars c.
Proof.
  intros c lc Hwfc Hfit.
  destruct (written_header c lc Hwfc Hfit) as (_ & _ & Hhl).
  destruct (wf_content_lv_ok c Hwfc) as [Hnr Hok].
  unfold layout_begins, encode_with_layout. cbv zeta. rewrite <- Hhl.
  set (dims := lg_dims c) in *. set (vs := lg_vars c) in *. set (packed := rec_packed dims vs).
  set (eh := encode_header _).
  pose proof (recoff_nonneg dims (lg_numrecs c) packed vs Hok) as Hrs.
  pose proof (Zlen_nonneg eh) as H0.
  pose proof (Zlen_nonneg (lc_hfree lc)) as H1.
  pose proof (Zlen_nonneg (enc_fixed dims vs (lc_gaps lc))) as H2.
  pose proof (Zlen_nonneg (lc_recgap lc)) as H3.
  apply (vars_roundtrip dims (lg_numrecs c) packed Hnr _ _ Hrs); [exact Hok|lia|lia| |].
  - eexists. rewrite app_assoc. apply zskipn_app_len. rewrite Zlen_app. reflexivity.
  - intros r Hlt.
    destruct (flat_map_seq_at (recoff dims packed vs) (Z.to_nat (lg_numrecs c))
                (rec_bytes dims packed vs) (lc_tail lc) Hrs
                (fun r' Hr' => Zlen_rec_bytes dims (lg_numrecs c) packed Hnr vs r' Hok Hr') r Hlt)
      as [t Ht].
    exists t. rewrite <- Ht. rewrite <- zskipn_zskipn by nia. f_equal.
    rewrite !app_assoc. rewrite <- (app_assoc _ _ (lc_tail lc)).
    apply zskipn_app_len. rewrite !Zlen_app. reflexivity.
Qed.

Theorem dump_regen_identity : forall c lc, wf_content c -> layout_fits c lc ->
  logical_content (encode_with_layout c lc) = Some c.
Proof.
  intros c lc Hwfc Hfit.
  destruct (written_header c lc Hwfc Hfit) as (_ & Hdec & _).
  destruct (wf_content_lv_ok c Hwfc) as [_ Hok].
  destruct (data_ok_inv c (proj2 Hwfc)) as [Hnum _].
  unfold logical_content. rewrite Hdec. f_equal.
  unfold logical_of, decoded_of. cbn [dc_hdr dc_len].
  rewrite hdr_content_hdr_of, l_recsize_layout, hdr_of_eq.
  cbn [h_format h_numrecs h_dims h_gatts h_vars].
  rewrite Hnum, (recsize_of_recoff _ _ _ _ (layout_begins_length c lc) Hok),
    (written_vars_read_back c lc Hwfc Hfit).
  destruct c. reflexivity.
Qed.

(** * Comparison of written files *)

Theorem logical_eq_layout_invariant : forall c lc1 lc2,
  wf_content c -> layout_fits c lc1 -> layout_fits c lc2 ->
  exists a b, logical_content (encode_with_layout c lc1) = Some a /\
              logical_content (encode_with_layout c lc2) = Some b /\ logical_eq a b = true.
Proof.
  intros c lc1 lc2 Hc H1 H2. exists c, c. split; [|split].
  - apply dump_regen_identity; assumption.
  - apply dump_regen_identity; assumption.
  - apply logical_eq_true_iff. reflexivity.
Qed.

Theorem files_logical_eq_iff : forall c c' lc lc',
  wf_content c -> wf_content c' -> layout_fits c lc -> layout_fits c' lc' ->
  exists a b, logical_content (encode_with_layout c lc) = Some a /\
              logical_content (encode_with_layout c' lc') = Some b /\
              (logical_eq a b = true <-> c = c').
Proof.
  intros c c' lc lc' Hc Hc' H H'. exists c, c'. split; [|split].
  - apply dump_regen_identity; assumption.
  - apply dump_regen_identity; assumption.
  - apply logical_eq_true_iff.
Qed.

(* the same as a statement about the function (no existential) *)
Corollary files_logical_eq_iff_fun : forall c c' lc lc',
  wf_content c -> wf_content c' -> layout_fits c lc -> layout_fits c' lc' ->
  (match logical_content (encode_with_layout c lc), logical_content (encode_with_layout c' lc') with
   | Some a, Some b => logical_eq a b
   | _, _ => false
   end = true <-> c = c').
Proof.
  intros c c' lc lc' Hc Hc' H H'.
  rewrite (dump_regen_identity c lc Hc H), (dump_regen_identity c' lc' Hc' H').
  apply logical_eq_true_iff.
Qed.

(** * The written file passes the validator's expectation (file_valid) *)

(* the gaps that are actually written (those of the fixed-size variables) *)
Fixpoint used_gaps_aligned (dims : list dim) (vs : list lvar) (gaps : list (list byte)) : Prop :=
  match vs with
  | [] => True
  | v :: r => (lx_isrec dims v = false -> Zlen (hd [] gaps) mod 4 = 0) /\
              used_gaps_aligned dims r (tl gaps)
  end.

Lemma all_gaps_aligned_used : forall dims vs gaps,
  Forall (fun g => Zlen g mod 4 = 0) gaps -> used_gaps_aligned dims vs gaps.
Proof.
  intros dims vs. induction vs as [|v vs IH]; intros gaps H; [exact I|].
  cbn [used_gaps_aligned]. destruct H as [|g gaps Hg Hgs]; cbn [hd tl].
  - split; [intros _; reflexivity|apply IH; apply Forall_nil].
  - split; [intros _; exact Hg|apply IH; exact Hgs].
Qed.

Section LayoutOk.
  Variable dims : list dim.
  Variable numrecs : Z.
  Variable packed : bool.

  Local Notation pairs l := (map (fun v => (v_begin v, var_len dims v)) l).

  Lemma enc_fixed_cons_len : forall v vs gaps, lv_ok dims numrecs v ->
    Zlen (enc_fixed dims (v :: vs) gaps) =
    (if lx_isrec dims v then 0 else Zlen (hd [] gaps) + lx_len dims v) +
    Zlen (enc_fixed dims vs (tl gaps)).
  Proof.
    intros v vs gaps Hv. cbn [enc_fixed]. destruct (lx_isrec dims v) eqn:E; [lia|].
    rewrite !Zlen_app, (Zlen_fixed_payload dims numrecs v Hv E). lia.
  Qed.

  Lemma enc_fixed_len_mod4 : forall vs gaps, Forall (lv_ok dims numrecs) vs ->
    used_gaps_aligned dims vs gaps -> Zlen (enc_fixed dims vs gaps) mod 4 = 0.
  Proof.
    intros vs. induction vs as [|v vs IH]; intros gaps Hok Hg; [reflexivity|].
    inversion Hok as [|v' vs' Hv Hvs Heq]; subst v' vs'. destruct Hg as [Hg1 Hg2].
    rewrite (enc_fixed_cons_len v vs gaps Hv). specialize (IH (tl gaps) Hvs Hg2).
    destruct (lx_isrec dims v) eqn:E; [lia|]. specialize (Hg1 eq_refl).
    destruct Hv as (_ & _ & _ & Hm & _). lia.
  Qed.

  Lemma fixed_increasing : forall vs gaps curf curr prev e0,
    Forall (lv_ok dims numrecs) vs -> used_gaps_aligned dims vs gaps ->
    prev <= curf -> e0 <= curf -> curf mod 4 = 0 ->
    let fl := pairs (filter (fun v => negb (is_recvar dims v))
                            (hvars vs (begins_of dims packed vs gaps curf curr))) in
    begins_increasing prev fl = true /\
    fold_left (fun e p => Z.max e (fst p + snd p)) fl e0 <= curf + Zlen (enc_fixed dims vs gaps).
  Proof.
    intros vs. induction vs as [|v vs IH]; intros gaps curf curr prev e0 Hok Hg Hp He Hc; cbv zeta.
    - cbn [begins_of hvars zip map filter fold_left enc_fixed]. rewrite Zlen_nil.
      split; [reflexivity|lia].
    - inversion Hok as [|v' vs' Hv Hvs Heq]; subst v' vs'. destruct Hg as [Hg1 Hg2].
      rewrite (enc_fixed_cons_len v vs gaps Hv), hvars_begins_cons.
      destruct (lx_isrec dims v) eqn:E; cbn [filter]; rewrite is_recvar_var_of, E; cbn [negb].
      + destruct (IH (tl gaps) curf (curr + lx_slot dims packed v) prev e0 Hvs Hg2 Hp He Hc)
          as [H1 H2].
        split; [exact H1|lia].
      + cbn [map begins_increasing fold_left v_begin var_of fst snd].
        rewrite var_len_var_of. specialize (Hg1 eq_refl).
        pose proof (Zlen_nonneg (hd [] gaps)) as Hg0.
        pose proof (lx_len_nonneg dims numrecs v Hv) as Hl0.
        destruct Hv as (_ & _ & _ & Hm & _).
        set (b := curf + Zlen (hd [] gaps)) in *.
        destruct (IH (tl gaps) (b + lx_len dims v) curr (b + lx_len dims v)
                     (Z.max e0 (b + lx_len dims v)) Hvs Hg2) as [H1 H2]; try lia.
        rewrite H1. split; lia.
  Qed.

  (* the record variables follow the cursor curr; it matters only while a record variable
     is still to come, and with packing the cursor behind the only one is unaligned *)
  Lemma rec_increasing : forall vs gaps curf curr prev,
    Forall (lv_ok dims numrecs) vs ->
    packed = false \/ (length (filter (lx_isrec dims) vs) <= 1)%nat ->
    (filter (lx_isrec dims) vs <> [] -> prev <= curr /\ curr mod 4 = 0) ->
    begins_increasing prev
      (pairs (filter (is_recvar dims) (hvars vs (begins_of dims packed vs gaps curf curr)))) = true.
  Proof.
    intros vs. induction vs as [|v vs IH]; intros gaps curf curr prev Hok Hp Hc; [reflexivity|].
    inversion Hok as [|v' vs' Hv Hvs Heq]; subst v' vs'.
    rewrite hvars_begins_cons. cbn [filter] in Hp, Hc.
    destruct (lx_isrec dims v) eqn:E; cbn [filter]; rewrite is_recvar_var_of, E.
    - cbn [map begins_increasing v_begin var_of]. rewrite var_len_var_of.
      destruct Hc as [Hle Hc]; [discriminate|].
      pose proof (lx_len_nonneg dims numrecs v Hv) as Hl0.
      assert (Hm : lx_len dims v mod 4 = 0) by (destruct Hv as (_ & _ & _ & Hm & _); exact Hm).
      rewrite IH; [lia|exact Hvs| |].
      + destruct Hp as [Hp|Hp]; [left; exact Hp|right; cbn [length] in Hp; lia].
      + intros Hne. destruct Hp as [Hp|Hp].
        * unfold lx_slot. rewrite Hp. lia.
        * destruct (filter (lx_isrec dims) vs); [congruence|cbn [length] in Hp; lia].
    - apply IH; assumption.
  Qed.
End LayoutOk.

(* the format-level side conditions, stated on the content (begins irrelevant) *)
Definition content_strict (c : logical) : Prop :=
  let h0 := hdr_of c (map (fun _ => 0) (lg_vars c)) in
  dimids_ok h0 = true /\ unlim_ok h0 = true /\ vsize_ok h0 = true.

Lemma content_strict_hdr_of : forall c bl, length bl = length (lg_vars c) -> content_strict c ->
  dimids_ok (hdr_of c bl) = true /\ unlim_ok (hdr_of c bl) = true /\ vsize_ok (hdr_of c bl) = true.
Proof.
  intros c bl H. unfold content_strict, dimids_ok, unlim_ok, vsize_ok. rewrite !hdr_of_eq.
  cbn [h_format h_dims h_vars].
  rewrite !forallb_hvars by (reflexivity || exact H || apply map_length). exact (fun x => x).
Qed.

(* every gap that is written has a length that is a multiple of 4 *)
Definition gaps_aligned (c : logical) (lc : layout_choice) : Prop :=
  Zlen (lc_hfree lc) mod 4 = 0 /\ Zlen (lc_recgap lc) mod 4 = 0 /\
  used_gaps_aligned (lg_dims c) (lg_vars c) (lc_gaps lc).

(* the packed-record rule applies to a record variable that is alone *)
Definition packed_alone (c : logical) : Prop :=
  rec_packed (lg_dims c) (lg_vars c) = true ->
  (length (filter (lx_isrec (lg_dims c)) (lg_vars c)) <= 1)%nat.

Theorem encode_with_layout_valid_partial : forall c lc,
  wf_content c -> layout_fits c lc -> content_strict c -> gaps_aligned c lc -> packed_alone c ->
  file_valid (encode_with_layout c lc) = true.
Proof.
  intros c lc Hwfc Hfit Hstrict (Hg1 & Hg2 & Hg3) Hpa.
  destruct (written_header c lc Hwfc Hfit) as (Hwf & Hdec & Hhl).
  destruct (wf_content_lv_ok c Hwfc) as [Hnr Hok].
  destruct (content_strict_hdr_of c _ (layout_begins_length c lc) Hstrict) as (Hdi & Hun & Hvs).
  unfold file_valid. rewrite Hdec, (strict_valid_decoded_of _ Hwf Hdi Hun Hvs). cbn [andb].
  unfold decoded_of. cbn [dc_hdr dc_len]. rewrite hdr_content_hdr_of, Hhl.
  unfold layout_ok, layout_begins. rewrite !hdr_of_eq. cbn [h_dims h_vars]. cbv zeta.
  set (dims := lg_dims c) in *. set (vs := lg_vars c) in *. set (packed := rec_packed dims vs) in *.
  set (hl := hdr_len _).
  assert (Hhl4 : hl mod 4 = 0) by apply hdr_len_mod4_all.
  pose proof (Zlen_nonneg (lc_hfree lc)) as H1.
  pose proof (Zlen_nonneg (lc_recgap lc)) as H3.
  pose proof (enc_fixed_len_mod4 dims (lg_numrecs c) vs (lc_gaps lc) Hok Hg3) as Hf4.
  set (bv := hl + Zlen (lc_hfree lc)).
  set (br := bv + Zlen (enc_fixed dims vs (lc_gaps lc)) + Zlen (lc_recgap lc)).
  destruct (fixed_increasing dims (lg_numrecs c) packed vs (lc_gaps lc) bv br hl hl Hok Hg3)
    as [Hfix Hend]; [lia|lia|lia|].
  cbv zeta in Hfix, Hend. rewrite Hfix. cbn [andb].
  apply (rec_increasing dims (lg_numrecs c)); [exact Hok| |intros _; subst bv br; lia].
  destruct packed eqn:Ep; [right; apply Hpa; exact Ep|left; reflexivity].
Qed.

(* The statement WITHOUT [packed_alone] is false of the model.  When the record-size rule
   "packed" fires (sum of the record variables' padded sizes = the first one's) while a
   second, EMPTY record variable exists (e.g. a variable whose 2nd dimension is again the
   unlimited one: 0 elements per record), [begins_of] places the second record variable at
   begin_rec + nelems*xsz (unpadded), which is neither 4-byte aligned nor behind the first
   one's padded extent; [layout_ok] rejects that.  (The content is still read back
   correctly: see [bad_roundtrip].) *)
Definition encode_with_layout_valid_full : Prop := forall c lc,
  wf_content c -> layout_fits c lc -> content_strict c -> gaps_aligned c lc ->
  file_valid (encode_with_layout c lc) = true.

(* CDF-1, one record; short a(t) [2 bytes per record, padded size 4]; short b(t,t) [empty] *)
Definition bad_c : logical :=
  mklogical 1 1 [mkdim [116] 0] []
    [ mklvar [97] 3 [0] [] [[1;2]];
      mklvar [98] 3 [0;0] [] [] ].

Example bad_begins : layout_begins bad_c tight = [120; 122] /\
                     rec_packed (lg_dims bad_c) (lg_vars bad_c) = true /\
                     file_valid (encode_with_layout bad_c tight) = false.
Proof. vm_compute. repeat split; reflexivity. Qed.

Example bad_wf : wf_content bad_c.
Proof. split; vm_compute; reflexivity. Qed.

Example bad_fits : layout_fits bad_c tight.
Proof. apply (forallb_Forall Z (off_ok (lg_format bad_c))). vm_compute. reflexivity. Qed.

Example bad_roundtrip : logical_content (encode_with_layout bad_c tight) = Some bad_c.
Proof. vm_compute. reflexivity. Qed.

Theorem encode_with_layout_valid_refuted : ~ encode_with_layout_valid_full.
Proof.
  intros H. specialize (H bad_c tight bad_wf bad_fits).
  destruct bad_begins as (_ & _ & Hf). rewrite H in Hf; [discriminate| |].
  - unfold content_strict. cbv zeta. vm_compute. repeat split; reflexivity.
  - unfold gaps_aligned. vm_compute. repeat split; intros; reflexivity.
Qed.

(** * Examples: the hypotheses are satisfiable on non-trivial instances *)

(* CDF-2; dims time (unlimited), x = 3, y = 2; 2 records; title = "hi";
   double d(x,y) with units = "K"; float t(time); char ch(x) [3 bytes, padded to 4];
   short s(time,x) [6 bytes per record, padded to 8] *)
Definition ex_c : logical :=
  mklogical 2 2
    [ mkdim [116;105;109;101] 0; mkdim [120] 3; mkdim [121] 2 ]
    [ mkatt [116;105;116;108;101] 2 2 [104;105] ]
    [ mklvar [100] 6 [1;2] [ mkatt [117;110;105;116;115] 2 1 [75] ]
        [ [1;2;3;4;5;6;7;8]; [11;12;13;14;15;16;17;18]; [21;22;23;24;25;26;27;28];
          [31;32;33;34;35;36;37;38]; [41;42;43;44;45;46;47;48]; [51;52;53;54;55;56;57;58] ];
      mklvar [116] 5 [0] [] [ [61;62;63;64]; [65;66;67;68] ];
      mklvar [99;104] 2 [1] [] [ [71]; [72]; [73] ];
      mklvar [115] 3 [0;1] [] [ [81;82]; [83;84]; [85;86]; [91;92]; [93;94]; [95;96] ] ].

(* 4 junk bytes of header free space, a 4-byte gap before d, an 8-byte gap before ch,
   4 junk bytes before the records, 3 junk bytes behind the last record *)
Definition ex_lc1 : layout_choice :=
  mklc [201;202;203;204] [ [211;212;213;214]; []; [221;222;223;224;225;226;227;228] ]
       [231;232;233;234] [241;242;243].
(* 8 bytes of header free space, no gap before d, (an unused gap entry at the record
   variable t), a 4-byte gap before ch, records directly behind, 1 junk byte at the end *)
Definition ex_lc2 : layout_choice :=
  mklc [101;102;103;104;105;106;107;108] [ []; [111;112;113;114]; [121;122;123;124] ] [] [131].

Example ex_wf_hdr : wf_hdr (hdr_of ex_c (map (fun _ => 0) (lg_vars ex_c))) = true.
Proof. vm_compute. reflexivity. Qed.
Example ex_data_ok : data_ok ex_c = true.
Proof. vm_compute. reflexivity. Qed.
Example ex_wf_content : wf_content ex_c.
Proof. split; [exact ex_wf_hdr|exact ex_data_ok]. Qed.

Example ex_begins :
  layout_begins ex_c ex_lc1 = [292; 356; 348; 360] /\
  layout_begins ex_c ex_lc2 = [292; 348; 344; 352] /\
  layout_begins ex_c tight = [284; 336; 332; 340].
Proof. vm_compute. repeat split; reflexivity. Qed.

Example ex_off_ok_1 : forallb (off_ok 2) (layout_begins ex_c ex_lc1) = true.
Proof. vm_compute. reflexivity. Qed.
Example ex_off_ok_2 : forallb (off_ok 2) (layout_begins ex_c ex_lc2) = true.
Proof. vm_compute. reflexivity. Qed.
Example ex_fits_1 : layout_fits ex_c ex_lc1.
Proof. apply (forallb_Forall Z (off_ok (lg_format ex_c))). exact ex_off_ok_1. Qed.
Example ex_fits_2 : layout_fits ex_c ex_lc2.
Proof. apply (forallb_Forall Z (off_ok (lg_format ex_c))). exact ex_off_ok_2. Qed.

(* by computation ... *)
Example ex_roundtrip_1 : logical_content (encode_with_layout ex_c ex_lc1) = Some ex_c.
Proof. vm_compute. reflexivity. Qed.
Example ex_roundtrip_2 : logical_content (encode_with_layout ex_c ex_lc2) = Some ex_c.
Proof. vm_compute. reflexivity. Qed.
(* ... and as an instance of the theorem *)
Example ex_roundtrip_1_thm : logical_content (encode_with_layout ex_c ex_lc1) = Some ex_c.
Proof. exact (dump_regen_identity ex_c ex_lc1 ex_wf_content ex_fits_1). Qed.

(* the data section of the first layout, byte for byte (the header is 284 bytes) *)
Example ex_data_section_1 :
  zskipn 284 (encode_with_layout ex_c ex_lc1) =
  [201;202;203;204;  211;212;213;214;
   1;2;3;4;5;6;7;8; 11;12;13;14;15;16;17;18; 21;22;23;24;25;26;27;28;
   31;32;33;34;35;36;37;38; 41;42;43;44;45;46;47;48; 51;52;53;54;55;56;57;58;
   221;222;223;224;225;226;227;228;  71;72;73;0;  231;232;233;234;
   61;62;63;64;  81;82;83;84;85;86;0;0;
   65;66;67;68;  91;92;93;94;95;96;0;0;
   241;242;243].
Proof. vm_compute. reflexivity. Qed.

Example ex_files_differ : encode_with_layout ex_c ex_lc1 <> encode_with_layout ex_c ex_lc2.
Proof.
  intros E. apply (f_equal (@length byte)) in E. vm_compute in E. discriminate.
Qed.

Example ex_files_compare_equal :
  match logical_content (encode_with_layout ex_c ex_lc1),
        logical_content (encode_with_layout ex_c ex_lc2) with
  | Some a, Some b => logical_eq a b
  | _, _ => false
  end = true.
Proof. vm_compute. reflexivity. Qed.

Example ex_strict : content_strict ex_c.
Proof. unfold content_strict. cbv zeta. vm_compute. repeat split; reflexivity. Qed.
Example ex_gaps_1 : gaps_aligned ex_c ex_lc1.
Proof. unfold gaps_aligned. vm_compute. repeat split; intros; reflexivity. Qed.
Example ex_gaps_2 : gaps_aligned ex_c ex_lc2.
Proof. unfold gaps_aligned. vm_compute. repeat split; intros; reflexivity. Qed.
Example ex_packed_alone : packed_alone ex_c.
Proof. intros H. vm_compute in H. discriminate. Qed.

Example ex_valid_1 : file_valid (encode_with_layout ex_c ex_lc1) = true.
Proof. vm_compute. reflexivity. Qed.
Example ex_valid_2 : file_valid (encode_with_layout ex_c ex_lc2) = true.
Proof. vm_compute. reflexivity. Qed.
Example ex_valid_1_thm : file_valid (encode_with_layout ex_c ex_lc1) = true.
Proof.
  exact (encode_with_layout_valid_partial ex_c ex_lc1 ex_wf_content ex_fits_1 ex_strict
           ex_gaps_1 ex_packed_alone).
Qed.

(* the header of the written file satisfies the hypotheses of [written_files_strict_valid] *)
Example ex_hdr_strict :
  let h := hdr_of ex_c (layout_begins ex_c ex_lc1) in
  wf_hdr h = true /\ dimids_ok h = true /\ unlim_ok h = true /\ vsize_ok h = true.
Proof. vm_compute. repeat split; reflexivity. Qed.

(* single edits are seen; a change of the format number only by logical_eq *)
Example ex_edit_detected :
  logical_eq ex_c (edit_value ex_c 3 4 1 0) = false /\
  logical_eq ex_c (edit_vatt_value ex_c 0 0 0 76) = false /\
  logical_eq ex_c (edit_dim_name ex_c 2 [122]) = false /\
  logical_eq ex_c (set_format ex_c 5) = false /\ content_eq ex_c (set_format ex_c 5) = true.
Proof. vm_compute. repeat split; reflexivity. Qed.

(* exactly ONE record variable whose record size (6) is not a multiple of 4: records are
   packed (recsize 6, no padding between records); CDF-1, 3 records;
   int f(x); short p(time,x) *)
Definition ex_p : logical :=
  mklogical 1 3
    [ mkdim [116] 0; mkdim [120] 3 ]
    []
    [ mklvar [102] 4 [1] [] [ [0;0;0;1]; [0;0;0;2]; [0;0;0;3] ];
      mklvar [112] 3 [0;1] []
        [ [1;2]; [3;4]; [5;6];  [7;8]; [9;10]; [11;12];  [13;14]; [15;16]; [17;18] ] ].
Definition ex_lcp : layout_choice := mklc [9;9;9;9] [[8;8;8;8]] [7;7;7;7;7;7;7;7] [6;6].

Example ex_p_wf : wf_content ex_p.
Proof. split; vm_compute; reflexivity. Qed.
Example ex_p_packed : rec_packed (lg_dims ex_p) (lg_vars ex_p) = true /\
                      layout_begins ex_p ex_lcp = [140; 160].
Proof. vm_compute. split; reflexivity. Qed.
Example ex_p_fits : layout_fits ex_p ex_lcp.
Proof. apply (forallb_Forall Z (off_ok (lg_format ex_p))). vm_compute. reflexivity. Qed.
Example ex_p_data_section :
  zskipn 132 (encode_with_layout ex_p ex_lcp) =
  [9;9;9;9; 8;8;8;8; 0;0;0;1; 0;0;0;2; 0;0;0;3; 7;7;7;7;7;7;7;7;
   1;2;3;4;5;6; 7;8;9;10;11;12; 13;14;15;16;17;18; 6;6].
Proof. vm_compute. reflexivity. Qed.
Example ex_p_roundtrip : logical_content (encode_with_layout ex_p ex_lcp) = Some ex_p.
Proof. vm_compute. reflexivity. Qed.
Example ex_p_roundtrip_thm : logical_content (encode_with_layout ex_p ex_lcp) = Some ex_p.
Proof. exact (dump_regen_identity ex_p ex_lcp ex_p_wf ex_p_fits). Qed.
Example ex_p_alone : packed_alone ex_p.
Proof. intros _. vm_compute. lia. Qed.
Example ex_p_valid : file_valid (encode_with_layout ex_p ex_lcp) = true.
Proof. vm_compute. reflexivity. Qed.
Example ex_p_valid_thm : file_valid (encode_with_layout ex_p ex_lcp) = true.
Proof.
  apply (encode_with_layout_valid_partial ex_p ex_lcp ex_p_wf ex_p_fits); [| |exact ex_p_alone].
  - unfold content_strict. cbv zeta. vm_compute. repeat split; reflexivity.
  - unfold gaps_aligned. vm_compute. repeat split; intros; reflexivity.
Qed.

(* two different contents written with different layouts compare unequal *)
Example ex_different_contents :
  match logical_content (encode_with_layout ex_c ex_lc1),
        logical_content (encode_with_layout (edit_value ex_c 1 1 0 60) ex_lc2) with
  | Some a, Some b => logical_eq a b
  | _, _ => true
  end = false.
Proof. vm_compute. reflexivity. Qed.

(** * Sharpness of the hypotheses of [dump_regen_identity] *)

(* data_ok: numrecs <> 0 without an unlimited dimension is not observable *)
Example sharp_numrecs_unobservable :
  let c := mklogical 1 7 [mkdim [120] 2] [] [] in
  data_ok c = false /\
  logical_content (encode_with_layout c tight) = Some (mklogical 1 0 [mkdim [120] 2] [] []).
Proof. vm_compute. split; reflexivity. Qed.

(* data_ok: a short element (1 byte for an NC_SHORT) is not read back as written *)
Example sharp_short_element :
  let c := mklogical 1 0 [mkdim [120] 1] [] [mklvar [118] 3 [0] [] [[5]]] in
  data_ok c = false /\
  logical_content (encode_with_layout c tight) =
  Some (mklogical 1 0 [mkdim [120] 1] [] [mklvar [118] 3 [0] [] [[5;0]]]).
Proof. vm_compute. split; reflexivity. Qed.

(* layout_fits: a begin beyond 2^32 in CDF-1 wraps *)
Example sharp_layout_fits :
  off_ok 1 4294967296 = false /\ off_ok 2 4294967296 = true.
Proof. vm_compute. split; reflexivity. Qed.

(** * Assumption audit *)
Print Assumptions dump_regen_identity.
Print Assumptions logical_eq_true_iff.
Print Assumptions content_eq_true_iff.
Print Assumptions logical_eq_equiv.
Print Assumptions logical_eq_layout_invariant.
Print Assumptions files_logical_eq_iff.
Print Assumptions logical_eq_detects_single_edit.
Print Assumptions written_files_strict_valid.
Print Assumptions encode_with_layout_valid_partial.
Print Assumptions encode_with_layout_valid_refuted.
