(* Proofs_Files.v — C17: theorems about the ncid table model Files.v, for arbitrary histories of
   create/open (succeeding or failing at any exit), close, abort, API calls and nonblocking posts with
   arbitrary ids (stale, negative, huge).  The machine is parametrised by the id check; results are proved
   for every "honest" check (one that, when it answers OK, is in range and returns the slot content) and then
   instantiated with the check as built (check_id), the check without / with the NULL-slot test. *)
Require Import Lia ZArith List Bool.
Import ListNotations.
From Pnc Require Import Gen_consts Gen_modes Files.
Local Open Scope Z_scope.

Lemma MAXF_val : Z.of_nat MAXF = NC_MAX_NFILES.
Proof. vm_compute. reflexivity. Qed.
Lemma MAX_pos : 0 < NC_MAX_NFILES.
Proof. vm_compute. reflexivity. Qed.

Lemma set_nth_length {A} n (x : A) l : length (set_nth n x l) = length l.
Proof. revert n. induction l as [|y r IH]; intros [|n]; cbn; auto. Qed.
Lemma nth_set_nth_eq {A} n (x d : A) l : (n < length l)%nat -> nth n (set_nth n x l) d = x.
Proof.
  revert n. induction l as [|y r IH]; intros n H; [cbn in H; lia|].
  destruct n as [|n]; cbn; [reflexivity|]. apply IH. cbn in H. lia.
Qed.
Lemma nth_set_nth_neq {A} m n (x d : A) l : m <> n -> nth m (set_nth n x l) d = nth m l d.
Proof.
  revert m n. induction l as [|y r IH]; intros [|m] [|n] H; cbn; auto; try congruence;
    try (apply IH; congruence).
Qed.

Lemma set_nth_undo {A} i (x d : A) l : nth i l d = d -> set_nth i d (set_nth i x l) = l.
Proof. revert i. induction l as [|y r IH]; intros [|i] H; cbn in *; [reflexivity | reflexivity | congruence | now rewrite IH]. Qed.

Lemma count_occ_cons o l : count_occ (o :: l) = ((if is_none o then 0 else 1) + count_occ l)%nat.
Proof. unfold count_occ. cbn. destruct o; cbn; reflexivity. Qed.
Lemma count_occ_le l : (count_occ l <= length l)%nat.
Proof.
  induction l as [|y r IH]; [cbn; lia|]. rewrite count_occ_cons. cbn [length]. destruct y; cbn; lia.
Qed.
Lemma count_occ_set_some i p l :
  (i < length l)%nat -> nth i l None = None -> count_occ (set_nth i (Some p) l) = S (count_occ l).
Proof.
  revert i. induction l as [|y r IH]; intros i H E; [cbn [length] in H; lia|].
  destruct i as [|i]; cbn [set_nth nth length] in *.
  - subst y. rewrite !count_occ_cons. cbn [is_none]. lia.
  - rewrite !count_occ_cons. rewrite IH; [lia | lia | exact E].
Qed.
Lemma count_occ_set_none i f l :
  nth i l None = Some f -> S (count_occ (set_nth i None l)) = count_occ l.
Proof.
  revert i. induction l as [|y r IH]; intros i E; [destruct i; discriminate E|].
  destruct i as [|i]; cbn [set_nth nth] in *.
  - subst y. rewrite !count_occ_cons. cbn [is_none]. lia.
  - rewrite !count_occ_cons. rewrite <- (IH i E). lia.
Qed.
Lemma count_occ_set_same i f g l :
  nth i l None = Some f -> count_occ (set_nth i (Some g) l) = count_occ l.
Proof.
  revert i. induction l as [|y r IH]; intros i E; [destruct i; discriminate E|].
  destruct i as [|i]; cbn [set_nth nth] in *.
  - subst y. rewrite !count_occ_cons. reflexivity.
  - rewrite !count_occ_cons. now rewrite (IH i E).
Qed.
Lemma count_zero_nth l k : count_occ l = 0%nat -> nth k l None = None.
Proof.
  revert k. induction l as [|y r IH]; intros k Hc; [destruct k; reflexivity|].
  rewrite count_occ_cons in Hc. destruct y as [f|]; cbn [is_none] in Hc; [lia|].
  destruct k as [|k]; cbn [nth]; [reflexivity|]. apply IH. lia.
Qed.
Lemma nth_some_lt {A} i (l : list (option A)) f : nth i l None = Some f -> (i < length l)%nat.
Proof.
  intro E. destruct (Nat.lt_ge_cases i (length l)) as [H|H]; [exact H|].
  rewrite nth_overflow in E by exact H. discriminate.
Qed.

Lemma first_free_some l i :
  first_free l = Some i ->
  (i < length l)%nat /\ nth i l None = None /\ (forall j, (j < i)%nat -> nth j l None <> None).
Proof.
  revert i. induction l as [|y r IH]; intros i H; cbn in H; [discriminate|].
  destruct y as [f|].
  - destruct (first_free r) as [k|] eqn:E; cbn in H; [|discriminate]. injection H as <-.
    destruct (IH k eq_refl) as (A & B & Cc).
    split; [cbn [length]; lia|]. split; [cbn [nth]; exact B|].
    intros [|j] Hj; cbn [nth]; [discriminate|]. apply Cc. lia.
  - injection H as <-. split; [cbn [length]; lia|]. split; [reflexivity|]. intros j Hj. lia.
Qed.
Lemma first_free_none l : first_free l = None -> count_occ l = length l.
Proof.
  induction l as [|y r IH]; intro H; cbn in H; [reflexivity|].
  destruct y as [f|]; [|discriminate].
  destruct (first_free r) eqn:E; cbn in H; [discriminate|].
  rewrite count_occ_cons. cbn. now rewrite IH.
Qed.

Definition Inv (t : tbl) : Prop :=
  length (slots t) = MAXF /\ numfiles t = Z.of_nat (count_occ (slots t)).
Definition ck_honest (ck : tbl -> Z -> chk) : Prop :=
  forall t id p, ck t id = ChkOk p -> 0 <= id < NC_MAX_NFILES /\ p = nth (Z.to_nat id) (slots t) None.

Inductive checked (z n : bool) (t : tbl) (id : Z) : chk -> Prop :=
| CkEmpty : z = true -> numfiles t = 0 -> checked z n t id ChkBad
| CkRange : id < 0 \/ NC_MAX_NFILES <= id -> checked z n t id ChkBad
| CkNull : n = true -> nth (Z.to_nat id) (slots t) None = None -> checked z n t id ChkBad
| CkOk : 0 <= id < NC_MAX_NFILES -> (z = true -> numfiles t <> 0) ->
         (n = true -> nth (Z.to_nat id) (slots t) None <> None) ->
         checked z n t id (ChkOk (nth (Z.to_nat id) (slots t) None)).
Lemma check_id_gen_spec z n t id : checked z n t id (check_id_gen z n t id).
Proof.
  unfold check_id_gen. rewrite Z.geb_leb.
  destruct (Z.ltb_spec id 0); [rewrite orb_true_r; apply CkRange; lia|].
  destruct (Z.leb_spec NC_MAX_NFILES id); [rewrite orb_true_r; apply CkRange; lia|].
  rewrite !orb_false_r.
  destruct z; cbn [andb]; [destruct (Z.eqb_spec (numfiles t) 0); [now apply CkEmpty|]|];
    (destruct n; cbn [andb]; [destruct (nth _ _ _) eqn:P; cbn [is_none]; [rewrite <- P|now apply CkNull]|];
     apply CkOk; (lia || congruence)).
Qed.

Lemma check_id_gen_honest z n : ck_honest (check_id_gen z n).
Proof. intros t id p H. pose proof (check_id_gen_spec z n t id) as C. rewrite H in C. inversion C. auto. Qed.
Lemma check_id_honest : ck_honest check_id.
Proof. apply check_id_gen_honest. Qed.

Lemma Inv0 : Inv tbl0.
Proof.
  split; cbn [slots numfiles tbl0].
  - apply repeat_length.
  - assert (G : forall n, count_occ (repeat (@None fobj) n) = 0%nat).
    { induction n; [reflexivity|]. cbn [repeat]. rewrite count_occ_cons. cbn. exact IHn. }
    now rewrite G.
Qed.

Lemma idx_lt t id : Inv t -> 0 <= id < NC_MAX_NFILES -> (Z.to_nat id < length (slots t))%nat.
Proof. intros [L _] H. rewrite L. pose proof MAXF_val. lia. Qed.

(* new_id keeps the invariant; on success it takes the first free slot *)
Lemma new_id_spec t p t' err id :
  Inv t -> new_id t p = (t', err, id) ->
  (numfiles t = NC_MAX_NFILES /\ t' = t /\ err = NC_ENFILE /\ id = -1) \/
  (numfiles t < NC_MAX_NFILES /\ err = NC_NOERR /\
   exists i, first_free (slots t) = Some i /\ id = Z.of_nat i /\ 0 <= id < NC_MAX_NFILES /\
             t' = mkT (set_nth i (Some p) (slots t)) (numfiles t + 1) (nextuid t) (heap t)).
Proof.
  intros [L N] H. unfold new_id in H.
  destruct (numfiles t =? NC_MAX_NFILES) eqn:E.
  - apply Z.eqb_eq in E. injection H as <- <- <-. left. auto.
  - apply Z.eqb_neq in E. right.
    pose proof (count_occ_le (slots t)) as Hle. rewrite L in Hle.
    pose proof MAXF_val as MV.
    assert (numfiles t < NC_MAX_NFILES) by lia.
    destruct (first_free (slots t)) as [i|] eqn:F.
    + injection H as <- <- <-. split; [assumption|]. split; [reflexivity|]. exists i.
      destruct (first_free_some _ _ F) as (A & _). rewrite L in A.
      repeat split; auto; try lia.
    + exfalso. apply first_free_none in F. rewrite L in F. lia.
Qed.

Lemma del_id_inv t id f :
  Inv t -> 0 <= id < NC_MAX_NFILES -> nth (Z.to_nat id) (slots t) None = Some f -> Inv (del_id t id).
Proof.
  intros [L N] R E. split; cbn [del_id slots numfiles].
  - now rewrite set_nth_length.
  - rewrite N. pose proof (count_occ_set_none _ _ _ E). lia.
Qed.

Lemma Inv_same t t' : slots t' = slots t -> numfiles t' = numfiles t -> Inv t -> Inv t'.
Proof. unfold Inv. now intros -> ->. Qed.

(* the exits of ncmpi_create / ncmpi_open: nothing entered in the table (early failure; table full; driver
   failure, where the slot just taken is given back), or the first free slot taken *)
Inductive created (b : bool) (t : tbl) : outcome -> tbl -> res -> Prop :=
| CrEarly e : created b t (OEarly e) t (RRc e None)
| CrFull o t' :
    numfiles t = NC_MAX_NFILES -> slots t' = slots t -> numfiles t' = numfiles t ->
    heap t' = (if b then heap t else S (heap t)) -> created b t o t' (RRc NC_ENFILE (Some (-1)))
| CrDriver e t' :
    numfiles t < NC_MAX_NFILES -> slots t' = slots t -> numfiles t' = numfiles t -> heap t' = heap t ->
    created b t (ODriver e) t' (RRc e (Some (-1)))
| CrOk i :
    numfiles t < NC_MAX_NFILES -> first_free (slots t) = Some i ->
    created b t OOk (mkT (set_nth i (Some (mkF (nextuid t) 0 0)) (slots t)) (numfiles t + 1) (S (nextuid t)) (S (heap t)))
            (RRc NC_NOERR (Some (Z.of_nat i))).

Lemma do_create_spec b t o t' r : Inv t -> do_create b t o = (t', r) -> created b t o t' r.
Proof.
  intros I H. unfold do_create in H.
  assert (I1 : Inv (mkT (slots t) (numfiles t) (S (nextuid t)) (S (heap t)))) by exact I.
  destruct o as [|e|e]; [|injection H as <- <-; constructor|];
    (destruct (new_id _ _) as [[t2 err] id] eqn:N;
     destruct (new_id_spec _ _ _ _ _ I1 N) as [(Q & -> & -> & ->) | (Q & -> & i & F & -> & R & ->)]; cbn in H;
     [destruct b; injection H as <- <-; now apply CrFull|]); injection H as <- <-.
  - now apply CrOk.
  - destruct (first_free_some _ _ F) as (_ & Hn & _).
    apply CrDriver; cbn [set_heap del_id slots numfiles heap]; [exact Q | | lia | reflexivity].
    rewrite Nat2Z.id. now apply set_nth_undo.
Qed.

Lemma created_inv b t o t' r : created b t o t' r -> Inv t -> Inv t'.
Proof.
  intros [e|o' t'' _ S N _|e t'' _ S N _|i Q F] I; eauto using Inv_same.
  destruct (first_free_some _ _ F) as (Hi & Hn & _). destruct I as [L Nn]. split; cbn [slots numfiles].
  - now rewrite set_nth_length.
  - rewrite count_occ_set_some by assumption. lia.
Qed.

Definition agrees (t : tbl) (l : list Z) : Prop := forall id, occupied t id = true <-> In id l.

Lemma occupied_iff t id :
  occupied t id = true <-> 0 <= id < NC_MAX_NFILES /\ nth (Z.to_nat id) (slots t) None <> None.
Proof.
  unfold occupied. rewrite !andb_true_iff, Z.leb_le, Z.ltb_lt, negb_true_iff.
  destruct (nth (Z.to_nat id) (slots t) None); cbn; split; intros [A B]; (split; [lia|]); congruence.
Qed.

Lemma not_occupied t id :
  id < 0 \/ NC_MAX_NFILES <= id \/ nth (Z.to_nat id) (slots t) None = None -> occupied t id = false.
Proof.
  intro H. destruct (occupied t id) eqn:O; [|reflexivity]. apply occupied_iff in O. destruct O as [R X].
  exfalso. destruct H as [H|[H|H]]; [lia | lia | exact (X H)].
Qed.
Lemma empty_slots t id : Inv t -> numfiles t = 0 -> nth (Z.to_nat id) (slots t) None = None.
Proof. intros [_ N] E. apply count_zero_nth. lia. Qed.

Lemma In_remove_z x y l : In x (remove_z y l) <-> In x l /\ x <> y.
Proof.
  induction l as [|a r IH]; cbn; [tauto|].
  destruct (y =? a) eqn:E.
  - apply Z.eqb_eq in E. subst a. rewrite IH. split; [tauto|]. intros [[->|H] N]; [congruence | tauto].
  - apply Z.eqb_neq in E. cbn. rewrite IH. split.
    + intros [->|[H N]]; [split; [tauto|congruence] | tauto].
    + intros [[->|H] N]; tauto.
Qed.

Lemma agrees_same t t' l : slots t' = slots t -> agrees t l -> agrees t' l.
Proof. intros E A id. unfold occupied. rewrite E. apply A. Qed.

Lemma created_agrees b t o t' r e l :
  created b t o t' r -> e = ECreate o \/ e = EOpen o -> Inv t -> agrees t l -> agrees t' (live_step l e r).
Proof.
  intros C He I A.
  assert (LS : live_step l e r = live_step l (ECreate o) r) by (destruct He as [-> | ->]; reflexivity).
  rewrite LS. clear LS He.
  destruct C as [e0|o' t'' _ S _ _|e0 t'' _ S _ _|i Q F]; cbn [live_step];
    try change (0 <=? -1) with false; rewrite ?andb_false_r; eauto using agrees_same.
  rewrite Z.eqb_refl, (proj2 (Z.leb_le 0 (Z.of_nat i))) by lia. cbn [andb].
  destruct (first_free_some _ _ F) as (Hi & Hn & _).
  assert (R : 0 <= Z.of_nat i < NC_MAX_NFILES) by (destruct I as [L _]; pose proof MAXF_val; lia).
  intro id. rewrite occupied_iff. cbn [slots In].
  destruct (Z_lt_le_dec id 0) as [Lt|Ge].
  - split; [intros [? _]; lia|]. intros [E|E]; [lia|]. apply A in E. rewrite occupied_iff in E. lia.
  - destruct (Z.eq_dec id (Z.of_nat i)) as [->|Ne].
    + rewrite Nat2Z.id, nth_set_nth_eq by exact Hi. split; [auto|]. intros _. split; [lia | discriminate].
    + rewrite nth_set_nth_neq by lia. rewrite <- (A id), occupied_iff.
      split; [tauto|]. intros [H0|H0]; [congruence | tauto].
Qed.

Lemma created_other b t o t' r j :
  created b t o t' r -> nth j (slots t) None <> None -> nth j (slots t') None = nth j (slots t) None.
Proof.
  intros [e|o' t'' _ S _ _|e t'' _ S _ _|i Q F] Hj; try (now rewrite S); [reflexivity|].
  destruct (first_free_some _ _ F) as (_ & Hn & _). cbn [slots].
  assert (j <> i) by (intro; subst j; apply Hj; exact Hn). now rewrite nth_set_nth_neq.
Qed.

Definition ev_id (e : ev) : option Z :=
  match e with EClose id | EAbort id | EApi id | EPost id => Some id | _ => None end.
Definition frees (e : ev) : bool :=
  match e with EOpen _ => ncmpi_open_ENFILE_FREES_PNC | _ => ncmpi_create_ENFILE_FREES_PNC end.
Inductive stepped (t : tbl) : ev -> tbl -> res -> Prop :=
| StCreate o e t' r : e = ECreate o \/ e = EOpen o -> created (frees e) t o t' r -> stepped t e t' r
| StRefused e id : ev_id e = Some id -> stepped t e t (RRc NC_EBADID None)
| StRelease e id f rc :
    e = EClose id \/ e = EAbort id -> 0 <= id < NC_MAX_NFILES -> nth (Z.to_nat id) (slots t) None = Some f ->
    rc = NC_NOERR \/ rc = NC_EPENDING ->
    stepped t e (set_heap (del_id t id) (pred (heap t))) (RRc rc None)
| StUse e id f g :
    e = EApi id \/ e = EPost id -> 0 <= id < NC_MAX_NFILES -> nth (Z.to_nat id) (slots t) None = Some f ->
    stepped t e (mkT (set_nth (Z.to_nat id) (Some g) (slots t)) (numfiles t) (nextuid t) (heap t)) (RRc NC_NOERR None).

Lemma stepped_inv t e t' r : stepped t e t' r -> Inv t -> Inv t'.
Proof.
  intros [o e0 t'' r0 _ C|e0 id _|e0 id f rc _ R E _|e0 id f g _ R E] I.
  - eapply created_inv; eauto.
  - exact I.
  - eapply Inv_same; [reflexivity | reflexivity |]. eapply del_id_inv; eauto.
  - destruct I as [L N]. split; cbn [slots numfiles]; [now rewrite set_nth_length|].
    now rewrite (count_occ_set_same _ f).
Qed.

Lemma stepped_agrees t e t' r l : stepped t e t' r -> Inv t -> agrees t l -> agrees t' (live_step l e r).
Proof.
  intros [o e0 t'' r0 He C|e0 id He|e0 id f rc He R E Hrc|e0 id f g He R E] I A.
  - eapply created_agrees; eauto.
  - destruct e0; try discriminate He; exact A.
  - assert (LS : live_step l e0 (RRc rc None) = remove_z id l)
      by (destruct He as [-> | ->], Hrc as [-> | ->]; reflexivity).
    rewrite LS. intro j. rewrite In_remove_z, <- (A j), !occupied_iff. cbn [set_heap del_id slots].
    destruct (Z_lt_le_dec j 0) as [Lt|Ge]; [split; [intros [? ?]; lia | intros [[? ?] ?]; lia]|].
    destruct (Z.eq_dec j id) as [->|Ne].
    + rewrite nth_set_nth_eq by (apply idx_lt; assumption). split; [intros [_ X]; congruence | tauto].
    + rewrite nth_set_nth_neq by lia. tauto.
  - assert (LS : live_step l e0 (RRc NC_NOERR None) = l) by (destruct He as [-> | ->]; reflexivity).
    rewrite LS. intro j. rewrite <- (A j), !occupied_iff. cbn [slots].
    destruct (Nat.eq_dec (Z.to_nat j) (Z.to_nat id)) as [Eq|Ne].
    + rewrite Eq, nth_set_nth_eq, E by (apply idx_lt; assumption).
      split; intros [? ?]; (split; [assumption | discriminate]).
    + rewrite nth_set_nth_neq by exact Ne. tauto.
Qed.

Section Generic.
Variable ck : tbl -> Z -> chk.
Hypothesis HCK : ck_honest ck.

Lemma step1_spec t e t' r : Inv t -> step1 ck t e = (Some t', r) -> stepped t e t' r.
Proof.
  intros I H. destruct e as [o|o|id|id|id|id]; cbn [step1] in H.
  1,2: destruct (do_create _ t o) as [t1 r1] eqn:D; injection H as <- <-;
       eapply StCreate; [eauto | eapply do_create_spec; eauto].
  all: unfold with_id in H; destruct (ck t id) as [|[f|]] eqn:C; try discriminate; injection H as <- <-;
       [now eapply StRefused | destruct (HCK _ _ _ C) as [R E]; symmetry in E].
  - eapply StRelease; eauto. destruct (Nat.eqb (pend f) 0); auto.
  - eapply StRelease; eauto.
  - eapply StUse; eauto.
  - eapply StUse; eauto.
Qed.

Lemma step1_inv t e t' r : Inv t -> step1 ck t e = (Some t', r) -> Inv t'.
Proof. intros I H. eapply stepped_inv; eauto using step1_spec. Qed.

Lemma run_inv h : forall t t', Inv t -> run ck (Some t) h = Some t' -> Inv t'.
Proof.
  induction h as [|e r IH]; intros t t' I H; cbn [run] in H.
  - now injection H as <-.
  - cbn [step] in H. destruct (step1 ck t e) as [[t1|] r1] eqn:St; cbn [fst] in H.
    + eapply IH; [|exact H]. eapply step1_inv; eauto.
    + assert (G : forall h', run ck None h' = None) by (induction h'; cbn; auto). rewrite G in H. discriminate.
Qed.

Theorem table_invariant :
  forall (h : list ev) (t : tbl), run ck (Some tbl0) h = Some t ->
    length (slots t) = MAXF /\ numfiles t = Z.of_nat (count_occ (slots t)) /\ 0 <= numfiles t <= NC_MAX_NFILES.
Proof.
  intros h t H. destruct (run_inv h _ _ Inv0 H) as [L N]. repeat split; auto; try lia.
  pose proof (count_occ_le (slots t)). rewrite L in H0. pose proof MAXF_val. lia.
Qed.

Lemma run_none h : run ck None h = None.
Proof. induction h; cbn; auto. Qed.

Lemma live_agrees h : forall t l t', Inv t -> agrees t l -> run ck (Some t) h = Some t' -> agrees t' (live_of ck (Some t) l h).
Proof.
  induction h as [|e r IH]; intros t l t' I A H; cbn [run live_of] in *.
  - now injection H as <-.
  - cbn [step] in *. destruct (step1 ck t e) as [[t1|] r1] eqn:St; cbn [fst snd] in *.
    + eapply IH; eauto using step1_inv, stepped_agrees, step1_spec.
    + rewrite run_none in H. discriminate.
Qed.

Theorem ids_valid_exactly_between :
  forall (h : list ev) (t : tbl) (id : Z),
    run ck (Some tbl0) h = Some t ->
    (occupied t id = true <-> In id (live ck h)).
Proof.
  intros h t id H. unfold live. apply (live_agrees h tbl0 [] t Inv0); [|exact H].
  intro j. split; [|intros []]. rewrite occupied_iff. cbn [tbl0 slots]. intros [_ X]. exfalso. apply X.
  clear. generalize (Z.to_nat j). induction MAXF as [|n IH]; intros [|k]; cbn; auto.
Qed.

Lemma id_reuse_first_free_from :
  forall (t t' : tbl) (l : list Z) (o : outcome) (isopen : bool) (rc id : Z),
    Inv t -> agrees t l ->
    step1 ck t (if isopen then EOpen o else ECreate o) = (Some t', RRc rc (Some id)) ->
    0 <= id ->
    0 <= id < NC_MAX_NFILES /\ ~ In id l /\ (forall j, 0 <= j < id -> In j l).
Proof.
  intros t t' l o isopen rc id I A St Hid.
  assert (D : exists b, do_create b t o = (t', RRc rc (Some id))).
  { destruct isopen; cbn [step1] in St; destruct (do_create _ t o) as [t1 r1] eqn:D; injection St as <- <-; eauto. }
  destruct D as [b D]. apply (do_create_spec _ _ _ _ _ I) in D.
  inversion D as [| | |i Q F]; subst; try lia.
  destruct (first_free_some _ _ F) as (Hi & Hn & Hlt).
  assert (R : 0 <= Z.of_nat i < NC_MAX_NFILES) by (destruct I as [L _]; pose proof MAXF_val; lia).
  split; [exact R|]. split.
  - rewrite <- (A _), occupied_iff. rewrite Nat2Z.id. intros [_ X]. now apply X.
  - intros j Hj. rewrite <- (A j), occupied_iff. split; [lia|]. apply Hlt. lia.
Qed.

Theorem id_reuse_first_free :
  forall (h : list ev) (t t' : tbl) (o : outcome) (isopen : bool) (rc id : Z),
    run ck (Some tbl0) h = Some t ->
    step1 ck t (if isopen then EOpen o else ECreate o) = (Some t', RRc rc (Some id)) ->
    0 <= id ->
    0 <= id < NC_MAX_NFILES /\ ~ In id (live ck h) /\ (forall j, 0 <= j < id -> In j (live ck h)).
Proof.
  intros h t t' o isopen rc id H. apply id_reuse_first_free_from.
  - exact (run_inv h _ _ Inv0 H).
  - intro j. exact (ids_valid_exactly_between h t j H).
Qed.

Lemma max_files_from :
  forall (t : tbl) (isopen : bool),
    Inv t ->
    let e := if isopen then EOpen OOk else ECreate OOk in
    (numfiles t < NC_MAX_NFILES ->
       exists t' id, step1 ck t e = (Some t', RRc NC_NOERR (Some id)) /\ 0 <= id < NC_MAX_NFILES /\
                     numfiles t' = numfiles t + 1) /\
    (numfiles t = NC_MAX_NFILES ->
       exists t', step1 ck t e = (Some t', RRc NC_ENFILE (Some (-1))) /\ slots t' = slots t /\ numfiles t' = numfiles t).
Proof.
  intros t isopen I e.
  assert (D : exists b, step1 ck t e = let '(t', r) := do_create b t OOk in (Some t', r))
    by (destruct isopen; eexists; reflexivity).
  destruct D as [b ->]. destruct (do_create b t OOk) as [t' r] eqn:D. apply (do_create_spec _ _ _ _ _ I) in D.
  inversion D as [|? ? Q S N _| |i Q F]; subst; (split; intro Hn; [|]); try lia.
  - exists t'. repeat split; assumption.
  - destruct (first_free_some _ _ F) as (Hi & _). destruct I as [L _]. pose proof MAXF_val.
    eexists. eexists. split; [reflexivity|]. split; [lia | reflexivity].
Qed.

Theorem max_files :
  forall (h : list ev) (t : tbl) (isopen : bool),
    run ck (Some tbl0) h = Some t ->
    let e := if isopen then EOpen OOk else ECreate OOk in
    (numfiles t < NC_MAX_NFILES ->
       exists t' id, step1 ck t e = (Some t', RRc NC_NOERR (Some id)) /\ 0 <= id < NC_MAX_NFILES /\
                     numfiles t' = numfiles t + 1) /\
    (numfiles t = NC_MAX_NFILES ->
       exists t', step1 ck t e = (Some t', RRc NC_ENFILE (Some (-1))) /\ slots t' = slots t /\ numfiles t' = numfiles t).
Proof. intros h t isopen H. exact (max_files_from t isopen (run_inv h _ _ Inv0 H)). Qed.

Lemma files_independent_from :
  forall (t t' : tbl) (e : ev) (r : res) (j : nat),
    Inv t ->
    step1 ck t e = (Some t', r) ->
    match ev_id e with Some id => Z.of_nat j <> id | None => nth j (slots t) None <> None end ->
    nth j (slots t') None = nth j (slots t) None.
Proof.
  intros t t' e r j I St Hj.
  destruct (step1_spec _ _ _ _ I St) as [o e0 t'' r0 He C|e0 id _|e0 id f rc He R E _|e0 id f g He R E].
  - destruct He as [-> | ->]; eapply created_other; eauto.
  - reflexivity.
  - destruct He as [-> | ->]; cbn [ev_id] in Hj; cbn [set_heap del_id slots]; now rewrite nth_set_nth_neq by lia.
  - destruct He as [-> | ->]; cbn [ev_id] in Hj; cbn [slots]; now rewrite nth_set_nth_neq by lia.
Qed.

Theorem files_independent :
  forall (h : list ev) (t t' : tbl) (e : ev) (r : res) (j : nat),
    run ck (Some tbl0) h = Some t ->
    step1 ck t e = (Some t', r) ->
    match ev_id e with
    | Some id => Z.of_nat j <> id      (* an operation on id leaves every other slot alone *)
    | None => nth j (slots t) None <> None    (* create/open leave every occupied slot alone *)
    end ->
    nth j (slots t') None = nth j (slots t) None.
Proof. intros h t t' e r j H. exact (files_independent_from t t' e r j (run_inv h _ _ Inv0 H)). Qed.

Lemma step1_none t e r : step1 ck t e = (None, r) -> exists id, ck t id = ChkOk None.
Proof.
  destruct e as [o|o|id|id|id|id]; cbn [step1]; try (destruct (do_create _ t o); discriminate);
    unfold with_id; destruct (ck t id) as [|[f|]] eqn:C; eauto; cbn; discriminate.
Qed.
Lemma run_some h : forall t,
  (forall h' t' id, run ck (Some t) h' = Some t' -> ck t' id <> ChkOk None) -> run ck (Some t) h <> None.
Proof.
  induction h as [|e r IH]; intros t Hn; cbn [run step]; [discriminate|].
  destruct (step1 ck t e) as [[t1|] r1] eqn:St; cbn [fst].
  - apply IH. intros h' t' id H. apply (Hn (e :: h')). cbn [run step]. now rewrite St.
  - destruct (step1_none _ _ _ St) as [id C]. elim (Hn [] t id eq_refl C).
Qed.

End Generic.

(* the property: OK => slot occupied (and the pointer handed out is that slot's, not NULL); not open => NC_EBADID *)
Definition check_id_sound (ck : tbl -> Z -> chk) : Prop :=
  forall (h : list ev) (t : tbl) (id : Z),
    run ck (Some tbl0) h = Some t ->
    match ck t id with
    | ChkBad => occupied t id = false
    | ChkOk p => occupied t id = true /\ p = nth (Z.to_nat id) (slots t) None /\ p <> None
    end.
Definition never_crashes (ck : tbl -> Z -> chk) : Prop :=
  forall h : list ev, run ck (Some tbl0) h <> None.

Theorem check_id_fixed : forall z : bool, check_id_sound (check_id_gen z true).
Proof.
  intros z h t id H. pose proof (run_inv _ (check_id_gen_honest z true) h _ _ Inv0 H) as I.
  destruct (check_id_gen_spec z true t id) as [_ E|R|_ E|R _ X].
  - apply not_occupied. right. right. now apply empty_slots.
  - apply not_occupied. destruct R; auto.
  - apply not_occupied. auto.
  - specialize (X eq_refl). split; [apply occupied_iff|]; auto.
Qed.

Lemma sound_never_crashes ck : check_id_sound ck -> never_crashes ck.
Proof.
  intros S h. apply run_some. intros h' t' id H C.
  specialize (S h' t' id H). rewrite C in S. destruct S as (_ & _ & X). now apply X.
Qed.

Theorem never_crashes_fixed : forall z : bool, never_crashes (check_id_gen z true).
Proof. intro z. apply sound_never_crashes, check_id_fixed. Qed.

(* the check without the NULL-slot test (CHECK_ID_NULL_TEST = false), with the pnc_numfiles == 0 test: a closed or never-used slot passes the check
   whenever another file is open, and the next dereference kills the process *)
Definition h_witness : list ev := [ECreate OOk; ECreate OOk; EClose 0].
Lemma null_test_needed z : ~ check_id_sound (check_id_gen z false) /\ ~ never_crashes (check_id_gen z false).
Proof.
  assert (C : ~ never_crashes (check_id_gen z false))
    by (intro H; apply (H (h_witness ++ [EApi 0])); destruct z; vm_compute; reflexivity).
  split; [intro S; exact (C (sound_never_crashes _ S)) | exact C].
Qed.
Theorem check_id_sound_refuted : ~ check_id_sound (check_id_gen true false).
Proof. exact (proj1 (null_test_needed true)). Qed.
Theorem never_crashes_refuted : ~ never_crashes (check_id_gen true false).
Proof. exact (proj2 (null_test_needed true)). Qed.
(* ... also with an id that was never handed out *)
Example never_used_slot_crashes : run (check_id_gen true false) (Some tbl0) [ECreate OOk; EApi 7] = None.
Proof. vm_compute. reflexivity. Qed.

(* what does hold of the check without the NULL-slot test *)
Theorem check_id_sound_partial :
  forall (z : bool) (h : list ev) (t : tbl) (id : Z),
    run (check_id_gen z false) (Some tbl0) h = Some t ->
    (occupied t id = true -> check_id_gen z false t id = ChkOk (nth (Z.to_nat id) (slots t) None)) /\
    (check_id_gen z false t id = ChkBad -> occupied t id = false) /\
    ((z = true /\ numfiles t = 0) \/ id < 0 \/ NC_MAX_NFILES <= id -> check_id_gen z false t id = ChkBad).
Proof.
  intros z h t id H. pose proof (run_inv _ (check_id_gen_honest z false) h _ _ Inv0 H) as I.
  destruct (check_id_gen_spec z false t id) as [Z0 E|R|N _|R Zn _]; try discriminate N.
  - assert (O : occupied t id = false) by (apply not_occupied; right; right; now apply empty_slots).
    repeat split; auto; congruence.
  - assert (O : occupied t id = false) by (apply not_occupied; destruct R; auto).
    repeat split; auto; congruence.
  - repeat split; [discriminate|]. intros [[Z0 E]|Rg]; [now elim (Zn Z0) | lia].
Qed.

(* the verdict for the sources as built *)
Theorem check_id_sound_current :
  if CHECK_ID_NULL_TEST then check_id_sound check_id /\ never_crashes check_id
  else ~ check_id_sound check_id /\ ~ never_crashes check_id.
Proof.
  unfold check_id.
  destruct CHECK_ID_NULL_TEST eqn:E.
  - split; [apply check_id_fixed | apply never_crashes_fixed].
  - apply null_test_needed.
Qed.

(* valid ids always work, on the code as built, whatever the switches *)
Lemma valid_ids_accepted_gen :
  forall (z n : bool) (h : list ev) (t : tbl) (id : Z),
    run (check_id_gen z n) (Some tbl0) h = Some t ->
    In id (live (check_id_gen z n) h) ->
    exists f, check_id_gen z n t id = ChkOk (Some f).
Proof.
  intros z n h t id H L.
  rewrite <- (ids_valid_exactly_between _ (check_id_gen_honest z n) h t id H) in L.
  pose proof (run_inv _ (check_id_gen_honest z n) h _ _ Inv0 H) as I.
  rewrite occupied_iff in L. destruct L as [R X].
  destruct (check_id_gen_spec z n t id) as [_ E|Rg|_ E|_ _ _].
  - elim X. now apply empty_slots.
  - lia.
  - now elim X.
  - destruct (nth (Z.to_nat id) (slots t) None) as [f|]; [now exists f | now elim X].
Qed.

Theorem valid_ids_accepted :
  forall (h : list ev) (t : tbl) (id : Z),
    run check_id (Some tbl0) h = Some t ->
    In id (live check_id h) ->
    exists f, check_id t id = ChkOk (Some f).
Proof. exact (valid_ids_accepted_gen NUMFILES_ZERO_TEST CHECK_ID_NULL_TEST). Qed.

(* ================= max_files on the concrete constant ================= *)
Fixpoint zseq (s : Z) (n : nat) : list Z := match n with O => [] | S k => s :: zseq (s + 1) k end.

Definition filled (k : nat) : tbl :=
  mkT (map Some (map (fun u => mkF u 0 0) (seq 0 k)) ++ repeat None (MAXF - k)) (Z.of_nat k) k k.
Lemma filled0 : tbl0 = filled 0.
Proof. unfold filled, tbl0. now rewrite Nat.sub_0_r. Qed.
Lemma first_free_filled (pre : list fobj) rest : first_free (map Some pre ++ None :: rest) = Some (length pre).
Proof. induction pre as [|f r IH]; cbn; [reflexivity|]. now rewrite IH. Qed.
Lemma set_nth_filled (pre : list fobj) y rest x :
  set_nth (length pre) x (map Some pre ++ y :: rest) = map Some pre ++ x :: rest.
Proof. induction pre as [|f r IH]; cbn; [reflexivity|]. now rewrite IH. Qed.
Lemma filled_create b k :
  (k < MAXF)%nat -> do_create b (filled k) OOk = (filled (S k), RRc NC_NOERR (Some (Z.of_nat k))).
Proof.
  intro H. pose proof MAXF_val as MV. unfold do_create, new_id, filled.
  replace (MAXF - k)%nat with (S (MAXF - S k)) by lia.
  assert (NE : Z.of_nat k <> NC_MAX_NFILES) by lia.
  (* keep MAXF (1024 in unary once unfolded) out of what Qed has to convert *)
  generalize (MAXF - S k)%nat. intro m. cbn [slots numfiles nextuid heap repeat].
  rewrite (proj2 (Z.eqb_neq _ _) NE), first_free_filled, set_nth_filled, map_length, seq_length.
  rewrite seq_S, !map_app, <- app_assoc, Nat2Z.inj_succ. reflexivity.
Qed.
Lemma filled_run ck n : forall k, (k + n <= MAXF)%nat ->
  run ck (Some (filled k)) (repeat (ECreate OOk) n) = Some (filled (k + n)) /\
  run_res ck (Some (filled k)) (repeat (ECreate OOk) n) = map (fun i => RRc NC_NOERR (Some i)) (zseq (Z.of_nat k) n).
Proof.
  induction n as [|n IH]; intros k H; cbn [repeat run run_res zseq map step step1].
  - rewrite Nat.add_0_r. split; reflexivity.
  - rewrite filled_create by lia. cbn [fst snd]. destruct (IH (S k)) as [A B]; [lia|].
    rewrite A, B, Nat2Z.inj_succ, Nat.add_succ_r. split; reflexivity.
Qed.
Lemma run_app ck h1 : forall s h2, run ck s (h1 ++ h2) = run ck (run ck s h1) h2.
Proof. induction h1; cbn; auto. Qed.
Lemma run_res_app ck h1 : forall s h2, run_res ck s (h1 ++ h2) = run_res ck s h1 ++ run_res ck (run ck s h1) h2.
Proof. induction h1 as [|e r IH]; intros; cbn; [|rewrite IH]; reflexivity. Qed.

Theorem max_files_exact :
  run_codes (repeat (ECreate OOk) MAXF ++ [ECreate OOk; EOpen OOk; EClose 5; ECreate OOk; ECreate OOk]) =
  map (fun i => (NC_NOERR, i)) (zseq 0 MAXF) ++
  [(NC_ENFILE, -1); (NC_ENFILE, -1); (NC_NOERR, -99); (NC_NOERR, 5); (NC_ENFILE, -1)].
Proof.
  unfold run_codes. destruct (filled_run check_id MAXF 0 (le_n _)) as [A B].
  rewrite filled0, run_res_app, A, B, map_app, map_map. apply f_equal2; [reflexivity | vm_compute; reflexivity].
Qed.

(* ================= the PNC object of a refused create/open ================= *)
Definition pnc_objects_balanced : Prop :=
  forall (h : list ev) (t : tbl), run check_id (Some tbl0) h = Some t -> Z.of_nat (heap t) = numfiles t.

Lemma balanced_refuted_create : ncmpi_create_ENFILE_FREES_PNC = false -> ~ pnc_objects_balanced.
Proof.
  intros E H. first [discriminate E |
    specialize (H (repeat (ECreate OOk) (S MAXF))); vm_compute in H;
    match type of H with forall t, Some ?x = Some t -> _ => specialize (H x eq_refl) end; discriminate H].
Qed.
Lemma balanced_refuted_open : ncmpi_open_ENFILE_FREES_PNC = false -> ~ pnc_objects_balanced.
Proof.
  intros E H. first [discriminate E |
    specialize (H (repeat (EOpen OOk) (S MAXF))); vm_compute in H;
    match type of H with forall t, Some ?x = Some t -> _ => specialize (H x eq_refl) end; discriminate H].
Qed.

(* exact accounting of one step: the number of PNC objects without a table slot changes only when a create/open is
   refused with NC_ENFILE by a function that does not free the object *)
Definition not_enfile (r : res) : Prop := match r with RRc rc _ => rc <> NC_ENFILE | RCrash => True end.
Lemma heap_step t e t1 r1 :
  Inv t -> Z.of_nat (heap t) >= numfiles t -> step1 check_id t e = (Some t1, r1) ->
  Z.of_nat (heap t1) - numfiles t1 >= Z.of_nat (heap t) - numfiles t /\
  (not_enfile r1 \/ (ncmpi_create_ENFILE_FREES_PNC = true /\ ncmpi_open_ENFILE_FREES_PNC = true) ->
   Z.of_nat (heap t1) - numfiles t1 = Z.of_nat (heap t) - numfiles t).
Proof.
  intros I G St.
  destruct (step1_spec _ check_id_honest _ _ _ _ I St) as [o e0 t' r He C|e0 id _|e0 id f rc _ R E _|e0 id f g _ R E].
  - destruct C as [e1|o' t'' _ _ Nn Hh|e1 t'' _ _ Nn Hh|i Q F]; cbn [heap numfiles]; try rewrite Nn, Hh; try (split; lia).
    (* table full: the object stays allocated unless the function frees it *)
    destruct (frees e0) eqn:B; (split; [lia|]); [intros _; lia|]. intros [Hb|[B1 B2]]; [exfalso; apply Hb; reflexivity|].
    destruct He as [-> | ->]; cbn [frees] in B; congruence.
  - split; lia.
  - cbn [set_heap del_id heap numfiles]. pose proof (count_occ_set_none _ _ _ E). destruct I as [L N]. split; lia.
  - cbn [heap numfiles]. split; lia.
Qed.

Lemma heap_run h : forall t t',
  Inv t -> Z.of_nat (heap t) >= numfiles t -> run check_id (Some t) h = Some t' ->
  Z.of_nat (heap t') - numfiles t' >= Z.of_nat (heap t) - numfiles t /\
  (Forall not_enfile (run_res check_id (Some t) h) \/
     (ncmpi_create_ENFILE_FREES_PNC = true /\ ncmpi_open_ENFILE_FREES_PNC = true) ->
   Z.of_nat (heap t') - numfiles t' = Z.of_nat (heap t) - numfiles t).
Proof.
  induction h as [|e r IH]; intros t t' I G H; cbn [run run_res] in *; [injection H as <-; split; lia|].
  cbn [step] in *. destruct (step1 check_id t e) as [[t1|] r1] eqn:St; cbn [fst snd] in *; [|rewrite run_none in H; discriminate].
  destruct (heap_step _ _ _ _ I G St) as [S1 S2].
  destruct (IH t1 t') as [R1 R2]; [eapply step1_inv; eauto using check_id_honest | lia | exact H |].
  split; [lia|]. intros Hc. rewrite R2, S2; [reflexivity | |];
    (destruct Hc as [Hc|Hc]; [left; now inversion Hc | right; exact Hc]).
Qed.

(* never fewer objects than files (no double free), and exactly as many as long as no create/open was refused
   with NC_ENFILE *)
Theorem pnc_objects_never_fewer :
  forall (h : list ev) (t : tbl), run check_id (Some tbl0) h = Some t -> Z.of_nat (heap t) >= numfiles t.
Proof.
  intros h t H. pose proof (proj1 (heap_run h tbl0 t Inv0 ltac:(cbn; lia) H)) as G. cbn [tbl0 heap numfiles] in G. lia.
Qed.

(* as long as no create/open was refused with NC_ENFILE, there are exactly as many PNC objects as open files *)
Theorem pnc_objects_balanced_partial :
  forall (h : list ev) (t : tbl),
    run check_id (Some tbl0) h = Some t ->
    Forall not_enfile (run_res check_id (Some tbl0) h) ->
    Z.of_nat (heap t) = numfiles t.
Proof.
  intros h t H F. pose proof (proj2 (heap_run h tbl0 t Inv0 ltac:(cbn; lia) H) (or_introl F)) as G.
  cbn [tbl0 heap numfiles] in G. lia.
Qed.

Theorem pnc_objects_balanced_current :
  if ncmpi_create_ENFILE_FREES_PNC && ncmpi_open_ENFILE_FREES_PNC then pnc_objects_balanced else ~ pnc_objects_balanced.
Proof.
  destruct ncmpi_create_ENFILE_FREES_PNC eqn:E1; cbn [andb].
  - destruct ncmpi_open_ENFILE_FREES_PNC eqn:E2.
    + intros h t H. pose proof (proj2 (heap_run h tbl0 t Inv0 ltac:(cbn; lia) H) (or_intror (conj E1 E2))) as G.
      cbn [tbl0 heap numfiles] in G. lia.
    + exact (balanced_refuted_open E2).
  - exact (balanced_refuted_create E1).
Qed.

Example pnc_objects_balanced_ex :
  Forall not_enfile (run_res check_id (Some tbl0) [ECreate OOk; EOpen (ODriver NC_ENOENT); ECreate (ODriver NC_EEXIST); EClose 0]) /\
  final_heap [ECreate OOk; EOpen (ODriver NC_ENOENT); ECreate (ODriver NC_EEXIST); EClose 0] = 0.
Proof. split; [vm_compute; repeat constructor; discriminate | vm_compute; reflexivity]. Qed.

(* satisfiable hypotheses of the main theorems *)
Example ids_valid_ex :
  live check_id [ECreate OOk; ECreate OOk; EOpen (OEarly NC_ENOENT); ECreate (ODriver NC_EEXIST); EClose 0; EOpen OOk; EPost 1; EClose 1] = [0].
Proof. vm_compute. reflexivity. Qed.
Example close_pending_ex : run_codes [ECreate OOk; EPost 0; EClose 0; EApi 0] = [(NC_NOERR, 0); (NC_NOERR, -99); (NC_EPENDING, -99); (NC_EBADID, -99)].
Proof. vm_compute. reflexivity. Qed.

(* the translator recognised the exact text of new_id_PNCList and del_from_PNCList that Files.new_id / del_id mirror *)
Lemma table_code_shape : NEW_ID_SHAPE_OK = true /\ DEL_ID_SHAPE_OK = true.
Proof. split; reflexivity. Qed.

(* ================= the allocator always finds a slot while the table is not full ================= *)
(* what the property needs of new_id_PNCList (it does NOT need the slot to be the first free one): *)
Definition allocator_ok (alloc : tbl -> fobj -> tbl * Z * Z) : Prop :=
  forall (h : list ev) (t : tbl) (p : fobj),
    run check_id (Some tbl0) h = Some t ->
    numfiles t < NC_MAX_NFILES ->
    exists t' id, alloc t p = (t', NC_NOERR, id) /\ (0 <= id < NC_MAX_NFILES) /\ (occupied t id = false) /\
                  (nth (Z.to_nat id) (slots t') None = Some p) /\ (numfiles t' = numfiles t + 1).

Theorem new_id_finds_free_slot : allocator_ok new_id.
Proof.
  intros h t p H Hn. pose proof (run_inv _ check_id_honest h _ _ Inv0 H) as I.
  destruct (new_id t p) as [[t' err] id] eqn:N.
  destruct (new_id_spec _ _ _ _ _ I N) as [(Q & _) | (Q & -> & i & F & -> & R & ->)]; [lia|].
  destruct (first_free_some _ _ F) as (Hi & Hnone & _).
  exists (mkT (set_nth i (Some p) (slots t)) (numfiles t + 1) (nextuid t) (heap t)), (Z.of_nat i).
  split; [reflexivity|]. split; [exact R|]. split.
  - destruct (occupied t (Z.of_nat i)) eqn:O; [|reflexivity]. rewrite occupied_iff in O. destruct O as [_ X].
    rewrite Nat2Z.id in X. now elim X.
  - split; [|reflexivity]. cbn [slots]. rewrite Nat2Z.id. now apply nth_set_nth_eq.
Qed.

(* the scan that starts at pnc_numfiles: fill the table, close id 0, allocate -> NC_NOERR with id -1, nothing entered *)
Theorem new_id_from_numfiles_refuted : ~ allocator_ok new_id_from_numfiles.
Proof.
  intro H.
  assert (R : run check_id (Some tbl0) (repeat (ECreate OOk) MAXF ++ [EClose 0]) =
              run check_id (Some (filled MAXF)) [EClose 0]).
  { now rewrite filled0, run_app, (proj1 (filled_run check_id MAXF 0 (le_n _))). }
  remember (run check_id (Some (filled MAXF)) [EClose 0]) as r eqn:Er.
  assert (G : match r with
              | Some t => (numfiles t <? NC_MAX_NFILES) && (snd (new_id_from_numfiles t (mkF 0 0 0)) =? -1)
              | None => false
              end = true).
  { subst r. vm_compute. reflexivity. }
  destruct r as [t|]; [|discriminate G].
  apply andb_prop in G. destruct G as [G1 G2]. apply Z.ltb_lt in G1. apply Z.eqb_eq in G2.
  destruct (H _ t (mkF 0 0 0) R G1) as (t' & id & E & Rg & _).
  rewrite E in G2. cbn [snd] in G2. lia.
Qed.
